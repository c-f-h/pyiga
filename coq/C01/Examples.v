(* C01 -- non-vacuity: concrete inputs meet the hypotheses of each theorem, and the model
   computes what the code is known to compute on small cases. *)
From Coq Require Import List Lia QArith.
From Coq Require Import String.
From Verif.C06 Require Import Model.
From Verif.C01 Require Import Model Proofs Kernel Kernel2 Printer.
Import ListNotations.
Close Scope Q_scope. Open Scope nat_scope.

(* sym_index_to_seq for n = 3 enumerates the upper triangle row by row *)
Example ex_sym3 : map (fun ij => sym_index_to_seq 3 (fst ij) (snd ij))
                      [(0,0);(0,1);(0,2);(1,1);(1,2);(2,2);(2,0);(1,0)] = [0;1;2;3;4;5;2;1].
Proof. reflexivity. Qed.

(* a symmetric 3x3 variable after a vector and a scalar: offsets 0, 3, 4, total 10 *)
Definition ex_vars := [mkVar [3] false; mkVar [] false; mkVar [3;3] true; mkVar [2;3] false].
Example ex_alloc : allocate_array ex_vars = ([(3,0);(1,3);(6,4);(6,10)], 16).
Proof. reflexivity. Qed.
Example ex_wf : Forall wf_var ex_vars.
Proof. repeat constructor. Qed.
Example ex_valid : valid_index (nth 2 ex_vars dvar) [2;1] /\ valid_index (nth 3 ex_vars dvar) [1;2].
Proof. split; repeat constructor. Qed.
Example ex_slot : var_ref_slot ex_vars 2 [2;1] = 8 /\ var_ref_slot ex_vars 2 [1;2] = 8
                  /\ var_ref_slot ex_vars 3 [1;2] = 15.
Proof. vm_compute. auto. Qed.
Example ex_assigned : assigned_entries 3 3 true = [(0,0);(0,1);(0,2);(1,1);(1,2);(2,2)].
Proof. reflexivity. Qed.

(* gen_pderiv for D = (Dx,Dy,Dz) = (2,0,1), numderiv 2: axis 0 (z) reads offset 1, axis 2 (x) offset 2 *)
Example ex_pderiv : gen_pderiv 3 2 [2;0;1] = [(0,3,1);(1,3,0);(2,3,2)].
Proof. reflexivity. Qed.

(* from_seq3 / ravel on shape (2,3,4) *)
Example ex_from_seq : from_seq [2;3;4] 17 = [1;1;1] /\ ravel_multi_index [1;1;1] [2;3;4] = 17.
Proof. vm_compute. auto. Qed.
Example ex_in_range : Forall2 lt [1;1;1] [2;3;4].
Proof. repeat constructor. Qed.

(* next_lexicographic2 on ndofs (2,3): visits (0,0),(0,1),(0,2),(1,0),(1,1),(1,2); lists are last-axis-first *)
Example ex_visit : visit_r 6 [0;0] [0;0] [3;2] = [[0;0];[1;0];[2;0];[0;1];[1;1];[2;1]].
Proof. reflexivity. Qed.
Example ex_pos : Forall (fun e => 0 < e) [3;2].
Proof. repeat constructor. Qed.

(* knot vector (0,0,0,1/2,1/2,1,1,1)*2, p = 2, nqp = 3: supports in Gauss-node units *)
Example ex_meshsupp : meshsupp 3 2 [0;0;0;1;1;2;2;2]%Z = [(0,3);(0,3);(0,6);(3,6);(3,6)].
Proof. reflexivity. Qed.
Example ex_nqp_spaces : nqp_spaces [1;1] [1;3] = 4 /\ nqp_spaces [3;1] [1;2] = 4 /\ nqp_spaces [2] [2] = 3.
Proof. vm_compute. auto. Qed.
Example ex_nqp : nqp [2;3;1] = 4.
Proof. reflexivity. Qed.

(* the entry loop over (nat, 0, +): supports [0,6) x [3,9) and [3,9) x [0,6) on a 9 x 9 grid of
   nodes; the integrand is the indicator of the joint support times a weight: hypotheses of
   entry_is_full_gauss_sum hold and both sides are 9 * 7 = 63 *)
Definition ex_s1 := [(0,6);(3,9)].
Definition ex_s2 := [(3,9);(0,6)].
Definition ex_f (idx : list nat) : nat := if in_box ex_s1 idx && in_box ex_s2 idx then 7 else 0.
Example ex_entry : entry_impl nat 0 Nat.add ex_s1 ex_s2 ex_f = 63
  /\ sum_box nat 0 Nat.add (full_box [9;9]) ex_f = 63.
Proof. vm_compute. auto. Qed.
Example ex_local : forall idx, in_box ex_s1 idx = false \/ in_box ex_s2 idx = false -> ex_f idx = 0.
Proof. intros idx [H|H]; unfold ex_f; rewrite H; [reflexivity | rewrite andb_false_r; reflexivity]. Qed.
Example ex_bounds : Forall2 (fun s N => snd s <= N) ex_s1 [9;9] /\ Forall2 (fun s N => snd s <= N) ex_s2 [9;9].
Proof. split; repeat constructor; simpl; lia. Qed.
(* without locality the two sides differ: the hypothesis is necessary *)
Example ex_nonlocal : entry_impl nat 0 Nat.add ex_s1 ex_s2 (fun _ => 1) = 9
  /\ sum_box nat 0 Nat.add (full_box [9;9]) (fun _ => 1) = 81.
Proof. vm_compute. auto. Qed.
(* disjoint supports along axis 1 *)
Example ex_disjoint : entry_impl nat 0 Nat.add [(0,6);(0,3)] [(3,9);(3,6)] (fun _ => 1) = 0.
Proof. reflexivity. Qed.
(* on-demand: bounding box starting at node (3,0) *)
Example ex_bbox : entry_ranges ex_s1 ex_s2 = Some [(3,3);(3,3)] /\ Forall2 le [3;0] (map fst [(3,3);(3,3)])
  /\ entry_impl_od nat 0 Nat.add [3;0] ex_s1 ex_s2 (fun idx => ex_f (add_ofs [3;0] idx)) = 63.
Proof. split; [vm_compute; reflexivity|]. split; [repeat constructor|vm_compute; reflexivity]. Qed.

(* gauss_rule with the 2-point reference rule (exact rational stand-in nodes +-1/2, weights 1) on (1, 4) *)
Example ex_gauss : Qeq (qsum (map snd (gauss_interval [((-1 # 2)%Q, (1 # 1)%Q); ((1 # 2)%Q, (1 # 1)%Q)] (1 # 1) (4 # 1)))) (3 # 1).
Proof. reflexivity. Qed.

(* the kernel model (Kernel.v) on a concrete scheduled forest over Z
   input field f (global, fields[0]), parameter c (constants[0]);
   kernel-local variables  t = f * gw0   and   w = (t + c, t * t)   (a vector);
   integrands  w[0] * u_x * v   and   -(w[1]) * u * v.                                              *)
Open Scope string_scope.
Definition zexpr := expr Z.
Definition ex_lay (n : string) (k : nat) : loc :=
  if String.eqb n "f" then LField k else if String.eqb n "c" then LConst k else LLocal n k.
Definition ex_shp (n : string) : list nat := if String.eqb n "w" then [2] else [].
Definition ex_sz (n : string) : nat := if String.eqb n "w" then 2 else 1.
Definition vr (n : string) (Ix : list nat) : zexpr := VR n Ix [0] false.
Definition ex_ds : list (def Z) :=
  [("t", TS (Op OMul (vr "f" []) (GW 0)));
   ("w", TLV [Op OAdd (vr "t" []) (vr "c" []); Op OMul (vr "t" []) (vr "t" [])])].
Definition ex_es : list zexpr :=
  [Op OMul (Op OMul (vr "w" [0]) (PD "u" None [1] false)) (PD "v" None [0] false);
   Op OMul (Op OMul (Neg (vr "w" [1])) (PD "u" None [0] false)) (PD "v" None [0] false)].
Definition ex_known := ["f"; "c"].
Close Scope string_scope.

Example ex_compiles : exists cs, omap (compile Z ex_lay ex_shp) ex_es = Some cs.
Proof. eexists. vm_compute. reflexivity. Qed.

Example ex_wf_prog : wf_prog Z ex_lay ex_shp ex_sz ex_known ex_ds.
Proof.
  simpl. split; [|split].
  - eexists; eexists. split; [vm_compute; reflexivity|]. split; [vm_compute; reflexivity|].
    split; [repeat (apply Forall_cons); try apply Forall_nil; vm_compute; repeat split; auto 10 | split; reflexivity].
  - intros [H|[H|[]]]; discriminate.
  - split; [|split].
    + eexists; eexists. split; [vm_compute; reflexivity|]. split; [vm_compute; reflexivity|].
      split; [repeat (apply Forall_cons); try apply Forall_nil; vm_compute; repeat split; auto 10 | split; reflexivity].
    + intros [H|[H|[H|[]]]]; discriminate.
    + exact I.
Qed.

Example ex_integrands_wf : Forall (wfe Z ex_shp ex_sz (names_after Z ex_known ex_ds)) ex_es.
Proof. repeat (apply Forall_cons); try apply Forall_nil; vm_compute; repeat split; auto 10. Qed.

Example ex_lay_inj : forall n k n' k', ex_lay n k = ex_lay n' k' -> n = n' /\ k = k'.
Proof.
  intros n k n' k'. unfold ex_lay.
  destruct (String.eqb_spec n "f"); destruct (String.eqb_spec n' "f");
  destruct (String.eqb_spec n "c"); destruct (String.eqb_spec n' "c"); intros H; inversion H; subst; auto; congruence.
Qed.

(* one node: f = 3, c = 5, gw0 = 2, u_x = 7, u = 11, v = 13:  t = 6, w = (11, 36);
   the emitted program and the C06 evaluator both give [11*7*13; -36*11*13] *)
Definition ex_nc : nctx Z := mkN Z (fun n D => if String.eqb n "u" then (if list_eqb D [1%nat] then 7%Z else 11%Z) else 13%Z)
                                   (fun _ => 2%Z) (fun _ x => x).
Definition ex_st : store Z := fun l => match l with LField 0 => 3%Z | LConst 0 => 5%Z | _ => 0%Z end.
Definition ex_en : env Z := mkEnv (fun n _ D _ => pdv Z ex_nc n D)
  (fun n _ _ _ => if String.eqb n "f" then 3%Z else if String.eqb n "c" then 5%Z else 0%Z)
  (fun _ => 2%Z) 0%Z 0%Z (fun _ x => x).
Example ex_kernel_values :
  match omap (compile Z ex_lay ex_shp) ex_es with
  | Some cs => map (ceval Z Z.add Z.mul Z.sub Z.div Z.opp ex_nc
                      (run_defs Z Z.add Z.mul Z.sub Z.div Z.opp ex_lay ex_shp ex_nc ex_st ex_ds)) cs
  | None => [] end = [1001%Z; (-5148)%Z]
  /\ map (eval Z Z.add Z.mul Z.sub Z.div Z.opp (eval_defs Z 0%Z Z.add Z.mul Z.sub Z.div Z.opp ex_en ex_ds)) ex_es
     = [1001%Z; (-5148)%Z].
Proof. vm_compute. auto. Qed.
Example ex_agree : Agree Z ex_lay ex_shp ex_sz ex_st ex_en ex_known /\ Ctx Z ex_nc ex_en.
Proof.
  split.
  - intros n Ix D p [H|[H|[]]] Hlt _; subst n; vm_compute in Hlt; vm_compute.
    + destruct Ix; [reflexivity | reflexivity].
    + destruct Ix; reflexivity.
  - repeat split.
Qed.

(* concrete syntax: x / (a * b) over nat-coded atoms *)
Definition ex_x : cexpr nat := CRead nat (LField 0).
Definition ex_a : cexpr nat := CRead nat (LField 1).
Definition ex_b : cexpr nat := CNeg nat (CConst nat 2).
Definition ex_q : cexpr nat := COp nat ODiv ex_x (COp nat OMul ex_a ex_b).
Example ex_print : print nat ex_q =
  [TLP nat; TLoc nat (LField 0); TOp nat ODiv; TLP nat; TLoc nat (LField 1); TOp nat OMul; TMinus nat; TNum nat 2; TRP nat; TRP nat].
Proof. reflexivity. Qed.
Example ex_roundtrip : parse nat (print nat ex_q) = Some ex_q.
Proof. reflexivity. Qed.
(* without brackets around products the text `(x / a * -2)` is read as (x / a) * -2: a different tree *)
Example ex_nomul_differs : parse nat (print_nomul nat ex_q) = Some (COp nat OMul (COp nat ODiv ex_x ex_a) ex_b)
  /\ parse nat (print_nomul nat ex_q) <> Some ex_q.
Proof. split; [vm_compute; reflexivity | vm_compute; discriminate]. Qed.
(* left associativity and levels: a - b - c * d / e reads ((a - b) - ((c * d) / e)) *)
Example ex_levels :
  parse nat [TNum nat 1; TOp nat OSub; TNum nat 2; TMinus nat; TNum nat 3; TOp nat OMul; TNum nat 4; TOp nat ODiv; TNum nat 5]
  = Some (COp nat OSub (COp nat OSub (CConst nat 1) (CConst nat 2))
            (COp nat ODiv (COp nat OMul (CConst nat 3) (CConst nat 4)) (CConst nat 5))).
Proof. reflexivity. Qed.

(* two phases: t is precomputed into fields[1], w is a kernel-local vector *)
Open Scope string_scope.
Definition ex_lay2 (n : string) (k : nat) : loc :=
  if String.eqb n "f" then LField k else if String.eqb n "c" then LConst k
  else if String.eqb n "t" then LField (1 + k) else LLocal n k.
Definition ex_pre : list (def Z) := [("t", TS (Op OMul (vr "f" []) (GW 0)))].
Definition ex_ker : list (def Z) := [("w", TLV [Op OAdd (vr "t" []) (vr "c" []); Op OMul (vr "t" []) (vr "t" [])])].
Definition ex_G := ["t"; "f"; "c"].
Close Scope string_scope.
(* precompute runs WITHOUT basis-function jets (pdv = 0) *)
Definition ex_nc_pre : nctx Z := mkN Z (fun _ _ => 0%Z) (fun _ => 2%Z) (fun _ x => x).
(* the kernel's store: what precompute left in fields/constants, garbage (99) in every local *)
Definition ex_st2 : store Z := fun l =>
  if is_glob l then run_defs Z Z.add Z.mul Z.sub Z.div Z.opp ex_lay2 ex_shp ex_nc_pre ex_st ex_pre l else 99%Z.
Example ex_two_phase_hyps :
  wf_prog Z ex_lay2 ex_shp ex_sz ex_known ex_pre /\ nobf_defs Z ex_pre /\ incl ex_G (names_after Z ex_known ex_pre)
  /\ (forall n k, In n ex_G -> is_glob (ex_lay2 n k) = true) /\ wf_prog Z ex_lay2 ex_shp ex_sz ex_G ex_ker
  /\ Forall (wfe Z ex_shp ex_sz (names_after Z ex_G ex_ker)) ex_es.
Proof.
  split; [|split; [|split; [|split; [|split]]]].
  - simpl. split; [|split; [intros [H|[H|[]]]; discriminate | exact I]].
    eexists; eexists. split; [vm_compute; reflexivity|]. split; [vm_compute; reflexivity|].
    split; [repeat (apply Forall_cons); try apply Forall_nil; vm_compute; repeat split; auto 10 | split; reflexivity].
  - repeat constructor.
  - intros x Hx. vm_compute in Hx |- *. tauto.
  - intros n k [H|[H|[H|[]]]]; subst n; reflexivity.
  - simpl. split; [|split; [intros [H|[H|[H|[]]]]; discriminate | exact I]].
    eexists; eexists. split; [vm_compute; reflexivity|]. split; [vm_compute; reflexivity|].
    split; [repeat (apply Forall_cons); try apply Forall_nil; vm_compute; repeat split; auto 10 | split; reflexivity].
  - repeat (apply Forall_cons); try apply Forall_nil; vm_compute; repeat split; auto 10.
Qed.
Example ex_two_phase_values :
  match omap (compile Z ex_lay2 ex_shp) ex_es with
  | Some cs => map (ceval Z Z.add Z.mul Z.sub Z.div Z.opp ex_nc
                      (run_defs Z Z.add Z.mul Z.sub Z.div Z.opp ex_lay2 ex_shp ex_nc ex_st2 ex_ker)) cs
  | None => [] end = [1001%Z; (-5148)%Z]
  /\ map (eval Z Z.add Z.mul Z.sub Z.div Z.opp (eval_defs Z 0%Z Z.add Z.mul Z.sub Z.div Z.opp ex_en (ex_pre ++ ex_ker))) ex_es
     = [1001%Z; (-5148)%Z].
Proof. vm_compute. auto. Qed.

(* symmetric 2x2 variable at offset 3 of `fields`: B = [[5,7],[7,9]]; B[1,0] reads the slot of B[0,1] *)
Definition ex_B (i j : nat) : Z := match i, j with 0, 0 => 5%Z | 1, 1 => 9%Z | _, _ => 7%Z end.
Example ex_sym_store :
  let st' := write_all Z LField (fun _ => 0%Z) (sym_writes Z 2 3 ex_B) in
  sym_writes Z 2 3 ex_B = [(3, 5%Z); (4, 7%Z); (5, 9%Z)]
  /\ st' (LField (3 + sym_index_to_seq 2 1 0)) = 7%Z /\ st' (LField (3 + sym_index_to_seq 2 0 1)) = 7%Z
  /\ st' (LField 5) = 9%Z /\ st' (LField 6) = 0%Z.
Proof. vm_compute. auto 10. Qed.
Example ex_B_symmetric : forall i j, i < 2 -> j < 2 -> ex_B i j = ex_B j i.
Proof. intros [|[|i]] [|[|j]] Hi Hj; try lia; reflexivity. Qed.

(* vector kernel with 2 components and two integrand vectors *)
Example ex_vec_kernel :
  let css := [[CConst Z 1%Z; CConst Z 10%Z]; [CGW Z 0; CNeg Z (CConst Z 3%Z)]] in
  let r := kernel_body_vec Z Z.add Z.mul Z.sub Z.div Z.opp ex_nc ex_st css (fun _ => 0%Z) in
  r 0 = 3%Z /\ r 1 = 7%Z /\ comp Z 1 css = [CConst Z 10%Z; CNeg Z (CConst Z 3%Z)].
Proof. vm_compute. auto. Qed.
