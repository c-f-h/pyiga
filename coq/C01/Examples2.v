(* C01 -- non-vacuity of Props2.v: a forest with a symmetric 2x2 variable whose defining expression has
   syntactically different but equal (0,1) and (1,0) entries meets every hypothesis, the emitted program writes three
   slots, and the promise `symmetric=True` cannot be dropped. *)
From Coq Require Import List String Arith Lia.
From Verif.C06 Require Import Model.
From Verif.C01 Require Import Kernel Kernel2 Kernel3.
Import ListNotations.
Open Scope string_scope. Open Scope nat_scope.

Definition xlay (n : string) (k : nat) : loc := if String.eqb n "B" then LField k else LLocal n k.
Definition xshp (n : string) : list nat := if String.eqb n "B" then [2; 2] else [].
Definition xsz (n : string) : nat := if String.eqb n "B" then 3 else 1.
Definition xsym (n : string) : bool := String.eqb n "B".

Notation VRa := (VR "a" [] [] false).
(* B = [[a, a*2], [2*a, 5]], symmetric=True *)
Definition xB : texpr nat := TLM 2 2 [VRa; Op OMul VRa (Const 2); Op OMul (Const 2) VRa; Const 5].
(* the same with a (1,0) entry that breaks the promise *)
Definition xBbad : texpr nat := TLM 2 2 [VRa; Op OMul VRa (Const 2); Const 1; Const 5].
Definition xen : env nat := mkEnv (fun _ _ _ _ => 7) (fun _ _ _ _ => 3) (fun _ => 1) 1 1 (fun _ x => x).
Definition xnc : nctx nat := mkN nat (fun _ _ => 7) (fun _ => 1) (fun _ x => x).
Definition xst : store nat := fun _ => 3.
(* integrand: B[1,0] * u + B[0,1] *)
Definition xes : list (expr nat) :=
  [Op OAdd (Op OMul (VR "B" [1; 0] [0; 0] false) (PD "u" None [0; 0] false)) (VR "B" [0; 1] [0; 0] false)].

Example ex2_lay_inj : forall n k n' k', xlay n k = xlay n' k' -> n = n' /\ k = k'.
Proof.
  intros n k n' k' H. unfold xlay in H.
  destruct (String.eqb_spec n "B"), (String.eqb_spec n' "B"); subst; inversion H; subst; try congruence; auto.
Qed.

Example ex2_wf : wf_prog3 nat 0 xlay xshp xsz xsym ["a"] [("B", xB)].
Proof.
  simpl. split; [|split; [intros [H|[]]; discriminate | exact I]].
  eexists. eexists. split; [vm_compute; reflexivity|]. split; [vm_compute; reflexivity|].
  split; [|split; [reflexivity|split; [intros H; discriminate | intros _; exists 2; split; reflexivity]]].
  vm_compute. repeat constructor.
Qed.

Example ex2_promise : sym_promise nat 0 Nat.add Nat.mul Nat.sub Nat.div (fun x => x) xsym xen [("B", xB)].
Proof.
  simpl. split; [|exact I]. intros _ i j Hi Hj.
  destruct i as [|[|i]]; destruct j as [|[|j]]; try lia; reflexivity.
Qed.

Example ex2_agree : Agree3 nat xlay xshp xsz xsym xst xen ["a"].
Proof. intros n Ix D p _ _ _. reflexivity. Qed.

Example ex2_ctx : Ctx nat xnc xen.
Proof. repeat split. Qed.

Example ex2_wfe : Forall (wfe3 nat xshp xsz xsym (names_after nat ["a"] [("B", xB)])) xes.
Proof.
  constructor; [|constructor]. vm_compute.
  split; [split; [split; [left; reflexivity | exists 1, 0; repeat split; auto] | exact I]
         | split; [left; reflexivity | exists 0, 1; repeat split; auto]].
Qed.

(* the emitted program writes the three slots of the upper triangle; both references read slot 1 *)
Example ex2_program :
  omap (compile_kv nat xlay xshp xsym) (writes nat 0 xsym "B" xB [VRa; Op OMul VRa (Const 2); Op OMul (Const 2) VRa; Const 5])
  = Some [(0, CRead nat (LLocal "a" 0)); (1, COp nat OMul (CRead nat (LLocal "a" 0)) (CConst nat 2)); (2, CConst nat 5)]
  /\ omap (compile3 nat xlay xshp xsym) xes
     = Some [COp nat OAdd (COp nat OMul (CRead nat (LField 1)) (CPD nat "u" [0; 0])) (CRead nat (LField 1))].
Proof. vm_compute. auto. Qed.

(* both sides of kernel_denotes_integrand_sym on this forest: 6 * 7 + 6 = 48 *)
Example ex2_values :
  match omap (compile3 nat xlay xshp xsym) xes with
  | Some cs => map (ceval nat Nat.add Nat.mul Nat.sub Nat.div (fun x => x) xnc
                      (run_defs3 nat 0 Nat.add Nat.mul Nat.sub Nat.div (fun x => x) xlay xshp xsym xnc xst [("B", xB)])) cs
  | None => [] end = [48]
  /\ map (eval nat Nat.add Nat.mul Nat.sub Nat.div (fun x => x)
            (eval_defs nat 0 Nat.add Nat.mul Nat.sub Nat.div (fun x => x) xen [("B", xB)])) xes = [48].
Proof. vm_compute. auto. Qed.

(* the promise is necessary: with B[1,0] = 1 <> B[0,1] = 6 the program (which never evaluates the (1,0) entry) still
   gives 48, the C06 value of the forest is 1 * 7 + 6 = 13 *)
Example ex2_promise_needed :
  match omap (compile3 nat xlay xshp xsym) xes with
  | Some cs => map (ceval nat Nat.add Nat.mul Nat.sub Nat.div (fun x => x) xnc
                      (run_defs3 nat 0 Nat.add Nat.mul Nat.sub Nat.div (fun x => x) xlay xshp xsym xnc xst [("B", xBbad)])) cs
  | None => [] end = [48]
  /\ map (eval nat Nat.add Nat.mul Nat.sub Nat.div (fun x => x)
            (eval_defs nat 0 Nat.add Nat.mul Nat.sub Nat.div (fun x => x) xen [("B", xBbad)])) xes = [13].
Proof. vm_compute. auto. Qed.

(* the symmetric variable lives in fields[]: it survives precompute_fields (hypothesis of precompute_then_kernel_equals_forest_sym) *)
Example ex2_glob : forall n k, In n ["B"] -> is_glob (xlay n k) = true.
Proof. intros n k [H|[]]. subst. reflexivity. Qed.
Example ex2_nobf : nobf_defs3 nat 0 xsym [("B", xB)].
Proof. constructor; [vm_compute; reflexivity | constructor]. Qed.
