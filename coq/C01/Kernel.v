(* C01 -- a model of the EMITTED kernel program, to be compared with the C06 evaluator
   (coq/C06/Model.v: expr, eval, bind, eval_defs).  Its soundness (Props.v, layer 4) is the case without
   symmetric variables of the soundness of the program modelled in Kernel3.v.

   Emitted program (pyiga/codegen/cython.py):
     gencode_*      60-103   an expression becomes C arithmetic over
                             constants, array reads fields[k] / constants[k] / local names (var_ref, 196-213),
                             basis-function jets (gen_pderiv, 168-182), Gauss weights _gw<a>[i<a>]
     gen_assign     215-237  one assignment per scalar entry of a variable, in row-major entry order
     start_loop_with_fields / generate_kernel 291-387
                             per Gauss node: the assignments of the kernel's local variables in dependency
                             order (vform.linear_deps), then  r += <code of every integrand expression>
   Fail-closed deviations of the model from the generator, all on inputs finalize never produces:
   a VarRefExpr with a non-zero derivative tuple, a physical or vector-component PartialDerivExpr and the
   measure symbols dx/ds have no code here ([compile] = None); the generator would print a reference that
   ignores D (gencode_varref), trip an assertion, or raise KeyError.
   Symmetric variables (upper triangle stored once) are outside this model: the theorems about it
   assume [lay] injective on (variable, flat row-major entry index).                                 *)
From Coq Require Import List String Bool Arith.
From Verif.C06 Require Import Model.
Import ListNotations.
Open Scope nat_scope.

Inductive loc := LField (s : nat) | LConst (s : nat) | LLocal (name : string) (k : nat).

Definition loc_eqb (a b : loc) : bool :=
  match a, b with
  | LField s, LField s' => Nat.eqb s s'
  | LConst s, LConst s' => Nat.eqb s s'
  | LLocal n k, LLocal n' k' => String.eqb n n' && Nat.eqb k k'
  | _, _ => false
  end.

Lemma loc_eqb_spec a b : reflect (a = b) (loc_eqb a b).
Proof.
  destruct a as [s|s|n k], b as [s'|s'|n' k']; simpl; try (constructor; discriminate).
  - destruct (Nat.eqb_spec s s'); constructor; congruence.
  - destruct (Nat.eqb_spec s s'); constructor; congruence.
  - destruct (String.eqb_spec n n'); destruct (Nat.eqb_spec k k'); simpl; constructor; congruence.
Qed.

Section Kernel.
Variable F : Type.
Variables (f0 : F) (fadd fmul fsub fdiv : F -> F -> F) (fopp : F -> F).

Notation expr := (expr F).
Notation texpr := (texpr F).
Notation env := (env F).
Notation eval := (eval F fadd fmul fsub fdiv fopp).
Notation eval_defs := (eval_defs F f0 fadd fmul fsub fdiv fopp).
Notation bind := (bind F f0).
Notation tentries := (tentries F).
Notation tshape := (tshape F).
Notation opf := (opf F fadd fmul fsub fdiv).

Inductive cexpr :=
| CConst (c : F)                       (* repr(value) *)
| CRead (l : loc)                      (* fields[k] / constants[k] / name / name[k] *)
| CPD (name : string) (D : list nat)   (* (VD<u>0[..] * VD<u>1[..] * ..): gen_pderiv, see pderiv_lookup_spec *)
| CGW (axis : nat)                     (* _gw<a>[i<a>] *)
| CNeg (x : cexpr)
| CFn (f : string) (x : cexpr)
| COp (o : oper) (x y : cexpr).

Definition store := loc -> F.
Definition upd (st : store) (l : loc) (v : F) : store := fun l' => if loc_eqb l' l then v else st l'.

(* what the kernel sees at one Gauss node besides the stores *)
Record nctx := mkN { pdv : string -> list nat -> F; gwv : nat -> F; fnv : string -> F -> F }.

Fixpoint ceval (nc : nctx) (st : store) (c : cexpr) : F :=
  match c with
  | CConst v => v
  | CRead l => st l
  | CPD n D => pdv nc n D
  | CGW a => gwv nc a
  | CNeg x => fopp (ceval nc st x)
  | CFn f x => fnv nc f (ceval nc st x)
  | COp o x y => opf o (ceval nc st x) (ceval nc st y)
  end.

Variable lay : string -> nat -> loc.       (* var_ref(var, I) = lay var (row-major index of I) *)
Variable shp : string -> list nat.         (* declared shape of a variable *)
Variable sz : string -> nat.               (* number of stored scalar entries *)

Definition zeroD (D : list nat) : bool := forallb (Nat.eqb 0) D.

Fixpoint compile (e : expr) : option cexpr :=
  match e with
  | Const c => Some (CConst c)                                            (* gencode_const *)
  | VR n Ix D p => if zeroD D then Some (CRead (lay n (flat_index (shp n) Ix))) else None   (* gencode_varref *)
  | PD n None D false => Some (CPD n D)                                   (* gencode_partialderiv *)
  | PD _ _ _ _ => None
  | GW a => Some (CGW a)                                                  (* gencode_gaussweight *)
  | MDx | MDs => None
  | Neg x => option_map CNeg (compile x)                                  (* gencode_neg *)
  | Fn f x => option_map (CFn f) (compile x)                              (* gencode_builtinfunc *)
  | Op o x y => match compile x, compile y with                           (* gencode_scalaroper *)
                  | Some a, Some b => Some (COp o a b) | _, _ => None end
  end.

(* gen_assign: entry k of variable [name] <- code of the k-th entry, one after the other *)
Fixpoint assign_from (nc : nctx) (st : store) (name : string) (k : nat) (cs : list cexpr) : store :=
  match cs with
  | [] => st
  | c :: r => assign_from nc (upd st (lay name k) (ceval nc st c)) name (S k) r
  end.

(* the assignments of a list of variable definitions in the emitted order; a definition without code
   stops the program (the generator raises) *)
Fixpoint run_defs (nc : nctx) (st : store) (ds : list (def F)) : store :=
  match ds with
  | [] => st
  | (name, t) :: r =>
      match tentries t with
      | Some es => match omap compile es with
                   | Some cs => run_defs nc (assign_from nc st name 0 cs) r
                   | None => st end
      | None => st
      end
  end.

(* `r += code(e)` for every integrand expression *)
Definition kernel_body (nc : nctx) (st : store) (cs : list cexpr) (acc : F) : F :=
  fold_left (fun a c => fadd a (ceval nc st c)) cs acc.
Definition sumF (l : list F) : F := fold_right fadd f0 l.

Fixpoint wfe (known : list string) (e : expr) : Prop :=
  match e with
  | VR n Ix _ _ => In n known /\ flat_index (shp n) Ix < sz n
  | Neg x | Fn _ x => wfe known x
  | Op _ x y => wfe known x /\ wfe known y
  | _ => True
  end.

Fixpoint wf_prog (known : list string) (ds : list (def F)) : Prop :=
  match ds with
  | [] => True
  | (name, t) :: r =>
      (exists es cs, tentries t = Some es /\ omap compile es = Some cs /\ Forall (wfe known) es
                     /\ shp name = tshape t /\ sz name = List.length es)
      /\ ~ In name known /\ wf_prog (name :: known) r
  end.

Definition names_after (known : list string) (ds : list (def F)) : list string :=
  fold_left (fun k d => fst d :: k) ds known.

(* the stores agree with the environment on the listed variables (references without derivatives) *)
Definition Agree (st : store) (en : env) (known : list string) : Prop :=
  forall n Ix D p, In n known -> flat_index (shp n) Ix < sz n -> zeroD D = true ->
    st (lay n (flat_index (shp n) Ix)) = e_vr en n Ix D p.
Definition Ctx (nc : nctx) (en : env) : Prop :=
  (forall n D, e_pd en n None D false = pdv nc n D) /\ (forall a, e_gw en a = gwv nc a) /\
  (forall f x, e_fn en f x = fnv nc f x).

Lemma omap_Forall2 {A B} (f : A -> option B) : forall l l', omap f l = Some l' ->
  Forall2 (fun x y => f x = Some y) l l'.
Proof.
  induction l as [|x r IH]; intros l' H; simpl in H.
  - inversion H. constructor.
  - destruct (f x) eqn:E; [|discriminate]. destruct (omap f r) eqn:E'; [|discriminate].
    inversion H; subst. constructor; [exact E | apply IH; reflexivity].
Qed.

Lemma omap_ext {A B} (f g : A -> option B) l : (forall x, f x = g x) -> omap f l = omap g l.
Proof. intros H. induction l as [|x r IH]; simpl; [reflexivity|]. now rewrite H, IH. Qed.

Lemma ctx_bind nc en name shape vals : Ctx nc en -> Ctx nc (bind en name shape vals).
Proof. intros (A & B & C). repeat split; assumption. Qed.

End Kernel.
