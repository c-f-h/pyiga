(* C01 -- the emitted program, continued (builds on Kernel.v):
     1. the two phases: precompute_fields (variables that do not depend on basis functions, run once per Gauss
        node, results kept in `fields`/`constants`, its local temporaries are lost) followed by the kernel
        (per entry): here the classification [is_glob], [nobf_defs]; the theorem is in Kernel3.v;
     2. vector-valued kernels: `r[k] += code(e_k)`  (codegen/cython.py:368-371, 381-385);
     3. symmetric variables: one stored slot for (i,j) and (j,i)  (codegen/cython.py:105-123, 227-235). *)
From Coq Require Import List Arith Lia.
From Verif.C06 Require Import Model.
From Verif.C01 Require Import Model Proofs Kernel.
Import ListNotations.
Open Scope nat_scope.

Section Phases.
Variable F : Type.
Variables (f0 : F) (fadd fmul fsub fdiv : F -> F -> F) (fopp : F -> F).
Notation env := (env F).
Notation eval_defs := (eval_defs F f0 fadd fmul fsub fdiv fopp).

(* `fields[k]` and `constants[k]` survive precompute_fields; its cdef locals do not *)
Definition is_glob (l : loc) : bool := match l with LField _ | LConst _ => true | LLocal _ _ => false end.

Definition nobf_defs (ds : list (def F)) : Prop :=
  Forall (fun d => match tentries F (snd d) with
                   | Some es => forallb (fun e => negb (uses_bfun F e)) es = true
                   | None => True end) ds.

Lemma eval_defs_app : forall ds1 ds2 (en : env), eval_defs en (ds1 ++ ds2) = eval_defs (eval_defs en ds1) ds2.
Proof.
  induction ds1 as [|[name t] r IH]; intros ds2 en; simpl; [reflexivity|].
  destruct (tentries F t); apply IH.
Qed.

End Phases.

Section VectorKernel.
Variable F : Type.
Variables (f0 : F) (fadd fmul fsub fdiv : F -> F -> F) (fopp : F -> F).
Notation ceval := (ceval F fadd fmul fsub fdiv fopp).

(* r is `double* r = [0.0, ...]`, indexed by the component; one integrand expression = one vector of codes:
   for i, e_i in enumerate(expr):  r[i] += code(e_i) *)
Definition vstep (nc : nctx F) (st : store F) (r : nat -> F) (cs : list (cexpr F)) : nat -> F :=
  fun k => match nth_error cs k with Some c => fadd (r k) (ceval nc st c) | None => r k end.
Definition kernel_body_vec (nc : nctx F) (st : store F) (css : list (list (cexpr F))) (r : nat -> F) : nat -> F :=
  fold_left (vstep nc st) css r.

(* component k of every integrand vector *)
Definition comp (k : nat) (css : list (list (cexpr F))) : list (cexpr F) :=
  flat_map (fun cs => match nth_error cs k with Some c => [c] | None => [] end) css.

Definition vadd (a b : nat -> F) : nat -> F := fun k => fadd (a k) (b k).
Definition vzero : nat -> F := fun _ => f0.

Lemma loop_range_component : forall n a (body : nat -> (nat -> F) -> (nat -> F)) (bodyk : nat -> F -> F) acc k,
  (forall i r, body i r k = bodyk i (r k)) ->
  loop_range (nat -> F) a n body acc k = loop_range F a n bodyk (acc k).
Proof.
  induction n; intros a body bodyk acc k H; simpl; [reflexivity|].
  rewrite (IHn (S a) body bodyk (body a acc) k H). now rewrite H.
Qed.

Lemma loop_box_component : forall ns (f : list nat -> nat -> F) acc k,
  loop_box (nat -> F) vadd ns f acc k = loop_box F fadd ns (fun idx => f idx k) (acc k).
Proof.
  induction ns as [|n r IH]; intros f acc k; simpl; [reflexivity|].
  apply loop_range_component. intros i r0. apply IH.
Qed.

Lemma entry_impl_component s1 s2 (fvec : list nat -> nat -> F) k :
  entry_impl (nat -> F) vzero vadd s1 s2 fvec k = entry_impl F f0 fadd s1 s2 (fun idx => fvec idx k).
Proof.
  unfold entry_impl. destruct (entry_ranges s1 s2) as [rs|]; [|reflexivity].
  apply loop_box_component.
Qed.
End VectorKernel.

Section Symmetric.
Variable F : Type.

(* writes to numbered slots of one array, in order *)
Definition write_all (mk : nat -> loc) (st : store F) (kvs : list (nat * F)) : store F :=
  fold_left (fun s kv => upd F s (mk (fst kv)) (snd kv)) kvs st.

Lemma write_all_other mk : forall kvs st l,
  (forall k v, In (k, v) kvs -> l <> mk k) -> write_all mk st kvs l = st l.
Proof.
  induction kvs as [|[k v] r IH]; intros st l H; simpl; [reflexivity|].
  rewrite IH by (intros k' v' Hin; apply (H k' v'); right; exact Hin).
  unfold upd. destruct (loc_eqb_spec l (mk k)) as [E|E]; [|reflexivity].
  exfalso. apply (H k v); [left; reflexivity | exact E].
Qed.

(* the last write to a slot decides *)
Lemma write_all_key mk (mk_inj : forall a b, mk a = mk b -> a = b) : forall kvs st k v,
  (forall k' v1 v2, In (k', v1) kvs -> In (k', v2) kvs -> v1 = v2) ->
  In (k, v) kvs -> write_all mk st kvs (mk k) = v.
Proof.
  induction kvs as [|[k0 v0] r IH] using rev_ind; intros st k v Hc Hin; [destruct Hin|].
  unfold write_all. rewrite fold_left_app. simpl. unfold upd.
  destruct (loc_eqb_spec (mk k) (mk k0)) as [E|E].
  - apply mk_inj in E. subst k0. apply (Hc k); [apply in_or_app; right; left; reflexivity | exact Hin].
  - apply in_app_or in Hin. destruct Hin as [Hin|[Hin|[]]]; [|congruence].
    apply IH; [|exact Hin]. intros k' v1 v2 H1 H2. apply (Hc k'); apply in_or_app; left; assumption.
Qed.

(* gen_assign for a symmetric n x n variable at offset ofs: the entries (i,j), i <= j, in row-major order *)
Definition sym_writes (n ofs : nat) (vals : nat -> nat -> F) : list (nat * F) :=
  map (fun ij => (ofs + sym_index_to_seq n (fst ij) (snd ij), vals (fst ij) (snd ij))) (assigned_entries n n true).

Lemma in_sym_writes n ofs vals k v : In (k, v) (sym_writes n ofs vals) <->
  exists i j, i <= j /\ j < n /\ k = ofs + sym_index_to_seq n i j /\ v = vals i j.
Proof.
  unfold sym_writes. rewrite in_map_iff. split.
  - intros ([i j] & E & Hin). apply assigned_entries_spec in Hin. destruct Hin as (_ & Hj & Hij).
    inversion E. exists i, j. auto.
  - intros (i & j & Hij & Hj & -> & ->). exists (i, j). split; [reflexivity|].
    apply assigned_entries_spec. repeat split; auto. lia.
Qed.

Theorem sym_writes_sound : forall (mk : nat -> loc) n ofs (vals : nat -> nat -> F) (st : store F),
  (forall a b, mk a = mk b -> a = b) ->
  (forall i j, i < n -> j < n -> vals i j = vals j i) ->
  let st' := write_all mk st (sym_writes n ofs vals) in
  (* every read var_ref(var, (i,j)), in either index order, gets the value of the expression's (i,j) entry *)
  (forall i j, i < n -> j < n -> st' (mk (ofs + sym_index_to_seq n i j)) = vals i j) /\
  (* nothing outside the variable's block of n(n+1)/2 slots is touched *)
  (forall l, (forall s, s < n * (n + 1) / 2 -> l <> mk (ofs + s)) -> st' l = st l).
Proof.
  intros mk n ofs vals st mk_inj Hsym st'.
  assert (Hup : forall i j, i <= j -> j < n -> st' (mk (ofs + sym_index_to_seq n i j)) = vals i j).
  { intros i j Hij Hj. apply (write_all_key mk mk_inj).
    - (* two writes to one slot are the same write: sym_inj *)
      intros k' v1 v2 H1 H2. apply in_sym_writes in H1, H2.
      destruct H1 as (a & b & A1 & A2 & E1 & ->). destruct H2 as (a' & b' & B1 & B2 & E2 & ->).
      destruct (sym_inj n a b a' b') as [-> ->]; [assumption.. | lia | reflexivity].
    - apply in_sym_writes. exists i, j. auto. }
  split.
  - intros i j Hi Hj. destruct (le_lt_dec i j) as [L|L]; [now apply Hup|].
    rewrite sym_symmetric, (Hsym i j Hi Hj). apply Hup; lia.
  - intros l Hl. apply write_all_other. intros k v Hin E.
    apply in_sym_writes in Hin. destruct Hin as (a & b & A1 & A2 & -> & _).
    apply (Hl (sym_index_to_seq n a b)); [now apply sym_range | exact E].
Qed.
End Symmetric.
