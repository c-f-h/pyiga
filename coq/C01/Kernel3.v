(* C01 -- the emitted program WITH symmetric variables (builds on Kernel.v / Kernel2.v).

   Kernel.v models var_ref(var, I) as  lay var (flat_index (shp var) I)  with [lay] injective on
   (variable, row-major entry): forests without `symmetric=True` variables.  Here the reference is
       lay var (sindex var I),     sindex = storage_index (codegen/cython.py:114-123):
         sym_index_to_seq(shape[0], i, j)   for a 2-D variable with var.symmetric
         row-major index                    otherwise
   [lay] is injective on (variable, STORED slot) only -- two index tuples (i,j), (j,i) of a symmetric variable
   share a slot -- and gen_assign (215-237) writes, for a symmetric variable, only the entries i <= j
   (`if var.symmetric and i > j: continue`), each to its slot, calling gencode only for those entries.
   The C06 evaluator binds ALL m*m entries of the defining expression.  The two agree when the defining
   expression is symmetric at that node: this is the user's promise `symmetric=True` ([sym_promise]). *)
From Coq Require Import List String Bool Lia.
From Verif.C06 Require Import Model.
From Verif.C01 Require Import Model Proofs Kernel Kernel2.
Import ListNotations.
Open Scope nat_scope.

Section Kernel3.
Variable F : Type.
Variables (f0 : F) (fadd fmul fsub fdiv : F -> F -> F) (fopp : F -> F).

Notation expr := (expr F).
Notation texpr := (texpr F).
Notation env := (env F).
Notation eval := (eval F fadd fmul fsub fdiv fopp).
Notation eval_defs := (eval_defs F f0 fadd fmul fsub fdiv fopp).
Notation bind := (bind F f0).
Notation tentries := (tentries F).
Notation tshape := (tshape F).
Notation ceval := (ceval F fadd fmul fsub fdiv fopp).
Notation cexpr := (cexpr F).
Notation store := (store F).
Notation nctx := (nctx F).
Notation upd := (upd F).
Notation dE := (@Const F f0).

Variable lay : string -> nat -> loc.       (* var_ref(var, I) = lay var (sindex var I) *)
Variable shp : string -> list nat.         (* declared shape *)
Variable sz : string -> nat.               (* number of stored scalar entries (row-major variables) *)
Variable symv : string -> bool.            (* var.symmetric (only ever set for square 2-D variables, vform.py:95) *)

(* storage_index, cython.py:114-123 *)
Definition sindex (n : string) (Ix : list nat) : nat :=
  if symv n then match Ix with
                 | [i; j] => sym_index_to_seq (hd 0 (shp n)) i j
                 | _ => flat_index (shp n) Ix end
  else flat_index (shp n) Ix.

Fixpoint compile3 (e : expr) : option cexpr :=
  match e with
  | Const c => Some (CConst F c)
  | VR n Ix D p => if zeroD D then Some (CRead F (lay n (sindex n Ix))) else None
  | PD n None D false => Some (CPD F n D)
  | PD _ _ _ _ => None
  | GW a => Some (CGW F a)
  | MDx | MDs => None
  | Neg x => option_map (CNeg F) (compile3 x)
  | Fn f x => option_map (CFn F f) (compile3 x)
  | Op o x y => match compile3 x, compile3 y with
                | Some a, Some b => Some (COp F o a b) | _, _ => None end
  end.

(* gen_assign: the (slot index, entry expression) pairs it emits, in the emitted order *)
Definition writes (name : string) (t : texpr) (es : list expr) : list (nat * expr) :=
  if symv name then
    let m := hd 0 (tshape t) in
    map (fun ij => (sym_index_to_seq m (fst ij) (snd ij), nth (fst ij * m + snd ij) es dE))
        (assigned_entries m m true)
  else combine (seq 0 (List.length es)) es.

Definition compile_kv (ke : nat * expr) : option (nat * cexpr) :=
  match compile3 (snd ke) with Some c => Some (fst ke, c) | None => None end.

(* the assignments  lhs_k = rhs_k  one after the other *)
Definition assign_list (nc : nctx) (st : store) (name : string) (kcs : list (nat * cexpr)) : store :=
  fold_left (fun s kc => upd s (lay name (fst kc)) (ceval nc s (snd kc))) kcs st.

Fixpoint run_defs3 (nc : nctx) (st : store) (ds : list (def F)) : store :=
  match ds with
  | [] => st
  | (name, t) :: r =>
      match tentries t with
      | Some es => match omap compile_kv (writes name t es) with
                   | Some kcs => run_defs3 nc (assign_list nc st name kcs) r
                   | None => st end
      | None => st
      end
  end.

Definition validIx (n : string) (Ix : list nat) : Prop :=
  if symv n then exists i j, Ix = [i; j] /\ i < hd 0 (shp n) /\ j < hd 0 (shp n)
  else flat_index (shp n) Ix < sz n.

Fixpoint wfe3 (known : list string) (e : expr) : Prop :=
  match e with
  | VR n Ix _ _ => In n known /\ validIx n Ix
  | Neg x | Fn _ x => wfe3 known x
  | Op _ x y => wfe3 known x /\ wfe3 known y
  | _ => True
  end.

Fixpoint wf_prog3 (known : list string) (ds : list (def F)) : Prop :=
  match ds with
  | [] => True
  | (name, t) :: r =>
      (exists es kcs, tentries t = Some es /\ omap compile_kv (writes name t es) = Some kcs
                      /\ Forall (fun ke => wfe3 known (snd ke)) (writes name t es)
                      /\ shp name = tshape t
                      /\ (symv name = false -> sz name = List.length es)
                      /\ (symv name = true -> exists m, tshape t = [m; m] /\ List.length es = m * m))
      /\ ~ In name known /\ wf_prog3 (name :: known) r
  end.

(* the promise `symmetric=True`: at the node, in the environment in which it is evaluated, the defining matrix
   expression of every symmetric variable has equal (i,j) and (j,i) entries *)
Fixpoint sym_promise (en : env) (ds : list (def F)) : Prop :=
  match ds with
  | [] => True
  | (name, t) :: r =>
      match tentries t with
      | Some es =>
          (symv name = true -> forall i j, i < hd 0 (tshape t) -> j < hd 0 (tshape t) ->
             eval en (nth (i * hd 0 (tshape t) + j) es dE) = eval en (nth (j * hd 0 (tshape t) + i) es dE))
          /\ sym_promise (bind en name (tshape t) (map (eval en) es)) r
      | None => sym_promise en r
      end
  end.

Definition Agree3 (st : store) (en : env) (known : list string) : Prop :=
  forall n Ix D p, In n known -> validIx n Ix -> zeroD D = true ->
    st (lay n (sindex n Ix)) = e_vr en n Ix D p.

Hypothesis lay_inj : forall n k n' k', lay n k = lay n' k' -> n = n' /\ k = k'.

Lemma compile_sound3 nc st en known : Agree3 st en known -> Ctx F nc en ->
  forall e c, compile3 e = Some c -> wfe3 known e -> ceval nc st c = eval en e.
Proof.
  intros HA (Hpd & Hgw & Hfn). induction e as [v|n cmp D ph|n Ix D p|a| | |x IH|f x IH|o x IHx y IHy];
    intros c Hc Hw; simpl in Hc.
  - inversion Hc; subst. reflexivity.
  - destruct cmp; [discriminate|]. destruct ph; [discriminate|]. inversion Hc; subst. simpl. symmetry. apply Hpd.
  - destruct (zeroD D) eqn:Z; [|discriminate]. inversion Hc; subst. simpl. destruct Hw as [Hin Hlt].
    apply HA; assumption.
  - inversion Hc; subst. simpl. symmetry. apply Hgw.
  - discriminate.
  - discriminate.
  - destruct (compile3 x) as [cx|]; [|discriminate]. inversion Hc; subst. simpl. f_equal. apply IH; [reflexivity | exact Hw].
  - destruct (compile3 x) as [cx|]; [|discriminate]. inversion Hc; subst. simpl. rewrite Hfn. f_equal.
    apply IH; [reflexivity | exact Hw].
  - destruct (compile3 x) as [cx|]; [|discriminate]. destruct (compile3 y) as [cy|]; [|discriminate].
    inversion Hc; subst. destruct Hw as [Hx Hy]. simpl. f_equal; [apply IHx | apply IHy]; auto.
Qed.

Lemma agree3_upd_other st en known name k v : ~ In name known -> Agree3 st en known ->
  Agree3 (upd st (lay name k) v) en known.
Proof.
  intros Hn HA n Ix D p Hin Hlt Z. unfold Kernel.upd.
  destruct (loc_eqb_spec (lay n (sindex n Ix)) (lay name k)) as [E|E].
  - apply lay_inj in E. destruct E as [E _]. subst. contradiction.
  - apply HA; assumption.
Qed.

Lemma assign_list_as_write_all nc en known name : ~ In name known -> Ctx F nc en ->
  forall kes kcs, omap compile_kv kes = Some kcs -> Forall (fun ke => wfe3 known (snd ke)) kes ->
  forall st, Agree3 st en known ->
  forall l, assign_list nc st name kcs l
            = write_all F (lay name) st (map (fun ke => (fst ke, eval en (snd ke))) kes) l.
Proof.
  intros Hn HC. induction kes as [|[k e] r IH]; intros kcs Hc Hw st HA l; simpl in Hc.
  - inversion Hc; subst. reflexivity.
  - unfold compile_kv in Hc at 1. simpl in Hc.
    destruct (compile3 e) as [c|] eqn:Ec; [|discriminate].
    destruct (omap compile_kv r) as [kcr|] eqn:Er; [|discriminate].
    inversion Hc; subst. inversion Hw as [|? ? Hwe Hwr]; subst. simpl in Hwe.
    unfold assign_list, write_all. simpl.
    rewrite (compile_sound3 nc st en known HA HC e c Ec Hwe).
    apply (IH kcr eq_refl Hwr). apply agree3_upd_other; assumption.
Qed.

Lemma lay_name_inj name : forall a b, lay name a = lay name b -> a = b.
Proof. intros a b E. apply lay_inj in E. tauto. Qed.

Lemma agree3_after_def nc st en known name t es kcs :
  ~ In name known -> Ctx F nc en -> Agree3 st en known ->
  omap compile_kv (writes name t es) = Some kcs ->
  Forall (fun ke => wfe3 known (snd ke)) (writes name t es) ->
  shp name = tshape t ->
  (symv name = false -> sz name = List.length es) ->
  (symv name = true -> exists m, tshape t = [m; m] /\ List.length es = m * m) ->
  (symv name = true -> forall i j, i < hd 0 (tshape t) -> j < hd 0 (tshape t) ->
     eval en (nth (i * hd 0 (tshape t) + j) es dE) = eval en (nth (j * hd 0 (tshape t) + i) es dE)) ->
  Agree3 (assign_list nc st name kcs) (bind en name (tshape t) (map (eval en) es)) (name :: known).
Proof.
  intros Hn HC HA Hc Hw Hs Hz Hsy Hpr.
  pose proof (assign_list_as_write_all nc en known name Hn HC _ _ Hc Hw st HA) as W.
  intros n Ix D p Hin Hv Z. rewrite W. simpl.
  destruct (String.eqb_spec n name) as [E|E].
  - subst n. unfold validIx in Hv. unfold sindex, writes. destruct (symv name) eqn:Sy.
    + (* symmetric *)
      destruct (Hsy eq_refl) as (m & Hm & Hl). destruct Hv as (i & j & -> & Hi & Hj).
      rewrite Hs, Hm in *. simpl hd in *.
      rewrite map_map. cbn [fst snd].
      pose proof (sym_writes_sound F (lay name) m 0
                    (fun a b => eval en (nth (a * m + b) es dE)) st (lay_name_inj name) (Hpr eq_refl)) as [S1 _].
      unfold sym_writes in S1. simpl in S1. rewrite (S1 i j Hi Hj).
      assert (Hlt : i * m + j < List.length es) by (rewrite Hl; nia).
      replace (flat_index [m; m] [i; j]) with (i * m + j) by (unfold flat_index; simpl; lia).
      rewrite nth_indep with (d' := eval en dE) by (rewrite map_length; exact Hlt).
      now rewrite map_nth.
    + (* row-major *)
      rewrite (Hz eq_refl) in Hv. rewrite <- Hs.
      set (k := flat_index (shp name) Ix) in *.
      rewrite (write_all_key F (lay name) (lay_name_inj name) _ st k (eval en (nth k es dE))).
      * rewrite nth_indep with (d' := eval en dE) by (rewrite map_length; exact Hv). now rewrite map_nth.
      * intros k' v1 v2 H1 H2. apply in_map_iff in H1, H2.
        destruct H1 as ([a1 e1] & E1 & I1). destruct H2 as ([a2 e2] & E2 & I2). simpl in E1, E2.
        inversion E1; inversion E2; subst.
        apply in_combine_seq in I1, I2. destruct I1 as [_ I1]. destruct I2 as [_ I2]. congruence.
      * apply in_map_iff. exists (k, nth k es dE). split; [reflexivity|].
        apply (combine_seq_in expr dE es 0 k Hv).
  - destruct Hin as [Hin|Hin]; [congruence|].
    rewrite write_all_other; [apply HA; assumption|].
    intros k v _ E'. apply lay_inj in E'. destruct E' as [E' _]. congruence.
Qed.

Lemma run_defs3_sound nc : forall ds known st en, wf_prog3 known ds -> sym_promise en ds ->
  Agree3 st en known -> Ctx F nc en ->
  Agree3 (run_defs3 nc st ds) (eval_defs en ds) (names_after F known ds) /\ Ctx F nc (eval_defs en ds).
Proof.
  induction ds as [|[name t] r IH]; intros known st en Hwf Hp HA HC; simpl.
  - split; assumption.
  - destruct Hwf as ((es & kcs & Ht & Hc & Hw & Hs & Hz & Hsy) & Hn & Hr).
    simpl in Hp. rewrite Ht in Hp. destruct Hp as [Hp1 Hp2].
    rewrite Ht, Hc.
    apply (IH (name :: known)); [exact Hr | exact Hp2 | | apply ctx_bind; exact HC].
    apply (agree3_after_def nc st en known name t es kcs); assumption.
Qed.

Theorem kernel_node_sound3 nc st en known ds es cs :
  wf_prog3 known ds -> sym_promise en ds -> Agree3 st en known -> Ctx F nc en ->
  omap compile3 es = Some cs -> Forall (wfe3 (names_after F known ds)) es ->
  map (ceval nc (run_defs3 nc st ds)) cs = map (eval (eval_defs en ds)) es.
Proof.
  intros Hwf Hp HA HC Hc Hw.
  destruct (run_defs3_sound nc ds known st en Hwf Hp HA HC) as [HA' HC'].
  apply omap_Forall2 in Hc. revert Hw. induction Hc as [|e c es' cs' H1 H2 IH]; intros Hw; [reflexivity|].
  inversion Hw; subst. simpl. f_equal; [|apply IH; assumption].
  apply (compile_sound3 nc _ _ (names_after F known ds)); assumption.
Qed.

(* precompute_fields runs without the basis-function jets of the kernel: code that mentions no basis function
   does not read [pdv], so it computes the same under any two contexts that agree on weights and builtins *)
Lemma compile3_nobf_ctx (nc nc' : nctx) : (forall a, gwv F nc a = gwv F nc' a) -> (forall f x, fnv F nc f x = fnv F nc' f x) ->
  forall e c st st', compile3 e = Some c -> uses_bfun F e = false -> (forall l, st l = st' l) ->
  ceval nc st c = ceval nc' st' c.
Proof.
  intros Hg Hf. induction e as [v|n cmp D ph|n Ix D p|a| | |x IH|f x IH|o x IHx y IHy];
    intros c st st' Hc Hb Hs; simpl in Hc, Hb.
  - inversion Hc; subst. reflexivity.
  - discriminate.
  - destruct (zeroD D); [|discriminate]. inversion Hc; subst. simpl. apply Hs.
  - inversion Hc; subst. simpl. apply Hg.
  - discriminate.
  - discriminate.
  - destruct (compile3 x) as [cx|] eqn:E; [|discriminate]. inversion Hc; subst. simpl. f_equal. now apply (IH cx).
  - destruct (compile3 x) as [cx|] eqn:E; [|discriminate]. inversion Hc; subst. simpl. rewrite Hf. f_equal. now apply (IH cx).
  - destruct (compile3 x) as [cx|] eqn:Ex; [|discriminate]. destruct (compile3 y) as [cy|] eqn:Ey; [|discriminate].
    inversion Hc; subst. apply orb_false_elim in Hb. destruct Hb as [Hbx Hby]. simpl.
    f_equal; [now apply (IHx cx) | now apply (IHy cy)].
Qed.

Lemma assign_list_ctx (nc nc' : nctx) name : (forall a, gwv F nc a = gwv F nc' a) -> (forall f x, fnv F nc f x = fnv F nc' f x) ->
  forall kes kcs, omap compile_kv kes = Some kcs -> forallb (fun ke => negb (uses_bfun F (snd ke))) kes = true ->
  forall st st', (forall l, st l = st' l) ->
  forall l, assign_list nc st name kcs l = assign_list nc' st' name kcs l.
Proof.
  intros Hg Hf. induction kes as [|[k e] r IH]; intros kcs Hc Hb st st' Hs l; simpl in Hc.
  - inversion Hc; subst. simpl. apply Hs.
  - unfold compile_kv in Hc at 1. simpl in Hc.
    destruct (compile3 e) as [c|] eqn:E; [|discriminate]. destruct (omap compile_kv r) as [cr|] eqn:E'; [|discriminate].
    inversion Hc; subst. simpl in Hb. apply andb_prop in Hb. destruct Hb as [Hb1 Hb2]. apply negb_true_iff in Hb1.
    unfold assign_list. simpl. apply (IH cr eq_refl Hb2). intros l'. unfold Kernel.upd.
    rewrite (compile3_nobf_ctx nc nc' Hg Hf e c st st' E Hb1 Hs).
    destruct (loc_eqb l' (lay name k)); [reflexivity | apply Hs].
Qed.

(* the classification: the EMITTED assignments of a precomputable definition mention no basis function *)
Definition nobf_defs3 (ds : list (def F)) : Prop :=
  Forall (fun d => match tentries (snd d) with
                   | Some es => forallb (fun ke => negb (uses_bfun F (snd ke))) (writes (fst d) (snd d) es) = true
                   | None => True end) ds.

Lemma run_defs3_ctx (nc nc' : nctx) : (forall a, gwv F nc a = gwv F nc' a) -> (forall f x, fnv F nc f x = fnv F nc' f x) ->
  forall ds, nobf_defs3 ds -> forall st st', (forall l, st l = st' l) ->
  forall l, run_defs3 nc st ds l = run_defs3 nc' st' ds l.
Proof.
  intros Hg Hf. induction ds as [|[name t] r IH]; intros Hn st st' Hs l; simpl; [apply Hs|].
  inversion Hn as [|? ? Hd Hr]; subst. simpl in Hd.
  destruct (tentries t) as [es|]; [|apply Hs].
  destruct (omap compile_kv (writes name t es)) as [kcs|] eqn:E; [|apply Hs].
  apply (IH Hr). intros l'. now apply (assign_list_ctx nc nc' name Hg Hf _ kcs E Hd).
Qed.

Lemma sym_promise_app : forall ds1 ds2 (en : env),
  sym_promise en (ds1 ++ ds2) <-> sym_promise en ds1 /\ sym_promise (eval_defs en ds1) ds2.
Proof.
  induction ds1 as [|[name t] r IH]; intros ds2 en; simpl.
  - split; [intros H; split; [exact I | exact H] | intros [_ H]; exact H].
  - destruct (tentries t) as [es|]; [|apply IH].
    rewrite IH. symmetry. apply and_assoc.
Qed.

Lemma precompute_agree3 (nc nc_pre : nctx) (st0 st2 : store) (en : env) known G pre :
  wf_prog3 known pre -> nobf_defs3 pre -> sym_promise en pre ->
  incl G (names_after F known pre) -> (forall n k, In n G -> is_glob (lay n k) = true) ->
  Agree3 st0 en known -> Ctx F nc en ->
  (forall a, gwv F nc_pre a = gwv F nc a) -> (forall f x, fnv F nc_pre f x = fnv F nc f x) ->
  (forall l, is_glob l = true -> st2 l = run_defs3 nc_pre st0 pre l) ->
  Agree3 st2 (eval_defs en pre) G /\ Ctx F nc (eval_defs en pre).
Proof.
  intros Hwp Hnb Hp Hincl Hglob HA HC Hg Hf Hst2.
  destruct (run_defs3_sound nc pre known st0 en Hwp Hp HA HC) as [HA1 HC1]. split; [|exact HC1].
  intros n Ix D p Hin Hv Z. rewrite (Hst2 _ (Hglob n _ Hin)).
  rewrite (run_defs3_ctx nc_pre nc Hg Hf pre Hnb st0 st0 (fun _ => eq_refl)).
  apply HA1; [apply Hincl|..]; assumption.
Qed.

End Kernel3.

(* conservative extension: without symmetric variables this is the program of Kernel.v, so what is proved
   above holds of [compile] / [run_defs] / [wf_prog] as the case symv = fun _ => false *)
Section RowMajor.
Variable F : Type.
Variables (f0 : F) (fadd fmul fsub fdiv : F -> F -> F) (fopp : F -> F).
Variable lay : string -> nat -> loc.
Variable shp : string -> list nat.
Variable sz : string -> nat.

Notation nosym := (fun _ : string => false).
Notation env := (env F).
Notation compile := (compile F lay shp).
Notation run_defs := (run_defs F fadd fmul fsub fdiv fopp lay shp).
Notation wfe := (wfe F shp sz).
Notation wf_prog := (wf_prog F lay shp sz).
Notation compile3 := (compile3 F lay shp nosym).
Notation compile_kv := (compile_kv F lay shp nosym).
Notation run_defs3 := (run_defs3 F f0 fadd fmul fsub fdiv fopp lay shp nosym).
Notation wfe3 := (wfe3 F shp sz nosym).
Notation wf_prog3 := (wf_prog3 F f0 lay shp sz nosym).
Notation sym_promise := (sym_promise F f0 fadd fmul fsub fdiv fopp nosym).

Lemma compile3_nosym e : compile3 e = compile e.
Proof.
  induction e as [v|n cmp D ph|n Ix D p|a| | |x IH|f x IH|o x IHx y IHy]; simpl;
    rewrite ?IH, ?IHx, ?IHy; reflexivity.
Qed.

Lemma wfe3_nosym known e : wfe3 known e = wfe known e.
Proof.
  induction e as [v|n cmp D ph|n Ix D p|a| | |x IH|f x IH|o x IHx y IHy]; simpl;
    rewrite ?IH, ?IHx, ?IHy; reflexivity.
Qed.

(* row-major gen_assign: the k-th entry goes to slot k *)
Lemma compile_kv_seq : forall es a,
  omap compile_kv (combine (seq a (List.length es)) es)
  = option_map (fun cs => combine (seq a (List.length cs)) cs) (omap compile es).
Proof.
  induction es as [|e r IH]; intros a; simpl; [reflexivity|].
  unfold Kernel3.compile_kv at 1. simpl. rewrite compile3_nosym, IH.
  destruct (compile e); [|reflexivity]. destruct (omap compile r); reflexivity.
Qed.

Lemma assign_list_seq nc name : forall cs k st,
  assign_list F fadd fmul fsub fdiv fopp lay nc st name (combine (seq k (List.length cs)) cs)
  = assign_from F fadd fmul fsub fdiv fopp lay nc st name k cs.
Proof. induction cs as [|c r IH]; intros k st; [reflexivity|]. apply IH. Qed.

Lemma run_defs3_nosym nc : forall ds st, run_defs3 nc st ds = run_defs nc st ds.
Proof.
  induction ds as [|[name t] r IH]; intros st; simpl; [reflexivity|].
  destruct (tentries F t) as [es|]; [|reflexivity].
  change (writes F f0 nosym name t es) with (combine (seq 0 (List.length es)) es).
  rewrite compile_kv_seq. destruct (omap compile es) as [cs|]; simpl; [|reflexivity].
  rewrite assign_list_seq. apply IH.
Qed.

Lemma wf_prog3_nosym : forall ds known, wf_prog known ds -> wf_prog3 known ds.
Proof.
  induction ds as [|[name t] r IH]; intros known H; [exact I|].
  destruct H as ((es & cs & Ht & Hc & Hw & Hs & Hz) & Hn & Hr).
  split; [|split; [exact Hn | apply IH, Hr]].
  exists es, (combine (seq 0 (List.length cs)) cs).
  change (writes F f0 nosym name t es) with (combine (seq 0 (List.length es)) es).
  rewrite compile_kv_seq, Hc.
  split; [exact Ht|]. split; [reflexivity|]. split; [|split; [exact Hs|split]].
  - rewrite Forall_forall in *. intros [k e] Hin. simpl. rewrite wfe3_nosym. apply Hw. eapply in_combine_r, Hin.
  - intros _. exact Hz.
  - intros E. discriminate E.
Qed.

Lemma sym_promise_nosym : forall ds (en : env), sym_promise en ds.
Proof.
  induction ds as [|[name t] r IH]; intros en; simpl; [exact I|].
  destruct (tentries F t); [split; [intros E; discriminate E | apply IH] | apply IH].
Qed.

Lemma nobf_defs3_nosym ds : nobf_defs F ds -> nobf_defs3 F f0 nosym ds.
Proof.
  apply Forall_impl. intros [name t]. simpl. destruct (tentries F t) as [es|]; [|trivial].
  change (writes F f0 nosym name t es) with (combine (seq 0 (List.length es)) es).
  rewrite !forallb_forall. intros H [k e] Hin. apply H. eapply in_combine_r, Hin.
Qed.

End RowMajor.
