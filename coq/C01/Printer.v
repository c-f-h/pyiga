(* C01 -- the concrete syntax of the emitted arithmetic: a token-level printer that mirrors
   CodegenVisitor.gencode_* (pyiga/codegen/cython.py:60-103) and a parser with the operator
   precedence of C / Cython (unary minus > * / > + -, binary operators left associative).
   Theorem: the printed code parses back to the expression tree it was printed from -- the
   parenthesisation gencode_scalaroper emits is sufficient for every tree.
   Tokens: a numeric literal repr(value) is ONE token (its sign included), a reference
   fields[k] / constants[k] / name / name[k] is one token, the parenthesised product gen_pderiv
   prints is one token (it is a closed bracket group), _gw<a>[i<a>] is one token.           *)
From Coq Require Import List String Arith Lia.
From Verif.C06 Require Import Model.
From Verif.C01 Require Import Kernel.
Import ListNotations.
Open Scope nat_scope.

Section Printer.
Variable F : Type.
Notation cexpr := (cexpr F).

Inductive tok :=
| TNum (c : F) | TLoc (l : loc) | TPD (n : string) (D : list nat) | TGW (a : nat)
| TFn (f : string) | TLP | TRP | TMinus | TOp (o : oper).

(* gencode_const / gencode_varref / gencode_partialderiv / gencode_gaussweight: atoms;
   gencode_neg: '-' + code(x);  gencode_builtinfunc: f(code(x));
   gencode_scalaroper: '(' + code(x) + ' op ' + code(y) + ')' *)
Fixpoint print (c : cexpr) : list tok :=
  match c with
  | CConst _ v => [TNum v]
  | CRead _ l => [TLoc l]
  | CPD _ n D => [TPD n D]
  | CGW _ a => [TGW a]
  | CNeg _ x => TMinus :: print x
  | CFn _ f x => TFn f :: TLP :: print x ++ [TRP]
  | COp _ o x y => TLP :: print x ++ TOp o :: print y ++ [TRP]
  end.

Definition prec (o : oper) : nat := match o with OAdd | OSub => 1 | OMul | ODiv => 2 end.

Definition presult := option (cexpr * list tok).

(* atoms and prefix minus; [rec] parses a full expression (used inside brackets).
   Binary '-' and unary '-' are the same character; the token stream of the printer uses TOp OSub for the
   binary one and TMinus for the prefix one.  A lexer cannot tell them apart, the parser does by position:
   it accepts either token in either position (here and in [binop]). *)
Fixpoint patom (rec : nat -> list tok -> presult) (ts : list tok) : presult :=
  match ts with
  | TNum v :: r => Some (CConst F v, r)
  | TLoc l :: r => Some (CRead F l, r)
  | TPD n D :: r => Some (CPD F n D, r)
  | TGW a :: r => Some (CGW F a, r)
  | TMinus :: r | TOp OSub :: r =>
      match patom rec r with Some (x, r') => Some (CNeg F x, r') | None => None end
  | TFn f :: TLP :: r =>
      match rec 1 r with Some (x, TRP :: r') => Some (CFn F f x, r') | _ => None end
  | TLP :: r =>
      match rec 1 r with Some (x, TRP :: r') => Some (x, r') | _ => None end
  | _ => None
  end.

Definition binop (t : tok) : option oper :=
  match t with TOp o => Some o | TMinus => Some OSub | _ => None end.

(* precedence climbing: while the next token is a binary operator of precedence >= lvl, take it and a right
   operand of strictly higher level (left associativity) *)
Fixpoint ploop (rec : nat -> list tok -> presult) (lvl n : nat) (a : cexpr) (ts : list tok) : presult :=
  match ts with
  | t :: r =>
      match binop t with
      | Some o =>
          if lvl <=? prec o then
            match n with
            | 0 => None
            | S n' => match rec (S (prec o)) r with
                      | Some (b, r') => ploop rec lvl n' (COp F o a b) r'
                      | None => None end
            end
          else Some (a, ts)
      | None => Some (a, ts)
      end
  | [] => Some (a, ts)
  end.

Fixpoint pexpr (fuel lvl : nat) (ts : list tok) : presult :=
  match fuel with
  | 0 => None
  | S f => match patom (pexpr f) ts with
           | Some (a, r) => ploop (pexpr f) lvl f a r
           | None => None
           end
  end.

Definition parse (ts : list tok) : option cexpr :=
  match pexpr (S (List.length ts)) 1 ts with Some (c, []) => Some c | _ => None end.

(* the rest of the input does not continue the expression at level lvl *)
Definition stops (lvl : nat) (rest : list tok) : Prop :=
  match rest with
  | t :: _ => match binop t with Some o => prec o < lvl | None => True end
  | [] => True
  end.

(* the fuel [patom] needs to read [print c] back *)
Fixpoint fuel_of (c : cexpr) : nat :=
  match c with
  | CNeg _ x => fuel_of x
  | CFn _ _ x => S (fuel_of x)
  | COp _ _ x y => S (S (Nat.max (fuel_of x) (fuel_of y)))
  | _ => 0
  end.

Lemma ploop_stops rec lvl n a rest : stops lvl rest -> ploop rec lvl n a rest = Some (a, rest).
Proof.
  destruct rest as [|t r]; [destruct n; reflexivity|]. simpl stops.
  destruct (binop t) as [o|] eqn:B.
  - intros Hs. destruct n; simpl; rewrite B; destruct (Nat.leb_spec lvl (prec o)); try lia; reflexivity.
  - intros _. destruct n; simpl; rewrite B; reflexivity.
Qed.

Lemma pexpr_S f lvl ts : pexpr (S f) lvl ts =
  match patom (pexpr f) ts with Some (a, r) => ploop (pexpr f) lvl f a r | None => None end.
Proof. reflexivity. Qed.
Lemma patom_LP rec r : patom rec (TLP :: r) =
  match rec 1 r with Some (x, TRP :: r') => Some (x, r') | _ => None end.
Proof. reflexivity. Qed.
Lemma patom_Fn rec g r : patom rec (TFn g :: TLP :: r) =
  match rec 1 r with Some (x, TRP :: r') => Some (CFn F g x, r') | _ => None end.
Proof. reflexivity. Qed.
Lemma patom_minus rec r : patom rec (TMinus :: r) =
  match patom rec r with Some (x, r') => Some (CNeg F x, r') | None => None end.
Proof. reflexivity. Qed.
Lemma ploop_op rec lvl n a o r : lvl <= prec o -> ploop rec lvl (S n) a (TOp o :: r) =
  match rec (S (prec o)) r with Some (b, r') => ploop rec lvl n (COp F o a b) r' | None => None end.
Proof. intros Hl. simpl. destruct (Nat.leb_spec lvl (prec o)); [reflexivity | lia]. Qed.

Lemma print_Fn_app g x rest : print (CFn F g x) ++ rest = TFn g :: TLP :: print x ++ TRP :: rest.
Proof. simpl. now rewrite <- app_assoc. Qed.
Lemma print_Op_app o x y rest : print (COp F o x y) ++ rest = TLP :: print x ++ TOp o :: print y ++ TRP :: rest.
Proof. simpl. rewrite <- app_assoc. simpl. now rewrite <- app_assoc. Qed.

Lemma roundtrip_atom : forall c f, fuel_of c <= f -> forall rest,
  patom (pexpr f) (print c ++ rest) = Some (c, rest).
Proof.
  induction c as [v|l|n D|a|x IH|g x IH|o x IHx y IHy]; intros f Hf rest; try reflexivity; simpl in Hf.
  - (* CNeg *) change (print (CNeg F x) ++ rest) with (TMinus :: print x ++ rest).
    now rewrite patom_minus, IH.
  - (* CFn *) destruct f as [|f']; [lia|].
    rewrite print_Fn_app, patom_Fn, pexpr_S, IH by lia. now rewrite ploop_stops.
  - (* COp *) destruct f as [|[|f'']]; try lia.
    rewrite print_Op_app, patom_LP, pexpr_S, IHx by lia.
    rewrite ploop_op by (destruct o; simpl; lia).
    rewrite pexpr_S, IHy by lia. now rewrite !ploop_stops.
Qed.

Lemma roundtrip_expr c f lvl rest : fuel_of c <= f -> stops lvl rest ->
  pexpr (S f) lvl (print c ++ rest) = Some (c, rest).
Proof.
  intros Hf Hs. rewrite pexpr_S. rewrite (roundtrip_atom c f Hf rest). now apply ploop_stops.
Qed.

Lemma fuel_of_lt_length c : fuel_of c < List.length (print c).
Proof.
  induction c as [v|l|n D|a|x IH|g x IH|o x IHx y IHy]; simpl; try lia.
  - rewrite app_length. simpl. lia.
  - rewrite app_length. simpl. rewrite app_length. simpl. lia.
Qed.

(* the printer WITHOUT brackets around products (what a "products bind tightest" shortcut would print) *)
Fixpoint print_nomul (c : cexpr) : list tok :=
  match c with
  | COp _ OMul x y => print_nomul x ++ TOp OMul :: print_nomul y
  | COp _ o x y => TLP :: print_nomul x ++ TOp o :: print_nomul y ++ [TRP]
  | CNeg _ x => TMinus :: print_nomul x
  | CFn _ f x => TFn f :: TLP :: print_nomul x ++ [TRP]
  | _ => print c
  end.
End Printer.
