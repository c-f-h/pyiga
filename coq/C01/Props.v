(* C01 -- property theorems only: layers 2 and 3 of DESIGN.md section 4 / C01, then the model of the
   emitted kernel program (Kernel*.v) and of its concrete syntax (Printer.v).
   Layer 1 (finalize preserves the integrand's value) is C06/Props.v.
   Layer 4 (Cython, gcc -O3 -ffast-math, libm, dlopen) is not a theorem: it is
   exercised by the oracle comparison of harness/props/c01.py.  C01 is PARTIAL. *)
From Coq Require Import List Lia QArith.
From Verif.C06 Require Import Model.
From Verif.C01 Require Import Model Proofs Kernel Kernel2 Kernel3 Printer.
Import ListNotations.
Close Scope Q_scope. Open Scope nat_scope.

(* sym_index_to_seq is symmetric in (i,j) and maps the upper triangle i<=j<n
   one-to-one ONTO range(n(n+1)/2): the entry gen_assign skips (i>j) is read from
   the slot of (j,i), every slot is written exactly once. *)
Theorem sym_index_bijection : forall n,
  (forall i j, sym_index_to_seq n i j = sym_index_to_seq n j i) /\
  (forall i j, i <= j -> j < n -> sym_index_to_seq n i j < n * (n + 1) / 2) /\
  (forall i j i' j', i <= j -> j < n -> i' <= j' -> j' < n ->
     sym_index_to_seq n i j = sym_index_to_seq n i' j' -> i = i' /\ j = j') /\
  (forall s, s < n * (n + 1) / 2 -> exists i j, i <= j /\ j < n /\ sym_index_to_seq n i j = s).
Proof.
  intros n. split; [exact (sym_symmetric n)|]. split; [exact (sym_range n)|].
  split; [exact (sym_inj n) | exact (sym_surj n)].
Qed.
Print Assumptions sym_index_bijection.

(* gen_assign writes exactly the entries (i,j) with i<=j of a symmetric matrix variable
   and all entries otherwise. *)
Theorem gen_assign_entries : forall m n sym i j,
  In (i, j) (assigned_entries m n sym) <-> i < m /\ j < n /\ (sym = true -> i <= j).
Proof. exact assigned_entries_spec. Qed.
Print Assumptions gen_assign_entries.

(* Row-major storage_index is injective on in-range multi-indices and stays below the
   product of the shape; from_seq (the C helper of BaseAssembler.entry) is its inverse. *)
Theorem row_major_bijection : forall shape,
  (forall I, Forall2 lt I shape -> ravel_multi_index I shape < prodl shape) /\
  (forall I, Forall2 lt I shape -> from_seq shape (ravel_multi_index I shape) = I) /\
  (forall I I', Forall2 lt I shape -> Forall2 lt I' shape ->
     ravel_multi_index I shape = ravel_multi_index I' shape -> I = I') /\
  (forall s, shape <> [] -> s < prodl shape ->
     Forall2 lt (from_seq shape s) shape /\ ravel_multi_index (from_seq shape s) shape = s).
Proof.
  intros shape. split; [intros; now apply ravel_lt|]. split; [intros; now apply from_seq_ravel|].
  split; [intros; now apply (ravel_inj I I' shape) | intros; now apply ravel_from_seq].
Qed.
Print Assumptions row_major_bijection.

(* every entry of every variable gets a slot inside its variable's block *)
Theorem storage_index_in_block : forall v I,
  wf_var v -> valid_index v I -> storage_index v I < storage_size v.
Proof.
  intros [shp [|]] I W V.
  - destruct shp as [|m [|n [|? ?]]]; try contradiction. simpl in W. subst n. now apply storage_index_sym_lt.
  - now apply storage_index_flat_lt.
Qed.
Print Assumptions storage_index_in_block.

(* allocate_array: blocks of distinct variables are disjoint and inside the array *)
Theorem layout_disjoint : forall vars k1 k2 e1 e2,
  k1 < length vars -> k2 < length vars ->
  e1 < storage_size (nth k1 vars dvar) -> e2 < storage_size (nth k2 vars dvar) ->
  slot_ofs vars k1 + e1 = slot_ofs vars k2 + e2 -> k1 = k2 /\ e1 = e2.
Proof.
  intros vars k1 k2 e1 e2 H1 H2 E1 E2. rewrite !slot_ofs_eq by assumption. intros E.
  destruct (lt_eq_lt_dec k1 k2) as [[L|L]|L];
    [pose proof (blocks_ordered vars k1 k2 L) | subst k2 | pose proof (blocks_ordered vars k2 k1 L)]; lia.
Qed.
Print Assumptions layout_disjoint.

Theorem layout_inside : forall vars k e,
  k < length vars -> e < storage_size (nth k vars dvar) ->
  slot_ofs vars k + e < snd (allocate_array vars).
Proof.
  intros vars k e H E. rewrite slot_ofs_eq, allocate_total by assumption.
  pose proof (blocks_ordered vars k (length vars) H (le_n _)) as B. rewrite firstn_all in B. lia.
Qed.
Print Assumptions layout_inside.

(* reader = writer: two references (var k, I) and (var k', I') produced by var_ref hit the same
   slot of fields/constants only if they are the same variable and the same stored entry: by
   row_major_bijection the same entry of a row-major variable, by sym_index_bijection the same
   entry up to transposition of a symmetric one. *)
Theorem reader_writer_agree : forall vars k k' I I',
  k < length vars -> k' < length vars ->
  wf_var (nth k vars dvar) -> wf_var (nth k' vars dvar) ->
  valid_index (nth k vars dvar) I -> valid_index (nth k' vars dvar) I' ->
  var_ref_slot vars k I = var_ref_slot vars k' I' ->
  k = k' /\ storage_index (nth k vars dvar) I = storage_index (nth k' vars dvar) I'.
Proof.
  intros vars k k' I I' Hk Hk' W W' V V' E.
  apply (layout_disjoint vars k k'); try assumption; now apply storage_index_in_block.
Qed.
Print Assumptions reader_writer_agree.

(* gen_pderiv: the k-th factor reads VD<u>k[(nd+1)*i_k + D[dim-1-k]], and with the pointer
   values_u[k] = &C_k[i, g_sta, 0] of entry_impl that is C_k[i, g_sta + i_k, D[dim-1-k]]:
   the D[dim-1-k]-th derivative along grid axis k at Gauss node g_sta + i_k (x = last axis). *)
Theorem pderiv_lookup_spec : forall dim nd D k ng i g_sta ik,
  length D = dim -> k < dim ->
  let '(ax, stride, ofs) := nth k (gen_pderiv dim nd D) (0, 0, 0) in
  ax = k /\ ofs = nth (dim - 1 - k) D 0 /\
  flat3 ng (nd + 1) i g_sta 0 + stride * ik + ofs = flat3 ng (nd + 1) i (g_sta + ik) (nth (dim - 1 - k) D 0).
Proof.
  intros dim nd D k ng i g_sta ik HL Hk. rewrite gen_pderiv_spec by assumption.
  split; [reflexivity|]. split; [reflexivity|]. symmetry. apply flat3_lookup.
Qed.
Print Assumptions pderiv_lookup_spec.

Theorem pderiv_lookup_in_bounds : forall nb ng nd1 i g d,
  i < nb -> g < ng -> d < nd1 -> flat3 ng nd1 i g d < nb * ng * nd1.
Proof.
  unfold flat3. intros.
  assert (A : i * ng + g + 1 <= nb * ng) by nia.
  remember (i * ng + g) as x. remember (nb * ng) as y. nia.
Qed.
Print Assumptions pderiv_lookup_in_bounds.

Section Entry.
Variable T : Type.
Variable zero : T.
Variable add : T -> T -> T.
Hypothesis add_0_l : forall x, add zero x = x.
Hypothesis add_0_r : forall x, add x zero = x.
Hypothesis add_assoc : forall x y z, add x (add y z) = add (add x y) z.

(* Summing over the intersection of the two supports equals summing over ALL Gauss nodes,
   for any number of axes, provided the integrand term vanishes at nodes outside either
   support (N_local: locality of the B-spline basis, C02's theorem, together with the
   (bi)linearity of a well-formed form in the basis-function jets). *)
Theorem entry_is_full_gauss_sum : forall s1 s2 Ns f,
  Forall2 (fun s N => snd s <= N) s1 Ns -> Forall2 (fun s N => snd s <= N) s2 Ns ->
  (forall idx, in_box s1 idx = false \/ in_box s2 idx = false -> f idx = zero) ->
  entry_impl T zero add s1 s2 f = sum_box T zero add (full_box Ns) f.
Proof. intros. rewrite entry_impl_as_sum by assumption. now apply entry_spec_full. Qed.

(* basis functions without common support along some axis: the entry is zero *)
Theorem disjoint_support_zero : forall s1 s2 f k, k < length s1 -> k < length s2 ->
  snd (intersect (nth k s1 (0, 0)) (nth k s2 (0, 0))) <= fst (intersect (nth k s1 (0, 0)) (nth k s2 (0, 0))) ->
  entry_impl T zero add s1 s2 f = zero.
Proof using Type.
  intros s1 s2 f k H1 H2 E. unfold entry_impl. now rewrite (entry_ranges_none s1 s2 k H1 H2 E).
Qed.

(* on-demand assemblers: any bounding box that starts at or before the joint support gives
   the same entry as the full-grid assembler *)
Theorem bbox_shift_invariant : forall ofs s1 s2 f fbb rs,
  entry_ranges s1 s2 = Some rs -> Forall2 le ofs (map fst rs) ->
  (forall idx, fbb idx = f (add_ofs ofs idx)) ->
  entry_impl_od T zero add ofs s1 s2 fbb = entry_impl T zero add s1 s2 f.
Proof using Type.
  intros ofs s1 s2 f fbb rs E F H. unfold entry_impl_od, entry_impl. rewrite E.
  apply loop_box_ext. intros idx. rewrite H. f_equal. apply add_ofs_shift, F.
Qed.
End Entry.
Print Assumptions entry_is_full_gauss_sum.
Print Assumptions disjoint_support_zero.
Print Assumptions bbox_shift_invariant.

(* assemble_vector: starting from I = 0 the next_lexicographic loop makes exactly
   prod(ndofs) calls, the k-th of them (written to out + k) is for the multi-index that
   ravels (row-major) to k, and every visited multi-index is in range. *)
Theorem assemble_vector_order : forall end_,
  Forall (fun e => 0 < e) end_ ->
  let zeros := repeat 0 (length end_) in
  let vis := visit_r (prodl end_) zeros zeros end_ in
  length vis = prodl end_ /\
  forall k, k < prodl end_ -> Forall2 lt (nth k vis []) end_ /\ ravelr end_ (nth k vis []) = k.
Proof.
  intros end_ Hpos. cbv zeta.
  destruct (visit_spec end_ (prodl end_) _ (zeros_in_range end_ Hpos)) as [L N].
  { now rewrite ravelr_zeros. }
  split; [exact L|]. intros k Hk. destruct (N k Hk) as [A B]. split; [exact A|].
  now rewrite B, ravelr_zeros.
Qed.
Print Assumptions assemble_vector_order.

(* one step of next_lexicographic advances the row-major index by one, and reports the end
   exactly at the last multi-index *)
Theorem next_lexicographic_step : forall cur end_, Forall2 lt cur end_ ->
  match next_lex_r cur (repeat 0 (length cur)) end_ with
  | Some nxt => Forall2 lt nxt end_ /\ ravelr end_ nxt = S (ravelr end_ cur)
  | None => S (ravelr end_ cur) = prodl end_
  end.
Proof. exact next_lex_spec. Qed.
Print Assumptions next_lexicographic_step.

(* nqp = max degree + 1: at least p_k + 1 nodes per span for every axis and space, with
   equality for the axis of highest degree *)
Theorem nqp_is_maxdeg_plus_1 : forall ps,
  Forall (fun p => p + 1 <= nqp ps) ps /\ (ps <> [] -> exists p, In p ps /\ nqp ps = p + 1).
Proof. intros ps. split; [apply nqp_ge | apply nqp_attained]. Qed.
Print Assumptions nqp_is_maxdeg_plus_1.

(* two-space (Petrov-Galerkin) forms: the maximum runs over the knot vectors of BOTH spaces *)
Theorem nqp_covers_both_spaces : forall ps0 ps1,
  Forall (fun p => p + 1 <= nqp_spaces ps0 ps1) ps0 /\
  Forall (fun p => p + 1 <= nqp_spaces ps0 ps1) ps1 /\
  (ps0 ++ ps1 <> [] -> exists p, (In p ps0 \/ In p ps1) /\ nqp_spaces ps0 ps1 = p + 1).
Proof.
  intros ps0 ps1. unfold nqp_spaces.
  destruct (proj1 (Forall_app _ _ _) (nqp_ge (ps0 ++ ps1))) as [H0 H1].
  split; [exact H0|]. split; [exact H1|].
  intros Hne. destruct (nqp_attained (ps0 ++ ps1) Hne) as (p & Hin & E).
  exists p. split; [apply in_app_or; exact Hin | exact E].
Qed.
Print Assumptions nqp_covers_both_spaces.

(* gauss_rule: the weights mapped to (a,b) sum to b - a when the reference weights sum to 2 *)
Theorem gauss_rule_weights : forall xw a b,
  Qeq (qsum (map snd xw)) (2 # 1) -> Qeq (qsum (map snd (gauss_interval xw a b))) (Qminus b a).
Proof. intros xw a b H. rewrite gauss_weights_scale, H. ring. Qed.
Print Assumptions gauss_rule_weights.

(* Layer 4, as far as the model carries it.  The MODEL of the emitted kernel (coq/C01/Kernel.v: the assignments gen_assign emits for the kernel's
   local variables in dependency order, reading and writing slots through the layout [lay], then
   `r += code(e)` for every integrand expression, looped over the Gauss index range by entry_impl) computes
   the Gauss sum of the value the C06 evaluator assigns to the scheduled forest (eval (eval_defs en ds) e):
   for every field F with a monoid (F, 0, +), every injective layout, every well-formed schedule, any
   number of axes.  The stores must agree with the environment on the variables computed BEFORE the kernel
   (inputs, parameters, precomputed fields) -- hypothesis [Agree]; the jets/weights/builtins the kernel
   sees are those of the environment -- hypothesis [Ctx]. *)
Section Layer4.
Variable F : Type.
Variables (f0 : F) (fadd fmul fsub fdiv : F -> F -> F) (fopp : F -> F).
Variable lay : String.string -> nat -> loc.
Variable shp : String.string -> list nat.
Variable sz : String.string -> nat.
Hypothesis lay_inj : forall n k n' k', lay n k = lay n' k' -> n = n' /\ k = k'.
Hypothesis add_0_l : forall x, fadd f0 x = x.
Hypothesis add_0_r : forall x, fadd x f0 = x.
Hypothesis add_assoc : forall x y z, fadd x (fadd y z) = fadd (fadd x y) z.

(* at one Gauss node *)
Theorem kernel_denotes_integrand : forall nc st en known ds es cs,
  wf_prog F lay shp sz known ds -> Agree F lay shp sz st en known -> Ctx F nc en ->
  omap (compile F lay shp) es = Some cs -> Forall (wfe F shp sz (names_after F known ds)) es ->
  map (ceval F fadd fmul fsub fdiv fopp nc (run_defs F fadd fmul fsub fdiv fopp lay shp nc st ds)) cs
  = map (eval F fadd fmul fsub fdiv fopp (eval_defs F f0 fadd fmul fsub fdiv fopp en ds)) es.
Proof.
  (* the case symv = fun _ => false of the program with symmetric variables *)
  intros nc st en known ds es cs Hwf HA HC Hc Hw. rewrite <- (run_defs3_nosym F f0).
  apply (kernel_node_sound3 F f0 fadd fmul fsub fdiv fopp lay shp sz (fun _ => false) lay_inj) with (known := known).
  - now apply wf_prog3_nosym.
  - apply sym_promise_nosym.
  - exact HA.
  - exact HC.
  - rewrite <- Hc. apply omap_ext, compile3_nosym.
  - eapply Forall_impl; [|exact Hw]. intros e. now rewrite wfe3_nosym.
Qed.

(* the `r += e1; r += e2; ...` statements add the sum of the expression values *)
Theorem kernel_body_accumulates : forall nc st cs acc,
  kernel_body F fadd fmul fsub fdiv fopp nc st cs acc
  = fadd acc (sumF F f0 fadd (map (ceval F fadd fmul fsub fdiv fopp nc st) cs)).
Proof using add_0_r add_assoc.
  intros nc st. unfold kernel_body. induction cs as [|c r IH]; intros acc; simpl.
  - now rewrite add_0_r.
  - rewrite IH. now rewrite add_assoc.
Qed.

(* the entry = Gauss sum over the joint support of the C06 value *)
Theorem entry_denotes_gauss_sum :
  forall (s1 s2 : list (nat * nat)) (nc : list nat -> nctx F) (st : list nat -> store F) (en : list nat -> env F)
         known ds es cs,
  wf_prog F lay shp sz known ds -> omap (compile F lay shp) es = Some cs ->
  Forall (wfe F shp sz (names_after F known ds)) es ->
  (forall idx, Agree F lay shp sz (st idx) (en idx) known /\ Ctx F (nc idx) (en idx)) ->
  entry_impl F f0 fadd s1 s2
    (fun idx => sumF F f0 fadd (map (ceval F fadd fmul fsub fdiv fopp (nc idx)
                                      (run_defs F fadd fmul fsub fdiv fopp lay shp (nc idx) (st idx) ds)) cs))
  = match entry_ranges s1 s2 with
    | None => f0
    | Some rs => sum_box F f0 fadd rs
        (fun idx => sumF F f0 fadd (map (eval F fadd fmul fsub fdiv fopp
                                           (eval_defs F f0 fadd fmul fsub fdiv fopp (en idx) ds)) es))
    end.
Proof using lay_inj add_0_l add_0_r add_assoc.
  intros s1 s2 nc st en known ds es cs Hwf Hc Hw Hnode.
  apply entry_impl_pointwise; try assumption.
  intros idx. destruct (Hnode idx). f_equal. now apply kernel_denotes_integrand with (known := known).
Qed.

(* ... = the sum over ALL Gauss nodes when the integrand's value vanishes outside either support *)
Theorem entry_denotes_full_gauss_sum :
  forall (s1 s2 : list (nat * nat)) Ns (nc : list nat -> nctx F) (st : list nat -> store F) (en : list nat -> env F)
         known ds es cs,
  wf_prog F lay shp sz known ds -> omap (compile F lay shp) es = Some cs ->
  Forall (wfe F shp sz (names_after F known ds)) es ->
  (forall idx, Agree F lay shp sz (st idx) (en idx) known /\ Ctx F (nc idx) (en idx)) ->
  Forall2 (fun s N => snd s <= N) s1 Ns -> Forall2 (fun s N => snd s <= N) s2 Ns ->
  (forall idx, in_box s1 idx = false \/ in_box s2 idx = false ->
     sumF F f0 fadd (map (eval F fadd fmul fsub fdiv fopp (eval_defs F f0 fadd fmul fsub fdiv fopp (en idx) ds)) es) = f0) ->
  entry_impl F f0 fadd s1 s2
    (fun idx => sumF F f0 fadd (map (ceval F fadd fmul fsub fdiv fopp (nc idx)
                                      (run_defs F fadd fmul fsub fdiv fopp lay shp (nc idx) (st idx) ds)) cs))
  = sum_box F f0 fadd (full_box Ns)
      (fun idx => sumF F f0 fadd (map (eval F fadd fmul fsub fdiv fopp
                                         (eval_defs F f0 fadd fmul fsub fdiv fopp (en idx) ds)) es)).
Proof using lay_inj add_0_l add_0_r add_assoc.
  intros s1 s2 Ns nc st en known ds es cs Hwf Hc Hw Hnode F1 F2 Hloc.
  rewrite (entry_denotes_gauss_sum s1 s2 nc st en known ds es cs Hwf Hc Hw Hnode).
  now apply (entry_spec_full F f0 fadd).
Qed.
End Layer4.
Print Assumptions kernel_denotes_integrand.
Print Assumptions kernel_body_accumulates.
Print Assumptions entry_denotes_gauss_sum.
Print Assumptions entry_denotes_full_gauss_sum.

Section Layer4b.
Variable F : Type.
Variables (f0 : F) (fadd fmul fsub fdiv : F -> F -> F) (fopp : F -> F).
Variable lay : String.string -> nat -> loc.
Variable shp : String.string -> list nat.
Variable sz : String.string -> nat.
Hypothesis lay_inj : forall n k n' k', lay n k = lay n' k' -> n = n' /\ k = k'.
Hypothesis add_0_l : forall x, fadd f0 x = x.
Hypothesis add_0_r : forall x, fadd x f0 = x.
Hypothesis add_assoc : forall x y z, fadd x (fadd y z) = fadd (fadd x y) z.

(* precompute_fields, then the kernel: the precomputable definitions [pre] (no basis functions) are run once per
   Gauss node by a program that has NO basis-function jets (nc_pre: any pdv) from the store st0 holding inputs and
   parameters; of what it leaves only fields[]/constants[] survive (is_glob) -- the kernel starts from a store st2
   that is ARBITRARY on local names; the kernel's own definitions [ker] may read the surviving variables G only.
   Then the integrand code evaluates to the C06 value of the WHOLE scheduled forest pre ++ ker at that node.
   This replaces the hypothesis [Agree] of kernel_denotes_integrand for everything precompute computes: what is
   left as hypothesis is [Agree st0 en known] for the SOURCED variables (input fields, parameters) only. *)
Theorem precompute_then_kernel_equals_forest :
  forall (nc nc_pre : nctx F) (st0 st2 : store F) (en : env F) known G pre ker es cs,
  wf_prog F lay shp sz known pre -> nobf_defs F pre ->
  incl G (names_after F known pre) -> (forall n k, In n G -> is_glob (lay n k) = true) ->
  wf_prog F lay shp sz G ker -> omap (compile F lay shp) es = Some cs ->
  Forall (wfe F shp sz (names_after F G ker)) es ->
  Agree F lay shp sz st0 en known -> Ctx F nc en ->
  (forall a, gwv F nc_pre a = gwv F nc a) -> (forall f x, fnv F nc_pre f x = fnv F nc f x) ->
  (forall l, is_glob l = true -> st2 l = run_defs F fadd fmul fsub fdiv fopp lay shp nc_pre st0 pre l) ->
  map (ceval F fadd fmul fsub fdiv fopp nc (run_defs F fadd fmul fsub fdiv fopp lay shp nc st2 ker)) cs
  = map (eval F fadd fmul fsub fdiv fopp (eval_defs F f0 fadd fmul fsub fdiv fopp en (pre ++ ker))) es.
Proof using lay_inj.
  intros nc nc_pre st0 st2 en known G pre ker es cs Hwp Hnb Hincl Hglob Hwk Hc Hw HA HC Hg Hf Hst2.
  (* the first phase is the case symv = fun _ => false of precompute_agree3 *)
  destruct (precompute_agree3 F f0 fadd fmul fsub fdiv fopp lay shp sz (fun _ => false) lay_inj
              nc nc_pre st0 st2 en known G pre) as [HA2 HC2]; try assumption.
  - now apply wf_prog3_nosym.
  - now apply nobf_defs3_nosym.
  - apply sym_promise_nosym.
  - intros l Hl. rewrite run_defs3_nosym. now apply Hst2.
  - rewrite eval_defs_app.
    now apply (kernel_denotes_integrand F f0 fadd fmul fsub fdiv fopp lay shp sz lay_inj) with (known := G).
Qed.

(* vector-valued kernels: `r[i] += code(e_i)` for every integrand vector accumulates, in component k, exactly what the
   scalar kernel body accumulates for the k-th components ... *)
Theorem kernel_body_accumulates_components : forall nc st css r k,
  kernel_body_vec F fadd fmul fsub fdiv fopp nc st css r k
  = kernel_body F fadd fmul fsub fdiv fopp nc st (comp F k css) (r k).
Proof using Type.
  intros nc st. unfold kernel_body_vec, kernel_body. induction css as [|cs rest IH]; intros r k; [reflexivity|].
  simpl fold_left at 1. rewrite IH. unfold comp. simpl flat_map. rewrite fold_left_app. f_equal.
  unfold vstep. destruct (nth_error cs k) as [c|]; reflexivity.
Qed.

(* ... the nested loops with a vector accumulator are the scalar loops per component ... *)
Theorem vector_loop_is_componentwise : forall ns (f : list nat -> nat -> F) acc k,
  loop_box (nat -> F) (vadd F fadd) ns f acc k = loop_box F fadd ns (fun idx => f idx k) (acc k).
Proof. exact (loop_box_component F fadd). Qed.

(* ... hence entry_denotes_gauss_sum holds for every component block of a vector-valued assembler *)
Theorem entry_denotes_gauss_sum_component :
  forall k (s1 s2 : list (nat * nat)) (fvec : list nat -> nat -> F)
         (nc : list nat -> nctx F) (st : list nat -> store F) (en : list nat -> env F) known ds es cs,
  wf_prog F lay shp sz known ds -> omap (compile F lay shp) es = Some cs ->
  Forall (wfe F shp sz (names_after F known ds)) es ->
  (forall idx, Agree F lay shp sz (st idx) (en idx) known /\ Ctx F (nc idx) (en idx)) ->
  (forall idx, fvec idx k = sumF F f0 fadd (map (ceval F fadd fmul fsub fdiv fopp (nc idx)
                                             (run_defs F fadd fmul fsub fdiv fopp lay shp (nc idx) (st idx) ds)) cs)) ->
  entry_impl (nat -> F) (vzero F f0) (vadd F fadd) s1 s2 fvec k
  = match entry_ranges s1 s2 with
    | None => f0
    | Some rs => sum_box F f0 fadd rs
        (fun idx => sumF F f0 fadd (map (eval F fadd fmul fsub fdiv fopp
                                           (eval_defs F f0 fadd fmul fsub fdiv fopp (en idx) ds)) es))
    end.
Proof using lay_inj add_0_l add_0_r add_assoc.
  intros k s1 s2 fvec nc st en known ds es cs Hwf Hc Hw Hn Hf.
  rewrite entry_impl_component, (entry_impl_ext F f0 fadd s1 s2 _ _ Hf).
  now apply (entry_denotes_gauss_sum F f0 fadd fmul fsub fdiv fopp lay shp sz lay_inj add_0_l add_0_r add_assoc)
    with (known := known).
Qed.
End Layer4b.
Print Assumptions precompute_then_kernel_equals_forest.
Print Assumptions kernel_body_accumulates_components.
Print Assumptions vector_loop_is_componentwise.
Print Assumptions entry_denotes_gauss_sum_component.

(* symmetric variables: gen_assign writes the entries i <= j of the defining matrix expression to the slots
   ofs + sym_index_to_seq n i j (one after the other); if the expression is symmetric at that node, then EVERY
   reference var_ref(var, (i,j)) -- in either index order -- reads the value of the expression's (i,j) entry, and no slot
   outside the variable's block of n(n+1)/2 is touched.  (Injectivity on i <= j and slot(i,j) = slot(j,i):
   sym_index_bijection.)  The symmetry of the expression is the user's promise `symmetric=True`. *)
Theorem symmetric_storage_sound : forall (F : Type) (mk : nat -> loc) n ofs (vals : nat -> nat -> F) (st : store F),
  (forall a b, mk a = mk b -> a = b) ->
  (forall i j, i < n -> j < n -> vals i j = vals j i) ->
  let st' := write_all F mk st (sym_writes F n ofs vals) in
  (forall i j, i < n -> j < n -> st' (mk (ofs + sym_index_to_seq n i j)) = vals i j) /\
  (forall l, (forall s, s < n * (n + 1) / 2 -> l <> mk (ofs + s)) -> st' l = st l).
Proof. exact sym_writes_sound. Qed.
Print Assumptions symmetric_storage_sound.

(* The concrete syntax (coq/C01/Printer.v): [print] mirrors gencode_* token by token (every binary node in
   brackets, prefix minus, f(...)); [parse] is a precedence-climbing parser with the operator precedence of
   C/Cython (unary minus > * / > + -, left associative).  Reading the printed code back gives the expression tree
   it was printed from, for EVERY tree: the brackets gencode_scalaroper emits are sufficient.  (Examples.v shows a
   printer that omits them around products fails on x / (a * b).) *)
Theorem printed_code_parses_back : forall (F : Type) (c : cexpr F), parse F (print F c) = Some c.
Proof.
  intros F c. unfold parse.
  rewrite <- (app_nil_r (print F c)) at 2.
  rewrite (roundtrip_expr F c (List.length (print F c)) 1 []); [reflexivity | | exact I].
  pose proof (fuel_of_lt_length F c). lia.
Qed.
Print Assumptions printed_code_parses_back.

(* NOT PROVED within the model:
     - the theorems of this file about [wf_prog]/[run_defs] (kernel_denotes_integrand,
       precompute_then_kernel_equals_forest, the entry-level statements) assume a layout that is injective on
       (variable, row-major entry), i.e. forests without `symmetric=True` variables; forests with them are Props2.v;
     - precompute_then_kernel_equals_forest is stated for the emitted order "all precomputable definitions, then the
       kernel's"; that this order and the interleaved topological order of vform.dependency_analysis denote the same
       environment is C06's schedule_computes_the_denotation (not re-stated here); the classification itself
       (scope != BASISFUN, is_global) is a hypothesis (nobf_defs, is_glob), checked on the generated text by
       harness/props/c01.py (statement order, read-before-write);
     - the input copies of __init__ (fields[..., ofs:ofs+sz] = grid_eval(...)) are the hypothesis [Agree st0 en known];
     - that the characters printed by CodeGen are the token streams of [print]: tied exactly on every run (the token
       stream of the generated text of sampled expressions = [print] of their tree, compared inside Coq; and an
       independent C-precedence parser in harness/props/c01.py reads every printed expression back to its tree),
       together with the slot-level comparison and the statement-order check. *)

(* NOT PROVED (layer 4, runtime only):
     forall well-formed form F, space, geometry, inputs:
       compiled_entry F (i, j) = sum_box full (integrand F i j)
   where compiled_entry is what Cython + gcc -O3 -march=native -ffast-math + libm compute from
   the generated text.  What is missing: a semantics of Cython/C and of the tool chain (no
   VST/CompCert here).  The composition that IS proved: C06 finalize_sound (the finalized
   forest denotes the integrand), the layout theorems above (every read hits the slot that
   was written), entry_is_full_gauss_sum/bbox_shift_invariant/assemble_vector_order (loop
   structure).  The remaining gap is closed by differential testing against an independent
   interpreter of the form (harness/props/c01_oracle.py) on every run. *)
