(* C01 -- property theorems, continued: the emitted program WITH symmetric variables (coq/C01/Kernel3.v).
   `symmetric=True` variables, stored through sym_index_to_seq with only the entries i <= j assigned (gen_assign,
   codegen/cython.py:227-235) and read through storage_index (114-123) in either index order, are a case of the
   program model: wf_prog3 / run_defs3.
   The layout [lay] is injective on (variable, STORED slot) only.  What the theorems need in addition to those of
   Props.v is [sym_promise]: at the node, the defining matrix expression of every symmetric variable has equal
   (i,j) and (j,i) entries -- the user's promise `symmetric=True`; Examples2.v shows it cannot be dropped. *)
From Coq Require Import List String.
From Verif.C06 Require Import Model.
From Verif.C01 Require Import Kernel Kernel2 Kernel3.
Import ListNotations.
Open Scope nat_scope.

Section Layer4Sym.
Variable F : Type.
Variables (f0 : F) (fadd fmul fsub fdiv : F -> F -> F) (fopp : F -> F).
Variable lay : string -> nat -> loc.
Variable shp : string -> list nat.
Variable sz : string -> nat.
Variable symv : string -> bool.
Hypothesis lay_inj : forall n k n' k', lay n k = lay n' k' -> n = n' /\ k = k'.

(* at one Gauss node: kernel_denotes_integrand for forests with symmetric variables *)
Theorem kernel_denotes_integrand_sym : forall nc st en known ds es cs,
  wf_prog3 F f0 lay shp sz symv known ds ->
  sym_promise F f0 fadd fmul fsub fdiv fopp symv en ds ->
  Agree3 F lay shp sz symv st en known -> Ctx F nc en ->
  omap (compile3 F lay shp symv) es = Some cs ->
  Forall (wfe3 F shp sz symv (names_after F known ds)) es ->
  map (ceval F fadd fmul fsub fdiv fopp nc (run_defs3 F f0 fadd fmul fsub fdiv fopp lay shp symv nc st ds)) cs
  = map (eval F fadd fmul fsub fdiv fopp (eval_defs F f0 fadd fmul fsub fdiv fopp en ds)) es.
Proof. exact (kernel_node_sound3 F f0 fadd fmul fsub fdiv fopp lay shp sz symv lay_inj). Qed.

(* one definition: after the emitted assignments of (name, t) every reference var_ref(name, I) -- for a symmetric
   variable in EITHER index order -- reads the C06 value of the entry, and the references to earlier variables still do *)
Theorem gen_assign_sym_establishes_binding : forall nc st en known name t es kcs,
  ~ In name known -> Ctx F nc en -> Agree3 F lay shp sz symv st en known ->
  tentries F t = Some es ->
  omap (compile_kv F lay shp symv) (writes F f0 symv name t es) = Some kcs ->
  Forall (fun ke => wfe3 F shp sz symv known (snd ke)) (writes F f0 symv name t es) ->
  shp name = tshape F t ->
  (symv name = false -> sz name = List.length es) ->
  (symv name = true -> exists m, tshape F t = [m; m] /\ List.length es = m * m) ->
  (symv name = true -> forall i j, i < hd 0 (tshape F t) -> j < hd 0 (tshape F t) ->
     eval F fadd fmul fsub fdiv fopp en (nth (i * hd 0 (tshape F t) + j) es (@Const F f0))
     = eval F fadd fmul fsub fdiv fopp en (nth (j * hd 0 (tshape F t) + i) es (@Const F f0))) ->
  Agree3 F lay shp sz symv (assign_list F fadd fmul fsub fdiv fopp lay nc st name kcs)
         (bind F f0 en name (tshape F t) (map (eval F fadd fmul fsub fdiv fopp en) es)) (name :: known).
Proof.
  intros nc st en known name t es kcs Hn HC HA _.
  exact (agree3_after_def F f0 fadd fmul fsub fdiv fopp lay shp sz symv lay_inj nc st en known name t es kcs Hn HC HA).
Qed.

(* precompute_fields, then the kernel -- precompute_then_kernel_equals_forest for forests with symmetric variables
   (a symmetric variable may be precomputed into fields[] and read by the kernel, or be a local of either phase) *)
Theorem precompute_then_kernel_equals_forest_sym :
  forall (nc nc_pre : nctx F) (st0 st2 : store F) (en : env F) known G pre ker es cs,
  wf_prog3 F f0 lay shp sz symv known pre -> nobf_defs3 F f0 symv pre ->
  incl G (names_after F known pre) -> (forall n k, In n G -> is_glob (lay n k) = true) ->
  wf_prog3 F f0 lay shp sz symv G ker ->
  sym_promise F f0 fadd fmul fsub fdiv fopp symv en (pre ++ ker) ->
  omap (compile3 F lay shp symv) es = Some cs -> Forall (wfe3 F shp sz symv (names_after F G ker)) es ->
  Agree3 F lay shp sz symv st0 en known -> Ctx F nc en ->
  (forall a, gwv F nc_pre a = gwv F nc a) -> (forall f x, fnv F nc_pre f x = fnv F nc f x) ->
  (forall l, is_glob l = true -> st2 l = run_defs3 F f0 fadd fmul fsub fdiv fopp lay shp symv nc_pre st0 pre l) ->
  map (ceval F fadd fmul fsub fdiv fopp nc (run_defs3 F f0 fadd fmul fsub fdiv fopp lay shp symv nc st2 ker)) cs
  = map (eval F fadd fmul fsub fdiv fopp (eval_defs F f0 fadd fmul fsub fdiv fopp en (pre ++ ker))) es.
Proof.
  intros nc nc_pre st0 st2 en known G pre ker es cs Hwp Hnb Hincl Hglob Hwk Hpr Hc Hw HA HC Hg Hf Hst2.
  apply sym_promise_app in Hpr. destruct Hpr as [Hp1 Hp2].
  destruct (precompute_agree3 F f0 fadd fmul fsub fdiv fopp lay shp sz symv lay_inj nc nc_pre st0 st2 en known G pre)
    as [HA2 HC2]; try assumption.
  rewrite eval_defs_app.
  now apply (kernel_node_sound3 F f0 fadd fmul fsub fdiv fopp lay shp sz symv lay_inj) with (known := G).
Qed.
End Layer4Sym.
Print Assumptions kernel_denotes_integrand_sym.
Print Assumptions gen_assign_sym_establishes_binding.
Print Assumptions precompute_then_kernel_equals_forest_sym.

(* NOT PROVED within the model, beside the list at the end of Props.v (which holds of the _sym theorems as well):
     - the entry-level statements (entry_denotes_gauss_sum, entry_denotes_full_gauss_sum, ..._component) are stated in
       Props.v for run_defs; their symmetric versions follow from kernel_denotes_integrand_sym by the same two lines
       (entry_impl_pointwise) and are not restated;
     - the boundary variant of __init__ (meshsupp = [[0,1]], C[0:1,0:1,:] / C[-1:,-1:,:], ndofs[bdax] = 1), the on-demand
       constructor (mesh[bb0:bb1+1], bbox_ofs = bb0*nqp; the loop part is bbox_shift_invariant), update()/update_params()
       are NOT modelled: they are exercised by the oracle comparison of harness/props/c01.py only
       (boundary forms on every side, parameters; on-demand assemblers through C03). *)
