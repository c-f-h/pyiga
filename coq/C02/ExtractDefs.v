(* C02 -- the entry points of the extracted (OCaml) run of the exact model, and the in-Coq
   cross-check of extracted results (a sample of every extracted run is re-evaluated by
   vm_compute, so that extraction itself is tested).  Executable definitions; what they compute is stated in Props3. *)
From Coq Require Import QArith Qcanon ZArith List Bool Arith Lia.
From Verif.lib Require Import Bsp.
From Verif.C02 Require Import Proofs Proofs_tp.
Import ListNotations.
Open Scope Qc_scope.

(* one evaluation point, all routes of the model:
   (findspan, active_deriv rows 0..nd, single_ev of every basis function, spline_ev of orders 0..nd) *)
Definition ex_point (kv : list Qc) (p nd : nat) (c : list Qc) (u : Qc)
  : nat * list (list Qc) * list Qc * list Qc :=
  (findspan kv p u,
   active_deriv kv p u nd,
   map (fun i => single_ev kv p i u) (seq 0 (numdofs kv p)),
   map (fun k => spline_ev kv p k c u) (seq 0 (S nd))).

(* exact comparison of lists of canonical rationals *)
Fixpoint qlist_eqb (a b : list Qc) : bool :=
  match a, b with
  | [], [] => true
  | x :: a', y :: b' => qeqb x y && qlist_eqb a' b'
  | _, _ => false
  end.
Fixpoint qlist2_eqb (a b : list (list Qc)) : bool :=
  match a, b with
  | [], [] => true
  | x :: a', y :: b' => qlist_eqb x y && qlist2_eqb a' b'
  | _, _ => false
  end.

(* what the extracted program printed for one point, re-evaluated inside Coq *)
Definition xcheck (kv : list Qc) (p nd : nat) (c : list Qc) (u : Qc)
  (span : nat) (ad : list (list Qc)) (sev evs : list Qc) : bool :=
  let '(s, ad', sev', evs') := ex_point kv p nd c u in
  open_kv kv p && Nat.eqb s span && qlist2_eqb ad ad' && qlist_eqb sev sev' && qlist_eqb evs evs'.

Lemma qlist_eqb_eq : forall a b, qlist_eqb a b = true -> a = b.
Proof.
  induction a as [|x a IH]; intros [|y b] H; cbn in H; try discriminate; [reflexivity|].
  apply andb_prop in H. destruct H as [Hx Hr]. f_equal; [apply qeqb_iff; exact Hx|apply IH; exact Hr].
Qed.

Lemma qlist2_eqb_eq : forall a b, qlist2_eqb a b = true -> a = b.
Proof.
  induction a as [|x a IH]; intros [|y b] H; cbn in H; try discriminate; [reflexivity|].
  apply andb_prop in H. destruct H as [Hx Hr]. f_equal; [apply qlist_eqb_eq; exact Hx|apply IH; exact Hr].
Qed.
