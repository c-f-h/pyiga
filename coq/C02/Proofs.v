(* C02 -- the span search pyx_findspan (Bsp.findspan): the invariant of the bisection, the span it
   reports and its uniqueness, from the facts kv_ok about an open knot vector. *)
From Coq Require Import QArith Qcanon ZArith List Bool Arith Lia.
From Verif.lib Require Import Bsp.
From Verif.lib Require Export BspFacts.
Import ListNotations.
Open Scope Qc_scope.

Lemma qltb_false_iff a b : qltb a b = false <-> b <= a.
Proof.
  unfold qltb. rewrite negb_false_iff. apply Qle_bool_iff.
Qed.

Lemma qleb_false_iff a b : qleb a b = false <-> b < a.
Proof.
  split.
  - intros H. apply Qcnot_le_lt. intros L. apply qleb_iff in L. congruence.
  - intros H. destruct (qleb a b) eqn:E; [|reflexivity]. apply qleb_iff in E.
    exfalso. apply (Qclt_not_le _ _ H). exact E.
Qed.

Definition sorted (kv : list Qc) : Prop :=
  forall i j, (i <= j)%nat -> (j < length kv)%nat -> kn kv i <= kn kv j.

Lemma bisect_spec kv u : forall fuel a b,
  (b - a <= fuel)%nat -> (a < b)%nat -> kn kv a <= u -> u < kn kv b ->
  let s := bisect fuel kv u a b in
  (a <= s)%nat /\ (s < b)%nat /\ kn kv s <= u /\ u < kn kv (S s).
Proof.
  induction fuel as [|f IH]; intros a b Hf Hab Ha Hb; [lia|].
  cbn [bisect]. destruct (Nat.leb_spec (b - a) 1) as [L|L].
  - assert (b = S a) by lia. subst b. repeat split; auto; lia.
  - assert (Hh : (0 < (b - a) / 2 < b - a)%nat)
      by (split; [apply Nat.div_str_pos|apply Nat.div_lt]; lia).
    set (c := (a + (b - a) / 2)%nat).
    assert (Hc : (a < c < b)%nat) by (unfold c; lia).
    destruct (qltb u (kn kv c)) eqn:E.
    + apply qltb_iff in E.
      destruct (IH a c ltac:(lia) ltac:(lia) Ha E) as [H1 [H2 [H3 H4]]].
      repeat split; auto; lia.
    + apply qltb_false_iff in E.
      destruct (IH c b ltac:(lia) ltac:(lia) E Hb) as [H1 [H2 [H3 H4]]].
      repeat split; auto; lia.
Qed.

(* the open-knot-vector facts findspan relies on *)
Record kv_ok (kv : list Qc) (p : nat) : Prop := {
  ok_len : (2 * p + 2 <= length kv)%nat;
  ok_sorted : sorted kv;
  ok_first : kn kv p = kn kv 0;
  ok_last : kn kv (length kv - p - 1) = kn kv (length kv - 1);
  ok_last_span : kn kv (length kv - p - 2) < kn kv (length kv - p - 1) }.

Lemma findspan_spec_l kv p u :
  kv_ok kv p -> kn kv 0 <= u -> u <= kn kv (length kv - 1) ->
  let s := findspan kv p u in
  (p <= s)%nat /\ (s < length kv - p - 1)%nat /\ kn kv s < kn kv (S s) /\
  kn kv s <= u /\ (u < kn kv (S s) \/ (u = kn kv (length kv - 1) /\ kn kv (S s) = kn kv (length kv - 1))).
Proof.
  intros [Hlen Hs Hf Hl Hls] Hu0 Hu1. unfold findspan.
  set (n := length kv) in *.
  destruct (qleb (kn kv (n - p - 1)) u) eqn:E.
  - apply qleb_iff in E.
    replace (S (n - p - 2)) with (n - p - 1)%nat by lia.
    assert (Hu : u = kn kv (n - 1)).
    { apply Qcle_antisym; [exact Hu1|]. rewrite <- Hl. exact E. }
    repeat split; try lia.
    + exact Hls.
    + eapply Qcle_trans; [|exact E]. apply Hs; lia.
    + right. split; [exact Hu|exact Hl].
  - apply qleb_false_iff in E.
    assert (Hb : u < kn kv (n - 1)).
    { eapply Qclt_le_trans; [exact E|]. apply Hs; lia. }
    destruct (bisect_spec kv u n 0 (n - 1) ltac:(lia) ltac:(lia) Hu0 Hb) as [H1 [H2 [H3 H4]]].
    set (s := bisect n kv u 0 (n - 1)) in *.
    assert (Hp : (p <= s)%nat).
    { destruct (Nat.le_gt_cases p s) as [L|L]; [exact L|]. exfalso.
      assert (kn kv (S s) <= kn kv p) by (apply Hs; lia).
      rewrite Hf in H. apply (Qclt_not_le _ _ H4). eapply Qcle_trans; eassumption. }
    assert (Hq : (s < n - p - 1)%nat).
    { destruct (Nat.le_gt_cases (n - p - 1) s) as [L|L]; [|exact L]. exfalso.
      assert (kn kv (n - p - 1) <= kn kv s) by (apply Hs; lia).
      apply (Qclt_not_le _ _ E). eapply Qcle_trans; eassumption. }
    repeat split; auto.
    eapply Qcle_lt_trans; eassumption.
Qed.

Lemma findspan_unique_l kv p u t :
  kv_ok kv p -> kn kv 0 <= u -> u < kn kv (length kv - 1) ->
  (S t < length kv)%nat -> kn kv t <= u -> u < kn kv (S t) -> t = findspan kv p u.
Proof.
  intros Hok Hu0 Hu1 Ht H1 H2.
  destruct (findspan_spec_l kv p u Hok Hu0 (Qclt_le_weak _ _ Hu1)) as [A [B [C [D E]]]].
  set (s := findspan kv p u) in *.
  destruct E as [E|[E _]]; [|subst u; exfalso; revert Hu1; apply Qcle_not_lt; apply Qcle_refl].
  pose proof (ok_sorted _ _ Hok) as Hs.
  destruct (Nat.lt_trichotomy t s) as [L|[L|L]]; [|exact L|]; exfalso.
  - assert (kn kv (S t) <= kn kv s) by (apply Hs; lia).
    apply (Qclt_not_le _ _ H2). eapply Qcle_trans; eassumption.
  - assert (kn kv (S s) <= kn kv t) by (apply Hs; lia).
    apply (Qclt_not_le _ _ E). eapply Qcle_trans; eassumption.
Qed.
