(* C02 -- derivatives: the closed formula  N^(k)_{i,p} = p!/(p-k)! * sum_j a_{k,j} N_{i+j,p-k}
   (NURBS book eq. 2.10) derived from the derivative recursion dNref, and the correctness of the
   a1/a2 loop of bspline_active_deriv_single (Bsp.deriv_step / derivs_of) that evaluates it.
   For every degree, knot vector, u and derivative order. *)
From Coq Require Import QArith Qcanon ZArith List Bool Arith Lia.
From Verif.lib Require Import Bsp ListFacts.
From Verif.C02 Require Import Proofs Proofs_ref Proofs_ndu.
Import ListNotations.
Open Scope Qc_scope.

Lemma Zq_mult a b : Zq (a * b) = Zq a * Zq b.
Proof. unfold Zq. qc2q. rewrite inject_Z_mult. reflexivity. Qed.

Lemma Zq_1 : Zq 1 = 1.
Proof. apply Qc_is_canon. reflexivity. Qed.

(* summation by parts *)
Definition cprev (c : nat -> Qc) (j : nat) : Qc := match j with O => 0 | S j' => c j' end.

Lemma cprev_pos c j : (1 <= j)%nat -> cprev c j = c (j - 1)%nat.
Proof. intros H. destruct j as [|j']; [lia|]. cbn [cprev]. f_equal. lia. Qed.

Lemma sumf_by_parts (c G : nat -> Qc) : forall n,
  sumf (fun j => (c j - cprev c j) * G j) 0 (S n) =
  sumf (fun j => c j * (G j - G (S j))) 0 n + c n * G n.
Proof.
  induction n as [|n IH].
  - cbn [sumf cprev]. ring.
  - rewrite sumf_last, IH. rewrite (sumf_last _ n). cbn [Nat.add cprev]. ring.
Qed.

Section DFORMULA.
Variable kv : list Qc.
Variable p i : nat.
Variable u : Qc.

(* the coefficients a_{l,j} of eq. 2.10, with the x/0 = 0 convention of the reference *)
Fixpoint acoef (l j : nat) : Qc :=
  match l with
  | O => if (j =? 0)%nat then 1 else 0
  | S l' => (acoef l' j - cprev (acoef l') j) / (kn kv (j + i + (p - l')) - kn kv (j + i))
  end.

Lemma acoef_zero : forall l j, (l < j)%nat -> acoef l j = 0.
Proof.
  induction l as [|l IH]; intros j H.
  - cbn [acoef]. destruct (Nat.eqb_spec j 0); [lia|reflexivity].
  - cbn [acoef]. rewrite IH by lia. destruct j as [|j']; [lia|]. cbn [cprev]. rewrite IH by lia.
    replace (0 - 0) with 0 by ring. apply Qcdiv_0_l.
Qed.

(* p (p-1) ... (p-l+1) *)
Fixpoint Ffac (l : nat) : Z :=
  match l with O => 1%Z | S l' => (Ffac l' * (Z.of_nat p - Z.of_nat l'))%Z end.

Lemma dN_expand : forall l k, (l <= k)%nat -> (k <= p)%nat ->
  dNref kv k p i u =
  Zq (Ffac l) * sumf (fun j => acoef l j * dNref kv (k - l) (p - l) (j + i) u) 0 (S l).
Proof.
  induction l as [|l IH]; intros k Hl Hk.
  - cbn [sumf acoef Ffac Nat.eqb Nat.add]. rewrite Zq_1, !Nat.sub_0_r. ring.
  - rewrite (IH k) by lia.
    destruct (k - l)%nat as [|k'] eqn:Ek; [lia|]. destruct (p - l)%nat as [|q'] eqn:Ep; [lia|].
    replace (k - S l)%nat with k' by lia. replace (p - S l)%nat with q' by lia.
    set (G := fun j => dquot kv k' q' u (j + i)).
    rewrite (sumf_ext _ (fun j => Zq (Z.of_nat (S q')) * (acoef l j * (G j - G (S j))))).
    2:{ intros j _. rewrite dNref_S. unfold G. cbn [Nat.add]. ring. }
    rewrite sumf_scale.
    pose proof (sumf_by_parts (acoef l) G (S l)) as BP.
    rewrite (acoef_zero l (S l)) in BP by lia.
    assert (BP' : sumf (fun j => acoef l j * (G j - G (S j))) 0 (S l) =
                  sumf (fun j => (acoef l j - cprev (acoef l) j) * G j) 0 (S (S l))).
    { rewrite BP. ring. }
    rewrite BP'.
    rewrite (sumf_ext (fun j => (acoef l j - cprev (acoef l) j) * G j)
                      (fun j => acoef (S l) j * dNref kv k' q' (j + i) u)).
    2:{ intros j _. unfold G, dquot. cbn [acoef]. rewrite Ep. unfold Qcdiv. ring. }
    cbn [Ffac]. rewrite Zq_mult.
    replace (Z.of_nat p - Z.of_nat l)%Z with (Z.of_nat (S q')) by lia. ring.
Qed.

Lemma dN_formula_l k : (k <= p)%nat ->
  dNref kv k p i u = Zq (Ffac k) * sumf (fun j => acoef k j * Nref kv (p - k) (j + i) u) 0 (S k).
Proof.
  intros Hk. rewrite (dN_expand k k) by lia. rewrite Nat.sub_diag. reflexivity.
Qed.

End DFORMULA.

(* deriv_step, cut into its three parts *)
Definition dpart1 (M : list (list Qc)) (p r k : Z) (a1 a2 : list Qc) : list Qc * Qc :=
  if (k <=? r)%Z then
    let v := znth a1 0 / zget2 M (p - k + 1) (r - k) in (zupd a2 0 v, v * zget2 M (r - k) (p - k))
  else (a2, 0).
Definition dj1 (r k : Z) : Z := if (-1 <=? r - k)%Z then 1%Z else (- (r - k))%Z.
Definition dj2 (p r k : Z) : Z := if (r - 1 <=? p - k)%Z then (k - 1)%Z else (p - r)%Z.
Definition dmid (M : list (list Qc)) (p r k : Z) (a1 : list Qc) (s : list Qc * Qc) (j : Z) : list Qc * Qc :=
  let '(a2, d) := s in
  let v := (znth a1 j - znth a1 (j - 1)) / zget2 M (p - k + 1) (r - k + j) in
  (zupd a2 j v, d + v * zget2 M (r - k + j) (p - k)).
Definition dpart3 (M : list (list Qc)) (p r k : Z) (a1 : list Qc) (s : list Qc * Qc) : list Qc * Qc :=
  let '(a2, d) := s in
  if (r <=? p - k)%Z then
    let v := - znth a1 (k - 1) / zget2 M (p - k + 1) r in (zupd a2 k v, d + v * zget2 M r (p - k))
  else (a2, d).

Lemma deriv_step_eq M p r k a1 a2 fac acc :
  deriv_step M p r (a1, a2, fac, acc) k =
  let '(a2', d) := dpart3 M p r k a1
                     (fold_left (dmid M p r k a1) (zrange (dj1 r k) (dj2 p r k + 1)) (dpart1 M p r k a1 a2)) in
  (a2', a1, (fac * (p - k))%Z, d * Zq fac :: acc).
Proof.
  unfold deriv_step, dpart3, dpart1, dj1, dj2. fold (dmid M p r k a1).
  destruct (k <=? r)%Z;
    (match goal with |- context [fold_left ?f ?l ?a] => destruct (fold_left f l a) as [x y] end);
    destruct (r <=? p - k)%Z; reflexivity.
Qed.

Section DERIV.
Variable kv : list Qc.
Variable span : nat.
Variable u : Qc.
Variable p r : nat.
Variable M : list (list Qc).
Hypothesis Hs : sorted kv.
Hypothesis Hsp : span_ok kv span u.
Hypothesis Hp : (p <= span)%nat.
Hypothesis Hl : (span + p + 1 < length kv)%nat.
Hypothesis Hr : (r <= p)%nat.
Hypothesis HM : forall a b, (a <= p)%nat -> (b <= p)%nat -> get2 M a b = tbl kv span u a b.

Local Notation i := (span - p + r)%nat.

Definition Nf (k j : nat) : Qc := Nref kv (p - k) (j + i) u.

(* where the loop finds N_{i+j,p-k} and the knot difference of a_{k,j} in the NDU table *)
Lemma Mval k j : (k <= r + j)%nat -> (r + j <= p)%nat -> get2 M (r + j - k) (p - k) = Nf k j.
Proof.
  intros H1 H2. rewrite HM, tbl_upper by lia. unfold Nf. f_equal. lia.
Qed.

Lemma Mdiv k j : (1 <= k)%nat -> (k <= r + j)%nat -> (r + j <= p)%nat ->
  get2 M (p - k + 1) (r + j - k) = kn kv (j + i + (p - (k - 1))) - kn kv (j + i).
Proof.
  intros Hk H1 H2. rewrite HM, tbl_lower by lia. f_equal; f_equal; lia.
Qed.

(* entries k-r..x-1 of a2 hold the order-k coefficients, d the sum of eq. 2.10 up to x
   (its terms below k-r vanish) *)
Definition coef_inv (k x : nat) (st : list Qc * Qc) : Prop :=
  length (fst st) = (p + 2)%nat /\
  (forall j, (k <= r + j)%nat -> (j < x)%nat -> nth j (fst st) 0 = acoef kv p i k j) /\
  snd st = sumf (fun j => acoef kv p i k j * Nf k j) 0 x.

Lemma coef_inv_start k x a2 : length a2 = (p + 2)%nat -> (k <= p)%nat -> (x <= k - r)%nat -> coef_inv k x (a2, 0).
Proof.
  intros HL Hk Hx. split; [exact HL|]. split; cbn [fst snd]; [intros j H1 H2; lia|].
  symmetry. apply sumf_zero. intros j Hj. unfold Nf.
  rewrite (N_zero_left kv Hs span u (p - k) (j + i) Hsp) by lia. ring.
Qed.

Section STEP.
Variable k : nat.
Hypothesis Hk : (1 <= k <= p)%nat.
(* the coefficient row of the previous order *)
Variable a1 : list Qc.
Hypothesis Ha1 : forall j, (k <= r + j + 1)%nat -> (j < k)%nat -> (r + j <= p)%nat ->
  nth j a1 0 = acoef kv p i (k - 1) j.

Local Notation zk := (Z.of_nat k).
Local Notation zp := (Z.of_nat p).
Local Notation zr := (Z.of_nat r).

(* what each of the three parts of deriv_step does for one j = x, in the code's (Z) indices:
   a2[x] := num / ndu[p-k+1][r-k+x];  d += a2[x] * ndu[r-k+x][p-k] *)
Lemma coef_inv_extend x a2 d num zx zi v d' : (k <= r + x)%nat -> (r + x <= p)%nat -> coef_inv k x (a2, d) ->
  zx = Z.of_nat x -> zi = (zr - zk + zx)%Z ->
  num = acoef kv p i (k - 1) x - cprev (acoef kv p i (k - 1)) x ->
  v = num / zget2 M (zp - zk + 1) zi -> d' = d + v * zget2 M zi (zp - zk) ->
  coef_inv k (S x) (zupd a2 zx v, d').
Proof.
  intros H1 H2 [HL [Hent Hd]] -> -> Hnum Hv Hd'. cbn [fst snd] in *.
  unfold zget2, zupd in *. rewrite Nat2Z.id.
  replace (Z.to_nat (zp - zk + 1)) with (p - k + 1)%nat in Hv by lia.
  replace (Z.to_nat (zr - zk + Z.of_nat x)) with (r + x - k)%nat in Hv, Hd' by lia.
  replace (Z.to_nat (zp - zk)) with (p - k)%nat in Hd' by lia.
  assert (Ev : v = acoef kv p i k x).
  { rewrite Hv, Hnum, Mdiv by lia. destruct k as [|k']; [lia|].
    cbn [acoef]. replace (S k' - 1)%nat with k' by lia. reflexivity. }
  split; [|split]; cbn [fst snd].
  - rewrite length_upd; lia.
  - intros j Hj1 Hj2. rewrite nth_upd by lia. destruct (Nat.eqb_spec j x) as [->|Ne]; [exact Ev|].
    apply Hent; lia.
  - rewrite sumf_last, Hd', Hd, Mval, Ev by lia. reflexivity.
Qed.

Lemma dpart1_inv a2 : length a2 = (p + 2)%nat -> coef_inv k (Nat.max 1 (k - r)) (dpart1 M zp zr zk a1 a2).
Proof.
  intros HL. unfold dpart1. destruct (Z.leb_spec zk zr) as [L|L].
  - replace (Nat.max 1 (k - r)) with 1%nat by lia. cbv zeta.
    apply (coef_inv_extend 0 a2 0 (znth a1 0) 0%Z (zr - zk)%Z); try reflexivity; try lia.
    + apply coef_inv_start; [exact HL|lia|lia].
    + unfold znth. cbn [Z.to_nat cprev]. rewrite Ha1 by lia. ring.
    + ring.
  - replace (Nat.max 1 (k - r)) with (k - r)%nat by lia. apply coef_inv_start; [exact HL|lia|lia].
Qed.

Lemma dmid_inv x st : (1 <= x < k)%nat -> (k <= r + x)%nat -> (r + x <= p)%nat ->
  coef_inv k x st -> coef_inv k (S x) (dmid M zp zr zk a1 st (Z.of_nat x)).
Proof.
  intros Hx H1 H2 HP. destruct st as [a2 d]. unfold dmid. cbv zeta.
  apply (coef_inv_extend x a2 d (znth a1 (Z.of_nat x) - znth a1 (Z.of_nat x - 1)) (Z.of_nat x)
           (zr - zk + Z.of_nat x)%Z); try reflexivity; try assumption.
  unfold znth. rewrite Nat2Z.id. replace (Z.to_nat (Z.of_nat x - 1)) with (x - 1)%nat by lia.
  rewrite cprev_pos, !Ha1 by lia. reflexivity.
Qed.

Lemma dmid_loop_inv st : coef_inv k (Nat.max 1 (k - r)) st ->
  coef_inv k (Nat.min k (p - r + 1)) (fold_left (dmid M zp zr zk a1) (zrange (dj1 zr zk) (dj2 zp zr zk + 1)) st).
Proof.
  intros HP. unfold zrange. rewrite fold_left_map.
  set (x1 := Nat.max 1 (k - r)) in *. set (x2 := Nat.min k (p - r + 1)).
  assert (B : (1 <= x1 /\ k <= r + x1 /\ x1 <= x2 /\ x2 <= k /\ r + x2 <= p + 1)%nat) by (unfold x1, x2; lia).
  assert (E1 : dj1 zr zk = Z.of_nat x1).
  { unfold dj1, x1. destruct (Z.leb_spec (-1) (zr - zk)); lia. }
  assert (E2 : (dj2 zp zr zk + 1)%Z = Z.of_nat x2).
  { unfold dj2, x2. destruct (Z.leb_spec (zr - 1) (zp - zk)); lia. }
  rewrite E1, E2. replace (Z.to_nat (Z.of_nat x2 - Z.of_nat x1)) with (x2 - x1)%nat by lia.
  clearbody x1 x2.
  replace x2 with (x1 + (x2 - x1))%nat at 1 by lia.
  apply (fold_left_seq_inv (fun s x => dmid M zp zr zk a1 s (Z.of_nat x1 + Z.of_nat x)%Z)
           (fun idx => coef_inv k (x1 + idx)) (x2 - x1) 0 st).
  - rewrite Nat.add_0_r. exact HP.
  - intros idx st' Hidx HP'. rewrite Nat.add_succ_r, <- Nat2Z.inj_add.
    apply dmid_inv; [lia|lia|lia|exact HP'].
Qed.

Lemma dpart3_inv st : coef_inv k (Nat.min k (p - r + 1)) st ->
  coef_inv k (S (Nat.min k (p - r))) (dpart3 M zp zr zk a1 st).
Proof.
  intros HP. destruct st as [a2 d]. unfold dpart3.
  destruct (Z.leb_spec zr (zp - zk)) as [L|L].
  - replace (Nat.min k (p - r + 1)) with k in HP by lia.
    replace (Nat.min k (p - r)) with k by lia. cbv zeta.
    apply (coef_inv_extend k a2 d (- znth a1 (zk - 1)) zk zr); try reflexivity; try assumption; try lia.
    unfold znth. replace (Z.to_nat (zk - 1)) with (k - 1)%nat by lia.
    rewrite cprev_pos, (acoef_zero kv p i (k - 1) k), Ha1 by lia. ring.
  - replace (S (Nat.min k (p - r))) with (Nat.min k (p - r + 1)) by lia. exact HP.
Qed.

End STEP.

(* state of the loop over the derivative order after m steps: a1 holds the coefficients of order m *)
Definition order_inv (m : nat) (st : list Qc * list Qc * Z * list Qc) : Prop :=
  let '(a1, a2, fac, acc) := st in
  length a1 = (p + 2)%nat /\ length a2 = (p + 2)%nat /\ fac = Ffac p (S m) /\
  (forall j, (m <= r + j)%nat -> (j <= m)%nat -> (r + j <= p)%nat -> nth j a1 0 = acoef kv p i m j) /\
  rev acc = map (fun l => dNref kv l p i u) (seq 1 m).

Lemma order_step m st : order_inv m st ->
  order_inv (S m) (deriv_step M (Z.of_nat p) (Z.of_nat r) st (Z.of_nat (S m))).
Proof.
  destruct st as [[[a1 a2] fac] acc]. intros [L1 [L2 [Hf [Ha1 Hacc]]]].
  rewrite deriv_step_eq. set (k := S m) in *.
  assert (Hrev : forall d, d = dNref kv k p i u ->
            rev (d :: acc) = map (fun l => dNref kv l p i u) (seq 1 k)).
  { intros d Hd. unfold k. rewrite seq_S, map_app. cbn [rev]. rewrite Hacc, Hd. reflexivity. }
  assert (Hfac : (fac * (Z.of_nat p - Z.of_nat k))%Z = Ffac p (S k)) by (rewrite Hf; reflexivity).
  destruct (Nat.le_gt_cases k p) as [Hkp|Hkp].
  - assert (Hk : (1 <= k <= p)%nat) by (unfold k; lia).
    assert (Ha1' : forall j, (k <= r + j + 1)%nat -> (j < k)%nat -> (r + j <= p)%nat ->
                     nth j a1 0 = acoef kv p i (k - 1) j).
    { intros j A B C. unfold k in *. rewrite Nat.sub_succ, Nat.sub_0_r. apply Ha1; lia. }
    pose proof (dpart3_inv k Hk a1 Ha1' _
                  (dmid_loop_inv k Hk a1 Ha1' _ (dpart1_inv k Hk a1 Ha1' a2 L2))) as HP.
    destruct (dpart3 M (Z.of_nat p) (Z.of_nat r) (Z.of_nat k) a1 _) as [a2' d].
    destruct HP as [HL' [Hent Hd]]. cbn [fst snd] in *.
    split; [exact HL'|]. split; [exact L1|]. split; [exact Hfac|]. split.
    + intros j A B C. apply Hent; lia.
    + apply Hrev. rewrite (dN_formula_l kv p i u k Hkp), Hd, Hf.
      (* the terms of eq. 2.10 the loop does not compute vanish *)
      rewrite (sumf_window _ 0 (S (Nat.min k (p - r))) (S k)).
      * apply Qcmult_comm.
      * lia.
      * intros j Hj. rewrite (N_zero_right kv Hs span u (p - k) (j + i) Hsp) by lia. ring.
  - (* k > p: nothing is executed, the derivative vanishes *)
    assert (E1 : dpart1 M (Z.of_nat p) (Z.of_nat r) (Z.of_nat k) a1 a2 = (a2, 0)).
    { unfold dpart1. destruct (Z.leb_spec (Z.of_nat k) (Z.of_nat r)); [lia|reflexivity]. }
    assert (E2 : zrange (dj1 (Z.of_nat r) (Z.of_nat k)) (dj2 (Z.of_nat p) (Z.of_nat r) (Z.of_nat k) + 1) = []).
    { unfold zrange, dj1, dj2.
      replace (Z.to_nat _) with 0%nat; [reflexivity|].
      destruct (Z.leb_spec (-1) (Z.of_nat r - Z.of_nat k));
      destruct (Z.leb_spec (Z.of_nat r - 1) (Z.of_nat p - Z.of_nat k)); lia. }
    rewrite E1, E2. cbn [fold_left]. unfold dpart3.
    destruct (Z.leb_spec (Z.of_nat r) (Z.of_nat p - Z.of_nat k)); [lia|].
    split; [exact L2|]. split; [exact L1|]. split; [exact Hfac|]. split.
    + intros j A B C. lia.
    + apply Hrev. rewrite dN_high_zero_l by lia. ring.
Qed.

Lemma derivs_of_spec nd :
  derivs_of M p nd r = map (fun l => dNref kv l p i u) (seq 1 nd).
Proof.
  unfold derivs_of, zrange. rewrite fold_left_map.
  replace (Z.to_nat (Z.of_nat nd + 1 - 1)) with nd by lia.
  pose proof (fold_left_seq_inv
     (fun s x => deriv_step M (Z.of_nat p) (Z.of_nat r) s (1 + Z.of_nat x)%Z)
     order_inv nd 0 (upd (zeros (p + 2)) 0 1, zeros (p + 2), Z.of_nat p, [])) as F.
  cbn [Nat.add] in F.
  destruct (fold_left _ (seq 0 nd) _) as [[[a1 a2] fac] acc].
  assert (I : order_inv nd (a1, a2, fac, acc)).
  { apply F.
    - split; [rewrite length_upd; rewrite length_zeros; lia|]. split; [apply length_zeros|].
      split; [cbn [Ffac]; lia|]. split; [|reflexivity].
      intros j A B C. assert (j = 0%nat) by lia. subst j.
      rewrite nth_upd by (rewrite length_zeros; lia). reflexivity.
    - intros idx st _ HI. replace (1 + Z.of_nat idx)%Z with (Z.of_nat (S idx)) by lia.
      apply order_step. exact HI. }
  destruct I as [_ [_ [_ [_ Hacc]]]]. exact Hacc.
Qed.

End DERIV.

Lemma active_derivs_eq_spec_l kv p u nd k r :
  kv_ok kv p -> kn kv 0 <= u -> u <= kn kv (length kv - 1) -> (k <= nd)%nat -> (r <= p)%nat ->
  nth r (nth k (active_deriv kv p u nd) []) 0 = dNref kv k p (findspan kv p u - p + r) u.
Proof.
  intros Hok H0 H1 Hk Hr. destruct k as [|k'].
  - rewrite active_values_eq_spec_l by assumption. rewrite nth_map_seq by lia. reflexivity.
  - destruct (findspan_span_ok kv p u Hok H0 H1) as [Hsp [Hp Hq]].
    pose proof (ok_sorted _ _ Hok) as Hs.
    destruct (ndu_table_inv kv (findspan kv p u) u Hs Hsp p Hp Hq) as [_ E].
    unfold active_deriv. cbn [nth]. rewrite nth_map_seq by lia. cbn [Nat.add].
    rewrite map_map. rewrite nth_map_seq by lia. cbn [Nat.add].
    rewrite (derivs_of_spec kv (findspan kv p u) u p r _ Hs Hsp Hp Hq Hr E).
    rewrite nth_map_seq by lia. reflexivity.
Qed.

Lemma active_deriv_row_length kv p u nd k : (k <= nd)%nat -> length (nth k (active_deriv kv p u nd) []) = S p.
Proof.
  intros Hk. unfold active_deriv. destruct k as [|k']; cbn [nth]; [|rewrite nth_map_seq by lia];
    rewrite !map_length, seq_length; reflexivity.
Qed.

Lemma colloc_row_derivs_l kv p k u j :
  kv_ok kv p -> kn kv 0 <= u -> u <= kn kv (length kv - 1) -> (j < numdofs kv p)%nat ->
  nth j (colloc_row kv p k u) 0 = dNref kv k p j u.
Proof.
  intros Hok H0 H1. apply (colloc_row_active kv p k u (fun j => dNref kv k p j u)); try assumption.
  - intros r Hr. apply active_derivs_eq_spec_l; auto.
  - intros i Hi Hn. apply dN_local_l; assumption.
Qed.

(* Divisors of the derivative loop: a2[j] = (...) / ndu[pk+1][rk+j] is executed only for
   0 <= rk+j <= pk (the index hypotheses of coef_inv_extend), i.e. it divides by entries of the strictly
   lower triangle of the NDU table, which Props.ndu_divisors_pos shows to be positive. *)
