(* C02 -- correctness of the NDU table loop of bspline_active_deriv_single (Bsp.ndu_table):
   the upper triangle holds the Cox-de Boor values, the lower triangle the (positive) knot
   differences the loop divides by; hence the active values and the value rows of the collocation
   matrix.  For every degree, knot vector, u. *)
From Coq Require Import QArith Qcanon ZArith List Bool Arith Lia Lqa.
From Verif.lib Require Import Bsp ListFacts.
From Verif.C02 Require Import Proofs Proofs_ref.
Import ListNotations.
Open Scope Qc_scope.

Lemma upd_cons0 {A} (x : A) l v : upd (x :: l) 0 v = v :: l.
Proof. reflexivity. Qed.
Lemma upd_consS {A} (x : A) l i v : upd (x :: l) (S i) v = x :: upd l i v.
Proof. reflexivity. Qed.

Lemma length_upd {A} (l : list A) : forall i v, (i < length l)%nat -> length (upd l i v) = length l.
Proof.
  induction l as [|x l IH]; intros i v H; [simpl in H; lia|].
  destruct i; [reflexivity|]. rewrite upd_consS. simpl. rewrite IH; [reflexivity|simpl in H; lia].
Qed.

Lemma nth_upd {A} (l : list A) : forall i v a d, (i < length l)%nat ->
  nth a (upd l i v) d = if (a =? i)%nat then v else nth a l d.
Proof.
  induction l as [|x l IH]; intros i v a d H; [simpl in H; lia|].
  destruct i.
  - rewrite upd_cons0. destruct a; reflexivity.
  - rewrite upd_consS. destruct a; [reflexivity|]. simpl nth. rewrite IH by (simpl in H; lia). reflexivity.
Qed.

(* an array known up to j, extended by its entry j *)
Lemma nth_upd_prefix {A} (f : nat -> A) l j v d : (j < length l)%nat ->
  (forall m, (m < j)%nat -> nth m l d = f m) -> v = f j ->
  forall m, (m < S j)%nat -> nth m (upd l j v) d = f m.
Proof.
  intros Hj Hl Hv m Hm. rewrite nth_upd by exact Hj.
  destruct (Nat.eqb_spec m j) as [->|N]; [exact Hv|apply Hl; lia].
Qed.

Definition dims (M : list (list Qc)) (m n : nat) : Prop :=
  length M = m /\ forall i, (i < m)%nat -> length (nth i M []) = n.

Lemma dims_upd2 M m n i j v : dims M m n -> (i < m)%nat -> (j < n)%nat -> dims (upd2 M i j v) m n.
Proof.
  intros [L R] Hi Hj. unfold upd2. split.
  - rewrite length_upd; lia.
  - intros a Ha. rewrite nth_upd by lia. destruct (Nat.eqb_spec a i).
    + rewrite length_upd; rewrite R; lia.
    + apply R; exact Ha.
Qed.

Lemma get2_upd2_same M m n i j v : dims M m n -> (i < m)%nat -> (j < n)%nat ->
  get2 (upd2 M i j v) i j = v.
Proof.
  intros [L R] Hi Hj. unfold get2, upd2.
  rewrite nth_upd, Nat.eqb_refl, nth_upd, Nat.eqb_refl by (rewrite ?R; lia). reflexivity.
Qed.

Lemma get2_upd2_other M m n i j v a b : dims M m n -> (i < m)%nat -> (j < n)%nat ->
  (a <> i \/ b <> j)%nat -> get2 (upd2 M i j v) a b = get2 M a b.
Proof.
  intros [L R] Hi Hj Hab. unfold get2, upd2. rewrite nth_upd by lia.
  destruct (Nat.eqb_spec a i) as [->|Ha]; [|reflexivity].
  rewrite nth_upd by (rewrite R; lia). destruct (Nat.eqb_spec b j); [lia|reflexivity].
Qed.

Lemma length_zeros n : length (zeros n) = n.
Proof. apply repeat_length. Qed.

Lemma dims_zeros2 m n : dims (zeros2 m n) m n.
Proof.
  unfold zeros2. split; [apply repeat_length|].
  intros i Hi. rewrite (nth_indep _ [] (zeros n)) by (rewrite repeat_length; exact Hi).
  rewrite nth_repeat. apply length_zeros.
Qed.

Lemma fold_left_map {A B C} (f : A -> B -> A) (g : C -> B) l a :
  fold_left f (map g l) a = fold_left (fun s x => f s (g x)) l a.
Proof. revert a. induction l as [|x l IH]; intros a; cbn [map fold_left]; [reflexivity|apply IH]. Qed.

(* loops over seq with an invariant indexed by the loop counter *)
Lemma fold_left_seq_inv {St} (f : St -> nat -> St) (P : nat -> St -> Prop) :
  forall n a st, P a st ->
  (forall i st, (a <= i < a + n)%nat -> P i st -> P (S i) (f st i)) ->
  P (a + n)%nat (fold_left f (seq a n) st).
Proof.
  induction n as [|n IH]; intros a st H0 Hstep.
  - replace (a + 0)%nat with a by lia. exact H0.
  - cbn [seq fold_left]. replace (a + S n)%nat with (S a + n)%nat by lia.
    apply IH.
    + apply Hstep; [lia|exact H0].
    + intros i st' Hi. apply Hstep. lia.
Qed.

Section NDU.
Variable kv : list Qc.
Variable span : nat.
Variable u : Qc.
Hypothesis Hs : sorted kv.
Hypothesis Hsp : span_ok kv span u.

(* entry (a, b): b >= a: N_{span-b+a, b}(u);  b < a: t_{span+b+1} - t_{span+1-(a-b)} *)
Definition tbl (a b : nat) : Qc :=
  if (a <=? b)%nat then Nref kv b (span - b + a) u
  else kn kv (span + b + 1) - kn kv (span + 1 - (a - b)).

Lemma tbl_upper a b : (a <= b)%nat -> tbl a b = Nref kv b (span - b + a) u.
Proof. intros H. unfold tbl. destruct (Nat.leb_spec a b); [reflexivity|lia]. Qed.

Lemma tbl_lower a b : (b < a)%nat -> tbl a b = kn kv (span + b + 1) - kn kv (span + 1 - (a - b)).
Proof. intros H. unfold tbl. destruct (Nat.leb_spec a b); [lia|reflexivity]. Qed.

Definition lft_ok (lft : list Qc) (j : nat) : Prop :=
  forall m, (m < j)%nat -> nth m lft 0 = u - kn kv (span - m).
Definition rgt_ok (rgt : list Qc) (j : nat) : Prop :=
  forall m, (m < j)%nat -> nth m rgt 0 = kn kv (span + S m) - u.

(* columns 0..j-1 are final; of column j and row j the entries above r;
   saved is the first summand of entry (r, j) *)
Definition inner_inv (p j : nat) (r : nat) (st : list (list Qc) * Qc) : Prop :=
  dims (fst st) (S p) (S p) /\
  (forall a b, ((a < j /\ b < j) \/ (b = j /\ a < r) \/ (a = j /\ b < r))%nat -> get2 (fst st) a b = tbl a b) /\
  snd st = Nleft kv j (span - j + r) u.

Lemma inner_step p j lft rgt : (1 <= j <= p)%nat -> (p <= span)%nat ->
  lft_ok lft j -> rgt_ok rgt j ->
  forall r st, (0 <= r < 0 + j)%nat -> inner_inv p j r st -> inner_inv p j (S r) (ndu_inner lft rgt j st r).
Proof.
  intros Hj Hp Hlft Hrgt r [M saved] Hr [Hd [Hent Hsv]]. cbn [fst snd] in *.
  unfold ndu_inner. rewrite (Hlft (j - r - 1)%nat), (Hrgt r) by lia.
  (* entry (r, j) is N_{i,j} for i = span - j + r; the pass is cox_pass at i *)
  set (i := (span - j + r)%nat) in *.
  replace (span - (j - r - 1))%nat with (i + 1)%nat by lia.
  replace (span + S r)%nat with (i + j + 1)%nat by lia.
  set (d := kn kv (i + j + 1) - u + (u - kn kv (i + 1))).
  assert (Hd1 : dims (upd2 M j r d) (S p) (S p)) by (apply dims_upd2; [exact Hd|lia|lia]).
  rewrite (get2_upd2_other M (S p) (S p)) by (assumption || lia).
  rewrite (Hent r (j - 1)%nat), tbl_upper by lia.
  replace (span - (j - 1) + r)%nat with (i + 1)%nat by lia.
  destruct (cox_pass kv j i u ltac:(lia)) as [Enew Esaved].
  replace (kn kv (i + j + 1) - kn kv (i + 1)) with d in Enew, Esaved by (unfold d; ring).
  split; [|split]; cbn [fst snd].
  - apply dims_upd2; [exact Hd1|lia|lia].
  - intros a b Hab.
    assert (C : ((a = r /\ b = j) \/ (a = j /\ b = r) \/
                 ((a < j /\ b < j) \/ (b = j /\ a < r) \/ (a = j /\ b < r)))%nat) by lia.
    destruct C as [[-> ->]|[[-> ->]|C]].
    + rewrite (get2_upd2_same _ (S p) (S p)), tbl_upper, Hsv by (assumption || lia).
      symmetry. exact Enew.
    + rewrite (get2_upd2_other _ (S p) (S p)), (get2_upd2_same M (S p) (S p)), tbl_lower
        by (assumption || lia).
      unfold d. replace (span + r + 1)%nat with (i + j + 1)%nat by lia.
      replace (span + 1 - (j - r))%nat with (i + 1)%nat by lia. ring.
    + rewrite (get2_upd2_other _ (S p) (S p)), (get2_upd2_other M (S p) (S p)) by (assumption || lia).
      apply Hent. exact C.
  - replace (span - j + S r)%nat with (i + 1)%nat by lia. symmetry. exact Esaved.
Qed.

Definition outer_inv (p : nat) (j : nat) (st : list (list Qc) * list Qc * list Qc) : Prop :=
  let '(M, lft, rgt) := st in
  dims M (S p) (S p) /\ length lft = p /\ length rgt = p /\
  lft_ok lft (j - 1) /\ rgt_ok rgt (j - 1) /\
  (forall a b, (a < j)%nat -> (b < j)%nat -> get2 M a b = tbl a b).

Lemma outer_step p : (p <= span)%nat -> (span + p + 1 < length kv)%nat ->
  forall j st, (1 <= j < 1 + p)%nat -> outer_inv p j st -> outer_inv p (S j) (ndu_outer kv span u st j).
Proof.
  intros Hp Hl j [[M lft] rgt] Hj [Hd [Ll [Lr [Hlft [Hrgt Hent]]]]].
  unfold ndu_outer.
  set (lft' := upd lft (j - 1) (u - kn kv (span + 1 - j))).
  set (rgt' := upd rgt (j - 1) (kn kv (span + j) - u)).
  assert (Hlft' : lft_ok lft' j).
  { intros m Hm. apply (nth_upd_prefix (fun m => u - kn kv (span - m)) lft (j - 1)); try assumption; try lia.
    f_equal. f_equal. lia. }
  assert (Hrgt' : rgt_ok rgt' j).
  { intros m Hm. apply (nth_upd_prefix (fun m => kn kv (span + S m) - u) rgt (j - 1)); try assumption; try lia.
    f_equal. f_equal. lia. }
  pose proof (fold_left_seq_inv (ndu_inner lft' rgt' j) (inner_inv p j) j 0 (M, 0)) as F.
  cbn [Nat.add] in F.
  destruct (fold_left (ndu_inner lft' rgt' j) (seq 0 j) (M, 0)) as [M' saved] eqn:EF.
  assert (I : inner_inv p j j (M', saved)).
  { apply F.
    - split; [exact Hd|]. split; cbn [fst snd].
      + intros a b Hab. apply Hent; lia.
      + unfold Nleft. rewrite (N_zero_left kv Hs span u (j - 1) (span - j + 0) Hsp) by lia. ring.
    - intros r st Hr. apply inner_step; try assumption; lia. }
  destruct I as [Hd' [Hent' Hsv]]. cbn [fst snd] in *.
  split; [apply dims_upd2; [exact Hd'|lia|lia]|].
  split; [unfold lft'; rewrite length_upd; lia|].
  split; [unfold rgt'; rewrite length_upd; lia|].
  replace (S j - 1)%nat with j by lia.
  split; [exact Hlft'|]. split; [exact Hrgt'|].
  intros a b Ha Hb.
  assert (C : ((a = j /\ b = j) \/ (a <> j \/ b <> j))%nat) by lia.
  destruct C as [[-> ->]|C].
  - (* the last entry of column j: its second summand N_{span+1,j-1} vanishes *)
    rewrite (get2_upd2_same M' (S p) (S p)), Hsv, tbl_upper by (assumption || lia).
    destruct (cox_pass kv j (span - j + j) u ltac:(lia)) as [E _]. rewrite E.
    rewrite (N_zero_right kv Hs span u (j - 1) (span - j + j + 1) Hsp) by lia.
    rewrite Qcdiv_0_l. ring.
  - rewrite (get2_upd2_other M' (S p) (S p)) by (assumption || lia). apply Hent'. lia.
Qed.

Lemma ndu_table_inv p : (p <= span)%nat -> (span + p + 1 < length kv)%nat ->
  let M := ndu_table kv p span u in
  dims M (S p) (S p) /\ forall a b, (a <= p)%nat -> (b <= p)%nat -> get2 M a b = tbl a b.
Proof.
  intros Hp Hl. unfold ndu_table.
  pose proof (fold_left_seq_inv (ndu_outer kv span u) (outer_inv p) p 1
                (upd2 (zeros2 (S p) (S p)) 0 0 1, zeros p, zeros p)) as F.
  destruct (fold_left (ndu_outer kv span u) (seq 1 p) (upd2 (zeros2 (S p) (S p)) 0 0 1, zeros p, zeros p))
    as [[M lft] rgt] eqn:EF.
  assert (I : outer_inv p (1 + p) (M, lft, rgt)).
  { apply F.
    - split; [apply dims_upd2; [apply dims_zeros2|lia|lia]|].
      split; [apply length_zeros|]. split; [apply length_zeros|].
      split; [intros m Hm; lia|]. split; [intros m Hm; lia|].
      intros a b Ha Hb. assert (a = 0%nat) by lia. assert (b = 0%nat) by lia. subst a b.
      rewrite (get2_upd2_same _ (S p) (S p)), tbl_upper by (apply dims_zeros2 || lia).
      replace (span - 0 + 0)%nat with span by lia. symmetry. apply N0_span. exact Hsp.
    - apply outer_step; assumption. }
  cbn [fst]. destruct I as [Hd [_ [_ [_ [_ Hent]]]]].
  split; [exact Hd|]. intros a b Ha Hb. apply Hent; lia.
Qed.

(* the divisors used by the loop (stored in the lower triangle) are positive *)
Lemma tbl_lower_pos a b : (b < a)%nat -> (a <= span + 1)%nat -> (span + b + 1 < length kv)%nat -> 0 < tbl a b.
Proof.
  intros Hab Ha Hl. rewrite tbl_lower by exact Hab.
  destruct Hsp as [L [Hne _]].
  assert (A : kn kv (span + 1 - (a - b)) <= kn kv span) by (apply Hs; lia).
  assert (B : kn kv (S span) <= kn kv (span + b + 1)) by (apply Hs; lia).
  qc2q. lra.
Qed.

End NDU.

Lemma active_values_eq_spec_l kv p u nd :
  kv_ok kv p -> kn kv 0 <= u -> u <= kn kv (length kv - 1) ->
  nth 0 (active_deriv kv p u nd) [] =
  map (fun r => Nref kv p (findspan kv p u - p + r) u) (seq 0 (S p)).
Proof.
  intros Hok H0 H1. destruct (findspan_span_ok kv p u Hok H0 H1) as [Hsp [Hp Hq]].
  pose proof (ok_sorted _ _ Hok) as Hs.
  unfold active_deriv. cbn [nth].
  apply map_ext_in. intros r Hr. apply in_seq in Hr.
  destruct (ndu_table_inv kv (findspan kv p u) u Hs Hsp p Hp Hq) as [_ E].
  rewrite E by lia. apply tbl_upper. lia.
Qed.

Lemma active_ev_eq_spec_l kv p u :
  kv_ok kv p -> kn kv 0 <= u -> u <= kn kv (length kv - 1) ->
  active_ev kv p u = map (fun r => Nref kv p (findspan kv p u - p + r) u) (seq 0 (S p)).
Proof. intros. unfold active_ev. apply active_values_eq_spec_l; assumption. Qed.

Lemma colloc_row_length kv p k u : length (colloc_row kv p k u) = numdofs kv p.
Proof. unfold colloc_row. rewrite map_length, seq_length. reflexivity. Qed.

Lemma colloc_row_spec_l kv p k u j : (j < numdofs kv p)%nat ->
  nth j (colloc_row kv p k u) 0 =
  if ((first_active_at kv p u <=? j) && (j <=? first_active_at kv p u + p))%nat
  then nth (j - first_active_at kv p u) (nth k (active_deriv kv p u k) []) 0 else 0.
Proof. intros H. unfold colloc_row. rewrite nth_map_seq by exact H. reflexivity. Qed.

(* a row whose active entries are f (first_active + r), for f vanishing off the active columns, is f *)
Lemma colloc_row_active kv p k u (f : nat -> Qc) :
  kv_ok kv p -> kn kv 0 <= u -> u <= kn kv (length kv - 1) ->
  (forall r, (r <= p)%nat -> nth r (nth k (active_deriv kv p u k) []) 0 = f (findspan kv p u - p + r)%nat) ->
  (forall j, (j + p + 1 < length kv)%nat -> ~ (findspan kv p u - p <= j <= findspan kv p u)%nat -> f j = 0) ->
  forall j, (j < numdofs kv p)%nat -> nth j (colloc_row kv p k u) 0 = f j.
Proof.
  intros Hok H0 H1 Hact Hout j Hj. rewrite colloc_row_spec_l by exact Hj.
  destruct (findspan_span_ok kv p u Hok H0 H1) as [_ [Hp Hq]].
  unfold first_active_at, numdofs in *.
  destruct (Nat.leb_spec (findspan kv p u - p) j) as [A|A];
    [destruct (Nat.leb_spec j (findspan kv p u - p + p)) as [B|B]|]; cbn [andb].
  - rewrite Hact by lia. f_equal. lia.
  - symmetry. apply Hout; lia.
  - symmetry. apply Hout; lia.
Qed.

Lemma colloc_row_values_l kv p u j :
  kv_ok kv p -> kn kv 0 <= u -> u <= kn kv (length kv - 1) -> (j < numdofs kv p)%nat ->
  nth j (colloc_row kv p 0 u) 0 = Nref kv p j u.
Proof.
  intros Hok H0 H1. apply (colloc_row_active kv p 0 u (fun j => Nref kv p j u)); try assumption.
  - intros r Hr. rewrite active_values_eq_spec_l, nth_map_seq by (assumption || lia). reflexivity.
  - intros i Hi Hn. apply N_local_l; assumption.
Qed.
