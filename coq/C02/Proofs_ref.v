(* C02 -- the Cox-de Boor reference (Bsp.Nref / Bsp.dNref): well-formedness, support,
   non-negativity, partition of unity, derivative sums.  For every degree, knot vector, u. *)
From Coq Require Import QArith Qcanon ZArith List Bool Arith Lia Lqa.
From Verif.lib Require Import Bsp QcFacts.
From Verif.C02 Require Import Proofs.
Import ListNotations.
Open Scope Qc_scope.

(* transfer of order / equality goals over Qc to Q, where lra / nra work *)

Lemma Qc_eq_Qeq (a b : Qc) : a = b -> (this a == this b)%Q.
Proof. intros ->. reflexivity. Qed.

Ltac qc2q :=
  repeat match goal with
  | H : @eq Qc _ _ |- _ => apply Qc_eq_Qeq in H
  | H : ~ (@eq Qc _ _) |- _ =>
      let H' := fresh in assert (H' := fun E => H (Qc_is_canon _ _ E)); clear H
  | |- @eq Qc _ _ => apply Qc_is_canon
  | |- ~ (@eq Qc _ _) => let E := fresh in intro E; apply Qc_eq_Qeq in E; revert E
  end;
  unfold Qcle, Qclt, Qcdiv, Qcminus, Qcplus, Qcopp, Qcmult, Qcinv, Q2Qc in *; cbn [this] in *;
  rewrite ?Qred_correct in *.

Lemma Qcdiv_0_r (x : Qc) : x / 0 = 0.
Proof. qc2q. unfold Qinv; simpl. ring. Qed.

Lemma Qcdiv_0_l (x : Qc) : 0 / x = 0.
Proof. unfold Qcdiv. ring. Qed.

Lemma sortedb_adj : forall l, sortedb l = true ->
  forall i, (S i < length l)%nat -> nth i l 0 <= nth (S i) l 0.
Proof.
  induction l as [|a l IH]; intros H i Hi; [simpl in Hi; lia|].
  destruct l as [|b t]; [simpl in Hi; lia|].
  change (sortedb (a :: b :: t)) with (qleb a b && sortedb (b :: t)) in H.
  apply andb_true_iff in H. destruct H as [H1 H2].
  destruct i as [|i].
  - simpl. apply qleb_iff. exact H1.
  - change (nth i (b :: t) 0 <= nth (S i) (b :: t) 0). apply IH; [exact H2|]. simpl in *. lia.
Qed.

Lemma sortedb_sorted kv : sortedb kv = true -> sorted kv.
Proof.
  intros H i j Hij Hj. unfold kn.
  induction Hij as [|j Hij IH].
  - apply Qcle_refl.
  - eapply Qcle_trans; [apply IH; lia|]. apply sortedb_adj; assumption.
Qed.

Lemma forallb_seq_elim (f : nat -> bool) a n i :
  forallb f (seq a n) = true -> (a <= i < a + n)%nat -> f i = true.
Proof.
  intros H Hi. rewrite forallb_forall in H. apply H. apply in_seq. exact Hi.
Qed.

(* the components of open_kv, as Props *)
Lemma open_kv_parts kv p : open_kv kv p = true ->
  (2 * p + 2 <= length kv)%nat /\ sorted kv /\
  (forall i, (i <= p)%nat -> kn kv i = kn kv 0) /\
  (forall i, (i <= p)%nat -> kn kv (length kv - 1 - i) = kn kv (length kv - 1)) /\
  kn kv p < kn kv (S p) /\ kn kv (length kv - p - 2) < kn kv (length kv - p - 1) /\
  (forall i, (1 <= i)%nat -> (i + Nat.max p 1 + 1 < length kv)%nat -> kn kv i < kn kv (i + Nat.max p 1)).
Proof.
  unfold open_kv. intros H.
  repeat (apply andb_true_iff in H; let H' := fresh "H" in destruct H as [H H']).
  apply Nat.leb_le in H.
  split; [exact H|]. split; [apply sortedb_sorted; assumption|].
  split; [|split; [|split; [|split]]].
  - intros i Hi. apply qeqb_iff. apply (forallb_seq_elim _ _ _ i H4). lia.
  - intros i Hi. apply qeqb_iff. apply (forallb_seq_elim _ _ _ i H3). lia.
  - apply qltb_iff. assumption.
  - apply qltb_iff. assumption.
  - intros i Hi1 Hi2. apply qltb_iff.
    apply (forallb_seq_elim _ _ _ i H0). lia.
Qed.

Lemma open_kv_ok_l kv p : open_kv kv p = true -> kv_ok kv p.
Proof.
  intros H. destruct (open_kv_parts kv p H) as [A [B [C [D [E [F G]]]]]].
  constructor.
  - exact A.
  - exact B.
  - apply C. lia.
  - replace (length kv - p - 1)%nat with (length kv - 1 - p)%nat by lia. apply D. lia.
  - exact F.
Qed.

Definition lastk (kv : list Qc) : Qc := kn kv (length kv - 1).

(* u lies in the support [t_i, t_{i+p+1}) of N_{i,p}, closed at the right end of the knot vector *)
Definition supp (kv : list Qc) (p i : nat) (u : Qc) : Prop :=
  (kn kv i <= u /\ u < kn kv (i + p + 1)) \/
  (u = lastk kv /\ kn kv i < lastk kv /\ kn kv (i + p + 1) = lastk kv).

Lemma in_span_true kv i u : in_span kv i u = true -> supp kv 0 i u.
Proof.
  unfold in_span, supp. fold (lastk kv). replace (i + 0 + 1)%nat with (S i) by lia.
  intros H. apply orb_true_iff in H. destruct H as [H|H].
  - apply andb_true_iff in H. destruct H as [H1 H2].
    apply qleb_iff in H1. apply qltb_iff in H2. left. split; assumption.
  - apply andb_true_iff in H. destruct H as [H H3]. apply andb_true_iff in H. destruct H as [H1 H2].
    apply qeqb_iff in H1. apply qltb_iff in H2. apply qeqb_iff in H3.
    right. split; [exact H1|]. split; [rewrite <- H3; exact H2|exact H3].
Qed.

Lemma in_span_intro kv i u :
  (kn kv i <= u /\ u < kn kv (S i)) \/ (u = lastk kv /\ kn kv i < kn kv (S i) /\ kn kv (S i) = lastk kv) ->
  in_span kv i u = true.
Proof.
  unfold in_span. fold (lastk kv). intros [[H1 H2]|[H1 [H2 H3]]]; apply orb_true_iff; [left|right].
  - apply andb_true_iff. split; [apply qleb_iff|apply qltb_iff]; assumption.
  - apply andb_true_iff. split; [apply andb_true_iff; split|].
    + apply qeqb_iff; assumption.
    + apply qltb_iff; assumption.
    + apply qeqb_iff; assumption.
Qed.

Lemma Nref_S kv q i u :
  Nref kv (S q) i u =
  (u - kn kv i) / (kn kv (i + q + 1) - kn kv i) * Nref kv q i u
  + (kn kv (i + q + 2) - u) / (kn kv (i + q + 2) - kn kv (i + 1)) * Nref kv q (i + 1) u.
Proof.
  cbn [Nref]. replace (i + S q)%nat with (i + q + 1)%nat by lia.
  replace (i + q + 1 + 1)%nat with (i + q + 2)%nat by lia.
  replace (S i) with (i + 1)%nat by lia. reflexivity.
Qed.

(* the first summand of the recursion for N_{i,k}, k >= 1: what the evaluation loops carry in `saved` *)
Definition Nleft (kv : list Qc) (k i : nat) (u : Qc) : Qc :=
  (u - kn kv i) / (kn kv (i + k) - kn kv i) * Nref kv (k - 1) i u.

(* the recursion as one pass of those loops: temp = N_{i+1,k-1} / (t_{i+k+1} - t_{i+1}) gives
   the value N_{i,k} and the first summand of N_{i+1,k} *)
Lemma cox_pass kv k i u : (1 <= k)%nat ->
  let temp := Nref kv (k - 1) (i + 1) u / (kn kv (i + k + 1) - kn kv (i + 1)) in
  Nref kv k i u = Nleft kv k i u + (kn kv (i + k + 1) - u) * temp /\
  Nleft kv k (i + 1) u = (u - kn kv (i + 1)) * temp.
Proof.
  intros Hk temp. unfold Nleft, temp. destruct k as [|q]; [lia|]. rewrite Nref_S.
  replace (S q - 1)%nat with q by lia.
  replace (i + q + 1)%nat with (i + S q)%nat by lia.
  replace (i + q + 2)%nat with (i + S q + 1)%nat by lia.
  replace (i + 1 + S q)%nat with (i + S q + 1)%nat by lia.
  split; unfold Qcdiv; ring.
Qed.

Lemma N_support kv : sorted kv -> forall p i u,
  (i + p + 1 < length kv)%nat -> Nref kv p i u <> 0 -> supp kv p i u.
Proof.
  intros Hs. induction p as [|q IH]; intros i u Hi Hn.
  - cbn [Nref] in Hn. destruct (in_span kv i u) eqn:E; [|congruence].
    apply in_span_true. exact E.
  - rewrite Nref_S in Hn.
    assert (Hlast : kn kv (i + S q + 1) <= lastk kv) by (apply Hs; lia).
    assert (H01 : kn kv i <= kn kv (i + 1)) by (apply Hs; lia).
    assert (Hq : kn kv (i + q + 1) <= kn kv (i + S q + 1)) by (apply Hs; lia).
    destruct (Qc_eq_dec (Nref kv q i u) 0) as [Z1|N1].
    + destruct (Qc_eq_dec (Nref kv q (i + 1) u) 0) as [Z2|N2].
      * exfalso. apply Hn. rewrite Z1, Z2. ring.
      * apply IH in N2; [|lia]. unfold supp in N2.
        replace (i + 1 + q + 1)%nat with (i + S q + 1)%nat in N2 by lia.
        destruct N2 as [[A B]|[A [B C]]]; [left|right].
        -- split; [eapply Qcle_trans; eassumption|exact B].
        -- split; [exact A|]. split; [eapply Qcle_lt_trans; eassumption|exact C].
    + apply IH in N1; [|lia].
      destruct N1 as [[A B]|[A [B C]]]; [left|right].
      * split; [exact A|]. eapply Qclt_le_trans; eassumption.
      * split; [exact A|]. split; [exact B|].
        apply Qcle_antisym; [exact Hlast|]. rewrite <- C. exact Hq.
Qed.

Lemma supp_bounds kv p i u : supp kv p i u ->
  kn kv i <= u /\ u <= kn kv (i + p + 1) /\ kn kv i < kn kv (i + p + 1).
Proof.
  intros [[A B]|[A [B C]]].
  - split; [exact A|]. split; [apply Qclt_le_weak; exact B|]. eapply Qcle_lt_trans; eassumption.
  - subst u. split; [apply Qclt_le_weak; exact B|]. rewrite C. split; [apply Qcle_refl|exact B].
Qed.

Lemma N_nonneg_l kv : sorted kv -> forall p i u,
  (i + p + 1 < length kv)%nat -> 0 <= Nref kv p i u.
Proof.
  intros Hs. induction p as [|q IH]; intros i u Hi.
  - cbn [Nref]. destruct (in_span kv i u); unfold Qcle; simpl; lra.
  - (* a summand w * N_{j,q} is non-negative if w is so on the support of N_{j,q} *)
    assert (T : forall w j, (j + q + 1 < length kv)%nat ->
      (kn kv j <= u -> u <= kn kv (j + q + 1) -> kn kv j < kn kv (j + q + 1) -> 0 <= w) ->
      0 <= w * Nref kv q j u).
    { intros w j Hj Hw. destruct (Qc_eq_dec (Nref kv q j u) 0) as [Z|N].
      - rewrite Z, Qcmult_0_r. apply Qcle_refl.
      - apply Qcmult_nonneg; [|apply IH; exact Hj].
        apply N_support in N; [|exact Hs|exact Hj]. apply supp_bounds in N.
        destruct N as [A [B C]]. auto. }
    rewrite Nref_S. apply Qcplus_nonneg; apply T; try lia.
    + intros A B C. apply Qcdiv_nonneg; qc2q; lra.
    + replace (i + 1 + q + 1)%nat with (i + q + 2)%nat by lia.
      intros A B C. apply Qcdiv_nonneg; qc2q; lra.
Qed.

(* a non-empty knot span containing u (closed at the right end of the knot vector) *)
Definition span_ok (kv : list Qc) (s : nat) (u : Qc) : Prop :=
  (S s < length kv)%nat /\ kn kv s < kn kv (S s) /\ kn kv s <= u /\
  (u < kn kv (S s) \/ (u = lastk kv /\ kn kv (S s) = lastk kv)).

Lemma N0_span kv s u : span_ok kv s u -> Nref kv 0 s u = 1.
Proof.
  intros [_ [Hne [Hl Hr]]]. cbn [Nref]. rewrite in_span_intro; [reflexivity|].
  destruct Hr as [Hr|[Hr1 Hr2]]; [left|right]; auto.
Qed.

Lemma findspan_span_ok kv p u :
  kv_ok kv p -> kn kv 0 <= u -> u <= lastk kv ->
  span_ok kv (findspan kv p u) u /\ (p <= findspan kv p u)%nat /\
  (findspan kv p u + p + 1 < length kv)%nat.
Proof.
  intros Hok H0 H1. destruct (findspan_spec_l kv p u Hok H0 H1) as [A [B [C [D E]]]].
  pose proof (ok_len _ _ Hok).
  split; [|split; [exact A|lia]].
  split; [lia|]. split; [exact C|]. split; [exact D|exact E].
Qed.

Lemma N_zero_right kv : sorted kv -> forall s u p i,
  span_ok kv s u -> (i + p + 1 < length kv)%nat -> (s < i)%nat -> Nref kv p i u = 0.
Proof.
  intros Hs s u p i [L [Hne [Hl Hr]]] Hi Hsi.
  destruct (Qc_eq_dec (Nref kv p i u) 0) as [Z|N]; [exact Z|exfalso].
  apply N_support in N; [|exact Hs|exact Hi].
  assert (A : kn kv (S s) <= kn kv i) by (apply Hs; lia).
  assert (B : kn kv (i + p + 1) <= lastk kv) by (apply Hs; lia).
  destruct N as [[N1 N2]|[N1 [N2 N3]]]; destruct Hr as [Hr|[Hr1 Hr2]]; qc2q; lra.
Qed.

Lemma N_zero_left kv : sorted kv -> forall s u p i,
  span_ok kv s u -> (i + p < s)%nat -> Nref kv p i u = 0.
Proof.
  intros Hs s u p i [L [Hne [Hl Hr]]] Hsi.
  destruct (Qc_eq_dec (Nref kv p i u) 0) as [Z|N]; [exact Z|exfalso].
  apply N_support in N; [|exact Hs|lia].
  assert (A : kn kv (i + p + 1) <= kn kv s) by (apply Hs; lia).
  assert (B : kn kv (S s) <= lastk kv) by (apply Hs; lia).
  destruct N as [[N1 N2]|[N1 [N2 N3]]]; qc2q; lra.
Qed.

Lemma dN_zero_outside kv : sorted kv -> forall s u, span_ok kv s u ->
  forall k p i, (i + p + 1 < length kv)%nat -> (i + p < s \/ s < i)%nat -> dNref kv k p i u = 0.
Proof.
  intros Hs s u Hsp. induction k as [|k IH]; intros p i Hi Ho.
  - cbn [dNref]. destruct Ho as [Ho|Ho].
    + eapply N_zero_left; eassumption.
    + eapply N_zero_right; eassumption.
  - destruct p as [|q]; [reflexivity|].
    cbn [dNref]. rewrite (IH q i) by lia. rewrite (IH q (S i)) by lia.
    rewrite !Qcdiv_0_l. ring.
Qed.

Lemma dN_local_l kv p u k i :
  kv_ok kv p -> kn kv 0 <= u -> u <= kn kv (length kv - 1) -> (i + p + 1 < length kv)%nat ->
  ~ (findspan kv p u - p <= i <= findspan kv p u)%nat -> dNref kv k p i u = 0.
Proof.
  intros Hok H0 H1 Hi Hn.
  destruct (findspan_span_ok kv p u Hok H0 H1) as [Hsp [Hp Hq]].
  eapply dN_zero_outside; [exact (ok_sorted _ _ Hok)|exact Hsp|exact Hi|lia].
Qed.

Lemma N_local_l kv p u i :
  kv_ok kv p -> kn kv 0 <= u -> u <= kn kv (length kv - 1) -> (i + p + 1 < length kv)%nat ->
  ~ (findspan kv p u - p <= i <= findspan kv p u)%nat -> Nref kv p i u = 0.
Proof. exact (dN_local_l kv p u 0 i). Qed.

(* sumf f a n = f a + f (a+1) + ... + f (a+n-1) *)
Fixpoint sumf (f : nat -> Qc) (a n : nat) : Qc :=
  match n with
  | O => 0
  | S n' => f a + sumf f (S a) n'
  end.

Lemma sumf_ext f g : forall n a, (forall i, (a <= i < a + n)%nat -> f i = g i) -> sumf f a n = sumf g a n.
Proof.
  induction n as [|n IH]; intros a H; [reflexivity|].
  cbn [sumf]. rewrite (H a) by lia. rewrite (IH (S a)); [reflexivity|]. intros i Hi. apply H. lia.
Qed.

Lemma sumf_zero f : forall n a, (forall i, (a <= i < a + n)%nat -> f i = 0) -> sumf f a n = 0.
Proof.
  induction n as [|n IH]; intros a H; [reflexivity|].
  cbn [sumf]. rewrite (H a) by lia. rewrite (IH (S a)); [ring|]. intros i Hi. apply H. lia.
Qed.

Lemma sumf_app f : forall m n a, sumf f a (m + n) = sumf f a m + sumf f (a + m) n.
Proof.
  induction m as [|m IH]; intros n a.
  - cbn [sumf Nat.add]. replace (a + 0)%nat with a by lia. ring.
  - cbn [sumf Nat.add]. rewrite IH. replace (S a + m)%nat with (a + S m)%nat by lia. ring.
Qed.

Lemma sumf_last f : forall n a, sumf f a (S n) = sumf f a n + f (a + n)%nat.
Proof.
  intros n a. replace (S n) with (n + 1)%nat by lia. rewrite sumf_app. cbn [sumf]. ring.
Qed.

Lemma sumf_succ f : forall n a, sumf f (S a) n = sumf (fun j => f (S j)) a n.
Proof.
  induction n as [|n IH]; intros a; cbn [sumf]; [reflexivity|]. rewrite IH. reflexivity.
Qed.

Lemma sumf_nonneg f : forall n a, (forall i, (a <= i < a + n)%nat -> 0 <= f i) -> 0 <= sumf f a n.
Proof.
  induction n as [|n IH]; intros a H; cbn [sumf]; [apply Qcle_refl|].
  apply Qcplus_nonneg; [apply H; lia|]. apply IH. intros i Hi. apply H. lia.
Qed.

(* a summand that vanishes outside the window a .. a+m-1 *)
Lemma sumf_window f a m n : (a + m <= n)%nat ->
  (forall i, (i < a \/ a + m <= i < n)%nat -> f i = 0) -> sumf f 0 n = sumf f a m.
Proof.
  intros H Hz. replace n with (a + (m + (n - (a + m))))%nat by lia.
  rewrite !sumf_app, (sumf_zero f a 0), (sumf_zero f (n - (a + m))); cbn [Nat.add].
  - ring.
  - intros i Hi. apply Hz. lia.
  - intros i Hi. apply Hz. lia.
Qed.

Lemma sumf_scale c f : forall n a, sumf (fun i => c * f i) a n = c * sumf f a n.
Proof.
  induction n as [|n IH]; intros a; cbn [sumf]; [ring|]. rewrite IH. ring.
Qed.

(* sum_{i=a}^{a+n} (g i + h (i+1)) = g a + sum_{i=a+1}^{a+n} (g i + h i) + h (a+n+1) *)
Lemma sumf_shift g h : forall n a,
  sumf (fun i => g i + h (i + 1)%nat) a (S n) =
  g a + sumf (fun i => g i + h i) (S a) n + h (a + S n)%nat.
Proof.
  induction n as [|n IH]; intros a.
  - cbn [sumf]. ring.
  - change (sumf (fun i => g i + h (i + 1)%nat) a (S (S n)))
      with (g a + h (a + 1)%nat + sumf (fun i => g i + h (i + 1)%nat) (S a) (S n)).
    rewrite IH. cbn [sumf]. replace (a + 1)%nat with (S a) by lia.
    replace (S a + S n)%nat with (a + S (S n))%nat by lia. ring.
Qed.

Lemma sumf_telescope g : forall n a,
  sumf (fun i => g i - g (S i)) a n = g a - g (a + n)%nat.
Proof.
  induction n as [|n IH]; intros a; cbn [sumf].
  - replace (a + 0)%nat with a by lia. ring.
  - rewrite IH. replace (S a + n)%nat with (a + S n)%nat by lia. ring.
Qed.

(* the recursion with the second weight written as 1 - (first weight of the next function) *)
Lemma Nref_S_alt kv : sorted kv -> forall q i u, (i + q + 2 < length kv)%nat ->
  Nref kv (S q) i u =
  (u - kn kv i) / (kn kv (i + q + 1) - kn kv i) * Nref kv q i u
  + (1 - (u - kn kv (i + 1)) / (kn kv (i + 1 + q + 1) - kn kv (i + 1))) * Nref kv q (i + 1) u.
Proof.
  intros Hs q i u Hi. rewrite Nref_S. f_equal.
  replace (i + 1 + q + 1)%nat with (i + q + 2)%nat by lia.
  destruct (Qc_eq_dec (Nref kv q (i + 1) u) 0) as [Z|N].
  - rewrite Z. ring.
  - apply N_support in N; [|exact Hs|lia]. apply supp_bounds in N.
    replace (i + 1 + q + 1)%nat with (i + q + 2)%nat in N by lia. destruct N as [_ [_ C]].
    f_equal. field. qc2q. lra.
Qed.

Lemma N_pou_span kv : sorted kv -> forall s u, span_ok kv s u ->
  forall q, (q <= s)%nat -> (s + q + 1 < length kv)%nat ->
  sumf (fun i => Nref kv q i u) (s - q) (S q) = 1.
Proof.
  intros Hs s u Hsp. induction q as [|q IH]; intros Hq Hl.
  - cbn [sumf]. rewrite Nat.sub_0_r, (N0_span kv s u Hsp). ring.
  - set (A := fun i => (u - kn kv i) / (kn kv (i + q + 1) - kn kv i)).
    set (f := fun i => Nref kv q i u).
    set (G := fun i => A i * f i). set (H := fun j => (1 - A j) * f j).
    rewrite (sumf_ext _ (fun i => G i + H (i + 1)%nat)).
    2:{ intros i Hi. unfold G, H, A, f. apply Nref_S_alt; [exact Hs|lia]. }
    rewrite (sumf_shift G H). unfold G, H.
    assert (Z1 : f (s - S q)%nat = 0).
    { unfold f. eapply N_zero_left; [exact Hs|exact Hsp|lia]. }
    assert (Z2 : f (s - S q + S (S q))%nat = 0).
    { unfold f. eapply N_zero_right; [exact Hs|exact Hsp|lia|lia]. }
    rewrite Z1, Z2.
    rewrite (sumf_ext _ f).
    2:{ intros i Hi. ring. }
    replace (S (s - S q)) with (s - q)%nat by lia.
    unfold f. rewrite IH by lia. ring.
Qed.

Lemma N_partition_of_unity_l kv p u :
  kv_ok kv p -> kn kv 0 <= u -> u <= kn kv (length kv - 1) ->
  sumf (fun i => Nref kv p i u) (findspan kv p u - p) (S p) = 1.
Proof.
  intros Hok H0 H1. destruct (findspan_span_ok kv p u Hok H0 H1) as [Hsp [Hp Hq]].
  apply N_pou_span; try assumption. exact (ok_sorted _ _ Hok).
Qed.

Lemma N_partition_of_unity_all_l kv p u :
  kv_ok kv p -> kn kv 0 <= u -> u <= kn kv (length kv - 1) ->
  sumf (fun i => Nref kv p i u) 0 (numdofs kv p) = 1.
Proof.
  intros Hok H0 H1. destruct (findspan_span_ok kv p u Hok H0 H1) as [_ [Hp Hq]].
  unfold numdofs. rewrite (sumf_window _ (findspan kv p u - p) (S p)).
  - apply N_partition_of_unity_l; assumption.
  - lia.
  - intros i Hi. apply N_local_l; try assumption; lia.
Qed.

Lemma dN_high_zero_l kv : forall k p i u, (p < k)%nat -> dNref kv k p i u = 0.
Proof.
  induction k as [|k IH]; intros p i u H; [lia|].
  destruct p as [|q]; [reflexivity|].
  cbn [dNref]. rewrite !IH by lia. rewrite !Qcdiv_0_l. ring.
Qed.

(* dNref (S k) (S q) as a difference g i - g (i+1) *)
Definition dquot (kv : list Qc) (k q : nat) (u : Qc) (i : nat) : Qc :=
  dNref kv k q i u / (kn kv (i + S q) - kn kv i).

Lemma dNref_S kv k q i u :
  dNref kv (S k) (S q) i u = Zq (Z.of_nat (S q)) * (dquot kv k q u i - dquot kv k q u (S i)).
Proof.
  cbn [dNref]. unfold dquot.
  replace (i + S q + 1)%nat with (S i + S q)%nat by lia.
  replace (i + 1)%nat with (S i) by lia. reflexivity.
Qed.

Lemma dN_sum_range kv k q u a n :
  sumf (fun i => dNref kv (S k) (S q) i u) a n =
  Zq (Z.of_nat (S q)) * (dquot kv k q u a - dquot kv k q u (a + n)).
Proof.
  rewrite (sumf_ext _ (fun i => Zq (Z.of_nat (S q)) * (dquot kv k q u i - dquot kv k q u (S i)))).
  2:{ intros i _. apply dNref_S. }
  rewrite sumf_scale, sumf_telescope. reflexivity.
Qed.

(* over the p+1 functions active on a span: the sum telescopes to two quotients outside it *)
Lemma dN_sum_span kv : sorted kv -> forall s u, span_ok kv s u ->
  forall k p, (p <= s)%nat -> (s + p + 1 < length kv)%nat ->
  sumf (fun i => dNref kv (S k) p i u) (s - p) (S p) = 0.
Proof.
  intros Hs s u Hsp k [|q] Hp Hq.
  - apply sumf_zero. intros i _. reflexivity.
  - rewrite dN_sum_range. unfold dquot.
    rewrite !(dN_zero_outside kv Hs s u Hsp k q) by lia.
    rewrite !Qcdiv_0_l. ring.
Qed.

Lemma dN_sum_zero_all_l kv p u k :
  kv_ok kv p -> (1 <= k)%nat ->
  sumf (fun i => dNref kv k p i u) 0 (numdofs kv p) = 0.
Proof.
  intros Hok Hk. destruct k as [|k]; [lia|].
  destruct p as [|q].
  - apply sumf_zero. intros i _. reflexivity.
  - rewrite dN_sum_range. unfold dquot, numdofs. cbn [Nat.add].
    pose proof (ok_len _ _ Hok) as Hl.
    rewrite (ok_first _ _ Hok).
    replace (length kv - S q - 1 + S q)%nat with (length kv - 1)%nat by lia.
    rewrite (ok_last _ _ Hok).
    replace (kn kv 0 - kn kv 0) with 0 by ring.
    replace (kn kv (length kv - 1) - kn kv (length kv - 1)) with 0 by ring.
    rewrite !Qcdiv_0_r. ring.
Qed.
