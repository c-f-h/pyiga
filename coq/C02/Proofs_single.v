(* C02 -- correctness of _bspline_single_ev_single (Bsp.single_ev) against the Cox-de Boor
   reference.  For every degree, open knot vector, function index and u. *)
From Coq Require Import QArith Qcanon ZArith List Bool Arith Lia Lqa.
From Verif.lib Require Import Bsp ListFacts.
From Verif.C02 Require Import Proofs Proofs_ref Proofs_ndu.
Import ListNotations.
Open Scope Qc_scope.

(* u = t_i = ... = t_{i+p} < t_{i+p+1}  ==>  N_{i,p}(u) = 1 *)
Lemma N_left_end kv u : forall p i,
  (forall m, (m <= p)%nat -> kn kv (i + m) = u) -> u < kn kv (i + p + 1) -> Nref kv p i u = 1.
Proof.
  induction p as [|q IH]; intros i Heq Hlt.
  - cbn [Nref]. rewrite in_span_intro; [reflexivity|]. left.
    replace (S i) with (i + 0 + 1)%nat by lia. split; [|exact Hlt].
    rewrite <- (Heq 0%nat) by lia. replace (i + 0)%nat with i by lia. apply Qcle_refl.
  - rewrite Nref_S. rewrite (IH (i + 1)%nat).
    + pose proof (Heq 0%nat ltac:(lia)) as E0. replace (i + 0)%nat with i in E0 by lia.
      pose proof (Heq 1%nat ltac:(lia)) as E1.
      replace (i + S q + 1)%nat with (i + q + 2)%nat in Hlt by lia.
      rewrite E0, E1. replace (u - u) with 0 by ring. rewrite Qcdiv_0_l.
      field. qc2q. lra.
    + intros m Hm. replace (i + 1 + m)%nat with (i + S m)%nat by lia. apply Heq. lia.
    + replace (i + 1 + q + 1)%nat with (i + S q + 1)%nat by lia. exact Hlt.
Qed.

(* t_i < t_{i+1} = ... = t_{i+p+1} = last knot = u  ==>  N_{i,p}(u) = 1 *)
Lemma N_right_end kv i : kn kv i < lastk kv -> forall p,
  (forall m, (1 <= m <= p + 1)%nat -> kn kv (i + m) = lastk kv) -> Nref kv p i (lastk kv) = 1.
Proof.
  intros Hlt. induction p as [|q IH]; intros Heq.
  - cbn [Nref]. rewrite in_span_intro; [reflexivity|]. right.
    pose proof (Heq 1%nat ltac:(lia)) as E1. replace (i + 1)%nat with (S i) in E1 by lia.
    split; [reflexivity|]. split; [rewrite E1; exact Hlt|exact E1].
  - rewrite Nref_S. rewrite IH by (intros m Hm; apply Heq; lia).
    pose proof (Heq (q + 1)%nat ltac:(lia)) as Ea. replace (i + (q + 1))%nat with (i + q + 1)%nat in Ea by lia.
    pose proof (Heq (q + 2)%nat ltac:(lia)) as Eb. replace (i + (q + 2))%nat with (i + q + 2)%nat in Eb by lia.
    rewrite Ea, Eb.
    replace (lastk kv - lastk kv) with 0 by ring. rewrite Qcdiv_0_l.
    field. qc2q. lra.
Qed.

(* at the right end point only a function whose first span is the last non-empty one is non-zero *)
Lemma N_at_last kv : sorted kv -> forall p i, (i + p + 1 < length kv)%nat ->
  Nref kv p i (lastk kv) <> 0 -> kn kv i < lastk kv /\ kn kv (i + 1) = lastk kv.
Proof.
  intros Hs. induction p as [|q IH]; intros i Hi Hn.
  - cbn [Nref] in Hn. destruct (in_span kv i (lastk kv)) eqn:E; [|congruence].
    apply in_span_true in E. unfold supp in E. replace (i + 0 + 1)%nat with (i + 1)%nat in E by lia.
    destruct E as [[A B]|[_ [B C]]]; [|split; assumption].
    exfalso. assert (kn kv (i + 1) <= lastk kv) by (apply Hs; lia). qc2q. lra.
  - rewrite Nref_S in Hn.
    destruct (Qc_eq_dec (Nref kv q i (lastk kv)) 0) as [Z1|N1]; [|apply IH; [lia|exact N1]].
    exfalso. apply Hn. rewrite Z1.
    destruct (Qc_eq_dec (Nref kv q (i + 1) (lastk kv)) 0) as [Z2|N2]; [rewrite Z2; ring|].
    apply IH in N2; [|lia]. destruct N2 as [_ E].
    assert (A : kn kv (i + 1 + 1) <= kn kv (i + q + 2)) by (apply Hs; lia).
    assert (B : kn kv (i + q + 2) <= lastk kv) by (apply Hs; lia).
    assert (C : kn kv (i + q + 2) = lastk kv) by (apply Qcle_antisym; [exact B|rewrite <- E; exact A]).
    rewrite C. replace (lastk kv - lastk kv) with 0 by ring. rewrite Qcdiv_0_l. ring.
Qed.

(* an open knot vector: the first function is 1 at the left end, the last one at the right end,
   and no other function is non-zero there *)
Lemma N_first_one kv p : open_kv kv p = true -> Nref kv p 0 (kn kv 0) = 1.
Proof.
  intros Hopen. destruct (open_kv_parts kv p Hopen) as [_ [_ [Hfirst [_ [Hfs _]]]]].
  apply N_left_end.
  - intros m Hm. apply Hfirst. exact Hm.
  - rewrite <- (Hfirst p) by lia. replace (0 + p + 1)%nat with (S p) by lia. exact Hfs.
Qed.

Lemma N_last_one kv p : open_kv kv p = true -> Nref kv p (length kv - p - 2) (lastk kv) = 1.
Proof.
  intros Hopen. destruct (open_kv_parts kv p Hopen) as [Hlen [_ [_ [Hlast [_ [Hls _]]]]]].
  apply N_right_end.
  - unfold lastk. rewrite <- (Hlast p) by lia.
    replace (length kv - 1 - p)%nat with (length kv - p - 1)%nat by lia. exact Hls.
  - intros m Hm. unfold lastk.
    replace (length kv - p - 2 + m)%nat with (length kv - 1 - (p + 1 - m))%nat by lia.
    apply Hlast. lia.
Qed.

Lemma N_last_index kv p i : open_kv kv p = true -> (i + p + 1 < length kv)%nat ->
  Nref kv p i (lastk kv) <> 0 -> i = (length kv - p - 2)%nat.
Proof.
  intros Hopen Hi N. destruct (open_kv_parts kv p Hopen) as [Hlen [Hs [_ [Hlast [_ [Hls _]]]]]].
  apply N_at_last in N; [|exact Hs|exact Hi]. destruct N as [_ E].
  destruct (Nat.eq_dec i (length kv - p - 2)) as [e|ne]; [exact e|exfalso].
  (* t_{i+1} <= t_{n-p-2} < t_{n-p-1} = t_last *)
  assert (X : kn kv (i + 1) <= kn kv (length kv - p - 2)) by (apply Hs; lia).
  assert (Y : kn kv (length kv - p - 1) = lastk kv).
  { unfold lastk. rewrite <- (Hlast p) by lia. f_equal. lia. }
  qc2q. lra.
Qed.

Section SINGLE.
Variable kv : list Qc.
Variable p i : nat.
Variable u : Qc.

Definition single_inner_inv (k : nat) (j : nat) (st : list Qc * Qc) : Prop :=
  length (fst st) = S p /\
  (forall j', (j' < j)%nat -> nth j' (fst st) 0 = Nref kv k (i + j') u) /\
  (forall j', (j <= j' <= p - k + 1)%nat -> nth j' (fst st) 0 = Nref kv (k - 1) (i + j') u) /\
  snd st = Nleft kv k (i + j) u.

Lemma single_inner_step k : (1 <= k <= p)%nat ->
  forall j st, (0 <= j < 0 + (p - k + 1))%nat -> single_inner_inv k j st ->
  single_inner_inv k (S j) (single_ev_inner kv i k u st j).
Proof.
  intros Hk j [N saved] Hj [HL [Hlo [Hhi Hsv]]]. cbn [fst snd] in *.
  unfold single_ev_inner. rewrite (Hhi (j + 1)%nat) by lia.
  replace (i + (j + 1))%nat with (i + j + 1)%nat by lia.
  destruct (cox_pass kv k (i + j) u ltac:(lia)) as [Enew Esaved].
  set (temp := Nref kv (k - 1) (i + j + 1) u / (kn kv (i + j + k + 1) - kn kv (i + j + 1))) in *.
  (* either branch stores N_{i+j,k} and carries the first summand of N_{i+j+1,k} *)
  assert (Hst : forall v s, v = Nref kv k (i + j) u -> s = Nleft kv k (i + j + 1) u ->
                  single_inner_inv k (S j) (upd N j v, s)).
  { intros v s Hv Hs. split; [|split; [|split]]; cbn [fst snd].
    - rewrite length_upd; lia.
    - apply (nth_upd_prefix (fun j' => Nref kv k (i + j') u)); [lia|exact Hlo|exact Hv].
    - intros j' Hj'. rewrite nth_upd by lia. destruct (Nat.eqb_spec j' j) as [->|Ne]; [lia|].
      apply Hhi. lia.
    - rewrite Hs. f_equal. lia. }
  destruct (qeqb (Nref kv (k - 1) (i + j + 1) u) 0) eqn:EZ.
  - (* the division is skipped when N_{i+j+1,k-1} = 0, where temp = 0 *)
    apply qeqb_iff in EZ.
    assert (T0 : temp = 0) by (unfold temp; rewrite EZ; apply Qcdiv_0_l).
    apply Hst; [rewrite Enew, Hsv, T0|rewrite Esaved, T0]; ring.
  - apply Hst; [rewrite Enew, Hsv; reflexivity|symmetry; exact Esaved].
Qed.

Definition single_outer_inv (k : nat) (N : list Qc) : Prop :=
  length N = S p /\ forall j, (j + k <= p + 1)%nat -> nth j N 0 = Nref kv (k - 1) (i + j) u.

Lemma single_outer_step : forall k N, (1 <= k < 1 + p)%nat -> single_outer_inv k N ->
  single_outer_inv (S k) (single_ev_outer kv p i u N k).
Proof.
  intros k N Hk [HL Hent]. unfold single_ev_outer.
  set (saved := if qeqb (nth 0 N 0) 0 then 0 else (u - kn kv i) * nth 0 N 0 / (kn kv (i + k) - kn kv i)).
  pose proof (fold_left_seq_inv (single_ev_inner kv i k u) (single_inner_inv k) (p - k + 1) 0 (N, saved)) as F.
  cbn [Nat.add] in F.
  destruct (fold_left (single_ev_inner kv i k u) (seq 0 (p - k + 1)) (N, saved)) as [N' saved'] eqn:EF.
  assert (I : single_inner_inv k (p - k + 1) (N', saved')).
  { apply F.
    - split; [exact HL|]. cbn [fst snd]. split; [intros j' Hj'; lia|].
      split; [intros j' Hj'; apply Hent; lia|].
      unfold saved, Nleft. rewrite (Hent 0%nat) by lia.
      replace (i + 0)%nat with i by lia.
      destruct (qeqb (Nref kv (k - 1) i u) 0) eqn:EZ.
      + apply qeqb_iff in EZ. rewrite EZ. ring.
      + unfold Qcdiv. ring.
    - intros j st Hj. apply single_inner_step; lia. }
  destruct I as [HL' [Hlo _]]. cbn [fst snd] in *.
  split; [exact HL'|]. intros j Hj. replace (S k - 1)%nat with k by lia. apply Hlo. lia.
Qed.

End SINGLE.

Lemma single_ev_loop kv p i u : u < lastk kv ->
  nth 0 (fold_left (single_ev_outer kv p i u) (seq 1 p)
           (map (fun j => if qleb (kn kv (i + j)) u && qltb u (kn kv (i + j + 1)) then 1 else 0) (seq 0 (S p)))) 0
  = Nref kv p i u.
Proof.
  intros Hu.
  set (N0 := map (fun j => if qleb (kn kv (i + j)) u && qltb u (kn kv (i + j + 1)) then 1 else 0) (seq 0 (S p))).
  pose proof (fold_left_seq_inv (single_ev_outer kv p i u) (single_outer_inv kv p i u) p 1 N0) as F.
  assert (I : single_outer_inv kv p i u (1 + p) (fold_left (single_ev_outer kv p i u) (seq 1 p) N0)).
  { apply F.
    - split; [unfold N0; rewrite map_length, seq_length; reflexivity|].
      intros j Hj. unfold N0. rewrite nth_map_seq by lia. cbn [Nat.add Nat.sub Nref].
      unfold in_span. fold (lastk kv).
      replace (S (i + j)) with (i + j + 1)%nat by lia.
      assert (EQ : qeqb u (lastk kv) = false).
      { destruct (qeqb u (lastk kv)) eqn:E; [|reflexivity]. apply qeqb_iff in E.
        exfalso. rewrite E in Hu. revert Hu. apply Qcle_not_lt, Qcle_refl. }
      rewrite EQ. cbn [andb]. rewrite orb_false_r. reflexivity.
    - intros k N Hk. apply single_outer_step. exact Hk. }
  destruct I as [_ H]. rewrite (H 0%nat) by lia.
  replace (1 + p - 1)%nat with p by lia. replace (i + 0)%nat with i by lia. reflexivity.
Qed.

Lemma single_ev_eq_spec_l kv p i u :
  open_kv kv p = true -> (i + p + 1 < length kv)%nat -> single_ev kv p i u = Nref kv p i u.
Proof.
  intros Hopen Hi. pose proof (proj1 (proj2 (open_kv_parts kv p Hopen))) as Hs.
  unfold single_ev. fold (lastk kv).
  destruct ((i =? 0)%nat && qeqb u (kn kv 0)) eqn:C1.
  { apply andb_true_iff in C1. destruct C1 as [Ei Eu]. apply Nat.eqb_eq in Ei. apply qeqb_iff in Eu.
    subst i u. symmetry. apply N_first_one. exact Hopen. }
  cbn [orb].
  destruct ((i =? length kv - p - 2)%nat && qeqb u (lastk kv)) eqn:C2.
  { apply andb_true_iff in C2. destruct C2 as [Ei Eu]. apply Nat.eqb_eq in Ei. apply qeqb_iff in Eu.
    subst i u. symmetry. apply N_last_one. exact Hopen. }
  destruct (qltb u (kn kv i) || qleb (kn kv (i + p + 1)) u) eqn:C3.
  { (* outside the half-open support *)
    symmetry. destruct (Qc_eq_dec (Nref kv p i u) 0) as [Z|N]; [exact Z|exfalso].
    destruct (N_support kv Hs p i u Hi N) as [[A B]|[A _]].
    - apply orb_true_iff in C3.
      destruct C3 as [C3|C3]; [apply qltb_iff in C3|apply qleb_iff in C3]; qc2q; lra.
    - subst u. rewrite (N_last_index kv p i Hopen Hi N), Nat.eqb_refl in C2.
      rewrite (proj2 (qeqb_iff _ _) eq_refl) in C2. discriminate. }
  apply orb_false_iff in C3. destruct C3 as [C3 C4].
  apply qleb_false_iff in C4.
  apply single_ev_loop. eapply Qclt_le_trans; [exact C4|]. apply Hs; lia.
Qed.
