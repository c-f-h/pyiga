(* C02 -- the routes built ON the collocation rows: spline evaluation / differentiation
   (bspline.ev, bspline.deriv for degree > 5: `collocation_derivs(kv, u, k)[k].dot(coeffs)`;
   for degree <= 5 they call scipy's splev, which is not modelled) and the tensor-product
   evaluators (BSplineFunc.grid_eval / grid_jacobian: one collocation matrix per axis applied along
   that axis, apply_tprod).  For every degree, knot vector, derivative order, number of axes and point. *)
From Coq Require Import QArith Qcanon List Bool Arith Lia.
From Verif.lib Require Import Bsp ListFacts.
From Verif.C02 Require Import Proofs Proofs_ref Proofs_ndu Proofs_deriv.
Import ListNotations.
Open Scope Qc_scope.

(* dense row times coefficient vector *)
Fixpoint dotl (r c : list Qc) : Qc :=
  match r, c with
  | a :: r', b :: c' => a * b + dotl r' c'
  | _, _ => 0
  end.

Lemma dotl_sumf : forall r c, length r = length c ->
  dotl r c = sumf (fun j => nth j r 0 * nth j c 0) 0 (length r).
Proof.
  induction r as [|a r IH]; intros c Hl; destruct c as [|b c]; cbn [length] in Hl; try discriminate.
  - reflexivity.
  - cbn [dotl length sumf]. rewrite sumf_succ. cbn [nth]. rewrite (IH c) by lia. reflexivity.
Qed.

(* model of bspline.ev (k = 0) and bspline.deriv (k >= 1) *)
Definition spline_ev (kv : list Qc) (p k : nat) (c : list Qc) (u : Qc) : Qc :=
  dotl (colloc_row kv p k u) c.

Lemma spline_ev_spec_l kv p k c u :
  kv_ok kv p -> kn kv 0 <= u -> u <= kn kv (length kv - 1) -> length c = numdofs kv p ->
  spline_ev kv p k c u = sumf (fun j => nth j c 0 * dNref kv k p j u) 0 (numdofs kv p).
Proof.
  intros Hok H0 H1 Hc. unfold spline_ev.
  rewrite dotl_sumf by (rewrite colloc_row_length; lia).
  rewrite colloc_row_length. apply sumf_ext. intros j Hj.
  rewrite colloc_row_derivs_l by (assumption || lia). ring.
Qed.

Lemma sumf_const_scale c f : forall n a, sumf (fun j => c * f j) a n = c * sumf f a n.
Proof. exact (sumf_scale c f). Qed.

(* constant coefficients: the constant times the sum of the row *)
Lemma spline_ev_repeat kv p k x u :
  kv_ok kv p -> kn kv 0 <= u -> u <= kn kv (length kv - 1) ->
  spline_ev kv p k (repeat x (numdofs kv p)) u = x * sumf (fun j => dNref kv k p j u) 0 (numdofs kv p).
Proof.
  intros Hok H0 H1. rewrite spline_ev_spec_l by (try assumption; apply repeat_length).
  rewrite <- sumf_scale. apply sumf_ext. intros j Hj. rewrite nth_repeat_lt by lia. reflexivity.
Qed.

(* tensor product: one collocation row per axis, applied axis by axis (apply_tprod at one grid
   point).  The coefficient tensor is a function of the multi-index (first axis first). *)
Fixpoint tp_eval (axes : list (list Qc * nat)) (ks : list nat) (c : list nat -> Qc) (pt : list Qc) : Qc :=
  match axes, ks, pt with
  | (kv, p) :: ax, k :: ks', u :: pt' =>
      sumf (fun j => nth j (colloc_row kv p k u) 0 * tp_eval ax ks' (fun idx => c (j :: idx)) pt')
           0 (numdofs kv p)
  | _, _, _ => c []
  end.

(* the definition of a tensor-product spline (derivative of multi-order ks):
   sum_{j1} ... sum_{jd} c[j1..jd] * prod_a N^(k_a)_{j_a,p_a}(u_a), written as nested sums *)
Fixpoint tp_ref (axes : list (list Qc * nat)) (ks : list nat) (c : list nat -> Qc) (pt : list Qc) : Qc :=
  match axes, ks, pt with
  | (kv, p) :: ax, k :: ks', u :: pt' =>
      sumf (fun j => dNref kv k p j u * tp_ref ax ks' (fun idx => c (j :: idx)) pt') 0 (numdofs kv p)
  | _, _, _ => c []
  end.

Fixpoint axes_ok (axes : list (list Qc * nat)) (pt : list Qc) : Prop :=
  match axes, pt with
  | (kv, p) :: ax, u :: pt' =>
      kv_ok kv p /\ kn kv 0 <= u /\ u <= kn kv (length kv - 1) /\ axes_ok ax pt'
  | [], [] => True
  | _, _ => False
  end.

Definition all_zero (ks : list nat) : bool := forallb (Nat.eqb 0) ks.

(* the tensor-product basis is a partition of unity: constant coefficients give the constant, and
   any derivative of it vanishes *)
Lemma tp_ref_const : forall axes ks x pt, axes_ok axes pt -> length ks = length axes ->
  tp_ref axes ks (fun _ => x) pt = if all_zero ks then x else 0.
Proof.
  induction axes as [|[kv p] ax IH]; intros ks x pt Hok Hl.
  - destruct ks; [reflexivity|discriminate].
  - destruct pt as [|u pt']; [destruct Hok|]. destruct Hok as (Hk & H0 & H1 & Hr).
    destruct ks as [|k ks']; [discriminate|]. cbn [tp_ref length] in *.
    rewrite (sumf_ext _ (fun j => (if all_zero ks' then x else 0) * dNref kv k p j u)).
    2:{ intros j Hj. rewrite IH by (assumption || lia). ring. }
    rewrite sumf_scale. unfold all_zero at 2. cbn [forallb]. fold (all_zero ks').
    destruct k as [|k].
    + cbn [dNref Nat.eqb andb]. rewrite N_partition_of_unity_all_l by assumption. ring.
    + cbn [Nat.eqb andb]. rewrite dN_sum_zero_all_l by (assumption || lia). ring.
Qed.
