(* C02 -- property theorems only.  Every statement is for every degree p, every knot vector kv
   and every parameter value u that meet the stated hypotheses (no bounds).
     kv_ok kv p   : length >= 2p+2, non-decreasing, kv[p] = kv[0], kv[n-p-1] = kv[n-1], kv[n-p-2] < kv[n-p-1]
     open_kv kv p : the boolean well-formedness check of an open knot vector (implies kv_ok)
     Nref / dNref : the Cox-de Boor recursion and its derivative recursion (coq/lib/Bsp.v)
     sumf f a n   : f a + f (a+1) + ... + f (a+n-1) *)
From Coq Require Import QArith Qcanon List Arith Lia.
From Verif.lib Require Import Bsp QcFacts ListFacts.
From Verif.C02 Require Import Proofs Proofs_ref Proofs_ndu Proofs_single Proofs_deriv Proofs_tp.
Import ListNotations.
Open Scope Qc_scope.

(* Span lookup (the transcription of pyx_findspan) returns, for every open knot vector
   and every parameter value in its domain, a non-empty span p <= s < n-p-1 with
   kv[s] <= u < kv[s+1], or the last non-empty span when u is the right end point. *)
Theorem findspan_spec : forall kv p u,
  kv_ok kv p -> kn kv 0 <= u -> u <= kn kv (length kv - 1) ->
  let s := findspan kv p u in
  (p <= s)%nat /\ (s < length kv - p - 1)%nat /\ kn kv s < kn kv (S s) /\
  kn kv s <= u /\ (u < kn kv (S s) \/ (u = kn kv (length kv - 1) /\ kn kv (S s) = kn kv (length kv - 1))).
Proof. exact findspan_spec_l. Qed.
Print Assumptions findspan_spec.

(* ... and it is the unique such span. *)
Theorem findspan_unique : forall kv p u t,
  kv_ok kv p -> kn kv 0 <= u -> u < kn kv (length kv - 1) ->
  (S t < length kv)%nat -> kn kv t <= u -> u < kn kv (S t) -> t = findspan kv p u.
Proof. exact findspan_unique_l. Qed.
Print Assumptions findspan_unique.

(* The boolean well-formedness predicate implies the facts the theorems assume. *)
Theorem open_kv_ok : forall kv p, open_kv kv p = true -> kv_ok kv p.
Proof. exact open_kv_ok_l. Qed.
Print Assumptions open_kv_ok.

(* Non-negativity of every basis function of a non-decreasing knot vector, at every u. *)
Theorem N_nonneg : forall kv, sorted kv -> forall p i u,
  (i + p + 1 < length kv)%nat -> 0 <= Nref kv p i u.
Proof. exact N_nonneg_l. Qed.
Print Assumptions N_nonneg.

(* Support: N_{i,p}(u) <> 0 only for t_i <= u < t_{i+p+1}, or at the right end point u = t_last
   for a function whose support reaches it. *)
Theorem N_support_knots : forall kv p i u,
  sorted kv -> (i + p + 1 < length kv)%nat -> Nref kv p i u <> 0 ->
  (kn kv i <= u /\ u < kn kv (i + p + 1)) \/
  (u = kn kv (length kv - 1) /\ kn kv i < kn kv (length kv - 1) /\ kn kv (i + p + 1) = kn kv (length kv - 1)).
Proof. intros kv p i u Hs. exact (N_support kv Hs p i u). Qed.
Print Assumptions N_support_knots.

(* Locality in the form the property uses: only the p+1 functions s-p..s of the reported span
   can be non-zero. *)
Theorem N_local : forall kv p u i,
  kv_ok kv p -> kn kv 0 <= u -> u <= kn kv (length kv - 1) -> (i + p + 1 < length kv)%nat ->
  ~ (findspan kv p u - p <= i <= findspan kv p u)%nat -> Nref kv p i u = 0.
Proof. exact N_local_l. Qed.
Print Assumptions N_local.

(* Partition of unity over the active functions ... *)
Theorem N_partition_of_unity : forall kv p u,
  kv_ok kv p -> kn kv 0 <= u -> u <= kn kv (length kv - 1) ->
  sumf (fun i => Nref kv p i u) (findspan kv p u - p) (S p) = 1.
Proof. exact N_partition_of_unity_l. Qed.
Print Assumptions N_partition_of_unity.

(* ... and over all basis functions. *)
Theorem N_partition_of_unity_all : forall kv p u,
  kv_ok kv p -> kn kv 0 <= u -> u <= kn kv (length kv - 1) ->
  sumf (fun i => Nref kv p i u) 0 (numdofs kv p) = 1.
Proof. exact N_partition_of_unity_all_l. Qed.
Print Assumptions N_partition_of_unity_all.

(* Derivatives of order k >= 1 sum to zero (over the active functions; over all functions). *)
Theorem dN_sum_zero : forall kv p u k,
  kv_ok kv p -> kn kv 0 <= u -> u <= kn kv (length kv - 1) -> (1 <= k)%nat ->
  sumf (fun i => dNref kv k p i u) (findspan kv p u - p) (S p) = 0.
Proof.
  intros kv p u [|k] Hok H0 H1 Hk; [lia|].
  destruct (findspan_span_ok kv p u Hok H0 H1) as [Hsp [Hp Hq]].
  exact (dN_sum_span kv (ok_sorted _ _ Hok) _ u Hsp k p Hp Hq).
Qed.
Print Assumptions dN_sum_zero.

Theorem dN_sum_zero_all : forall kv p u k,
  kv_ok kv p -> (1 <= k)%nat -> sumf (fun i => dNref kv k p i u) 0 (numdofs kv p) = 0.
Proof. exact dN_sum_zero_all_l. Qed.
Print Assumptions dN_sum_zero_all.

(* Derivatives of order > p vanish identically; derivatives of every order are local. *)
Theorem dN_high_zero : forall kv k p i u, (p < k)%nat -> dNref kv k p i u = 0.
Proof. exact dN_high_zero_l. Qed.
Print Assumptions dN_high_zero.

Theorem dN_local : forall kv p u k i,
  kv_ok kv p -> kn kv 0 <= u -> u <= kn kv (length kv - 1) -> (i + p + 1 < length kv)%nat ->
  ~ (findspan kv p u - p <= i <= findspan kv p u)%nat -> dNref kv k p i u = 0.
Proof. exact dN_local_l. Qed.
Print Assumptions dN_local.

(* Correctness of the NDU value loop of bspline_active_deriv_single (NURBS book A2.2):
   row 0 of active_deriv is the vector of reference values of the p+1 active functions. *)
Theorem active_values_eq_spec : forall kv p u nd,
  kv_ok kv p -> kn kv 0 <= u -> u <= kn kv (length kv - 1) ->
  nth 0 (active_deriv kv p u nd) [] =
  map (fun r => Nref kv p (findspan kv p u - p + r) u) (seq 0 (S p)).
Proof. exact active_values_eq_spec_l. Qed.
Print Assumptions active_values_eq_spec.

(* Every divisor of that loop (temp = ndu[r][j-1] / ndu[j][r], r < j <= p) is strictly positive,
   so the exact model never uses its x/0 = 0 convention where the C code would divide by zero. *)
Theorem ndu_divisors_pos : forall kv p u j r,
  kv_ok kv p -> kn kv 0 <= u -> u <= kn kv (length kv - 1) -> (r < j)%nat -> (j <= p)%nat ->
  0 < get2 (ndu_table kv p (findspan kv p u) u) j r.
Proof.
  intros kv p u j r Hok H0 H1 Hr Hj. destruct (findspan_span_ok kv p u Hok H0 H1) as [Hsp [Hp Hq]].
  pose proof (ok_sorted _ _ Hok) as Hs.
  destruct (ndu_table_inv kv (findspan kv p u) u Hs Hsp p Hp Hq) as [_ E].
  rewrite E by lia. apply tbl_lower_pos; try assumption; lia.
Qed.
Print Assumptions ndu_divisors_pos.

(* Correctness of _bspline_single_ev_single, for every function index and EVERY u (inside or
   outside the domain, on knots, at both end points). *)
Theorem single_ev_eq_spec : forall kv p i u,
  open_kv kv p = true -> (i + p + 1 < length kv)%nat -> single_ev kv p i u = Nref kv p i u.
Proof. exact single_ev_eq_spec_l. Qed.
Print Assumptions single_ev_eq_spec.

(* Collocation rows: length numdofs, the p+1 active entries at columns first_active..first_active+p,
   zeros elsewhere (any derivative order k) ... *)
Theorem colloc_row_spec : forall kv p k u j, (j < numdofs kv p)%nat ->
  nth j (colloc_row kv p k u) 0 =
  if ((first_active_at kv p u <=? j) && (j <=? first_active_at kv p u + p))%nat
  then nth (j - first_active_at kv p u) (nth k (active_deriv kv p u k) []) 0 else 0.
Proof. exact colloc_row_spec_l. Qed.
Print Assumptions colloc_row_spec.

Theorem colloc_row_len : forall kv p k u, length (colloc_row kv p k u) = numdofs kv p.
Proof. exact colloc_row_length. Qed.
Print Assumptions colloc_row_len.

(* ... and the value row is entry for entry the reference: B[u, j] = N_{j,p}(u) for every column j. *)
Theorem colloc_row_values : forall kv p u j,
  kv_ok kv p -> kn kv 0 <= u -> u <= kn kv (length kv - 1) -> (j < numdofs kv p)%nat ->
  nth j (colloc_row kv p 0 u) 0 = Nref kv p j u.
Proof. exact colloc_row_values_l. Qed.
Print Assumptions colloc_row_values.

(* The closed formula behind the derivative loop (NURBS book eq. 2.10), derived from the derivative
   recursion dNref for EVERY knot vector (no sortedness needed; x/0 = 0 on both sides):
   N^(k)_{i,p} = p(p-1)..(p-k+1) * sum_{j=0..k} a_{k,j} N_{i+j,p-k},
   a_{0,0} = 1, a_{k,j} = (a_{k-1,j} - a_{k-1,j-1}) / (t_{i+j+p-k+1} - t_{i+j}). *)
Theorem dN_formula : forall kv p i u k, (k <= p)%nat ->
  dNref kv k p i u = Zq (Ffac p k) * sumf (fun j => acoef kv p i k j * Nref kv (p - k) (j + i) u) 0 (S k).
Proof. exact dN_formula_l. Qed.
Print Assumptions dN_formula.

(* Correctness of the a1/a2 derivative loop of bspline_active_deriv_single (NURBS book A2.3), for
   EVERY derivative order k <= nd (including k > p, where the loop body is empty and the result 0):
   entry [k][r] of active_deriv is the k-th derivative of the r-th active function. *)
Theorem active_derivs_eq_spec : forall kv p u nd k r,
  kv_ok kv p -> kn kv 0 <= u -> u <= kn kv (length kv - 1) -> (k <= nd)%nat -> (r <= p)%nat ->
  nth r (nth k (active_deriv kv p u nd) []) 0 = dNref kv k p (findspan kv p u - p + r) u.
Proof. exact active_derivs_eq_spec_l. Qed.
Print Assumptions active_derivs_eq_spec.

Theorem active_deriv_row : forall kv p u nd k,
  kv_ok kv p -> kn kv 0 <= u -> u <= kn kv (length kv - 1) -> (k <= nd)%nat ->
  nth k (active_deriv kv p u nd) [] = map (fun r => dNref kv k p (findspan kv p u - p + r) u) (seq 0 (S p)).
Proof.
  intros kv p u nd k Hok H0 H1 Hk. apply (nth_ext _ _ 0 0); rewrite active_deriv_row_length by exact Hk.
  - rewrite map_length, seq_length. reflexivity.
  - intros r Hr. rewrite active_derivs_eq_spec_l, nth_map_seq by (assumption || lia). reflexivity.
Qed.
Print Assumptions active_deriv_row.

(* Derivative collocation rows of every order: B^(k)[u, j] = N^(k)_{j,p}(u) for every column j. *)
Theorem colloc_row_derivs : forall kv p k u j,
  kv_ok kv p -> kn kv 0 <= u -> u <= kn kv (length kv - 1) -> (j < numdofs kv p)%nat ->
  nth j (colloc_row kv p k u) 0 = dNref kv k p j u.
Proof. exact colloc_row_derivs_l. Qed.
Print Assumptions colloc_row_derivs.

(* The single-function route and the all-active/collocation route agree exactly (both equal Nref). *)
Theorem routes_agree : forall kv p u j,
  open_kv kv p = true -> kn kv 0 <= u -> u <= kn kv (length kv - 1) -> (j < numdofs kv p)%nat ->
  single_ev kv p j u = nth j (colloc_row kv p 0 u) 0.
Proof.
  intros kv p u j Hopen H0 H1 Hj. pose proof (open_kv_ok_l kv p Hopen) as Hok.
  rewrite colloc_row_values_l by assumption.
  apply single_ev_eq_spec_l; [exact Hopen|]. unfold numdofs in Hj. lia.
Qed.
Print Assumptions routes_agree.

(* Routes built on the collocation rows.
   spline_ev kv p k c u = (row of the k-th derivative collocation matrix at u) . c  is what
   bspline.ev (k = 0) and bspline.deriv (k >= 1) compute for degree > 5 and what scipy's splev is
   compared with for degree <= 5 (the harness compares the returned floats with this sum, formed in
   exact rationals from the active values that the exact tie has compared with the model). *)
Theorem spline_ev_spec : forall kv p k c u,
  kv_ok kv p -> kn kv 0 <= u -> u <= kn kv (length kv - 1) -> length c = numdofs kv p ->
  spline_ev kv p k c u = sumf (fun j => nth j c 0 * dNref kv k p j u) 0 (numdofs kv p).
Proof. exact spline_ev_spec_l. Qed.
Print Assumptions spline_ev_spec.

(* only the p+1 coefficients starting at the reported first-active index enter *)
Theorem spline_ev_local : forall kv p k c u,
  kv_ok kv p -> kn kv 0 <= u -> u <= kn kv (length kv - 1) -> length c = numdofs kv p ->
  spline_ev kv p k c u = sumf (fun j => nth j c 0 * dNref kv k p j u) (first_active_at kv p u) (S p).
Proof.
  intros kv p k c u Hok H0 H1 Hc. rewrite spline_ev_spec_l by assumption.
  destruct (findspan_span_ok kv p u Hok H0 H1) as [_ [Hp Hq]].
  apply sumf_window; unfold first_active_at, numdofs; [lia|].
  intros i Hi. rewrite (dN_local_l kv p u k i) by (assumption || lia). apply Qcmult_0_r.
Qed.
Print Assumptions spline_ev_local.

(* constants are reproduced, their derivatives of every order >= 1 vanish *)
Theorem spline_ev_const : forall kv p x u,
  kv_ok kv p -> kn kv 0 <= u -> u <= kn kv (length kv - 1) ->
  spline_ev kv p 0 (repeat x (numdofs kv p)) u = x.
Proof.
  intros kv p x u Hok H0 H1. rewrite spline_ev_repeat by assumption.
  cbn [dNref]. rewrite N_partition_of_unity_all_l by assumption. apply Qcmult_1_r.
Qed.
Print Assumptions spline_ev_const.

Theorem spline_deriv_const : forall kv p k x u,
  kv_ok kv p -> kn kv 0 <= u -> u <= kn kv (length kv - 1) -> (1 <= k)%nat ->
  spline_ev kv p k (repeat x (numdofs kv p)) u = 0.
Proof.
  intros kv p k x u Hok H0 H1 Hk. rewrite spline_ev_repeat by assumption.
  rewrite dN_sum_zero_all_l by assumption. apply Qcmult_0_r.
Qed.
Print Assumptions spline_deriv_const.

(* Tensor-product evaluators (BSplineFunc.grid_eval / grid_jacobian / grid_hessian at one grid point):
   applying one (derivative) collocation row per axis, axis by axis (tp_eval: the apply_tprod
   contraction), gives the defining nested sum  sum_{j1}..sum_{jd} c[j1..jd] prod_a N^(k_a)_{j_a}(u_a)
   (tp_ref), for ANY number of axes, degrees, knot vectors, derivative multi-orders and points. *)
Theorem tp_eval_spec : forall axes ks c pt, axes_ok axes pt -> tp_eval axes ks c pt = tp_ref axes ks c pt.
Proof.
  induction axes as [|[kv p] ax IH]; intros ks c pt Hok; [reflexivity|].
  destruct pt as [|u pt']; [destruct Hok|]. destruct Hok as (Hk & H0 & H1 & Hr).
  destruct ks as [|k ks']; [reflexivity|]. cbn [tp_eval tp_ref].
  apply sumf_ext. intros j Hj. rewrite colloc_row_derivs_l by (assumption || lia).
  rewrite IH by assumption. reflexivity.
Qed.
Print Assumptions tp_eval_spec.

(* the two-axis case written out: entry of  C2 * c * C1^T  (what the harness compares grid_eval and
   grid_jacobian with) *)
Theorem tp_eval_2d : forall kv2 p2 k2 kv1 p1 k1 (c : nat -> nat -> Qc) v u,
  kv_ok kv2 p2 -> kn kv2 0 <= v -> v <= kn kv2 (length kv2 - 1) ->
  kv_ok kv1 p1 -> kn kv1 0 <= u -> u <= kn kv1 (length kv1 - 1) ->
  tp_eval [(kv2, p2); (kv1, p1)] [k2; k1]
          (fun idx => match idx with [a; b] => c a b | _ => 0 end) [v; u] =
  sumf (fun a => sumf (fun b => c a b * (dNref kv2 k2 p2 a v * dNref kv1 k1 p1 b u)) 0 (numdofs kv1 p1))
       0 (numdofs kv2 p2).
Proof.
  intros kv2 p2 k2 kv1 p1 k1 c v u A1 A2 A3 B1 B2 B3. rewrite tp_eval_spec by (cbn [axes_ok]; tauto).
  cbn [tp_ref]. apply sumf_ext. intros a Ha. rewrite <- sumf_scale. apply sumf_ext. intros b Hb. ring.
Qed.
Print Assumptions tp_eval_2d.

(* the tensor-product basis is a partition of unity (constant coefficients give the constant) and
   every derivative of a constant vanishes; non-negative coefficients give a non-negative value *)
Theorem tp_eval_const : forall axes ks x pt, axes_ok axes pt -> length ks = length axes ->
  tp_eval axes ks (fun _ => x) pt = if all_zero ks then x else 0.
Proof. intros axes ks x pt Hok Hl. rewrite tp_eval_spec by assumption. apply tp_ref_const; assumption. Qed.
Print Assumptions tp_eval_const.

Theorem tp_nonneg : forall axes c pt, axes_ok axes pt -> (forall idx, 0 <= c idx) ->
  0 <= tp_ref axes (repeat 0%nat (length axes)) c pt.
Proof.
  induction axes as [|[kv p] ax IH]; intros c pt Hok Hc.
  - apply Hc.
  - destruct pt as [|u pt']; [destruct Hok|]. destruct Hok as (Hk & H0 & H1 & Hr).
    cbn [length repeat tp_ref dNref]. apply sumf_nonneg. intros j Hj.
    apply Qcmult_nonneg.
    + apply N_nonneg_l; [exact (ok_sorted _ _ Hk)|unfold numdofs in Hj; lia].
    + apply IH; [assumption|]. intros idx. apply Hc.
Qed.
Print Assumptions tp_nonneg.

(* NOT PROVED (tie/oracle only): that FITPACK's splev/splder (the degree <= 5 route of ev/deriv)
   computes spline_ev -- it is compared with the sum above per point; the float error bounds of every
   route; BSplineFunc's caching of collocation matrices per grid (history tie on one object). *)
