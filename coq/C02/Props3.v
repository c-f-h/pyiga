(* C02 -- property theorems about the entry points of the extracted run.
   ex_point is the function the extracted OCaml program evaluates per line of input; xcheck is
   the comparison the per-run cross-check file evaluates with vm_compute on a sample of the
   extracted program's output. *)
From Coq Require Import QArith Qcanon List Arith Lia.
From Verif.lib Require Import Bsp ListFacts.
From Verif.C02 Require Import Proofs Proofs_ref Proofs_ndu Proofs_single Proofs_deriv Proofs_tp ExtractDefs Props.
Import ListNotations.
Open Scope Qc_scope.

(* Everything the extracted program prints for a point of the domain of an open knot vector is
   the Cox-de Boor reference: the span, every row of values/derivatives of the all-active route,
   the single-function route for every basis function, and spline evaluation/differentiation of
   every order -- for every degree, knot vector, coefficient vector, point and order bound. *)
Theorem ex_point_spec : forall kv p nd c u,
  open_kv kv p = true -> kn kv 0 <= u -> u <= kn kv (length kv - 1) -> length c = numdofs kv p ->
  let '(s, ad, sev, evs) := ex_point kv p nd c u in
  s = findspan kv p u /\
  (forall k, (k <= nd)%nat ->
     nth k ad [] = map (fun r => dNref kv k p (s - p + r) u) (seq 0 (S p))) /\
  (forall i, (i < numdofs kv p)%nat -> nth i sev 0 = Nref kv p i u) /\
  (forall k, (k <= nd)%nat ->
     nth k evs 0 = sumf (fun j => nth j c 0 * dNref kv k p j u) 0 (numdofs kv p)).
Proof.
  intros kv p nd c u Hopen H0 H1 Hc. unfold ex_point.
  pose proof (open_kv_ok kv p Hopen) as Hok.
  split; [reflexivity|]. split; [|split].
  - intros k Hk. apply active_deriv_row; assumption.
  - intros i Hi. rewrite nth_map_seq by exact Hi.
    apply single_ev_eq_spec; [assumption|]. unfold numdofs in Hi. lia.
  - intros k Hk. rewrite nth_map_seq by lia. apply spline_ev_spec; assumption.
Qed.
Print Assumptions ex_point_spec.

(* Soundness of the cross-check of the extracted program against vm_compute: a printed result
   that passes xcheck is exactly the model's result on a well-formed open knot vector. *)
Theorem xcheck_sound : forall kv p nd c u span ad sev evs,
  xcheck kv p nd c u span ad sev evs = true ->
  open_kv kv p = true /\ ex_point kv p nd c u = (span, ad, sev, evs).
Proof.
  unfold xcheck, ex_point. cbv beta iota zeta. intros kv p nd c u span ad sev evs H.
  apply andb_prop in H. destruct H as [H Hevs]. apply qlist_eqb_eq in Hevs.
  apply andb_prop in H. destruct H as [H Hsev]. apply qlist_eqb_eq in Hsev.
  apply andb_prop in H. destruct H as [H Had]. apply qlist2_eqb_eq in Had.
  apply andb_prop in H. destruct H as [Hopen Hs]. apply Nat.eqb_eq in Hs.
  subst. split; [exact Hopen|reflexivity].
Qed.
Print Assumptions xcheck_sound.

(* NOT PROVED: that the OCaml program produced by `Extraction` computes ex_point (the extraction
   mechanism and the OCaml compiler are trusted; tested on every run by xcheck on a sample), and
   that scipy's FITPACK splev (the route of bspline.ev/deriv for degree <= 5) computes spline_ev
   (not modelled: compiled Fortran; tied at volume by the extracted run). *)
