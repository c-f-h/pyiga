(* C03 -- non-vacuity: a concrete reachable space and concrete data meet the hypotheses of every
   implication of Props.v, with non-trivial values.  Everything here is evaluation (vm_compute): tests. *)
From Coq Require Import List Arith Bool NArith ZArith.
From Verif.lib Require Import FinSet.
From Verif.C04 Require Import Model Proofs ProofsMesh.
From Verif.C03 Require Import Model Proofs Proofs2 Proofs7 Proofs9.
From Verif.C04 Require Children.
Import ListNotations.

(* p = 2, two spans, the first one refined once: AF_0 = {1,2,3}, AF_1 = {0,1} *)
Definition st1 : hspace := run (hs_init [mk_axis 2 [3; 1; 3]] None) [Refine [(0, (CSet, [[0]]))] false].

Example ex_state : (numlevels st1, AFm st1 0, AFm st1 1) = (2, [[1]; [2]; [3]], [[0]; [1]]).
Proof. vm_compute. reflexivity. Qed.

(* scalars: the ring Z; the prolongator is 4 * (exact two-scale matrix), the level matrices are arbitrary
   banded integer matrices (a symmetric one and a non-symmetric one) *)
Open Scope Z_scope.
Definition P4 : smat Z :=
  [[(0%N, 4)]; [(0%N, 2); (1%N, 2)]; [(1%N, 3); (2%N, 1)]; [(1%N, 1); (2%N, 3)]; [(2%N, 2); (3%N, 2)]; [(3%N, 4)]].
Definition pm1 (lv d : nat) : smat Z := match lv, d with O, O => P4 | _, _ => [] end.

Definition band (sym : bool) (n : nat) : smat Z :=
  map (fun r => flat_map (fun c => if (Nat.leb r (c + 2) && Nat.leb c (r + 2))%bool
                                   then [(N.of_nat c, Z.of_nat (1 + r * c + (if sym then 0 else 3 * r)))] else []) (seq 0 n))
      (seq 0 n).
Definition al1 (sym : bool) (k : nat) : smat Z := band sym (match k with O => 4%nat | _ => 6%nat end).

Definition a1 (sym : bool) (k : nat) (r c : mi) : Z := sm_get Z 0 (al1 sym k) (ravel (shape st1 k) r) (ravel (shape st1 k) c).
Definition rep1 (l k : nat) (f r : mi) : Z :=
  if Nat.eqb l k then (if mi_eqb r f then 1 else 0)
  else sm_get Z 0 P4 (ravel (shape st1 1) r) (ravel (shape st1 0) f).
Definition nb1 (k i : nat) : list mi := neighbors st1 None k i.
Definition il1 (k : nat) : list mi := interlevel Z st1 pm1 k.
Definition ta1 (k : nat) : list mi := to_assemble Z st1 pm1 k.
Definition fns1 (k : nat) : list mi := tp_functions (msh st1 k).
Close Scope Z_scope.

Example ex_sets : (nb1 1 0, il1 1, ta1 1, ta1 0) = ([[1]; [2]], [[1]; [2]; [3]; [4]], [[0]; [1]; [2]; [3]; [4]], [[1]; [2]; [3]]).
Proof. vm_compute. reflexivity. Qed.

(* neighbors_complete: the set-level hypotheses hold for f = 2 (level 0), g = 1 (level 1), c = cell 1 of
   level 1, and the conclusion is the non-trivial membership *)
Example ex_neighbors_hyps :
  0 < 1 /\ In [2] (AFm st1 0) /\ In [2] (tp_functions (msh st1 0)) /\ In [1] (AFm st1 1) /\
  In [1] (support1 (msh st1 1) [1]) /\ length (anc 1 [1]) = 1 /\ In (anc 1 [1]) (support1 (msh st1 0) [2]) /\
  In [2] (neighbors st1 None 1 0) /\ ~ In [3] (neighbors st1 None 1 0).
Proof. vm_compute. repeat split; auto 10. intros [H|[H|[]]]; discriminate. Qed.

(* bdspecs: cell_supp_indices itself does depend on the Dirichlet specification (diagonal entries) *)
Example ex_bdspecs_matter_on_diagonal : cell_supp st1 (Some [(0, 1)]) 0 0 <> cell_supp st1 None 0 0.
Proof. vm_compute. discriminate. Qed.

(* hypotheses of symmetric_equals_general / hassemble_entry_*: il <= ta, il <= fns and the two support facts,
   for all active pairs (the lists are sorted sets, rep1 is the unit on its own level by definition) *)
Definition pairs10 : list (mi * mi) := flat_map (fun fi => map (pair fi) (AFm st1 1)) (AFm st1 0).
Example ex_entry_hyps :
  forallb (fun r => mem r (ta1 1) && mem r (fns1 1)) (il1 1) = true /\
  forallb (fun fifj : mi * mi => let (fi, fj) := fifj in
     (if mem fi (nb1 1 0)
      then forallb (fun r => mem r (il1 1) || Z.eqb (rep1 0 1 fi r) 0) (fns1 1)
      else forallb (fun r => Z.eqb (rep1 0 1 fi r * a1 false 1 r fj) 0) (fns1 1))
     && (if mem fi (nb1 1 0)
         then true else forallb (fun c => Z.eqb (a1 false 1 fj c * rep1 0 1 fi c) 0) (fns1 1))) pairs10 = true.
Proof. vm_compute. split; reflexivity. Qed.

(* ... and the conclusions with their (non-zero) values: blocks = specification, for every active pair *)
Example ex_entry_values :
  map (fun fifj : mi * mi => blk_entry Z 0%Z Z.add Z.mul (a1 false) rep1 nb1 il1 ta1 false 0 (fst fifj) 1 (snd fifj)) pairs10
  = map (fun fifj : mi * mi => spec_entry Z 0%Z Z.add Z.mul (a1 false) rep1 fns1 0 (fst fifj) 1 (snd fifj)) pairs10
  /\ blk_entry Z 0%Z Z.add Z.mul (a1 false) rep1 nb1 il1 ta1 false 0 [1] 1 [1] = 50%Z
  /\ blk_entry Z 0%Z Z.add Z.mul (a1 false) rep1 nb1 il1 ta1 false 1 [1] 0 [1] = 35%Z.
Proof. vm_compute. repeat split; reflexivity. Qed.

(* symmetric form: symmetric = general, with a non-zero entry; for the non-symmetric form the two differ *)
Example ex_symmetric :
  (forall k r c, In r (fns1 k) -> In c (fns1 k) -> a1 true k r c = a1 true k c r) ->
  blk_entry Z 0%Z Z.add Z.mul (a1 true) rep1 nb1 il1 ta1 true 1 [1] 0 [2]
  = blk_entry Z 0%Z Z.add Z.mul (a1 true) rep1 nb1 il1 ta1 false 1 [1] 0 [2]
  /\ blk_entry Z 0%Z Z.add Z.mul (a1 true) rep1 nb1 il1 ta1 true 1 [1] 0 [2] <> 0%Z
  /\ blk_entry Z 0%Z Z.add Z.mul (a1 false) rep1 nb1 il1 ta1 true 1 [1] 0 [2]
     <> blk_entry Z 0%Z Z.add Z.mul (a1 false) rep1 nb1 il1 ta1 false 1 [1] 0 [2].
Proof. intros _. vm_compute. repeat split; discriminate. Qed.

(* the sparse-matrix program (assemble_hb) computes exactly the entry form of the blocks on this space:
   all 25 entries, general assembly, non-symmetric data (test of the link used by the correspondence run) *)
Definition flat1 : list (nat * mi) := active_functions_flat st1.
Example ex_sparse_program_is_entry_form :
  let M := assemble_hb Z 1%Z Z.add Z.mul st1 pm1 (al1 false) false in
  forallb (fun i => forallb (fun j =>
     let fi := nth i flat1 (0, []) in let fj := nth j flat1 (0, []) in
     Z.eqb (sm_get Z 0%Z M (N.of_nat i) (N.of_nat j))
           (blk_entry Z 0%Z Z.add Z.mul (a1 false) rep1 nb1 il1 ta1 false (fst fi) (snd fi) (fst fj) (snd fj)))
     (seq 0 5)) (seq 0 5) = true
  /\ length M = 5.
Proof. vm_compute. split; reflexivity. Qed.

(* THB: T = thb_to_hb on this space (the prolongator being 4 * the two-scale matrix, the entry -2 stands for -1/2) *)
Example ex_thb_to_hb :
  thb_to_hb Z 1%Z Z.add Z.mul Z.opp st1 pm1
  = [[(0%N, 1%Z)]; [(1%N, 1%Z)]; [(2%N, 1%Z)]; [(3%N, 1%Z)]; [(0%N, (-2)%Z); (4%N, 1%Z)]].
Proof. vm_compute. reflexivity. Qed.

(* hassemble_entry_partial: the concrete representation repc (products of Kronecker prolongators) on st1 / P4;
   the hypotheses evaluated over the index boxes of the two levels (tests), and the conclusion with non-zero values *)
Definition repc1 := repc Z 0%Z 1%Z Z.add Z.mul st1 pm1.
Example ex_repc_is_two_scale : map (fun r => repc1 0 1 [1] [r]) (seq 0 6) = [0; 2; 3; 1; 0; 0]%Z.
Proof. vm_compute. reflexivity. Qed.
Example ex_concrete_hyps :
  (* locality of the banded forms on both levels *)
  forallb (fun k => forallb (fun r => forallb (fun c =>
     negb (is_empty (inter (support1 (msh st1 k) r) (support1 (msh st1 k) c))) || Z.eqb (a1 false k r c) 0) (fns1 k)) (fns1 k)) [0; 1] = true
  (* children inside the parent's support *)
  /\ forallb (fun r => forallb (fun r' =>
        negb (mem r' (fchildren Z pm1 0 [r]))
        || forallb (fun c => mem (parent1 c) (support1 (msh st1 0) r)) (support1 (msh st1 1) r')) (fns1 1)) (fns1 0) = true
  (* active functions / interlevel rows are functions of their level *)
  /\ forallb (fun k => subset (AFm st1 k) (fns1 k) && subset (il1 k) (fns1 k)) [0; 1] = true.
Proof. vm_compute. repeat split; reflexivity. Qed.
Example ex_concrete_values :
  map (fun fifj : mi * mi => blk_entry Z 0%Z Z.add Z.mul (a1 false) repc1 nb1 il1 ta1 false 0 (fst fifj) 1 (snd fifj)) pairs10
  = map (fun fifj : mi * mi => spec_entry Z 0%Z Z.add Z.mul (a1 false) repc1 fns1 0 (fst fifj) 1 (snd fifj)) pairs10
  /\ blk_entry Z 0%Z Z.add Z.mul (a1 false) repc1 nb1 il1 ta1 false 0 [1] 1 [1] = 50%Z.
Proof. vm_compute. split; reflexivity. Qed.

(* functional_entry: the HB load vector picks, per level, the entries of that level's vector *)
Example ex_functional :
  rhs_hb Z 0%Z st1 (fun k => map (fun i => Z.of_nat (100 * k + i)) (seq 0 6)) = [1; 2; 3; 100; 101]%Z.
Proof. vm_compute. reflexivity. Qed.

(* coo_merge_sums_duplicates: duplicates are summed, rows outside the shape ignored *)
Example ex_coo_merge :
  coo_to_rows Z 1%Z Z.add Z.mul 2 [(1%N, 3%N, 5%Z); (0%N, 1%N, 2%Z); (1%N, 3%N, 7%Z); (1%N, 0%N, 1%Z); (4%N, 0%N, 9%Z)]
  = [[(1%N, 2%Z)]; [(0%N, 1%Z); (3%N, 12%Z)]].
Proof. vm_compute. reflexivity. Qed.

(* fancy indexing with an unsorted index list with a repetition *)
Example ex_fancy :
  sm_cols Z (sm_rows Z P4 [4; 1; 1]%N) [2; 0; 2; 1]%N
  = [[(0%N, 2%Z); (2%N, 2%Z)]; [(1%N, 2%Z); (3%N, 2%Z)]; [(1%N, 2%Z); (3%N, 2%Z)]].
Proof. vm_compute. reflexivity. Qed.

(* hassemble_entry_reachable_partial: st1 is a reachable space in the sense of the theorem *)
Example ex_reachable :
  Forall axis_ok [mk_axis 2 [3; 1; 3]] /\ (forall d, @None nat = Some d -> 1 <= d) /\
  ops_valid (hs_init [mk_axis 2 [3; 1; 3]] None) [Refine [(0, (CSet, [[0]]))] false].
Proof.
  split; [|split].
  - constructor; [|constructor]. split; [repeat constructor | vm_compute; auto].
  - intros d H; discriminate.
  - cbn [ops_valid op_valid]. split; auto.
    intros k c H. destruct k as [|k]; simpl in H; [|destruct H].
    destruct H as [<-|[]]. vm_compute. auto.
Qed.

(* sm_mul_entry / sm_transpose_entry: the kernels on the example prolongator (P4^T P4, entry (1,2) = 2*0+3*1+1*3 = 6) *)
Example ex_kernels :
  sm_mul Z Z.add Z.mul (sm_transpose Z 4 P4) P4
  = [[(0%N, 20%Z); (1%N, 4%Z)]; [(0%N, 4%Z); (1%N, 14%Z); (2%N, 6%Z)]; [(1%N, 6%Z); (2%N, 14%Z); (3%N, 4%Z)]; [(2%N, 4%Z); (3%N, 20%Z)]].
Proof. vm_compute. reflexivity. Qed.

(* hassemble_entry_pattern_partial: the stored pattern of P4 is exactly C04's children pattern of the axis (p = 2, [3;1;3]):
   evaluated for all coarse functions j and all fine rows i (a test of the hypothesis pattern_ok on the example) *)
Example ex_pattern_ok :
  forallb (fun j => forallb (fun i =>
     Bool.eqb (existsb (Nat.eqb i) (children_1d Z pm1 0 0 j)) (Children.is_child_1d (mk_axis 2 [3; 1; 3]) j i)) (seq 0 8)) (seq 0 4) = true.
Proof. vm_compute. reflexivity. Qed.

(* kron2_entry: P4 (x) P4, entry (2*6+1, 1*4+0) = P4[2,1] * P4[1,0] = 3 * 2 *)
Example ex_kron :
  sm_get Z 0%Z (kron2 Z Z.mul P4 P4 4%N) (N.of_nat (2 * 6 + 1)) (1 * 4 + 0)%N = 6%Z
  /\ length (kron2 Z Z.mul P4 P4 4%N) = 36.
Proof. vm_compute. split; reflexivity. Qed.

(* multi_kron_entry in two dimensions: both axes carry P4; entry ((2,1), (1,0)) = P4[2,1] * P4[1,0] = 6, and the
   hypotheses cols_ok / the index boxes hold (evaluated) *)
Definition pm2 (lv d : nat) : smat Z := match lv with O => P4 | _ => [] end.
Example ex_multi_kron :
  sm_get Z 0%Z (multi_kron Z 1%Z Z.mul pm2 0 0 [4; 4]) (ravel (rowdims Z pm2 0 0 2) [2; 1]) (ravel [4; 4] [1; 0]) = 6%Z
  /\ kron_entry Z 0%Z 1%Z Z.mul pm2 0 0 [2; 1] [1; 0] = 6%Z
  /\ rowdims Z pm2 0 0 2 = [6; 6]
  /\ forallb (fun row => forallb (fun e => N.ltb (fst e) 4) row) P4 = true.
Proof. vm_compute. repeat split; reflexivity. Qed.

(* hstack_entry: two blocks of widths 4 and 2 *)
Example ex_hstack :
  hstack Z 2 [(sm_rows Z P4 [1; 2]%N, 4); ([[(1%N, 7%Z)]; []], 2)]
  = [[(0%N, 2%Z); (1%N, 2%Z); (5%N, 7%Z)]; [(1%N, 3%Z); (2%N, 1%Z)]].
Proof. vm_compute. reflexivity. Qed.

(* representation_associative on st1 (n = 0): both sides are the two-scale coefficient 3 of fine function 2 in coarse function 1 *)
Example ex_assoc :
  repn Z 0%Z 1%Z Z.add Z.mul st1 pm1 1 0 [1] [2] = 3%Z
  /\ sumf Z 0%Z Z.add (fun g => Z.mul (repn Z 0%Z 1%Z Z.add Z.mul st1 pm1 0 1 g [2]) (kron_entry Z 0%Z 1%Z Z.mul pm1 0 0 g [1]))
           (tp_functions (msh st1 1)) = 3%Z
  /\ In [1] (tp_functions (msh st1 0)) /\ In [2] (tp_functions (msh st1 1)).
Proof. vm_compute. repeat split; auto 10. Qed.
