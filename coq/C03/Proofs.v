(* C03 -- lemmas: list and set facts used throughout, neighbour sets, sums over a commutative ring, the blocks
   in entry form against their specification, the level forms x^T A_k y (bilinearity, nestedness under prolongation). *)
From Coq Require Import List Arith Bool Lia NArith Ring.
From Verif.lib Require Import FinSet.
From Verif.C04 Require Import Model Proofs ProofsFun.
From Verif.C03 Require Import Model.
Import ListNotations.

Lemma nth_flat_map_seq : forall (T : Type) (g : nat -> list T) (len : nat -> nat) (d : T) k n a p,
  (forall l, length (g l) = len l) -> k < n -> p < len (a + k) ->
  nth (fold_right Nat.add 0 (map len (seq a k)) + p) (flat_map g (seq a n)) d = nth p (g (a + k)) d.
Proof.
  intros T g len d k n a p Hlen. revert n a p.
  induction k as [|k IH]; intros n a p Hk Hp; (destruct n as [|n]; [lia|]); simpl.
  - rewrite Nat.add_0_r in *. apply app_nth1. rewrite Hlen. auto.
  - rewrite <- Hlen, <- Nat.add_assoc, app_nth2_plus.
    replace (a + S k) with (S a + k) in * by lia. apply IH; auto. lia.
Qed.

Lemma mi_eqb_sym : forall a b, mi_eqb a b = mi_eqb b a.
Proof. intros a b. apply eq_true_iff_eq. rewrite !mi_eqb_eq. split; auto. Qed.

Lemma fold_union_In : forall (T : Type) (g : T -> set) (l : list T) acc x,
  In x (fold_left (fun acc t => union acc (g t)) l acc) <-> In x acc \/ exists t, In t l /\ In x (g t).
Proof.
  intros T g l. induction l as [|t l IH]; intros acc x; simpl.
  - split; [auto | intros [H|[t [[] _]]]; auto].
  - rewrite IH, union_In. split.
    + intros [[H|H]|[t' [H1 H2]]]; auto; right; [exists t | exists t']; auto.
    + intros [H|[t' [[->|H1] H2]]]; auto. right; exists t'; auto.
Qed.

Lemma fold_union_sorted : forall (T : Type) (g : T -> set) (l : list T) acc,
  sorted acc -> (forall t, sorted (g t)) -> sorted (fold_left (fun acc t => union acc (g t)) l acc).
Proof.
  intros T g l. induction l as [|t l IH]; intros acc Ha Hg; simpl; auto.
  apply IH; auto. apply union_sorted; auto.
Qed.

Lemma in_window_lt : forall d k i, in_window d k i = true -> i < k.
Proof. intros d k i H. unfold in_window in H. apply andb_prop in H. apply Nat.ltb_lt. apply H. Qed.

Lemma cell_supp_offdiag_bds : forall st b1 b2 lv i, i <> lv -> cell_supp st b1 lv i = cell_supp st b2 lv i.
Proof.
  intros st b1 b2 lv i H. unfold cell_supp, cell_supp_d. destruct (in_window (hs_disparity st) lv i); auto.
  destruct (i =? lv) eqn:E; auto. apply Nat.eqb_eq in E. contradiction.
Qed.

Lemma neighbors_In : forall st b k i f, In f (neighbors st b k i) <->
  i < k /\ In f (supported_in (msh st i) (cell_grandparent (k - i) (support (msh st k) (AFm st k)))) /\ In f (AFm st i).
Proof.
  intros st b k i f. unfold neighbors, cell_supp_d, in_window. rewrite andb_true_r.
  destruct (Nat.ltb_spec i k) as [H|H].
  - replace (i =? k) with false by (symmetry; apply Nat.eqb_neq; lia). rewrite inter_In. tauto.
  - destruct (i =? k); simpl; split; try tauto; lia.
Qed.

Lemma anc_parent_comm : forall n c, anc n (parent1 c) = parent1 (anc n c).
Proof. induction n as [|n IH]; intros c; [reflexivity|]. rewrite !anc_S. rewrite IH. reflexivity. Qed.

Lemma In_cell_grandparent : forall n cells c, In c cells -> In (anc n c) (cell_grandparent n cells).
Proof.
  induction n as [|n IH]; intros cells c H; [simpl; auto|].
  change (cell_grandparent (S n) cells) with (cell_grandparent n (cell_parent cells)).
  rewrite anc_S, <- anc_parent_comm.
  apply IH. unfold cell_parent. apply of_list_In. apply in_map; auto.
Qed.

Lemma neighbor_of_meeting_support : forall st b k i f g c,
  i < k ->
  mesh_ok (msh st i) ->
  In f (AFm st i) -> In f (tp_functions (msh st i)) ->
  In g (AFm st k) ->
  In c (support1 (msh st k) g) ->
  length (anc (k - i) c) = dim (msh st i) ->
  In (anc (k - i) c) (support1 (msh st i) f) ->
  In f (neighbors st b k i).
Proof.
  intros st b k i f g c Hlt Hm Hf HfT Hg Hc Hlen Hs.
  apply neighbors_In. repeat split; auto.
  apply In_supported_in. exists (anc (k - i) c). split.
  - apply In_cell_grandparent. apply In_support. exists g. split; auto.
  - apply (mo_dual _ Hm); auto.
Qed.

Section Alg.
Variable R : Type.
Variables (r0 r1 : R) (radd rmul rsub : R -> R -> R) (ropp : R -> R).
Hypothesis Rth : ring_theory r0 r1 radd rmul rsub ropp eq.
Add Ring Rring : Rth.

Notation "x + y" := (radd x y).
Notation "x * y" := (rmul x y).
Notation sum := (sumf R r0 radd).

Lemma sum_ext : forall (A : Type) (f g : A -> R) l, (forall x, In x l -> f x = g x) -> sum f l = sum g l.
Proof.
  intros A f g l. induction l as [|x l IH]; intros H; simpl; auto.
  rewrite H by (left; auto). rewrite IH; auto. intros y Hy. apply H. right; auto.
Qed.

Lemma sum_zero : forall (A : Type) (f : A -> R) l, (forall x, In x l -> f x = r0) -> sum f l = r0.
Proof.
  intros A f l. induction l as [|x l IH]; intros H; simpl; auto.
  rewrite H by (left; auto). rewrite IH by (intros; apply H; right; auto). ring.
Qed.

Lemma sum_add : forall (A : Type) (f g : A -> R) l, sum (fun x => f x + g x) l = sum f l + sum g l.
Proof. intros A f g l. induction l as [|x l IH]; simpl; [ring | rewrite IH; ring]. Qed.

Lemma sum_mul_l : forall (A : Type) (c : R) (f : A -> R) l, sum (fun x => c * f x) l = c * sum f l.
Proof. intros A c f l. induction l as [|x l IH]; simpl; [ring | rewrite IH; ring]. Qed.

Lemma sum_mul_r : forall (A : Type) (c : R) (f : A -> R) l, sum (fun x => f x * c) l = sum f l * c.
Proof. intros A c f l. induction l as [|x l IH]; simpl; [ring | rewrite IH; ring]. Qed.

Lemma sum_swap : forall (A B : Type) (f : A -> B -> R) la lb,
  sum (fun x => sum (fun y => f x y) lb) la = sum (fun y => sum (fun x => f x y) la) lb.
Proof.
  intros A B f la lb. induction la as [|x la IH]; simpl.
  - symmetry. apply sum_zero. auto.
  - rewrite IH. rewrite <- sum_add. reflexivity.
Qed.

Lemma sum_app : forall (A : Type) (f : A -> R) l1 l2, sum f (l1 ++ l2) = sum f l1 + sum f l2.
Proof. intros A f l1 l2. induction l1 as [|x l IH]; simpl; [ring | rewrite IH; ring]. Qed.

Lemma sum_delta : forall (f : mi -> R) (l : list mi) (x : mi), NoDup l -> In x l ->
  sum (fun y => if mi_eqb y x then f y else r0) l = f x.
Proof.
  intros f l x Hnd. induction Hnd as [|y l Hny Hnd IH]; intros Hin; [destruct Hin|]. simpl.
  destruct Hin as [->|Hin].
  - replace (mi_eqb x x) with true by (symmetry; apply mi_eqb_eq; auto).
    rewrite sum_zero; [ring|]. intros z Hz. destruct (mi_eqb z x) eqn:E; auto.
    apply mi_eqb_eq in E. subst. contradiction.
  - destruct (mi_eqb y x) eqn:E.
    + apply mi_eqb_eq in E. subst. contradiction.
    + rewrite IH by auto. ring.
Qed.

Lemma sum_unit : forall (g : mi -> R) (l : list mi) (x : mi), NoDup l -> In x l ->
  sum (fun y => (if mi_eqb y x then r1 else r0) * g y) l = g x.
Proof.
  intros g l x Hnd Hx. rewrite <- (sum_delta g l x Hnd Hx).
  apply sum_ext. intros y _. destruct (mi_eqb y x); ring.
Qed.

Lemma sum_restrict : forall (f : mi -> R) (big small : list mi),
  NoDup big -> NoDup small -> (forall x, In x small -> In x big) ->
  (forall x, In x big -> ~ In x small -> f x = r0) ->
  sum f big = sum f small.
Proof.
  intros f big small Hb Hs. revert big Hb.
  induction Hs as [|x s Hxs Hs IH]; intros big Hb Hsub Hz.
  - apply sum_zero. intros y Hy. apply Hz; auto.
  - destruct (in_split x big (Hsub x (or_introl eq_refl))) as [b1 [b2 ->]].
    pose proof (NoDup_remove_2 _ _ _ Hb) as Hx.
    simpl. rewrite <- (IH (b1 ++ b2)).
    + rewrite !sum_app. simpl. ring.
    + eapply NoDup_remove_1; eauto.
    + intros y Hy. specialize (Hsub y (or_intror Hy)). rewrite in_app_iff in *. simpl in Hsub.
      destruct Hsub as [H|[<-|H]]; auto. contradiction.
    + intros y Hy Hn. apply Hz.
      * rewrite in_app_iff in *. simpl. tauto.
      * intros [<-|H]; auto.
Qed.

Section Blocks.
Variable a : nat -> mi -> mi -> R.
Variable rep : nat -> nat -> mi -> mi -> R.
Variable nb : nat -> nat -> list mi.
Variable il : nat -> list mi.
Variable ta : nat -> list mi.

Notation blk := (blk_entry R r0 radd rmul a rep nb il ta).

Lemma am_in : forall k r c, In r (ta k) -> am R r0 a ta k r c = a k r c.
Proof. intros k r c H. unfold am. rewrite (proj2 (mem_In _ _) H). reflexivity. Qed.

Lemma im_in : forall k l f r, In r (ta k) -> im R r0 rep ta k l f r = rep l k f r.
Proof. intros k l f r H. unfold im. rewrite (proj2 (mem_In _ _) H). reflexivity. Qed.

Lemma blk_diag : forall symm k fi fj, blk symm k fi k fj = am R r0 a ta k fi fj.
Proof. intros symm k fi fj. unfold blk_entry. rewrite Nat.eqb_refl. reflexivity. Qed.

Lemma blk_lower : forall symm li fi lj fj, li < lj ->
  blk symm li fi lj fj
  = if mem fi (nb lj li) then sum (fun r => im R r0 rep ta lj li fi r * am R r0 a ta lj r fj) (il lj) else r0.
Proof.
  intros symm li fi lj fj H. unfold blk_entry.
  rewrite (proj2 (Nat.eqb_neq li lj)), (proj2 (Nat.ltb_lt li lj)) by lia. reflexivity.
Qed.

Lemma blk_upper : forall li fi lj fj, lj < li ->
  blk false li fi lj fj
  = if mem fj (nb li lj) then sum (fun c => am R r0 a ta li fi c * im R r0 rep ta li lj fj c) (il li) else r0.
Proof.
  intros li fi lj fj H. unfold blk_entry.
  rewrite (proj2 (Nat.eqb_neq li lj)), (proj2 (Nat.ltb_ge li lj)) by lia. reflexivity.
Qed.

(* the specification: the form applied to the two hierarchical basis functions represented on the finer
   of their two levels, all functions of that level *)
Variable fns : nat -> list mi.
Definition spec_entry (li : nat) (fi : mi) (lj : nat) (fj : mi) : R :=
  let k := Nat.max li lj in
  sum (fun r => sum (fun c => rep li k fi r * a k r c * rep lj k fj c) (fns k)) (fns k).

Hypothesis fns_nodup : forall k, NoDup (fns k).
Hypothesis rep_diag : forall k f r, rep k k f r = if mi_eqb r f then r1 else r0.

Lemma spec_row_delta : forall k f (g : mi -> R), In f (fns k) ->
  sum (fun r => rep k k f r * g r) (fns k) = g f.
Proof.
  intros k f g Hf.
  rewrite (sum_ext _ _ (fun r => (if mi_eqb r f then r1 else r0) * g r)) by (intros; rewrite rep_diag; reflexivity).
  apply sum_unit; auto.
Qed.

Lemma spec_row_own : forall l k fi fj, In fj (fns k) ->
  sum (fun r => sum (fun c => rep l k fi r * a k r c * rep k k fj c) (fns k)) (fns k)
  = sum (fun r => rep l k fi r * a k r fj) (fns k).
Proof.
  intros l k fi fj Hj. apply sum_ext. intros r _.
  rewrite (sum_ext _ _ (fun c => rep k k fj c * (rep l k fi r * a k r c))) by (intros; ring).
  apply spec_row_delta; auto.
Qed.

Lemma spec_col_own : forall l k fi fj, In fi (fns k) ->
  sum (fun r => sum (fun c => rep k k fi r * a k r c * rep l k fj c) (fns k)) (fns k)
  = sum (fun c => rep l k fj c * a k fi c) (fns k).
Proof.
  intros l k fi fj Hi.
  rewrite (sum_ext _ _ (fun r => rep k k fi r * sum (fun c => rep l k fj c * a k r c) (fns k))).
  - apply spec_row_delta; auto.
  - intros r _. rewrite <- sum_mul_l. apply sum_ext. intros; ring.
Qed.

Lemma spec_same_level : forall k fi fj, In fi (fns k) -> In fj (fns k) ->
  spec_entry k fi k fj = a k fi fj.
Proof.
  intros k fi fj Hi Hj. unfold spec_entry. rewrite Nat.max_id.
  rewrite spec_row_own by auto. apply (spec_row_delta k fi (fun r => a k r fj)); auto.
Qed.

Lemma hassemble_entry_diag : forall k fi fj,
  In fi (fns k) -> In fj (fns k) -> In fi (ta k) ->
  blk false k fi k fj = spec_entry k fi k fj.
Proof.
  intros k fi fj Hi Hj Hit. rewrite spec_same_level, blk_diag by auto. apply am_in; auto.
Qed.

(* A function f of level l against the functions of a finer level k, weighted by g.  The block sums over the
   rows il k if f is a neighbour and is zero otherwise; this is the sum over all functions of level k when
     - the level-k representation of a NEIGHBOUR vanishes outside il k (interlevel_ix contains all its grandchildren),
     - for a non-neighbour every term vanishes (locality of the form). *)
Lemma interlevel_sum : forall l k f (g : mi -> R),
  NoDup (il k) -> (forall r, In r (il k) -> In r (fns k)) ->
  (In f (nb k l) -> forall r, In r (fns k) -> ~ In r (il k) -> rep l k f r = r0) ->
  (~ In f (nb k l) -> forall r, In r (fns k) -> rep l k f r * g r = r0) ->
  (if mem f (nb k l) then sum (fun r => rep l k f r * g r) (il k) else r0)
  = sum (fun r => rep l k f r * g r) (fns k).
Proof.
  intros l k f g Hnd Hsub Hnb Hnn. symmetry. destruct (mem f (nb k l)) eqn:M.
  - apply mem_In in M. apply sum_restrict; auto.
    intros r Hr Hn. rewrite (Hnb M r Hr Hn). ring.
  - apply mem_false_In in M. apply sum_zero. intros r Hr. apply Hnn; auto.
Qed.

Lemma hassemble_entry_lower : forall li fi lj fj,
  NoDup (il lj) -> (forall r, In r (il lj) -> In r (fns lj)) -> (forall r, In r (il lj) -> In r (ta lj)) ->
  li < lj -> In fj (fns lj) ->
  (In fi (nb lj li) -> forall r, In r (fns lj) -> ~ In r (il lj) -> rep li lj fi r = r0) ->
  (~ In fi (nb lj li) -> forall r, In r (fns lj) -> rep li lj fi r * a lj r fj = r0) ->
  blk false li fi lj fj = spec_entry li fi lj fj.
Proof.
  intros li fi lj fj Hnd Hfn Hta Hlt Hj Hnb Hnn.
  unfold spec_entry. replace (Nat.max li lj) with lj by lia. rewrite spec_row_own by auto.
  rewrite <- interlevel_sum, blk_lower by auto.
  destruct (mem fi (nb lj li)); auto.
  apply sum_ext. intros r Hr. rewrite am_in, im_in by auto. reflexivity.
Qed.

Lemma hassemble_entry_upper : forall li fi lj fj,
  NoDup (il li) -> (forall r, In r (il li) -> In r (fns li)) -> (forall r, In r (il li) -> In r (ta li)) ->
  lj < li -> In fi (fns li) -> In fi (ta li) ->
  (In fj (nb li lj) -> forall c, In c (fns li) -> ~ In c (il li) -> rep lj li fj c = r0) ->
  (~ In fj (nb li lj) -> forall c, In c (fns li) -> a li fi c * rep lj li fj c = r0) ->
  blk false li fi lj fj = spec_entry li fi lj fj.
Proof.
  intros li fi lj fj Hnd Hfn Hta Hlt Hi Hit Hnb Hnn.
  unfold spec_entry. replace (Nat.max li lj) with li by lia. rewrite spec_col_own by auto.
  rewrite <- interlevel_sum; auto.
  - rewrite blk_upper by auto.
    destruct (mem fj (nb li lj)); auto.
    apply sum_ext. intros c Hc. rewrite am_in, im_in by auto. ring.
  - intros Hn c Hc. rewrite <- (Hnn Hn c Hc). ring.
Qed.

End Blocks.

Lemma sum_swap4 : forall (A B C D : Type) (f : A -> B -> C -> D -> R) la lb lc ld,
  sum (fun x => sum (fun y => sum (fun z => sum (fun w => f x y z w) ld) lc) lb) la
  = sum (fun z => sum (fun w => sum (fun x => sum (fun y => f x y z w) lb) la) ld) lc.
Proof.
  intros A B C D f la lb lc ld.
  transitivity (sum (fun x => sum (fun z => sum (fun y => sum (fun w => f x y z w) ld) lb) lc) la).
  { apply sum_ext. intros x _. apply sum_swap. }
  rewrite sum_swap. apply sum_ext. intros z _.
  transitivity (sum (fun x => sum (fun w => sum (fun y => f x y z w) lb) ld) la).
  { apply sum_ext. intros x _. apply sum_swap. }
  apply sum_swap.
Qed.

Section Forms.
Variable fns : nat -> list mi.
Variable a : nat -> mi -> mi -> R.

(* x^T A_k y *)
Definition form (k : nat) (x y : mi -> R) : R :=
  sum (fun r => sum (fun c => x r * a k r c * y c) (fns k)) (fns k).

Lemma form_bilinear : forall (I J : Type) (li : list I) (lj : list J) k (al : I -> R) (be : J -> R)
    (x : I -> mi -> R) (y : J -> mi -> R),
  form k (fun r => sum (fun i => al i * x i r) li) (fun c => sum (fun j => be j * y j c) lj)
  = sum (fun i => sum (fun j => al i * form k (x i) (y j) * be j) lj) li.
Proof.
  intros I J li lj k al be x y. unfold form.
  transitivity (sum (fun r => sum (fun c => sum (fun i => sum (fun j =>
                  al i * (x i r * a k r c * y j c) * be j) lj) li) (fns k)) (fns k)).
  { apply sum_ext. intros r _. apply sum_ext. intros c _.
    rewrite <- sum_mul_r. rewrite <- sum_mul_r.
    apply sum_ext. intros i _. rewrite <- sum_mul_l. apply sum_ext. intros j _. ring. }
  rewrite sum_swap4. apply sum_ext. intros i _. apply sum_ext. intros j _.
  rewrite <- sum_mul_l. rewrite <- sum_mul_r. apply sum_ext. intros r _.
  rewrite <- sum_mul_l. rewrite <- sum_mul_r. apply sum_ext. intros c _. ring.
Qed.

(* tensor-product prolongation of a coefficient vector, level k -> k+1 *)
Variable P : nat -> mi -> mi -> R.
Definition prol (k : nat) (x : mi -> R) : mi -> R := fun r' => sum (fun r => x r * P k r' r) (fns k).

(* nestedness of the level forms: A_k = P_k^T A_{k+1} P_k (true when the quadrature of both levels
   integrates the integrand exactly) *)
Definition nested (k : nat) : Prop :=
  forall r c, a k r c = form (S k) (fun r' => P k r' r) (fun c' => P k c' c).

Lemma form_nested : forall k x y, nested k -> form k x y = form (S k) (prol k x) (prol k y).
Proof.
  intros k x y Hn. unfold prol. rewrite form_bilinear. unfold form at 1.
  apply sum_ext. intros r _. apply sum_ext. intros c _. rewrite (Hn r c). reflexivity.
Qed.

End Forms.

End Alg.
