(* C03 -- lemmas: horizontal stacking (scipy.sparse.bmat([blocks]) in represent_fine): entry semantics. *)
From Coq Require Import List Arith Bool Lia NArith.
From Verif.C03 Require Import Model Proofs3 Proofs5.
Import ListNotations.

Section HStack.
Variable R : Type.
Variable r0 : R.

Notation svec := (svec R).
Notation get := (sv_get R r0).
Notation keys := (keys R).

Definition shift (ofs : N) (row : svec) : svec := map (fun e => ((ofs + fst e)%N, snd e)) row.

Lemma shift_get : forall ofs row c, get (shift ofs row) (ofs + c)%N = get row c.
Proof.
  intros ofs row c. induction row as [|[k v] row IH]; simpl; auto.
  rewrite !(get_cons R r0). simpl fst. destruct (N.eqb_spec c k) as [->|E].
  - rewrite N.eqb_refl. reflexivity.
  - replace (N.eqb (ofs + c) (ofs + k)) with false; auto. symmetry. apply N.eqb_neq. lia.
Qed.

Lemma shift_keys : forall ofs row k, In k (keys (shift ofs row)) -> exists x, In x (keys row) /\ k = (ofs + x)%N.
Proof.
  intros ofs row k H. unfold shift, Proofs5.keys in H. rewrite map_map in H. simpl in H.
  apply in_map_iff in H. destruct H as [e [<- He]]. exists (fst e). split; auto. apply in_map; auto.
Qed.

(* column offset of block number nb *)
Definition offs (blocks : list (smat R * nat)) (nb : nat) : N :=
  fold_right N.add 0%N (map (fun b => N.of_nat (snd b)) (firstn nb blocks)).

Notation step i := (fun (ofs_row : N * svec) (b : smat R * nat) =>
  ((fst ofs_row + N.of_nat (snd b))%N, snd ofs_row ++ shift (fst ofs_row) (nth i (fst b) []))).

Lemma hstack_fold : forall i (blocks : list (smat R * nat)) ofs (acc : svec),
  (forall k, In k (keys acc) -> (k < ofs)%N) ->
  (forall b k, In b blocks -> In k (keys (nth i (fst b) [])) -> (k < N.of_nat (snd b))%N) ->
  let res := fold_left (step i) blocks (ofs, acc) in
  (forall k, (k < ofs)%N -> get (snd res) k = get acc k) /\
  (forall nb c, nb < length blocks -> (c < N.of_nat (snd (nth nb blocks ([], 0%nat))))%N ->
     get (snd res) (ofs + offs blocks nb + c)%N = get (nth i (fst (nth nb blocks ([], 0%nat))) []) c).
Proof.
  intros i. induction blocks as [|b0 blocks IH]; intros ofs acc Hacc Hb.
  - simpl. split; auto. intros nb c H. simpl in H. lia.
  - simpl fold_left.
    assert (Hacc' : forall k, In k (keys (acc ++ shift ofs (nth i (fst b0) []))) -> (k < ofs + N.of_nat (snd b0))%N).
    { intros k Hk. unfold Proofs5.keys in Hk. rewrite map_app in Hk. apply in_app_or in Hk. destruct Hk as [Hk|Hk].
      - specialize (Hacc k Hk). lia.
      - apply shift_keys in Hk. destruct Hk as [x [Hx ->]]. specialize (Hb b0 x (or_introl eq_refl) Hx). lia. }
    destruct (IH (ofs + N.of_nat (snd b0))%N (acc ++ shift ofs (nth i (fst b0) [])) Hacc'
                 (fun b k Hin => Hb b k (or_intror Hin))) as [G1 G2].
    simpl in G1, G2. split.
    + intros k Hk. rewrite G1 by lia. apply (get_app_r R r0).
      intros Hin. apply shift_keys in Hin. destruct Hin as [x [_ ->]]. lia.
    + intros nb c Hnb Hc. destruct nb as [|nb].
      * simpl in Hc. unfold offs. simpl. rewrite G1 by lia.
        rewrite (get_app_l R r0) by (intros Hin; specialize (Hacc _ Hin); lia).
        replace (ofs + 0 + c)%N with (ofs + c)%N by lia. apply shift_get.
      * simpl in Hnb, Hc. simpl nth.
        replace (ofs + offs (b0 :: blocks) (S nb) + c)%N with (ofs + N.of_nat (snd b0) + offs blocks nb + c)%N
          by (unfold offs; simpl; lia).
        apply G2; auto. lia.
Qed.

End HStack.
