(* C03 -- lemmas: the entry characterisation for the CONCRETE index sets (neighbors / interlevel / to_assemble of
   Model.v) with the representations given by products of Kronecker prolongators. *)
From Coq Require Import List Arith Bool Lia NArith Ring.
From Verif.lib Require Import FinSet.
From Verif.C04 Require Import Model Proofs ProofsFun.
From Verif.C03 Require Import Model Proofs.
Import ListNotations.

Lemma In_prod_lists : forall ls x, In x (prod_lists ls) <-> Forall2 (fun l xi => In xi l) ls x.
Proof.
  induction ls as [|l ls IH]; intros x; simpl.
  - split; [intros [H|[]]; subst; constructor | intros H; inversion H; auto].
  - rewrite in_flat_map. split.
    + intros [i [Hi Hx]]. apply in_map_iff in Hx. destruct Hx as [y [Hy Hin]]. subst x. constructor; auto. apply IH; auto.
    + intros H. inversion H as [|l' xi ls' x' Hr Hrest]; subst. exists xi. split; auto. apply in_map. apply IH; auto.
Qed.

Section Concrete.
Variable R : Type.
Variables (r0 r1 : R) (radd rmul rsub : R -> R -> R) (ropp : R -> R).
Hypothesis Rth : ring_theory r0 r1 radd rmul rsub ropp eq.
Add Ring Rring2 : Rth.
Variable st : hspace.
Variable pmat : nat -> nat -> smat R.

Notation sum := (sumf R r0 radd).
Notation fns := (fun k => tp_functions (msh st k)).

(* entry (i, j) of the 1-D prolongator of level lv, axis d; entry (r', r) of their Kronecker product by multi-index *)
Definition p1 (lv d i j : nat) : R := sv_get R r0 (nth i (pmat lv d) []) (N.of_nat j).
Fixpoint kron_entry (lv d : nat) (r' r : mi) : R :=
  match r', r with
  | [], [] => r1
  | i :: r't, j :: rt => rmul (p1 lv d i j) (kron_entry lv (S d) r't rt)
  | _, _ => r0
  end.

(* coefficient of the level-(l+n) function r in the level-l function f: product of n Kronecker prolongators *)
Fixpoint repn (n l : nat) (f r : mi) : R :=
  match n with
  | 0 => if mi_eqb r f then r1 else r0
  | S n' => sum (fun q => rmul (kron_entry (Nat.add l n') 0 r q) (repn n' l f q)) (fns (Nat.add l n'))
  end.
Definition repc (l k : nat) (f r : mi) : R := repn (k - l) l f r.

Lemma fns_nodup : forall k, NoDup (tp_functions (msh st k)).
Proof. intros k. apply sorted_NoDup. unfold tp_functions. apply of_list_sorted. Qed.

Lemma repc_diag : forall k f r, repc k k f r = if mi_eqb r f then r1 else r0.
Proof. intros k f r. unfold repc. rewrite Nat.sub_diag. reflexivity. Qed.

Lemma p1_outside_children : forall lv d j i,
  ~ In i (children_1d R pmat lv d j) -> p1 lv d i j = r0.
Proof.
  intros lv d j i H. unfold p1, sv_get. unfold children_1d in H.
  destruct (sv_find R (nth i (pmat lv d) []) (N.of_nat j)) eqn:E; auto.
  exfalso. apply H. apply filter_In. split.
  - apply in_seq. destruct (Nat.lt_ge_cases i (length (pmat lv d))) as [Hl|Hl]; [lia|].
    rewrite nth_overflow in E by auto. discriminate.
  - rewrite E. reflexivity.
Qed.

Lemma kron_entry_pattern : forall lv r d r',
  ~ In r' (prod_lists (axes_children R pmat lv d r)) -> kron_entry lv d r' r = r0.
Proof.
  intros lv. induction r as [|j rt IH]; intros d r' H.
  - destruct r' as [|i r't]; simpl; auto. exfalso. apply H. simpl. auto.
  - destruct r' as [|i r't]; simpl; auto.
    destruct (in_dec Nat.eq_dec i (children_1d R pmat lv d j)) as [Hi|Hi].
    + rewrite (IH (S d) r't); [ring|]. intros Hin. apply H. simpl.
      apply in_flat_map. exists i. split; auto. apply in_map. auto.
    + rewrite (p1_outside_children _ _ _ _ Hi). ring.
Qed.

Lemma fchildren_In : forall lv fs r',
  In r' (fchildren R pmat lv fs) <-> exists f, In f fs /\ In r' (prod_lists (axes_children R pmat lv 0 f)).
Proof.
  intros lv fs r'. unfold fchildren. rewrite of_list_In, in_flat_map. reflexivity.
Qed.

Lemma fgrand_top : forall n lv fs, fgrand R pmat (S n) lv fs = fchildren R pmat (Nat.add lv n) (fgrand R pmat n lv fs).
Proof.
  induction n as [|n IH]; intros lv fs.
  - simpl. rewrite Nat.add_0_r. reflexivity.
  - change (fgrand R pmat (S (S n)) lv fs) with (fgrand R pmat (S n) (S lv) (fchildren R pmat lv fs)).
    rewrite IH. replace (Nat.add lv (S n)) with (Nat.add (S lv) n) by lia. reflexivity.
Qed.

Lemma fgrand_In : forall n lv fs r, In r (fgrand R pmat n lv fs) <-> exists f, In f fs /\ In r (fgrand R pmat n lv [f]).
Proof.
  induction n as [|n IH]; intros lv fs r.
  - simpl. split; [intros H; exists r; auto | intros [f [Hf [<-|[]]]]; auto].
  - rewrite fgrand_top, fchildren_In. split.
    + intros [q [Hq Hr]]. apply IH in Hq. destruct Hq as [f [Hf Hq]]. exists f. split; auto.
      rewrite fgrand_top. apply fchildren_In. exists q. auto.
    + intros [f [Hf Hr]]. rewrite fgrand_top in Hr. apply fchildren_In in Hr. destruct Hr as [q [Hq Hr]].
      exists q. split; auto. apply IH. exists f. auto.
Qed.

Lemma repn_pattern : forall n l f r, ~ In r (fgrand R pmat n l [f]) -> repn n l f r = r0.
Proof.
  induction n as [|n IH]; intros l f r H.
  - simpl in *. destruct (mi_eqb r f) eqn:E; auto. apply mi_eqb_eq in E. subst. exfalso. apply H. left; auto.
  - simpl. apply (sum_zero R r0 r1 radd rmul rsub ropp Rth). intros q _.
    destruct (In_dec_mi q (fgrand R pmat n l [f])) as [Hq|Hq].
    + rewrite kron_entry_pattern; [ring|]. intros Hin. apply H. rewrite fgrand_top. apply fchildren_In. exists q. auto.
    + rewrite (IH l f q Hq). ring.
Qed.

Lemma repn_1 : forall l f g, In f (fns l) -> repn 1 l f g = kron_entry l 0 g f.
Proof.
  intros l f g Hf. cbn [repn]. rewrite Nat.add_0_r.
  rewrite (sum_ext R r0 radd _ _ (fun q => rmul (if mi_eqb q f then r1 else r0) (kron_entry l 0 g q))) by (intros; ring).
  apply (sum_unit R r0 r1 radd rmul rsub ropp Rth); auto. apply fns_nodup.
Qed.

(* A chain of n + m prolongators (repn prolongates at the FINE end) may be split at any intermediate level.  For m = 1
   the COARSEST prolongator is split off: the order in which the loop of represent_fine multiplies (P := P.dot(Pj),
   j decreasing). *)
Lemma repn_split : forall m n l f r, In r (fns (l + (n + m))) ->
  repn (n + m) l f r = sum (fun g => rmul (repn n (l + m) g r) (repn m l f g)) (fns (l + m)).
Proof.
  intros m. induction n as [|n IH]; intros l f r Hr.
  - symmetry. cbn [repn Nat.add].
    rewrite (sum_ext R r0 radd _ _ (fun g => rmul (if mi_eqb g r then r1 else r0) (repn m l f g)))
      by (intros g _; rewrite (mi_eqb_sym r g); reflexivity).
    apply (sum_unit R r0 r1 radd rmul rsub ropp Rth); auto. apply fns_nodup.
  - cbn [repn Nat.add].
    rewrite (sum_ext R r0 radd _ _ (fun q => sum (fun g =>
               rmul (rmul (kron_entry (l + (n + m)) 0 r q) (repn n (l + m) g q)) (repn m l f g)) (fns (l + m)))).
    + rewrite (sum_swap R r0 r1 radd rmul rsub ropp Rth). apply sum_ext. intros g _.
      replace (l + m + n) with (l + (n + m)) by lia.
      rewrite <- (sum_mul_r R r0 r1 radd rmul rsub ropp Rth). reflexivity.
    + intros q Hq. rewrite (IH l f q Hq).
      rewrite <- (sum_mul_l R r0 r1 radd rmul rsub ropp Rth). apply sum_ext. intros g _. ring.
Qed.

Lemma interlevel_In : forall k r, In r (interlevel R st pmat k) <->
  exists l f, l < k /\ In f (nbr st k l) /\ In r (fgrand R pmat (k - l) l [f]).
Proof.
  intros k r. unfold interlevel.
  rewrite (fold_union_In nat (fun lv => of_list (fgrand R pmat (k - lv) lv (nbr st k lv)))). simpl. split.
  - intros [[]|[l [Hl H]]]. apply in_seq in Hl. apply of_list_In, fgrand_In in H.
    destruct H as [f H]. exists l, f. split; [lia | exact H].
  - intros [l [f [Hl H]]]. right. exists l. split; [apply in_seq; lia|]. apply of_list_In, fgrand_In. exists f. exact H.
Qed.

Lemma interlevel_nodup : forall k, NoDup (interlevel R st pmat k).
Proof.
  intros k. apply sorted_NoDup. unfold interlevel.
  apply (fold_union_sorted nat (fun lv => of_list (fgrand R pmat (k - lv) lv (nbr st k lv)))).
  - apply sorted_nil.
  - intros t. apply of_list_sorted.
Qed.

Lemma interlevel_to_assemble : forall k r, In r (interlevel R st pmat k) -> In r (to_assemble R st pmat k).
Proof. intros k r H. unfold to_assemble. apply union_In. auto. Qed.

Lemma AF_to_assemble : forall k f, In f (AFm st k) -> In f (to_assemble R st pmat k).
Proof. intros k f H. unfold to_assemble. apply union_In. auto. Qed.

Lemma repc_outside_interlevel : forall l k f r, l < k ->
  In f (nbr st k l) -> ~ In r (interlevel R st pmat k) -> repc l k f r = r0.
Proof.
  intros l k f r Hlt Hf Hr. apply repn_pattern. intros Hin. apply Hr.
  apply interlevel_In. exists l, f. auto.
Qed.

(* P_local: a stored entry (r', r) of the level-lv Kronecker prolongator implies that every cell of the support of
   the fine function r' has its parent in the support of the coarse function r (a property of the two-scale
   relation of nested spline spaces; named hypothesis on the data pmat). *)
Definition P_local : Prop := forall lv r r' c,
  In r' (prod_lists (axes_children R pmat lv 0 r)) ->
  In c (support1 (msh st (S lv)) r') -> In (parent1 c) (support1 (msh st lv) r).

(* What holds for every stored child holds for grandchildren: an invariant ok of the functions along the chain
   (lv, r) -> (S lv, r') is kept, and the n-th ancestors of the cells of a grandchild lie in the support. *)
Lemma grand_support : forall (ok : nat -> mi -> Prop) L,
  (forall lv r r', S lv < L -> ok lv r -> In r' (prod_lists (axes_children R pmat lv 0 r)) ->
     ok (S lv) r' /\ forall c, In c (support1 (msh st (S lv)) r') -> In (parent1 c) (support1 (msh st lv) r)) ->
  forall n l f r, l + n < L -> ok l f -> In r (fgrand R pmat n l [f]) ->
  ok (l + n) r /\ forall c, In c (support1 (msh st (l + n)) r) -> In (anc n c) (support1 (msh st l) f).
Proof.
  intros ok L Hstep. induction n as [|n IH]; intros l f r HL Hf Hr.
  - simpl in Hr. destruct Hr as [<-|[]]. rewrite Nat.add_0_r. split; auto.
  - rewrite fgrand_top in Hr. apply fchildren_In in Hr. destruct Hr as [q [Hq Hr]].
    destruct (IH l f q ltac:(lia) Hf Hq) as [Hq1 Hq2].
    destruct (Hstep (l + n) q r ltac:(lia) Hq1 Hr) as [Hr1 Hr2].
    replace (l + S n) with (S (l + n)) by lia. split; auto.
    intros c Hc. rewrite anc_S, <- anc_parent_comm. apply Hq2. apply Hr2. exact Hc.
Qed.

(* locality of the level forms: functions of level k with disjoint supports do not interact *)
Definition local (a : nat -> mi -> mi -> R) : Prop := forall k r c,
  (forall x, In x (support1 (msh st k) r) -> ~ In x (support1 (msh st k) c)) -> a k r c = r0.

(* The entry characterisation for the concrete sets, general assembly, every pair of active functions, from
   locality of the forms, the C04 invariants of the levels below numlevels, and ONE geometric fact about the
   prolongator data: the grandchildren of an active function lie inside its support. *)
Section Entry.
Variable a : nat -> mi -> mi -> R.
Hypothesis a_local : local a.
Hypothesis meshes : forall k, k < numlevels st -> mesh_ok (msh st k).
Hypothesis dims : forall k k', k < numlevels st -> k' < numlevels st -> dim (msh st k) = dim (msh st k').
Hypothesis AF_in_F : forall k f, In f (AFm st k) -> In f (tp_functions (msh st k)).
Hypothesis il_in_F : forall k r, k < numlevels st -> In r (interlevel R st pmat k) -> In r (tp_functions (msh st k)).
Hypothesis grand_in : forall n l f r c, l + n < numlevels st -> In f (AFm st l) ->
  In r (fgrand R pmat n l [f]) -> In c (support1 (msh st (l + n)) r) -> In (anc n c) (support1 (msh st l) f).

(* a coarse active function that is not a neighbour has no non-zero term with fj: where its representation
   does not vanish the supports are disjoint (neighbours are complete) *)
Lemma non_neighbour_terms : forall li fi lj fj r,
  li < lj -> lj < numlevels st -> In fi (AFm st li) -> In fj (AFm st lj) ->
  ~ In fi (nbr st lj li) ->
  rmul (repc li lj fi r) (a lj r fj) = r0 /\ rmul (a lj fj r) (repc li lj fi r) = r0.
Proof.
  intros li fi lj fj r Hlt HL Hfi Hfj Hn.
  destruct (In_dec_mi r (fgrand R pmat (lj - li) li [fi])) as [Hg|Hg].
  - assert (Hdis : forall x, In x (support1 (msh st lj) r) -> ~ In x (support1 (msh st lj) fj)).
    { intros x Hx Hxj. apply Hn.
      apply (neighbor_of_meeting_support st None lj li fi fj x); auto.
      - apply meshes. lia.
      - rewrite length_anc. rewrite (dims li lj ltac:(lia) HL). apply (mo_len _ (meshes lj HL)).
        apply (mo_incells _ (meshes lj HL) fj); auto.
      - apply (grand_in (lj - li) li fi r x); auto; replace (li + (lj - li)) with lj by lia; auto. }
    split.
    + rewrite (a_local lj r fj Hdis). ring.
    + rewrite (a_local lj fj r); [ring|]. intros x Hx Hxr. apply (Hdis x); auto.
  - unfold repc. rewrite (repn_pattern _ _ _ _ Hg). split; ring.
Qed.

Lemma hassemble_entry_sets : forall li fi lj fj,
  li < numlevels st -> lj < numlevels st -> In fi (AFm st li) -> In fj (AFm st lj) ->
  blk_entry R r0 radd rmul a repc (nbr st) (interlevel R st pmat) (to_assemble R st pmat) false li fi lj fj
  = spec_entry R r0 radd rmul a repc (fun k => tp_functions (msh st k)) li fi lj fj.
Proof.
  intros li fi lj fj HLi HLj Hfi Hfj.
  destruct (Nat.lt_trichotomy li lj) as [Hlt|[->|Hgt]].
  - apply (hassemble_entry_lower R r0 r1 radd rmul rsub ropp Rth);
      auto using fns_nodup, repc_diag, interlevel_nodup, interlevel_to_assemble, AF_to_assemble.
    + intros Hnb r _ Hr. apply repc_outside_interlevel; auto.
    + intros Hnb r _. apply (non_neighbour_terms li fi lj fj r); auto.
  - apply (hassemble_entry_diag R r0 r1 radd rmul rsub ropp Rth); auto using fns_nodup, repc_diag, AF_to_assemble.
  - apply (hassemble_entry_upper R r0 r1 radd rmul rsub ropp Rth);
      auto using fns_nodup, repc_diag, interlevel_nodup, interlevel_to_assemble, AF_to_assemble.
    + intros Hnb c _ Hc. apply repc_outside_interlevel; auto.
    + intros Hnb c _. apply (non_neighbour_terms lj fj li fi c); auto.
Qed.
End Entry.
End Concrete.
