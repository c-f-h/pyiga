(* C03 -- lemmas: sparse rows as association lists (lookup, update of one row of a matrix, M[:, idx]). *)
From Coq Require Import List Arith Bool Lia NArith.
From Verif.C03 Require Import Model.
Import ListNotations.

Section Rows.
Variable R : Type.
Variable r0 : R.

Notation svec := (svec R).
Notation get := (sv_get R r0).

(* columns strictly increasing *)
Fixpoint sv_sorted (s : svec) : Prop :=
  match s with
  | [] => True
  | e :: s' => (forall e', In e' s' -> (fst e < fst e')%N) /\ sv_sorted s'
  end.

Lemma get_nil : forall k, get [] k = r0.
Proof. reflexivity. Qed.

Lemma get_cons : forall k' v s k, get ((k', v) :: s) k = if N.eqb k k' then v else get s k.
Proof. intros. unfold sv_get. simpl. destruct (N.eqb k k'); reflexivity. Qed.

Lemma get_absent : forall s k, (forall e, In e s -> fst e <> k) -> get s k = r0.
Proof.
  induction s as [|[k' v] s IH]; intros k H; [reflexivity|]. rewrite get_cons.
  destruct (N.eqb_spec k k') as [E|E].
  - destruct (H (k', v)); simpl; auto.
  - apply IH. intros e He. apply H. right; auto.
Qed.

Lemma upd_length : forall (T : Type) (f : T -> T) l n, length (upd n f l) = length l.
Proof. induction l as [|x l IH]; intros [|n]; simpl; auto. Qed.

Lemma upd_nth : forall (T : Type) (f : T -> T) (d : T) l n i,
  nth i (upd n f l) d = if Nat.eqb i n && Nat.ltb n (length l) then f (nth i l d) else nth i l d.
Proof.
  induction l as [|x l IH]; intros n i.
  - destruct n, i; simpl; rewrite ?andb_false_r; reflexivity.
  - destruct n, i; simpl; auto. rewrite IH. reflexivity.
Qed.

Lemma sm_row_map : forall (f : svec -> svec) (M : smat R) i, f [] = [] -> sm_row R (map f M) i = f (sm_row R M i).
Proof. intros f M i Hf. unfold sm_row. rewrite <- (map_nth f), Hf. reflexivity. Qed.

Lemma pick_nil : forall idx p0, sv_pick R [] idx p0 = [].
Proof. induction idx as [|c idx IH]; intros p0; simpl; auto. Qed.

Lemma pick_keys : forall (row : svec) idx p0 e, In e (sv_pick R row idx p0) -> (p0 <= fst e)%N.
Proof.
  intros row idx. induction idx as [|c idx IH]; intros p0 e He; simpl in He; [destruct He|].
  destruct (sv_find R row c).
  - destruct He as [<-|He]; simpl; [lia|]. specialize (IH _ _ He). lia.
  - specialize (IH _ _ He). lia.
Qed.

Lemma pick_get : forall (row : svec) idx p0 p, p < length idx ->
  get (sv_pick R row idx p0) (p0 + N.of_nat p)%N = get row (nth p idx 0%N).
Proof.
  intros row idx. induction idx as [|c idx IH]; intros p0 p Hp; simpl in Hp; [lia|].
  simpl sv_pick. destruct p as [|p].
  - simpl nth. replace (p0 + N.of_nat 0)%N with p0 by lia.
    unfold sv_get at 2. destruct (sv_find R row c) eqn:E.
    + rewrite get_cons. rewrite N.eqb_refl. reflexivity.
    + apply get_absent. intros e He. apply pick_keys in He. lia.
  - simpl nth. replace (p0 + N.of_nat (S p))%N with (N.succ p0 + N.of_nat p)%N by lia.
    destruct (sv_find R row c).
    + rewrite get_cons. replace (N.eqb (N.succ p0 + N.of_nat p) p0) with false by (symmetry; apply N.eqb_neq; lia).
      apply IH. lia.
    + apply IH. lia.
Qed.

End Rows.
