(* C03 -- lemmas: entry semantics of the sparse kernels: y + c*x on sorted rows (axpy_spec), through it the COO -> CSR
   conversion with summation of duplicates and the matrix product; the transpose. *)
From Coq Require Import List Arith Bool Lia NArith Ring.
From Verif.C03 Require Import Model Proofs3.
Import ListNotations.

Section Kernels.
Variable R : Type.
Variables (r0 r1 : R) (radd rmul rsub : R -> R -> R) (ropp : R -> R).
Hypothesis Rth : ring_theory r0 r1 radd rmul rsub ropp eq.
Add Ring Rring5 : Rth.

Notation svec := (svec R).
Notation get := (sv_get R r0).
Notation axpy := (sv_axpy R radd rmul).
Notation sorted := (sv_sorted R).

Definition keys (s : svec) : list N := map fst s.

Lemma sorted_cons : forall k v s, sorted ((k, v) :: s) <-> (forall k', In k' (keys s) -> (k < k')%N) /\ sorted s.
Proof.
  intros k v s. simpl. split; intros [H1 H2]; split; auto.
  - intros k' Hk. apply in_map_iff in Hk. destruct Hk as [e [<- He]]. apply (H1 e He).
  - intros e He. apply H1. apply in_map; auto.
Qed.

Lemma get_absent_keys : forall s k, ~ In k (keys s) -> get s k = r0.
Proof. intros s k H. apply get_absent. intros e He Hk. apply H. rewrite <- Hk. apply in_map; auto. Qed.

Lemma get_app_l : forall (s t : svec) k, ~ In k (keys s) -> get (s ++ t) k = get t k.
Proof.
  induction s as [|[k' v] s IH]; intros t k H; simpl; auto.
  rewrite (get_cons R r0). destruct (N.eqb_spec k k') as [E|E].
  - destruct H. left; auto.
  - apply IH. intros Hin. apply H. right; auto.
Qed.

Lemma get_app_r : forall (s t : svec) k, ~ In k (keys t) -> get (s ++ t) k = get s k.
Proof.
  induction s as [|[k' v] s IH]; intros t k H; simpl.
  - apply get_absent_keys; auto.
  - rewrite !(get_cons R r0). destruct (N.eqb k k'); auto.
Qed.

Lemma get_app_in : forall (s t : svec) k, In k (keys s) -> get (s ++ t) k = get s k.
Proof.
  induction s as [|[k' v] s IH]; intros t k H; simpl in H; [destruct H|].
  simpl. rewrite !(get_cons R r0). destruct (N.eqb_spec k k') as [E|E]; auto.
  apply IH. destruct H as [H|H]; auto. congruence.
Qed.

Lemma axpy_nil_l : forall c y, axpy c [] y = y.
Proof. intros c y. destruct y; reflexivity. Qed.

Lemma axpy_cons : forall c kx vx x' ky vy y',
  axpy c ((kx, vx) :: x') ((ky, vy) :: y')
  = match N.compare kx ky with
    | Lt => (kx, rmul c vx) :: axpy c x' ((ky, vy) :: y')
    | Eq => (kx, radd vy (rmul c vx)) :: axpy c x' y'
    | Gt => (ky, vy) :: axpy c ((kx, vx) :: x') y'
    end.
Proof. reflexivity. Qed.

(* values, sortedness, keys; by induction on x and, for a fixed x, on y (the two arguments of the merge) *)
Lemma axpy_spec : forall c x, sorted x -> forall y, sorted y ->
  (forall k, get (axpy c x y) k = radd (get y k) (rmul c (get x k))) /\
  sorted (axpy c x y) /\
  (forall k, In k (keys (axpy c x y)) -> In k (keys x) \/ In k (keys y)).
Proof.
  intros c x. induction x as [|[kx vx] x' IHx]; intros Hx y Hy.
  - rewrite axpy_nil_l. repeat split; auto. intros k. rewrite (get_nil R r0). ring.
  - apply sorted_cons in Hx. destruct Hx as [Hxl Hx'].
    induction y as [|[ky vy] y' IHy].
    + change (axpy c ((kx, vx) :: x') []) with ((kx, rmul c vx) :: axpy c x' []).
      destruct (IHx Hx' [] I) as [G [S K]].
      split; [|split].
      * intros k. rewrite !(get_cons R r0). rewrite G, (get_nil R r0). destruct (N.eqb k kx); ring.
      * apply sorted_cons. split; auto. intros k' Hk'. destruct (K k' Hk') as [H|[]]. auto.
      * intros k [<-|Hk]; [left; left; auto|]. destruct (K k Hk) as [H|[]]. left; right; auto.
    + pose proof Hy as Hy0. apply sorted_cons in Hy. destruct Hy as [Hyl Hy'].
      rewrite axpy_cons. destruct (N.compare_spec kx ky) as [E|E|E].
      * subst ky. destruct (IHx Hx' y' Hy') as [G [S K]].
        split; [|split].
        -- intros k. rewrite !(get_cons R r0). rewrite G. destruct (N.eqb k kx); ring.
        -- apply sorted_cons. split; auto. intros k' Hk'. destruct (K k' Hk'); auto.
        -- intros k [<-|Hk]; [left; left; auto|]. destruct (K k Hk); [left | right]; right; auto.
      * destruct (IHx Hx' _ Hy0) as [G [S K]].
        split; [|split].
        -- intros k. rewrite (get_cons R r0). rewrite G. rewrite (get_cons R r0 kx vx).
           destruct (N.eqb_spec k kx) as [->|Ek]; [|ring].
           rewrite (get_absent_keys ((ky, vy) :: y')); [ring|].
           intros [H|H]; simpl in H; [lia|]. specialize (Hyl _ H). lia.
        -- apply sorted_cons. split; auto. intros k' Hk'. destruct (K k' Hk') as [H|[H|H]]; auto.
           ++ simpl in H. lia.
           ++ specialize (Hyl _ H). lia.
        -- intros k [<-|Hk]; [left; left; auto|]. destruct (K k Hk); [left; right | right]; auto.
      * destruct (IHy Hy') as [G [S K]].
        split; [|split].
        -- intros k. rewrite (get_cons R r0). rewrite G. rewrite (get_cons R r0 ky vy).
           destruct (N.eqb_spec k ky) as [->|Ek]; [|ring].
           rewrite (get_absent_keys ((kx, vx) :: x')); [ring|].
           intros [H|H]; simpl in H; [lia|]. specialize (Hxl _ H). lia.
        -- apply sorted_cons. split; auto. intros k' Hk'. destruct (K k' Hk') as [[H|H]|H]; auto.
           ++ simpl in H. lia.
           ++ specialize (Hxl _ H). lia.
        -- intros k [<-|Hk]; [right; left; auto|]. destruct (K k Hk); [left | right; right]; auto.
Qed.

Definition rows_sorted (M : smat R) : Prop := forall r, In r M -> sorted r.

Lemma sm_row_sorted : forall M i, rows_sorted M -> sorted (sm_row R M i).
Proof.
  intros M i H. unfold sm_row. destruct (Nat.lt_ge_cases (N.to_nat i) (length M)).
  - apply H. apply nth_In; auto.
  - rewrite nth_overflow by auto. exact I.
Qed.

Lemma upd_rows_sorted : forall (f : svec -> svec) n M,
  (forall r, sorted r -> sorted (f r)) -> rows_sorted M -> rows_sorted (upd n f M).
Proof.
  intros f n M Hf HM r Hr. destruct (In_nth _ _ [] Hr) as [q [Hq <-]]. rewrite upd_length in Hq. rewrite upd_nth.
  destruct (_ && _); [apply Hf|]; apply HM; apply nth_In; auto.
Qed.

Notation step := (fun (M : smat R) (t : N * N * R) => upd (N.to_nat (fst (fst t))) (axpy r1 [(snd (fst t), snd t)]) M).

Lemma single_sorted : forall j (v : R), sorted [(j, v)].
Proof. intros j v. split; [intros e []|exact I]. Qed.

Lemma coo_fold_get : forall (m : coo R) (M : smat R) i j, rows_sorted M -> N.to_nat i < length M ->
  sm_get R r0 (fold_left step m M) i j = radd (sm_get R r0 M i j) (coo_get R r0 radd m i j).
Proof.
  induction m as [|[[ti tj] tv] m IH]; intros M i j HM Hi; simpl fold_left.
  - unfold coo_get. simpl. ring.
  - rewrite IH; [| |rewrite upd_length; exact Hi].
    2:{ apply upd_rows_sorted; auto. intros r Hr. apply (axpy_spec r1 _ (single_sorted tj tv) r Hr). }
    unfold sm_get, sm_row. rewrite upd_nth. unfold coo_get. simpl filter. simpl fst. simpl snd.
    destruct (N.eqb_spec ti i) as [->|Eti].
    + rewrite Nat.eqb_refl, (proj2 (Nat.ltb_lt _ _) Hi). simpl andb. cbv iota.
      destruct (axpy_spec r1 [(tj, tv)] (single_sorted tj tv) (nth (N.to_nat i) M []))
        as [G _]; [apply HM; apply nth_In; auto|].
      rewrite G, (get_cons R r0), (get_nil R r0), (N.eqb_sym tj j). destruct (N.eqb j tj); simpl; ring.
    + replace (Nat.eqb (N.to_nat i) (N.to_nat ti)) with false; [reflexivity|].
      symmetry. apply Nat.eqb_neq. intros H. apply Nnat.N2Nat.inj in H. auto.
Qed.

Lemma mul_row_spec : forall (B : smat R) (ra : svec) acc j, rows_sorted B -> sorted acc ->
  let res := fold_left (fun acc e => axpy (snd e) (sm_row R B (fst e)) acc) ra acc in
  get res j = radd (get acc j) (sumf R r0 radd (fun e => rmul (snd e) (sm_get R r0 B (fst e) j)) ra) /\ sorted res.
Proof.
  intros B ra. induction ra as [|e ra IH]; intros acc j HB Hacc; simpl.
  - split; auto. ring.
  - destruct (axpy_spec (snd e) (sm_row R B (fst e)) (sm_row_sorted B (fst e) HB) acc Hacc) as [G [S _]].
    destruct (IH (axpy (snd e) (sm_row R B (fst e)) acc) j HB S) as [G2 S2].
    split; auto. rewrite G2, G. unfold sm_get. ring.
Qed.

Lemma sm_mul_sorted : forall (A B : smat R), rows_sorted B -> rows_sorted (sm_mul R radd rmul A B).
Proof.
  intros A B HB r Hr. unfold sm_mul in Hr. apply in_map_iff in Hr. destruct Hr as [ra [<- _]].
  destruct (mul_row_spec B ra [] 0%N HB I) as [_ S]. exact S.
Qed.

(* the entries appended to row jn of the transpose while row number i0 of M is processed *)
Definition appended (i0 : N) (jn : nat) (row : svec) : svec :=
  map (fun e => (i0, snd e)) (filter (fun e => Nat.eqb (N.to_nat (fst e)) jn) row).

Lemma appended_get : forall i0 jn row, get (appended i0 jn row) i0 = get row (N.of_nat jn).
Proof.
  intros i0 jn row. unfold appended. induction row as [|[k v] row IH]; simpl; auto.
  rewrite (get_cons R r0 k v). destruct (Nat.eqb_spec (N.to_nat k) jn) as [E|E]; simpl.
  - rewrite (get_cons R r0), N.eqb_refl. replace (N.eqb (N.of_nat jn) k) with true; auto.
    symmetry. apply N.eqb_eq. lia.
  - replace (N.eqb (N.of_nat jn) k) with false; auto. symmetry. apply N.eqb_neq. lia.
Qed.

Lemma appended_keys : forall i0 jn row k, In k (keys (appended i0 jn row)) -> k = i0.
Proof.
  intros i0 jn row k H. unfold appended, keys in H. rewrite map_map in H.
  apply in_map_iff in H. destruct H as [e [<- _]]. reflexivity.
Qed.

Notation inner i0 := (fun (T : smat R) (e : N * R) => upd (N.to_nat (fst e)) (fun r => r ++ [(i0, snd e)]) T).

Lemma inner_spec : forall i0 row (T : smat R),
  length (fold_left (inner i0) row T) = length T /\
  forall jn, jn < length T -> nth jn (fold_left (inner i0) row T) [] = nth jn T [] ++ appended i0 jn row.
Proof.
  intros i0 row. induction row as [|e row IH]; intros T; simpl.
  - split; auto. intros jn _. unfold appended. simpl. rewrite app_nil_r. reflexivity.
  - destruct (IH (upd (N.to_nat (fst e)) (fun r => r ++ [(i0, snd e)]) T)) as [L G].
    rewrite upd_length in L, G. split; auto.
    intros jn Hj. rewrite (G jn Hj), upd_nth. unfold appended. simpl filter.
    destruct (Nat.eqb_spec (N.to_nat (fst e)) jn) as [<-|E].
    + rewrite Nat.eqb_refl. replace (_ <? _) with true by (symmetry; apply Nat.ltb_lt; exact Hj).
      simpl. rewrite <- app_assoc. reflexivity.
    + replace (Nat.eqb jn (N.to_nat (fst e))) with false by (symmetry; apply Nat.eqb_neq; auto). reflexivity.
Qed.

Notation outer := (fun (iT : N * smat R) (row : svec) => (N.succ (fst iT), fold_left (inner (fst iT)) row (snd iT))).

(* rows i0, i0+1, .. of M processed on top of T, all of whose stored columns lie below i0: below i0 the rows of T
   are unchanged, from i0 on they hold the columns of M (no arithmetic on the values) *)
Lemma outer_spec : forall (Ms : smat R) i0 (T : smat R),
  (forall jn k, In k (keys (nth jn T [])) -> (k < i0)%N) ->
  let res := fold_left outer Ms (i0, T) in
  length (snd res) = length T /\
  (forall jn, jn < length T -> forall i,
     get (nth jn (snd res) []) i
     = if (i <? i0)%N then get (nth jn T []) i else get (nth (N.to_nat (i - i0)) Ms []) (N.of_nat jn)).
Proof.
  induction Ms as [|row Ms IH]; intros i0 T HT.
  - simpl. split; auto. intros jn _ i. destruct (N.ltb_spec i i0) as [H|H]; auto.
    rewrite (get_absent_keys (nth jn T [])) by (intros Hk; specialize (HT jn i Hk); lia).
    destruct (N.to_nat (i - i0)); reflexivity.
  - change (fold_left outer (row :: Ms) (i0, T)) with (fold_left outer Ms (N.succ i0, fold_left (inner i0) row T)).
    destruct (inner_spec i0 row T) as [L1 G1].
    assert (HT1 : forall jn k, In k (keys (nth jn (fold_left (inner i0) row T) [])) -> (k < N.succ i0)%N).
    { intros jn k Hk. destruct (Nat.lt_ge_cases jn (length T)) as [Hj|Hj].
      - rewrite (G1 jn Hj) in Hk. unfold keys in Hk. rewrite map_app in Hk. apply in_app_or in Hk.
        destruct Hk as [Hk|Hk].
        + specialize (HT jn k Hk). lia.
        + apply appended_keys in Hk. lia.
      - rewrite nth_overflow in Hk by lia. destruct Hk. }
    destruct (IH (N.succ i0) _ HT1) as [L2 G2]. simpl in L2, G2.
    split; [simpl; rewrite L2; exact L1|].
    intros jn Hj i. simpl. rewrite (G2 jn ltac:(rewrite L1; exact Hj) i), (G1 jn Hj).
    destruct (N.compare_spec i i0) as [E|E|E].
    + subst i. rewrite (proj2 (N.ltb_lt _ _)), (proj2 (N.ltb_ge _ _)) by lia.
      rewrite get_app_l by (intros Hk; specialize (HT jn i0 Hk); lia).
      rewrite appended_get. replace (N.to_nat (i0 - i0)) with 0 by lia. reflexivity.
    + rewrite !(proj2 (N.ltb_lt _ _)) by lia.
      apply get_app_r. intros Hk. apply appended_keys in Hk. lia.
    + rewrite !(proj2 (N.ltb_ge _ _)) by lia.
      replace (N.to_nat (i - i0)) with (S (N.to_nat (i - N.succ i0))) by lia. reflexivity.
Qed.

End Kernels.
