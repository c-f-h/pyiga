(* C03 -- lemmas: reachable spaces.  The C04 invariants that the entry characterisation assumes hold for
   st = run (hs_init axes disp) ops; and the geometric fact about the prolongators (grandchildren inside the
   ancestor's support) and the prolongator-shape fact follow from C04's children_inside_parent_support under ONE
   hypothesis on the data: the stored sparsity pattern of the 1-D prolongators lies inside the pattern
   C04/Children.v models (is_child_1d; compared exactly with the implementation's function_children on every C04 run). *)
From Coq Require Import List Arith Bool Lia NArith.
From Verif.lib Require Import ListFacts FinSet.
From Verif.C04 Require Import Model Proofs ProofsFun ProofsMesh.
From Verif.C04 Require Children ProofsChildren.
From Verif.C03 Require Import Model Proofs Proofs2.
Import ListNotations.

(* C04: tables_consistent, equal dimensions, activity_characterisation *)
Lemma reachable_meshes : forall axes disp ops,
  Forall axis_ok axes -> (forall d, disp = Some d -> 1 <= d) -> ops_valid (hs_init axes disp) ops ->
  let st := run (hs_init axes disp) ops in
  (forall k, k < numlevels st -> mesh_ok (msh st k)) /\
  (forall k k', k < numlevels st -> k' < numlevels st -> dim (msh st k) = dim (msh st k')) /\
  (forall k f, In f (AFm st k) -> In f (tp_functions (msh st k))).
Proof.
  intros axes disp ops Ha Hd Hv st.
  pose proof (reachable_good2 axes disp ops Ha Hd Hv) as G. fold st in G.
  split; [|split].
  - apply (good2_meshes_fine (tpmesh_of axes)); auto. apply hier_ok_valid; auto.
  - intros k k' Hk Hk'. rewrite (g2_msh _ _ G k Hk), (g2_msh _ _ G k' Hk'). rewrite !dim_iter. reflexivity.
  - intros k f Hf. destruct (Nat.lt_ge_cases k (numlevels st)) as [Hk|Hk].
    + apply (fi_act _ (g2_funcs _ _ G) k f Hk). exact Hf.
    + unfold AFm in Hf. rewrite lvl_overflow in Hf by auto. destruct Hf.
Qed.

Section Pattern.
Variable R : Type.
Variables (axes : list axis) (disp : option nat) (ops : list op).
Hypothesis Haxes : Forall axis_ok axes.
Hypothesis Hdisp : forall d, disp = Some d -> 1 <= d.
Hypothesis Hops : ops_valid (hs_init axes disp) ops.
Let st := run (hs_init axes disp) ops.
Variable pmat : nat -> nat -> smat R.

Notation fns := (fun k => tp_functions (msh st k)).
Let axl (lv : nat) : list axis := Nat.iter lv (map ax_refine) axes.

(* the stored pattern of the prolongator of level lv, axis d lies inside C04's children pattern of that axis *)
Definition pattern_ok : Prop := forall lv d j i, S lv < numlevels st ->
  In i (children_1d R pmat lv d j) -> Children.is_child_1d (nth d (axl lv) (mk_axis 0 [])) j i = true.
Hypothesis Hpat : pattern_ok.

Lemma msh_axl : forall lv, lv < numlevels st -> msh st lv = tpmesh_of (axl lv).
Proof.
  intros lv H. pose proof (reachable_good2 axes disp ops Haxes Hdisp Hops) as G. fold st in G.
  rewrite (g2_msh _ _ G lv H). apply iter_refine_tpmesh_of.
Qed.

Lemma pattern_forall2 : forall lv, S lv < numlevels st -> forall r d r',
  length r + d = length (axl lv) ->
  Forall2 (fun l xi => In xi l) (axes_children R pmat lv d r) r' ->
  Forall2 inr (Children.lookup_children (skipn d (axl lv)) r) r'.
Proof.
  intros lv HL. induction r as [|j rt IH]; intros d r' Hlen H.
  - simpl in H. inversion H; subst. destruct (skipn d (axl lv)); constructor.
  - simpl in H. inversion H as [|l i ls r't Hi Hrest]; subst.
    simpl in Hlen. rewrite (skipn_cons_nth (mk_axis 0 []) (axl lv) d) by lia. cbn [Children.lookup_children].
    constructor.
    + specialize (Hpat lv d j i HL Hi). unfold Children.is_child_1d in Hpat.
      apply andb_true_iff in Hpat. destruct Hpat as [H1 H2]. apply Nat.leb_le in H1. apply Nat.ltb_lt in H2.
      unfold inr. lia.
    + apply IH; auto. lia.
Qed.

Lemma fns_length : forall lv r, lv < numlevels st -> In r (fns lv) -> length r = length (axl lv).
Proof.
  intros lv r HL Hr. cbv beta in Hr. rewrite msh_axl in Hr by auto. unfold tp_functions in Hr. simpl in Hr.
  rewrite In_box in Hr. apply Forall2_length in Hr. rewrite map_length in Hr. auto.
Qed.

(* a stored child is a child in the sense of C04, hence a function of the next level whose support lies in the
   parent's (children_inside_parent_support) *)
Lemma child_facts : forall lv r r', S lv < numlevels st -> In r (fns lv) ->
  In r' (prod_lists (axes_children R pmat lv 0 r)) ->
  In r' (fns (S lv)) /\
  forall c, In c (support1 (msh st (S lv)) r') -> In (parent1 c) (support1 (msh st lv) r).
Proof.
  intros lv r r' HL Hr Hc.
  assert (Hlen := fns_length lv r ltac:(lia) Hr). cbv beta in *.
  apply In_prod_lists in Hc.
  pose proof (pattern_forall2 lv HL r 0 r' ltac:(lia) Hc) as HF. simpl in HF.
  rewrite (msh_axl (S lv)) by auto. change (axl (S lv)) with (map ax_refine (axl lv)).
  rewrite (msh_axl lv) in * by lia.
  apply (ProofsChildren.children_inside_parent_support_l (axl lv) r r'); auto.
  - apply axes_ok_iter; auto.
  - apply ProofsChildren.In_children1. exact HF.
Qed.

Lemma grand_facts : forall n l f r, l + n < numlevels st -> In f (fns l) ->
  In r (fgrand R pmat n l [f]) ->
  In r (fns (l + n)) /\ forall c, In c (support1 (msh st (l + n)) r) -> In (anc n c) (support1 (msh st l) f).
Proof.
  intros n l f r. apply (grand_support R st pmat (fun lv q => In q (fns lv)) (numlevels st)).
  intros lv q q' HL Hq Hc. apply child_facts; auto.
Qed.

End Pattern.
