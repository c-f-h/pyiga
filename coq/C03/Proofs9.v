(* C03 -- lemmas: entry semantics of the sparse Kronecker product kron2, and of multi_kron_sparse of the 1-D
   prolongators (Model.multi_kron, the matrix kronP of represent_fine): it has the entries kron_entry (the product
   of the 1-D entries) at the raveled multi-indices. *)
From Coq Require Import List Arith Bool Lia NArith Ring.
From Verif.lib Require Import ListFacts.
From Verif.C03 Require Import Model Proofs2 Proofs3 Proofs5.
Import ListNotations.

Lemma ravel_acc_lin : forall s t acc, length s = length t ->
  ravel_acc s t acc = (acc * N.of_nat (nprod s) + ravel_acc s t 0)%N.
Proof.
  induction s as [|n s IH]; intros t acc H; destruct t as [|i t]; simpl in H; try discriminate.
  - simpl. lia.
  - simpl ravel_acc. rewrite (IH t (acc * N.of_nat n + N.of_nat i)%N) by lia.
    rewrite (IH t (N.of_nat i)) by lia.
    unfold nprod. simpl fold_right. fold (nprod s). rewrite Nnat.Nat2N.inj_mul. lia.
Qed.

Lemma ravel_cons : forall n s i t, length s = length t ->
  ravel (n :: s) (i :: t) = (N.of_nat i * N.of_nat (nprod s) + ravel s t)%N.
Proof.
  intros n s i t H. unfold ravel. simpl ravel_acc. rewrite (ravel_acc_lin s t _ H). lia.
Qed.

Lemma ravel_lt : forall s t, Forall2 (fun n x => x < n) s t -> (ravel s t < N.of_nat (nprod s))%N.
Proof.
  intros s t H. induction H as [|n i s t Hi H IH].
  - unfold ravel, nprod. simpl. lia.
  - rewrite ravel_cons by (eapply Forall2_length; eauto).
    unfold nprod. simpl fold_right. fold (nprod s). rewrite Nnat.Nat2N.inj_mul. nia.
Qed.

Section Kron.
Variable R : Type.
Variables (r0 r1 : R) (radd rmul rsub : R -> R -> R) (ropp : R -> R).
Hypothesis Rth : ring_theory r0 r1 radd rmul rsub ropp eq.
Add Ring Rring9 : Rth.

Notation svec := (svec R).
Notation get := (sv_get R r0).

(* one block of a Kronecker row: entry ea of A times the row rb of B, columns shifted by (column of ea) * mB *)
Definition block (mB : N) (ea : N * R) (rb : svec) : svec :=
  map (fun eb => ((fst ea * mB + fst eb)%N, rmul (snd ea) (snd eb))) rb.

Lemma block_get : forall mB ea rb j2, get (block mB ea rb) (fst ea * mB + j2)%N = rmul (snd ea) (get rb j2).
Proof.
  intros mB ea rb j2. induction rb as [|[k v] rb IH]; simpl.
  - rewrite !(get_nil R r0). ring.
  - rewrite !(get_cons R r0). simpl fst. simpl snd.
    destruct (N.eqb_spec j2 k) as [->|E].
    + rewrite N.eqb_refl. reflexivity.
    + replace (N.eqb (fst ea * mB + j2) (fst ea * mB + k)) with false; auto.
      symmetry. apply N.eqb_neq. lia.
Qed.

Lemma block_keys : forall mB ea rb k, In k (keys R (block mB ea rb)) <-> exists x, In x (keys R rb) /\ k = (fst ea * mB + x)%N.
Proof.
  intros mB ea rb k. unfold block, Proofs5.keys. rewrite map_map. simpl. rewrite !in_map_iff. split.
  - intros [eb [<- He]]. exists (fst eb). split; auto. apply in_map; auto.
  - intros [x [Hx ->]]. apply in_map_iff in Hx. destruct Hx as [eb [<- He]]. exists eb. auto.
Qed.

Lemma kron_row_get : forall mB (rb : svec) j1 j2, (j2 < mB)%N -> (forall x, In x (keys R rb) -> (x < mB)%N) ->
  forall ra : svec,
  get (flat_map (fun ea => block mB ea rb) ra) (j1 * mB + j2)%N = rmul (get ra j1) (get rb j2).
Proof.
  intros mB rb j1 j2 Hj Hrb. induction ra as [|[ka va] ra IH]; simpl.
  - rewrite !(get_nil R r0). ring.
  - rewrite (get_cons R r0 ka va). destruct (N.eqb_spec j1 ka) as [<-|E].
    + destruct (in_dec N.eq_dec j2 (keys R rb)) as [Hin|Hnin].
      * rewrite (get_app_in R r0); [exact (block_get mB (j1, va) rb j2)|].
        apply block_keys. exists j2. auto.
      * rewrite (get_app_l R r0).
        -- rewrite IH. rewrite (get_absent_keys R r0 rb j2 Hnin). ring.
        -- intros Hk. apply block_keys in Hk. destruct Hk as [x [Hx Hk]]. simpl in Hk.
           apply Hnin. replace j2 with x; auto. lia.
    + rewrite (get_app_l R r0); auto.
      intros Hk. apply block_keys in Hk. destruct Hk as [x [Hx Hk]]. simpl in Hk. apply E.
      rewrite !(N.mul_comm _ mB) in Hk. apply (N.div_mod_unique mB j1 ka j2 x); auto.
Qed.

Lemma kron2_get : forall (A B : smat R) mB i1 i2 j1 j2,
  i1 < length A -> i2 < length B -> (j2 < mB)%N ->
  (forall rb x, In rb B -> In x (keys R rb) -> (x < mB)%N) ->
  sm_get R r0 (kron2 R rmul A B mB) (N.of_nat (i1 * length B + i2)) (j1 * mB + j2)%N
  = rmul (sm_get R r0 A (N.of_nat i1) j1) (sm_get R r0 B (N.of_nat i2) j2).
Proof.
  intros A B mB i1 i2 j1 j2 H1 H2 Hj HB. unfold sm_get, sm_row, kron2. rewrite !Nnat.Nat2N.id.
  rewrite (nth_flat_map_uniform _ (length B) _ []), (nth_map_lt _ _ _ _ []) by auto using map_length.
  apply (kron_row_get mB (nth i2 B []) j1 j2 Hj).
  intros x Hx. apply (HB (nth i2 B [])); auto. apply nth_In; auto.
Qed.

Lemma kron2_length : forall (A B : smat R) mB, length (kron2 R rmul A B mB) = length A * length B.
Proof.
  intros A B mB. unfold kron2. induction A as [|ra A IH]; simpl; [reflexivity|].
  rewrite app_length, map_length. f_equal. exact IH.
Qed.

Lemma kron2_keys : forall (A B : smat R) mB row x, In row (kron2 R rmul A B mB) -> In x (keys R row) ->
  exists ra rb xa xb, In ra A /\ In rb B /\ In xa (keys R ra) /\ In xb (keys R rb) /\ x = (xa * mB + xb)%N.
Proof.
  intros A B mB row x Hrow Hx. unfold kron2 in Hrow. apply in_flat_map in Hrow. destruct Hrow as [ra [Hra Hrow]].
  apply in_map_iff in Hrow. destruct Hrow as [rb [<- Hrb]].
  unfold Proofs5.keys in Hx. apply in_map_iff in Hx. destruct Hx as [e [<- He]].
  apply in_flat_map in He. destruct He as [ea [Hea He]]. apply in_map_iff in He. destruct He as [eb [<- Heb]].
  exists ra, rb, (fst ea), (fst eb). repeat split; auto; apply in_map; auto.
Qed.

Variable pmat : nat -> nat -> smat R.

Notation mk := (multi_kron R r1 rmul pmat).
Notation kent := (kron_entry R r0 r1 rmul pmat).

(* number of rows of the 1-D prolongators of level lv, axes d, d+1, .., d+n-1 *)
Definition rowdims (lv d n : nat) : list nat := map (fun t => length (pmat lv t)) (seq d n).

(* the columns stored in the prolongator of axis d + t lie below the t-th coarse dimension *)
Definition cols_ok (lv d : nat) (dims : list nat) : Prop :=
  forall t row x, t < length dims -> In row (pmat lv (d + t)) -> In x (keys R row) -> (x < N.of_nat (nth t dims 0%nat))%N.

Lemma cols_ok_tail : forall lv d n dims, cols_ok lv d (n :: dims) -> cols_ok lv (S d) dims.
Proof.
  intros lv d n dims H t row x Ht Hr Hx. apply (H (S t) row x); simpl; auto; [lia|].
  replace (d + S t) with (S d + t) by lia. exact Hr.
Qed.

Lemma mk_cons : forall lv d n n2 dims,
  mk lv d (n :: n2 :: dims) = kron2 R rmul (pmat lv d) (mk lv (S d) (n2 :: dims)) (N.of_nat (nprod (n2 :: dims))).
Proof. reflexivity. Qed.

Lemma mk_length : forall lv dims d, length (mk lv d dims) = nprod (rowdims lv d (length dims)).
Proof.
  intros lv. induction dims as [|n dims IH]; intros d; [reflexivity|].
  destruct dims as [|n2 dims].
  - simpl. unfold rowdims, nprod. simpl. lia.
  - rewrite mk_cons, kron2_length, IH. reflexivity.
Qed.

Lemma mk_cols : forall lv dims d, dims <> [] -> cols_ok lv d dims ->
  forall row x, In row (mk lv d dims) -> In x (keys R row) -> (x < N.of_nat (nprod dims))%N.
Proof.
  intros lv. induction dims as [|n dims IH]; intros d H HC row x Hrow Hx; [contradiction|].
  pose proof (fun row x => HC 0 row x ltac:(simpl; lia)) as H0. rewrite Nat.add_0_r in H0. simpl in H0.
  destruct dims as [|n2 dims].
  - specialize (H0 row x Hrow Hx). unfold nprod. simpl. lia.
  - rewrite mk_cons in Hrow.
    destruct (kron2_keys _ _ _ _ _ Hrow Hx) as [ra [rb [xa [xb [Ha [Hb [Hxa [Hxb ->]]]]]]]].
    pose proof (IH (S d) ltac:(discriminate) (cols_ok_tail _ _ _ _ HC) rb xb Hb Hxb) as Hb2.
    specialize (H0 ra xa Ha Hxa).
    change (nprod (n :: n2 :: dims)) with (n * nprod (n2 :: dims)). rewrite Nnat.Nat2N.inj_mul. nia.
Qed.

Lemma multi_kron_get : forall lv dims d r r',
  cols_ok lv d dims ->
  Forall2 (fun n x => x < n) dims r ->
  Forall2 (fun n x => x < n) (rowdims lv d (length dims)) r' ->
  sm_get R r0 (mk lv d dims) (ravel (rowdims lv d (length dims)) r') (ravel dims r) = kent lv d r' r.
Proof.
  intros lv. induction dims as [|n dims IH]; intros d r r' HC Hr Hr'.
  - inversion Hr; subst. simpl in Hr'. inversion Hr'; subst. reflexivity.
  - inversion Hr as [|n0 j s rt Hj Hrt]; subst.
    change (rowdims lv d (length (n :: dims))) with (length (pmat lv d) :: rowdims lv (S d) (length dims)) in *.
    inversion Hr' as [|n0 i s r't Hi Hr't]; subst.
    destruct dims as [|n2 dims].
    + inversion Hrt; subst. simpl in Hr't. inversion Hr't; subst.
      simpl. unfold rowdims, ravel. simpl. unfold sm_get, sm_row. rewrite Nnat.Nat2N.id. unfold p1. ring.
    + rewrite mk_cons.
      rewrite (ravel_cons (length (pmat lv d))) by (eapply Forall2_length; eauto).
      rewrite (ravel_cons n) by (eapply Forall2_length; eauto).
      pose proof (mk_length lv (n2 :: dims) (S d)) as HL.
      pose proof (ravel_lt _ _ Hr't) as Hlt'. pose proof (ravel_lt _ _ Hrt) as Hlt.
      rewrite <- HL in Hlt' |- *.
      set (B := mk lv (S d) (n2 :: dims)) in *.
      set (i2 := N.to_nat (ravel (rowdims lv (S d) (length (n2 :: dims))) r't)).
      replace (N.of_nat i * N.of_nat (length B) + ravel (rowdims lv (S d) (length (n2 :: dims))) r't)%N
        with (N.of_nat (i * length B + i2)) by (unfold i2; lia).
      rewrite kron2_get; auto.
      * simpl kron_entry. unfold p1. f_equal.
        -- unfold sm_get, sm_row. rewrite Nnat.Nat2N.id. reflexivity.
        -- unfold i2. rewrite Nnat.N2Nat.id. unfold B. apply IH; auto. apply (cols_ok_tail _ _ _ _ HC).
      * unfold i2. lia.
      * intros rb x Hrb Hx.
        apply (mk_cols lv (n2 :: dims) (S d) ltac:(discriminate) (cols_ok_tail _ _ _ _ HC) rb x Hrb Hx).
Qed.

End Kron.
