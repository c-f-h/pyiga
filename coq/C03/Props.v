(* C03 -- property theorems only, each followed by Print Assumptions; the lemmas are in Proofs*.v.
   In this order: the index sets (neighbors, bdspecs, the disparity window); the blocks in entry form against
   their specification, from abstract sets to reachable spaces; Galerkin projection and THB; the load vector;
   the sparse kernels of the program.

   Vocabulary (coq/C03/Model.v on top of coq/C04/Model.v):
     st                       a hierarchical space (C04 state: meshes, per-level sets, disparity)
     neighbors st b k i       neighbors[k][i] of HDiscretization.assemble_matrix, b = the bdspecs argument
     blk_entry .. symm li fi lj fj
                              entry (row = function fi of level li, column = function fj of level lj) of the
                              HB matrix as the three blocks of the level loop compute it, in terms of
                                a k r c        the level-k tensor-product matrix (ARBITRARY: a Section variable),
                                rep l k f r    coefficient of the level-k function r in the level-l function f,
                                nb / il / ta   neighbors[k][l], interlevel_ix[k], to_assemble[k] (arbitrary lists)
     spec_entry .. li fi lj fj  sum_{r,c over ALL functions of level k = max(li,lj)} rep li k fi r * a k r c * rep lj k fj c,
                              i.e. the form applied to the two hierarchical basis functions with the quadrature
                              of the finer of their two levels
   The scalars are an arbitrary commutative ring (R, r0, r1, radd, rmul, rsub, ropp with ring_theory). *)
From Coq Require Import List Arith Bool NArith Lia Ring.
From Verif.lib Require Import ListFacts FinSet.
From Verif.C04 Require Import Model Proofs ProofsFun ProofsMesh.
From Verif.C03 Require Import Model Proofs Proofs2 Proofs3 Proofs5 Proofs7 Proofs9 Proofs10.
Import ListNotations.

(* neighbours are complete: for every space st (no reachability needed), every level pair i < k (REPAIRED code:
   no disparity window, fixes/C03-assembly-disparity-window.patch), an active function f of level i that does
   not vanish on the level-i ancestor of a cell in the support of an active level-k function g is listed in
   neighbors[k][i].  mesh_ok is the C04 duality of the tables suppfunc / meshsupp of level i (C04: compared
   with the implementation on every run). *)
Theorem neighbors_complete : forall st b k i f g c,
  i < k ->
  mesh_ok (msh st i) ->
  In f (AFm st i) -> In f (tp_functions (msh st i)) ->
  In g (AFm st k) ->
  In c (support1 (msh st k) g) ->
  length (anc (k - i) c) = dim (msh st i) ->
  In (anc (k - i) c) (support1 (msh st i) f) ->
  In f (neighbors st b k i).
Proof. exact neighbor_of_meeting_support. Qed.
Print Assumptions neighbors_complete.

(* The Dirichlet specification has no influence on the assembled matrix: neighbors (the only place where
   cell_supp_indices enters the assembly) is the same for every bdspecs, None included. *)
Theorem bdspecs_irrelevant : forall st b1 b2 k i, neighbors st b1 k i = neighbors st b2 k i.
Proof.
  intros st b1 b2 k i. unfold neighbors. destruct (i =? k) eqn:E; auto.
  unfold cell_supp_d. destruct (in_window None k i); auto.
  rewrite E. reflexivity.
Qed.
Print Assumptions bdspecs_irrelevant.

(* HSpace(kvs) without bdspecs: REPAIRED behaviour (fixes/C03-default-bdspecs.patch) = that of bdspecs=[] ... *)
Theorem default_space_assembles : dirichlet_new None = dirichlet_new (Some []) /\ dirichlet_new None = Ok [].
Proof. split; reflexivity. Qed.
Print Assumptions default_space_assembles.
(* ... whereas the loop `for bdspec in self.bdspecs` of the unpatched source fails on the default value. *)
Theorem default_space_assembles_old_refuted : exists b, dirichlet_old b = TypeError.
Proof. exists None. reflexivity. Qed.
Print Assumptions default_space_assembles_old_refuted.

(* The disparity window of the UNPATCHED assembly (neighbors_old: only levels k - disparity .. k-1) is not
   sufficient on every reachable space: after a refine(..., truncate=True) call (the marking variant meant for
   THB-admissible meshes) with disparity 1, an active level-1 function meets the support of an active level-3
   function -- it is a neighbour, the old window does not list it, and the HB interaction (and with it the
   THB matrix T^T A_hb T) is lost.  Replayed on the implementation: signature impl:disparity-window:*. *)
Theorem window_sufficient_old_refuted : exists axes d ops k i f,
  let st := run (hs_init axes (Some d)) ops in
  In f (neighbors st None k i) /\ ~ In f (neighbors_old st None k i) /\ admissible_b st d = false.
Proof.
  exists [mk_axis 2 [3; 1; 1; 3]], 1,
    [Refine [(0, (CSet, [[0]]))] false; Refine [(1, (CTuple, [[0]]))] false;
     Refine [(2, (CList, [[0]; [1]])); (1, (CList, [[3]; [5]]))] true], 3, 1, [2].
  vm_compute. split; [left; reflexivity | split; [intros [] | reflexivity]].
Qed.
Print Assumptions window_sufficient_old_refuted.

(* symmetric assembly of a symmetric form returns the same entries as general assembly (every pair of
   assembled functions, every level pair, arbitrary neighbour / interlevel sets with il <= ta). *)
Theorem symmetric_equals_general : forall (R : Type) (r0 r1 : R) radd rmul rsub ropp,
  ring_theory r0 r1 radd rmul rsub ropp eq ->
  forall a rep nb il ta,
  (forall k r c, a k r c = a k c r) ->
  (forall k r, In r (il k) -> In r (ta k)) ->
  forall li fi lj fj, In fi (ta li) -> In fj (ta lj) ->
  blk_entry R r0 radd rmul a rep nb il ta true li fi lj fj = blk_entry R r0 radd rmul a rep nb il ta false li fi lj fj.
Proof.
  intros R r0 r1 radd rmul rsub ropp Rth a rep nb il ta Hsym Hil li fi lj fj Hfi _. unfold blk_entry.
  destruct (li =? lj); auto. destruct (li <? lj); auto. destruct (mem fj (nb li lj)); auto.
  apply sum_ext. intros r Hr. rewrite !am_in, im_in by auto. rewrite (Hsym li r fi). apply (Rmul_comm Rth).
Qed.
Print Assumptions symmetric_equals_general.

(* Entry characterisation (general assembly), same level: the entry is a_k(f_j, f_i) itself. *)
Theorem hassemble_entry_diag : forall (R : Type) (r0 r1 : R) radd rmul rsub ropp,
  ring_theory r0 r1 radd rmul rsub ropp eq ->
  forall a rep nb il ta fns,
  (forall k, NoDup (fns k)) ->
  (forall k f r, rep k k f r = if mi_eqb r f then r1 else r0) ->
  forall k fi fj, In fi (fns k) -> In fj (fns k) -> In fi (ta k) ->
  blk_entry R r0 radd rmul a rep nb il ta false k fi k fj = spec_entry R r0 radd rmul a rep fns k fi k fj.
Proof. exact hassemble_entry_diag. Qed.
Print Assumptions hassemble_entry_diag.

(* Entry characterisation, coarse row / fine column (block A_hb_interlevel).  PARTIAL: the two facts about
   the sets are hypotheses here --
     (1) the level-lj representation of a neighbour vanishes outside interlevel_ix[lj];
     (2) a coarse function outside neighbors[lj][li] has no non-zero term rep * a with fj
   -- for an arbitrary form a. *)
Theorem hassemble_entry_lower_partial : forall (R : Type) (r0 r1 : R) radd rmul rsub ropp,
  ring_theory r0 r1 radd rmul rsub ropp eq ->
  forall a rep nb il ta fns,
  (forall k, NoDup (fns k)) -> (forall k, NoDup (il k)) ->
  (forall k r, In r (il k) -> In r (fns k)) -> (forall k r, In r (il k) -> In r (ta k)) ->
  (forall k f r, rep k k f r = if mi_eqb r f then r1 else r0) ->
  forall li fi lj fj,
  li < lj -> In fj (fns lj) -> In fj (ta lj) ->
  (In fi (nb lj li) -> forall r, In r (fns lj) -> ~ In r (il lj) -> rep li lj fi r = r0) ->
  (~ In fi (nb lj li) -> forall r, In r (fns lj) -> rmul (rep li lj fi r) (a lj r fj) = r0) ->
  blk_entry R r0 radd rmul a rep nb il ta false li fi lj fj = spec_entry R r0 radd rmul a rep fns li fi lj fj.
Proof.
  intros R r0 r1 radd rmul rsub ropp Rth a rep nb il ta fns Hf Hil Hif Hit Hd li fi lj fj Hlt Hj _.
  apply (hassemble_entry_lower R r0 r1 radd rmul rsub ropp Rth); auto.
Qed.
Print Assumptions hassemble_entry_lower_partial.

(* ... and fine row / coarse column (block A_hb_interlevel2 of general assembly). *)
Theorem hassemble_entry_upper_partial : forall (R : Type) (r0 r1 : R) radd rmul rsub ropp,
  ring_theory r0 r1 radd rmul rsub ropp eq ->
  forall a rep nb il ta fns,
  (forall k, NoDup (fns k)) -> (forall k, NoDup (il k)) ->
  (forall k r, In r (il k) -> In r (fns k)) -> (forall k r, In r (il k) -> In r (ta k)) ->
  (forall k f r, rep k k f r = if mi_eqb r f then r1 else r0) ->
  forall li fi lj fj,
  lj < li -> In fi (fns li) -> In fi (ta li) ->
  (In fj (nb li lj) -> forall c, In c (fns li) -> ~ In c (il li) -> rep lj li fj c = r0) ->
  (~ In fj (nb li lj) -> forall c, In c (fns li) -> rmul (a li fi c) (rep lj li fj c) = r0) ->
  blk_entry R r0 radd rmul a rep nb il ta false li fi lj fj = spec_entry R r0 radd rmul a rep fns li fi lj fj.
Proof.
  intros R r0 r1 radd rmul rsub ropp Rth a rep nb il ta fns Hf Hil Hif Hit Hd li fi lj fj.
  apply (hassemble_entry_upper R r0 r1 radd rmul rsub ropp Rth); auto.
Qed.
Print Assumptions hassemble_entry_upper_partial.

(* Entry characterisation for the CONCRETE index sets of the model, general assembly, every pair of active
   functions of every pair of levels:  nb = neighbors[k][l] (nbr st), il = interlevel_ix[k] (function_grandchildren
   through the CSC pattern of the prolongators pmat), ta = to_assemble[k], and rep = repc = products of the Kronecker
   prolongators (kron_entry).  Proved from:
     local a      the level forms are local: functions of level k with disjoint supports do not interact;
     P_local      children lie inside the parent's support (a stored entry (r', r) of the Kronecker prolongator implies
                  parent(c) in supp r for every cell c of supp r');
     mesh_ok      C04's duality of suppfunc/meshsupp on every level of st, equal dimensions, active functions are
                  functions of their mesh (C04 invariants of reachable states), interlevel_ix inside the index box of its
                  level (the prolongators have the shape of the meshes).
   The two hypotheses of hassemble_entry_lower/upper_partial are DISCHARGED here: representations of neighbours vanish
   outside interlevel_ix (support-pattern lemma repn_pattern for products of Kronecker matrices, no geometry needed), and
   non-neighbours contribute no non-zero term (grand_support + neighbors_complete + locality). *)
Theorem hassemble_entry_partial : forall (R : Type) (r0 r1 : R) radd rmul rsub ropp,
  ring_theory r0 r1 radd rmul rsub ropp eq ->
  forall (st : hspace) (pmat : nat -> nat -> smat R) (a : nat -> mi -> mi -> R),
  local R r0 st a ->
  P_local R st pmat ->
  (forall k, k < numlevels st -> mesh_ok (msh st k)) ->
  (forall k k', k < numlevels st -> k' < numlevels st -> dim (msh st k) = dim (msh st k')) ->
  (forall k f, In f (AFm st k) -> In f (tp_functions (msh st k))) ->
  (forall k r, In r (interlevel R st pmat k) -> In r (tp_functions (msh st k))) ->
  forall li fi lj fj,
  li < numlevels st -> lj < numlevels st -> In fi (AFm st li) -> In fj (AFm st lj) ->
  blk_entry R r0 radd rmul a (repc R r0 r1 radd rmul st pmat) (nbr st) (interlevel R st pmat) (to_assemble R st pmat)
            false li fi lj fj
  = spec_entry R r0 radd rmul a (repc R r0 r1 radd rmul st pmat) (fun k => tp_functions (msh st k)) li fi lj fj.
Proof.
  intros R r0 r1 radd rmul rsub ropp Rth st pmat a Hloc HP Hm Hdim HF Hil.
  apply (hassemble_entry_sets R r0 r1 radd rmul rsub ropp Rth st pmat a); auto.
  intros n l f r c HL _ Hr.
  refine (proj2 (grand_support R st pmat (fun _ _ => True) (numlevels st) _ n l f r HL I Hr) c).
  intros lv q q' _ _ Hq. split; [exact I|]. intros c'. apply HP. exact Hq.
Qed.
Print Assumptions hassemble_entry_partial.

(* The entry characterisation for every REACHABLE space: st = run (hs_init axes disp) ops for valid axes (C04 axis_ok),
   disparity >= 1 or infinite and any history of valid refinement calls.  The C04 invariants that hassemble_entry_partial
   assumes (mesh_ok of every level = C04 tables_consistent, equal dimensions, active functions are functions of their mesh =
   C04 activity_characterisation) are DISCHARGED.  Remaining named hypotheses: locality of the level forms, P_local (children
   inside the parent's support) and the shape condition on the prolongator data (interlevel_ix inside the index box). *)
Theorem hassemble_entry_reachable_partial : forall (R : Type) (r0 r1 : R) radd rmul rsub ropp,
  ring_theory r0 r1 radd rmul rsub ropp eq ->
  forall axes disp ops,
  Forall axis_ok axes -> (forall d, disp = Some d -> 1 <= d) -> ops_valid (hs_init axes disp) ops ->
  let st := run (hs_init axes disp) ops in
  forall (pmat : nat -> nat -> smat R) (a : nat -> mi -> mi -> R),
  local R r0 st a ->
  P_local R st pmat ->
  (forall k r, In r (interlevel R st pmat k) -> In r (tp_functions (msh st k))) ->
  forall li fi lj fj,
  li < numlevels st -> lj < numlevels st -> In fi (AFm st li) -> In fj (AFm st lj) ->
  blk_entry R r0 radd rmul a (repc R r0 r1 radd rmul st pmat) (nbr st) (interlevel R st pmat) (to_assemble R st pmat)
            false li fi lj fj
  = spec_entry R r0 radd rmul a (repc R r0 r1 radd rmul st pmat) (fun k => tp_functions (msh st k)) li fi lj fj.
Proof.
  intros R r0 r1 radd rmul rsub ropp Rth axes disp ops Ha Hd Hv st pmat a Hloc HP Hil.
  destruct (reachable_meshes axes disp ops Ha Hd Hv) as [Hm [Hdim HF]].
  apply (hassemble_entry_partial R r0 r1 radd rmul rsub ropp Rth); auto.
Qed.
Print Assumptions hassemble_entry_reachable_partial.

(* the prolongator-shape fact: on reachable spaces interlevel_ix[k] (function_grandchildren through the stored pattern) lies
   in the index box of level k *)
Theorem interlevel_in_index_box : forall (R : Type) axes disp ops,
  Forall axis_ok axes -> (forall d, disp = Some d -> 1 <= d) -> ops_valid (hs_init axes disp) ops ->
  forall (pmat : nat -> nat -> smat R), pattern_ok R axes disp ops pmat ->
  forall k r, k < numlevels (run (hs_init axes disp) ops) ->
  In r (interlevel R (run (hs_init axes disp) ops) pmat k) -> In r (tp_functions (msh (run (hs_init axes disp) ops) k)).
Proof.
  intros R axes disp ops Ha Hd Hv pmat Hpat k r HL H.
  apply interlevel_In in H. destruct H as [l [f [Hl [Hf Hr]]]].
  destruct (proj1 (neighbors_In _ None k l f) Hf) as [_ [_ HA]].
  destruct (reachable_meshes axes disp ops Ha Hd Hv) as [_ [_ HF]].
  destruct (grand_facts R axes disp ops Ha Hd Hv pmat Hpat (k - l) l f r) as [H1 _]; auto; [lia|].
  replace (l + (k - l)) with k in H1 by lia. exact H1.
Qed.
Print Assumptions interlevel_in_index_box.

(* P_local and the prolongator-shape hypothesis DISCHARGED from C04 (children_inside_parent_support, coq/C04/Children.v).
   pattern_ok R axes disp ops pmat : the stored sparsity pattern of the 1-D prolongator of level lv, axis d lies inside the
   children pattern is_child_1d that C04/Children.v models for that axis (phi(j) <= i <= phi(j+p+1)-(p+1); C04's run compares
   that pattern exactly with HMesh.function_children of the implementation).  For every reachable space, every prolongator
   data with that pattern and every local family of level forms a: the blocks of the assembly equal the form applied to the
   two hierarchical basis functions represented on the finer of their two levels -- all pairs of active functions. *)
Theorem hassemble_entry_pattern_partial : forall (R : Type) (r0 r1 : R) radd rmul rsub ropp,
  ring_theory r0 r1 radd rmul rsub ropp eq ->
  forall axes disp ops,
  Forall axis_ok axes -> (forall d, disp = Some d -> 1 <= d) -> ops_valid (hs_init axes disp) ops ->
  forall (pmat : nat -> nat -> smat R),
  pattern_ok R axes disp ops pmat ->
  forall (a : nat -> mi -> mi -> R),
  local R r0 (run (hs_init axes disp) ops) a ->
  forall li fi lj fj,
  li < numlevels (run (hs_init axes disp) ops) -> lj < numlevels (run (hs_init axes disp) ops) ->
  In fi (AFm (run (hs_init axes disp) ops) li) -> In fj (AFm (run (hs_init axes disp) ops) lj) ->
  blk_entry R r0 radd rmul a (repc R r0 r1 radd rmul (run (hs_init axes disp) ops) pmat) (nbr (run (hs_init axes disp) ops))
            (interlevel R (run (hs_init axes disp) ops) pmat) (to_assemble R (run (hs_init axes disp) ops) pmat) false li fi lj fj
  = spec_entry R r0 radd rmul a (repc R r0 r1 radd rmul (run (hs_init axes disp) ops) pmat)
               (fun k => tp_functions (msh (run (hs_init axes disp) ops) k)) li fi lj fj.
Proof.
  intros R r0 r1 radd rmul rsub ropp Rth axes disp ops Ha Hd Hv pmat Hpat a Hloc.
  destruct (reachable_meshes axes disp ops Ha Hd Hv) as [Hm [Hdim HF]].
  apply (hassemble_entry_sets R r0 r1 radd rmul rsub ropp Rth _ pmat a); auto.
  - intros k r Hk. apply (interlevel_in_index_box R axes disp ops Ha Hd Hv pmat Hpat k r Hk).
  - intros n l f r c HL Hf Hr. apply (grand_facts R axes disp ops Ha Hd Hv pmat Hpat n l f r); auto.
Qed.
Print Assumptions hassemble_entry_pattern_partial.
(* NOT PROVED: hassemble_entry = the same for st := run (hs_init axes disp) ops (valid history) and pmat := the exact Boehm
   prolongators WITHOUT data hypotheses.  mesh_ok / dims / AF in F are discharged from C04 (hassemble_entry_reachable_partial);
   P_local and the shape fact are discharged from C04's children_inside_parent_support under pattern_ok
   (hassemble_entry_pattern_partial, interlevel_in_index_box).  Missing: pattern_ok for the C05 knot-insertion matrices.
   coq/C05/Props3.v (dyadic_child_pattern) places the non-zero entries of the exact 1-D matrix of one axis inside C04's
   is_child_1d; pmat as the stored rows of those matrices on the axes of every level of a reachable space is not built.
   Also NOT PROVED: hassemble_program_entry -- that the sparse-matrix program assemble_hb evaluates blk_entry.  Proved kernels
   (at the end of this file): coo_merge_sums_duplicates, insert_block_entries, fancy_index_rows, fancy_index_columns, sm_mul_entry,
   sm_transpose_entry, kron2_entry, multi_kron_entry (kronP has the entries kron_entry), hstack_entry, and the algebraic fact behind
   the order of the products in the loop of represent_fine (representation_associative).  Missing: (a) the loop rf_loop itself -- it
   needs "the sum over the stored entries of a sorted sparse row = the sum over all multi-indices of the level of the entry" (ravel
   is a bijection of the index box onto range(N_k)) and sortedness of the Kronecker rows; (b) the chaining through level_blocks
   with the canonical-index arithmetic (disjointness of the blocks, offsets of new / neighbors).  The program is compared exactly
   with blk_entry on sampled entries of every history of the correspondence run and on all entries of
   Examples.ex_sparse_program_is_entry_form (tests). *)

(* representation_associative: the coefficients repn (S n) l f r of the level-(l+n+1) function r in the level-l function f
   (defined by prolongating at the fine end, as hassemble_entry_*_partial uses them) equal the sum over the level-(l+1)
   functions g of  repn n (l+1) g r * K_l[g, f]  -- the coarsest Kronecker prolongator split off, which is the order in which the
   loop of represent_fine multiplies (P := P.dot(Pj), j decreasing).  Any prolongator data, any space, any number of levels. *)
Theorem representation_associative : forall (R : Type) (r0 r1 : R) radd rmul rsub ropp,
  ring_theory r0 r1 radd rmul rsub ropp eq ->
  forall (st : hspace) (pmat : nat -> nat -> smat R) n l f r,
  In f (tp_functions (msh st l)) -> In r (tp_functions (msh st (l + S n))) ->
  repn R r0 r1 radd rmul st pmat (S n) l f r
  = sumf R r0 radd (fun g => rmul (repn R r0 r1 radd rmul st pmat n (S l) g r) (kron_entry R r0 r1 rmul pmat l 0 g f))
         (tp_functions (msh st (S l))).
Proof.
  intros R r0 r1 radd rmul rsub ropp Rth st pmat n l f r Hf Hr. rewrite <- (Nat.add_1_r n) in *.
  rewrite (repn_split R r0 r1 radd rmul rsub ropp Rth st pmat 1 n l f r Hr), (Nat.add_1_r l).
  apply sum_ext. intros g _. rewrite (repn_1 R r0 r1 radd rmul rsub ropp Rth) by exact Hf. reflexivity.
Qed.
Print Assumptions representation_associative.

(* Galerkin projection.  form k x y = x^T A_k y; prol k = multiplication with the tensor-product prolongator
   P_k; nested j : A_j = P_j^T A_{j+1} P_j (the two quadratures integrate the integrand exactly -- the case of
   piecewise polynomial integrands of degree <= 2p+1 per direction).  If the forms of the levels
   k = max(li,lj), .., K-1 are nested and the representations of the two functions are prolongated level by
   level, the entry "form on the finer of the two levels" equals the finest-level form of the finest-level
   representations, i.e. entry (i,j) of I^T A_fine I.  No hypothesis on the data beyond that. *)
Theorem hassemble_galerkin : forall (R : Type) (r0 r1 : R) radd rmul rsub ropp,
  ring_theory r0 r1 radd rmul rsub ropp eq ->
  forall fns a P rep li fi lj fj n,
  let k := Nat.max li lj in
  (forall j, k <= j < n + k -> nested R r0 radd rmul fns a P j) ->
  (forall j r, k <= j < n + k -> rep li (S j) fi r = prol R r0 radd rmul fns P j (rep li j fi) r) ->
  (forall j r, k <= j < n + k -> rep lj (S j) fj r = prol R r0 radd rmul fns P j (rep lj j fj) r) ->
  spec_entry R r0 radd rmul a rep fns li fi lj fj
  = form R r0 radd rmul fns a (n + k) (rep li (n + k) fi) (rep lj (n + k) fj).
Proof.
  intros R r0 r1 radd rmul rsub ropp Rth fns a P rep li fi lj fj n k.
  change (spec_entry R r0 radd rmul a rep fns li fi lj fj) with (form R r0 radd rmul fns a k (rep li k fi) (rep lj k fj)).
  induction n as [|n IH]; intros Hn Hi Hj; [reflexivity|].
  rewrite IH by (intros; first [apply Hn | apply Hi | apply Hj]; lia).
  simpl. rewrite (form_nested R r0 r1 radd rmul rsub ropp Rth fns a P) by (apply Hn; lia).
  unfold form. apply sum_ext. intros r _. apply sum_ext. intros c _. rewrite Hi, Hj by lia. reflexivity.
Qed.
Print Assumptions hassemble_galerkin.

(* THB: assemble_matrix returns T^T A_hb T (by definition of the code, Model.assemble_matrix).  If the entries
   of A_hb are a bilinear form of the columns RH of a representation matrix, then the entries of T^T A_hb T
   are the same form of the columns of RH * T -- the functions whose HB coefficients are the columns of the
   THB-to-HB matrix. *)
Theorem thb_congruence : forall (R : Type) (r0 r1 : R) radd rmul rsub ropp,
  ring_theory r0 r1 radd rmul rsub ropp eq ->
  forall fns a (I : Type) (idx : list I) (T : I -> I -> R) (RH : I -> mi -> R) (M : I -> I -> R) K,
  (forall i j, M i j = form R r0 radd rmul fns a K (RH i) (RH j)) ->
  forall i j,
  sumf R r0 radd (fun i' => sumf R r0 radd (fun j' => rmul (rmul (T i' i) (M i' j')) (T j' j)) idx) idx
  = form R r0 radd rmul fns a K (fun r => sumf R r0 radd (fun i' => rmul (T i' i) (RH i' r)) idx)
                                (fun c => sumf R r0 radd (fun j' => rmul (T j' j) (RH j' c)) idx).
Proof.
  intros R r0 r1 radd rmul rsub ropp Rth fns a I idx T RH M K HM i j.
  rewrite (form_bilinear R r0 r1 radd rmul rsub ropp Rth).
  apply sum_ext. intros i' _. apply sum_ext. intros j' _. rewrite HM. reflexivity.
Qed.
Print Assumptions thb_congruence.

(* Load vector (assemble_functional, HB): entry number offset_k + p is the entry of the level-k tensor-product load vector
   at the raveled index of the p-th active function of level k -- every hierarchical basis function is integrated with the
   quadrature of ITS OWN level (by design; this is what C17's finding about hierarchical load vectors observes), for every
   space and arbitrary level vectors.  The THB vector is thb_to_hb^T times this one by definition (Model.assemble_functional). *)
Theorem functional_entry : forall (R : Type) (r0 : R) (st : hspace) (blev : nat -> list R) k p,
  k < L st -> p < length (AFm st k) ->
  nth (N.to_nat (offset st k) + p) (rhs_hb R r0 st blev) r0
  = nth (N.to_nat (ravel (shape st k) (nth p (AFm st k) []))) (blev k) r0.
Proof.
  intros R r0 st blev k p Hk Hp. unfold rhs_hb, offset. rewrite Nnat.Nat2N.id.
  rewrite (nth_flat_map_seq _ _ (fun l => length (AFm st l))); auto.
  - unfold new_loc, rav. rewrite map_map.
    apply (nth_map_lt (fun f => nth (N.to_nat (ravel (shape st k) f)) (blev k) r0)). auto.
  - intros l. unfold new_loc, rav. rewrite !map_length. reflexivity.
Qed.
Print Assumptions functional_entry.

(* The COO stage of the sparse-matrix program.  The conversion of the blockwise COO data to CSR (Model.coo_to_rows =
   scipy.sparse.csr_matrix((values, (I, J)))) returns at (i, j) the SUM of the values of all triplets at (i, j) -- for
   every COO list (any order, any duplicates, rows outside the shape ignored) and every row i below the shape. *)
Theorem coo_merge_sums_duplicates : forall (R : Type) (r0 r1 : R) radd rmul rsub ropp,
  ring_theory r0 r1 radd rmul rsub ropp eq ->
  forall n (m : coo R) i j, N.to_nat i < n ->
  sm_get R r0 (coo_to_rows R r1 radd rmul n m) i j = coo_get R r0 radd m i j.
Proof.
  intros R r0 r1 radd rmul rsub ropp Rth n m i j Hi. unfold coo_to_rows.
  rewrite (coo_fold_get R r0 r1 radd rmul rsub ropp Rth).
  - unfold sm_get, sm_row. rewrite nth_repeat, get_nil. apply (Radd_0_l Rth).
  - intros r Hr. apply repeat_spec in Hr. subst. exact I.
  - rewrite repeat_length. exact Hi.
Qed.
Print Assumptions coo_merge_sums_duplicates.

(* insert_block(B, rows, columns) emits exactly the stored entries of B (explicitly stored zeros included: REPAIRED
   behaviour, fixes/C03-insert-block-stored-zeros.patch), entry (ib, jb) at (rows[ib], columns[jb]). *)
Theorem insert_block_entries : forall (R : Type) (B : smat R) rows cols i j v,
  In (i, j, v) (insert_block R B rows cols) <->
  exists ib e, ib < length B /\ In e (nth ib B []) /\ i = nth ib rows 0%N /\ j = nth (N.to_nat (fst e)) cols 0%N /\ v = snd e.
Proof.
  intros R B rows cols i j v. unfold insert_block. rewrite in_flat_map. split.
  - intros [ib [Hib H]]. apply in_seq in Hib. apply in_map_iff in H. destruct H as [e [He Hin]].
    inversion He; subst. exists ib, e. repeat split; auto. lia.
  - intros [ib [e [Hib [Hin [-> [-> ->]]]]]]. exists ib. split; [apply in_seq; lia|].
    apply in_map_iff. exists e. auto.
Qed.
Print Assumptions insert_block_entries.

(* Fancy indexing (M[idx] and M[:, idx] with the columns renumbered by position), for every sparse matrix and every index
   list (any order, repetitions allowed -- numpy semantics): position p of the result is row / column idx[p] of M. *)
Theorem fancy_index_rows : forall (R : Type) (r0 : R) (M : smat R) (idx : list N) p j, p < length idx ->
  sm_get R r0 (sm_rows R M idx) (N.of_nat p) j = sm_get R r0 M (nth p idx 0%N) j.
Proof.
  intros R r0 M idx p j Hp. unfold sm_get, sm_rows. unfold sm_row at 1. rewrite Nnat.Nat2N.id.
  rewrite (nth_map_lt _ _ _ _ 0%N) by auto. reflexivity.
Qed.
Print Assumptions fancy_index_rows.

Theorem fancy_index_columns : forall (R : Type) (r0 : R) (M : smat R) (idx : list N) i p, p < length idx ->
  sm_get R r0 (sm_cols R M idx) i (N.of_nat p) = sm_get R r0 M i (nth p idx 0%N).
Proof.
  intros R r0 M idx i p Hp. unfold sm_get, sm_cols. rewrite sm_row_map by apply pick_nil.
  apply (pick_get R r0 _ idx 0%N p Hp).
Qed.
Print Assumptions fancy_index_columns.

(* Sparse kernels of the program, entry semantics (any commutative ring).
   sm_mul_entry: entry (i, j) of A @ B is the sum over the stored entries (m, a) of row i of A of a * B[m, j]; A arbitrary
   (unsorted rows, duplicates allowed), the rows of B with strictly increasing columns (sv_sorted: what every kernel of the
   model produces).  Proved through axpy_spec: y + c*x for sorted sparse vectors (values, sortedness, keys). *)
Theorem sm_mul_entry : forall (R : Type) (r0 r1 : R) radd rmul rsub ropp,
  ring_theory r0 r1 radd rmul rsub ropp eq ->
  forall (A B : smat R) i j, rows_sorted R B ->
  sm_get R r0 (sm_mul R radd rmul A B) i j
  = sumf R r0 radd (fun e => rmul (snd e) (sm_get R r0 B (fst e) j)) (sm_row R A i).
Proof.
  intros R r0 r1 radd rmul rsub ropp Rth A B i j HB. unfold sm_get at 1, sm_mul. rewrite sm_row_map by reflexivity.
  destruct (mul_row_spec R r0 r1 radd rmul rsub ropp Rth B (sm_row R A i) [] j HB I) as [G _].
  etransitivity; [exact G|]. rewrite get_nil. apply (Radd_0_l Rth).
Qed.
Print Assumptions sm_mul_entry.

(* sm_transpose_entry: entry (j, i) of M.T is entry (i, j) of M, for EVERY sparse matrix M (no sortedness needed) and every
   column j below the number of columns given to the transpose. *)
Theorem sm_transpose_entry : forall (R : Type) (r0 r1 : R) radd rmul rsub ropp,
  ring_theory r0 r1 radd rmul rsub ropp eq ->
  forall ncols (M : smat R) i j, N.to_nat j < ncols ->
  sm_get R r0 (sm_transpose R ncols M) j i = sm_get R r0 M i j.
Proof.
  intros R r0 r1 radd rmul rsub ropp _ ncols M i j Hj. unfold sm_transpose.
  destruct (outer_spec R r0 M 0%N (repeat [] ncols)) as [_ G].
  - intros jn k Hk. rewrite nth_repeat in Hk. destruct Hk.
  - rewrite repeat_length in G. unfold sm_get at 1. unfold sm_row.
    etransitivity; [exact (G (N.to_nat j) Hj i)|].
    rewrite (proj2 (N.ltb_ge i 0)) by lia. rewrite N.sub_0_r, Nnat.N2Nat.id. reflexivity.
Qed.
Print Assumptions sm_transpose_entry.

(* kron2_entry: scipy.sparse.kron(A, B) -- entry (i1 * nB + i2, j1 * mB + j2) of the sparse Kronecker product is
   A[i1, j1] * B[i2, j2], for all sparse matrices (no sortedness needed) whose B-columns lie below mB. *)
Theorem kron2_entry : forall (R : Type) (r0 r1 : R) radd rmul rsub ropp,
  ring_theory r0 r1 radd rmul rsub ropp eq ->
  forall (A B : smat R) mB i1 i2 j1 j2,
  i1 < length A -> i2 < length B -> (j2 < mB)%N ->
  (forall rb x, In rb B -> In x (keys R rb) -> (x < mB)%N) ->
  sm_get R r0 (kron2 R rmul A B mB) (N.of_nat (i1 * length B + i2)) (j1 * mB + j2)%N
  = rmul (sm_get R r0 A (N.of_nat i1) j1) (sm_get R r0 B (N.of_nat i2) j2).
Proof. exact kron2_get. Qed.
Print Assumptions kron2_entry.

(* multi_kron_entry: the matrix kronP of represent_fine (utils.multi_kron_sparse of the 1-D prolongators of one level, any
   number of axes) has at (ravel r', ravel r) the product kron_entry of the 1-D entries -- the quantity the representation repc
   of hassemble_entry_*_partial is built from.  rowdims = the row counts of the 1-D matrices, cols_ok = their stored columns
   lie below the coarse dimensions; r, r' any multi-indices inside the two index boxes. *)
Theorem multi_kron_entry : forall (R : Type) (r0 r1 : R) radd rmul rsub ropp,
  ring_theory r0 r1 radd rmul rsub ropp eq ->
  forall (pmat : nat -> nat -> smat R) lv dims d r r',
  cols_ok R pmat lv d dims ->
  Forall2 (fun n x => x < n) dims r ->
  Forall2 (fun n x => x < n) (rowdims R pmat lv d (length dims)) r' ->
  sm_get R r0 (multi_kron R r1 rmul pmat lv d dims) (ravel (rowdims R pmat lv d (length dims)) r') (ravel dims r)
  = kron_entry R r0 r1 rmul pmat lv d r' r.
Proof. exact multi_kron_get. Qed.
Print Assumptions multi_kron_entry.

(* hstack_entry: scipy.sparse.bmat([blocks]) as used by represent_fine -- column (offset of block nb) + c of the stacked
   matrix is column c of block nb, in every row below the row count, provided the stored columns of every block lie below the
   width declared for it. *)
Theorem hstack_entry : forall (R : Type) (r0 : R) nrows (blocks : list (smat R * nat)) i nb c,
  i < nrows -> nb < length blocks -> (c < N.of_nat (snd (nth nb blocks ([], 0%nat))))%N ->
  (forall b k, In b blocks -> In k (keys R (nth i (fst b) [])) -> (k < N.of_nat (snd b))%N) ->
  sm_get R r0 (hstack R nrows blocks) (N.of_nat i) (offs R blocks nb + c)%N
  = sm_get R r0 (fst (nth nb blocks ([], 0%nat))) (N.of_nat i) c.
Proof.
  intros R r0 nrows blocks i nb c Hi Hnb Hc Hb. unfold sm_get, sm_row, hstack. rewrite Nnat.Nat2N.id.
  rewrite (nth_map_lt _ _ _ _ 0) by (rewrite seq_length; auto). rewrite seq_nth by auto.
  destruct (hstack_fold R r0 i blocks 0%N [] ltac:(intros k []) Hb) as [_ G].
  exact (G nb c Hnb Hc).
Qed.
Print Assumptions hstack_entry.
