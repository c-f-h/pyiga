(* C04 -- non-vacuity: concrete reachable states meet the hypotheses of the theorems. *)
From Coq Require Import List Arith Lia Bool.
From Verif.lib Require Import FinSet.
From Verif.C04 Require Import Model Proofs ProofsFun ProofsMesh ProofsQuery Boundary Supports Children ProofsChildren ProofsParents ProofsDisparity Props.
Import ListNotations.

(* 2-D, degrees (2,1), 3x2 coarse cells, disparity 1; marks on two levels in one call,
   given as list / tuple / set *)
Definition ex_axes := [mk_axis 2 [3;1;1;3]; mk_axis 1 [2;1;2]].
Definition ex_ops := [
  Refine [(0, (CList, [[0;0]; [2;1]; [0;0]]))] false;
  Refine [(1, (CTuple, [[1;1]])); (0, (CSet, [[1;0]]))] false;
  RefineRegion 1 [[4;2]; [5;3]; [0;0]] ].
Definition ex_st := run (hs_init ex_axes (Some 1)) ex_ops.

(* membership in a concrete set, by evaluating mem *)
Ltac by_mem :=
  match goal with
  | |- In ?x ?s => refine (proj1 (mem_In x s) _); vm_compute; reflexivity
  | |- ~ In ?x ?s => refine (proj1 (mem_false_In x s) _); vm_compute; reflexivity
  end.

Ltac solve_in H :=
  repeat (destruct H as [H|H]; [subst; by_mem|]); destruct H.

(* the history is valid (hypothesis of reachable_cells_inv / active_cells_tile) *)
Example ex_ops_valid : ops_valid (hs_init ex_axes (Some 1)) ex_ops.
Proof.
  unfold ex_ops. cbn [ops_valid op_valid]. repeat split.
  - intros k c H. destruct k as [|k]; simpl in H; [|destruct H]. solve_in H.
  - intros k c H. destruct k as [|[|k]]; simpl in H; [solve_in H | solve_in H | destruct H].
Qed.

Example ex_disp : forall d, Some 1 = Some d -> 1 <= d.
Proof. intros d H; inversion H; lia. Qed.

(* the state is non-trivial: 3 levels, active cells on all of them, the executable forms of
   the invariants hold, and the mesh is admissible for disparity 1 *)
Example ex_state : numlevels ex_st = 3
  /\ map (fun k => length (lv_active (lvl ex_st k))) [0;1;2] = [0; 20; 16]
  /\ cells_inv_b ex_st = true /\ funcs_inv_b ex_st = true /\ admissible_b ex_st 1 = true.
Proof. vm_compute. repeat split; reflexivity. Qed.

(* hypothesis of active_cells_tile: a finest-level cell whose level-0 ancestor is a mesh cell *)
Example ex_tile_hyp : S 2 = numlevels ex_st /\ In (anc 2 [9;2]) (tp_cells (msh ex_st 0)).
Proof. split; [symmetry; apply ex_state|]. vm_compute. intuition. Qed.

(* its unique active ancestor is the level-1 cell (4,1) *)
Example ex_tile_witness : In (anc 1 [9;2]) (A ex_st 1) /\ ~ In [9;2] (A ex_st 2) /\ ~ In (anc 2 [9;2]) (A ex_st 0).
Proof.
  split; [|split].
  - by_mem.
  - by_mem.
  - by_mem.
Qed.

(* container independence: same keys, same cells per key *)
Example ex_equiv : raw_equiv [(0, (CList, [[2;1]; [0;0]; [2;1]]))] [(0, (CSet, [[0;0]; [2;1]]))].
Proof. constructor; [|constructor]. split; [reflexivity|]. simpl. intros x. tauto. Qed.

Example ex_equiv_result :
  hs_refine (hs_init ex_axes (Some 1)) [(0, (CList, [[2;1]; [0;0]; [2;1]]))] false =
  hs_refine (hs_init ex_axes (Some 1)) [(0, (CSet, [[0;0]; [2;1]]))] false.
Proof. vm_compute. reflexivity. Qed.

(* the marking closure really adds cells for finite disparity (second call: one marked cell
   on level 1 forces neighbours on level 0) *)
Example ex_closure_adds :
  match hs_refine (run (hs_init ex_axes (Some 1)) [Refine [(0, (CList, [[0;0]]))] false])
                  [(1, (CList, [[1;1]]))] false with
  | Ok (_, m) => negb (is_empty (mk m 0))
  | _ => false
  end = true.
Proof. vm_compute. reflexivity. Qed.

(* good (hypothesis of disparity_admissible_partial) holds for a reachable state *)
Example ex_good : good ex_st.
Proof. apply good_run; [apply good_init; exact ex_disp | exact ex_ops_valid]. Qed.

(* hypothesis of tables_consistent / activity_characterisation / the query theorems: valid axes *)
Example ex_axes_ok : Forall axis_ok ex_axes.
Proof.
  assert (G : forall a, forallb (fun m => m <=? ax_p a + 1) (ax_mults a) && (1 <=? ax_numdofs a) = true -> axis_ok a).
  { intros a E. apply andb_true_iff in E. destruct E as [E1 E2]. split.
    - rewrite forallb_forall in E1. apply Forall_forall. intros m Hm. apply Nat.leb_le. auto.
    - apply Nat.leb_le. auto. }
  constructor; [apply G; vm_compute; reflexivity|]. constructor; [apply G; vm_compute; reflexivity|]. constructor.
Qed.

(* the conclusion of tables_consistent in executable form, on the cells and functions of levels 0..2 of
   the example hierarchy; it follows from the theorem (evaluating it takes the checker seconds) *)
Definition mesh_ok_test (ms : tpmesh) : bool :=
  forallb (fun f => negb (is_empty (support1 ms f)) && subset (support1 ms f) (tp_cells ms)) (tp_functions ms)
  && forallb (fun c => Nat.eqb (length c) (dim ms)
        && subset (supported_in1 ms c) (tp_functions ms)
        && forallb (fun f => Bool.eqb (mem f (supported_in1 ms c)) (mem c (support1 ms f))) (tp_functions ms))
       (tp_cells ms).

Lemma mesh_ok_test_complete : forall ms, mesh_ok ms -> mesh_ok_test ms = true.
Proof.
  intros ms [Hdual Hne Hin Hlen]. unfold mesh_ok_test.
  apply andb_true_iff; split; apply forallb_forall.
  - intros f Hf. apply andb_true_iff; split.
    + destruct (Hne f Hf) as [c Hc]. destruct (support1 ms f); [destruct Hc | reflexivity].
    + apply subset_spec. intros c. apply Hin, Hf.
  - intros c Hc. pose proof (Hlen c Hc) as Hl. rewrite !andb_true_iff. split; [split|].
    + apply Nat.eqb_eq, Hl.
    + apply subset_spec. intros f Hf. apply (Hdual c f Hl), Hf.
    + apply forallb_forall. intros f Hf. apply eqb_true_iff, eq_true_iff_eq.
      rewrite !mem_In, (Hdual c f Hl). tauto.
Qed.

Example ex_tables_consistent_test :
  forallb (fun j => mesh_ok_test (Nat.iter j tp_refine (tpmesh_of ex_axes))) [0;1;2] = true.
Proof. apply forallb_forall. intros j _. apply mesh_ok_test_complete, hier_ok_valid, ex_axes_ok. Qed.

(* conclusion of activity_characterisation on the example, via its executable form *)
Example ex_funcs_inv : funcs_inv_b ex_st = true.
Proof. destruct ex_state as (_ & _ & _ & H & _). exact H. Qed.

(* hypotheses of activity_characterisation_step other than the mesh tables *)
Example ex_step_hyps : cells_inv ex_st /\ marks_valid ex_st [[]; [[0;1]]; []].
Proof.
  split; [apply (g_cells _ ex_good)|]. split.
  - intros k c H. destruct k as [|[|[|k]]]; simpl in H.
    + destruct H.
    + destruct H as [<-|[]]. by_mem.
    + destruct H.
    + destruct k; destruct H.
  - intros k Hk. rewrite (proj1 ex_state) in Hk.
    destruct k as [|[|[|k]]]; try lia; [reflexivity | destruct k; reflexivity].
Qed.

(* hypotheses of incidence_spec: indices inside a non-trivial matrix (46 rows, 36 columns) *)
Example ex_incidence_hyp : 5 < length (active_functions_flat ex_st) /\ 30 < length (active_cells_flat ex_st).
Proof. vm_compute. lia. Qed.

(* hypotheses of cell_function_queries_agree: an active function of level 1 and an active cell of
   level 2 on which it does not vanish (entry = 1), and one on which it vanishes *)
Example ex_query_hyp :
  In [0;1] (AF ex_st 1) /\ In [0;0] (A ex_st 2) /\ 1 <= 2 /\ 2 < numlevels ex_st /\
  incidence_entry ex_st (1, [0;1]) (2, [0;0]) = true /\ incidence_entry ex_st (1, [0;1]) (2, [10;6]) = false.
Proof.
  split; [by_mem|]. split; [by_mem|]. vm_compute. repeat split; (lia || reflexivity).
Qed.

(* hypothesis of disparity_admissible_partial_cells on the example (disparity 1, 3 levels: the
   condition is not vacuous for the 16 active cells of level 2 and k = 0), via its executable form *)
Example ex_cell_condition : cell_condition ex_axes (Some 1) ex_ops 1.
Proof. apply cell_condition_b_sound. vm_compute. reflexivity. Qed.

(* hypotheses of marking_closure_closed: finite disparity and a successful call *)
Example ex_closure_hyp :
  hs_disparity (hs_init ex_axes (Some 1)) = Some 1 /\
  exists r, hs_refine (run (hs_init ex_axes (Some 1)) [Refine [(0, (CList, [[0;0]]))] false])
                      [(1, (CList, [[1;1]]))] false = Ok r.
Proof.
  split; [reflexivity|]. pose proof ex_closure_adds as H.
  destruct (hs_refine _ _ false) as [r| |]; [exists r; reflexivity | discriminate H..].
Qed.

(* TEST of the support-query model (that supports cover the active cells is not proved, see
   hmesh_cells_is_union_over_levels): on the example the supports of all active functions cover all
   active cells, and a two-level query merges the per-level results *)
Example ex_supports_cover_test : supports_cover_b ex_st = true.
Proof. vm_compute. reflexivity. Qed.

Example ex_multi_level_query_test :
  map (@length mi) (compute_supports ex_st [[]; [[0;1]]; [[0;0]]]) = [0; 1; 4].
Proof. vm_compute. reflexivity. Qed.

(* hypotheses of children_closed / children_inside_parent_support: a deactivated function of level 0
   with 4 children (a corner function), all of them active or deactivated on level 1 *)
Example ex_children_hyp :
  In [0;0] (DF ex_st 0) /\ length (function_children ex_st 0 [[0;0]]) = 4 /\
  forallb (fun g => mem g (AF ex_st 1) || mem g (DF ex_st 1)) (function_children ex_st 0 [[0;0]]) = true.
Proof. split; [by_mem|]. vm_compute. split; reflexivity. Qed.

(* hypotheses of disparity_admissible_d1 / every_function_has_parent on the example (disparity 1, all
   multiplicities >= 1, all calls with the default marking); ex_st has 3 levels with active cells on levels 1 and 2 (ex_state) *)
Example ex_axes_pos : Forall axis_pos ex_axes.
Proof. repeat constructor; simpl; try lia; discriminate. Qed.

Example ex_ops_default : Forall op_default ex_ops.
Proof. repeat constructor. Qed.

Example ex_admissible : admissible ex_axes (Some 1) ex_ops 1.
Proof. apply disparity_admissible; [exact ex_axes_ok | exact ex_axes_pos | lia | exact ex_ops_valid | exact ex_ops_default]. Qed.

(* the same for disparity 2: a chain of three calls (4 levels, so k + 2 < j occurs) *)
Definition ex_ops2 := [
  Refine [(0, (CList, [[0;0]; [1;0]]))] false;
  Refine [(1, (CSet, [[0;0]]))] false;
  Refine [(2, (CTuple, [[0;0]]))] false ].

Example ex_ops2_valid : ops_valid (hs_init ex_axes (Some 2)) ex_ops2.
Proof.
  unfold ex_ops2. cbn [ops_valid op_valid]. repeat split.
  - intros k c H. destruct k as [|k]; simpl in H; [|destruct H]. solve_in H.
  - intros k c H. destruct k as [|[|k]]; simpl in H; [destruct H | solve_in H | destruct H].
  - intros k c H. destruct k as [|[|[|k]]]; simpl in H; [destruct H | destruct H | solve_in H | destruct H].
Qed.

Example ex_admissible_d2 :
  numlevels (run (hs_init ex_axes (Some 2)) ex_ops2) = 4 /\ admissible ex_axes (Some 2) ex_ops2 2.
Proof.
  split; [vm_compute; reflexivity|].
  apply disparity_admissible; [exact ex_axes_ok | exact ex_axes_pos | lia | exact ex_ops2_valid | repeat constructor].
Qed.
