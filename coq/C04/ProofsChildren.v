(* C04 -- theorems about the function children of the integer model (Children.v): every child is a
   function of the refined mesh whose support lies inside the parent's support, and in every state of a
   valid hierarchy that satisfies the invariants (good2; in particular every reachable state) the children of
   a deactivated function are active or deactivated functions of the next level. *)
From Coq Require Import List Arith Bool Lia.
From Verif.lib Require Import FinSet.
From Verif.C04 Require Import Model Proofs ProofsFun ProofsMesh Children.
Import ListNotations.

(* the a-th knot of a knot vector, of mesh index v, sits at position a + v of the refined knot vector (one
   knot has been inserted in each of the v spans before it), and its mesh index there is 2 v;
   stated for knot vectors whose mesh indices start at i0, resp. j0 *)
Lemma k2m_refine_nth : forall mults i0 j0 a, a < length (k2m_aux i0 mults) ->
  a + (nth a (k2m_aux i0 mults) 0 - i0) < length (k2m_aux j0 (refine_mults mults)) /\
  nth (a + (nth a (k2m_aux i0 mults) 0 - i0)) (k2m_aux j0 (refine_mults mults)) 0
    = j0 + 2 * (nth a (k2m_aux i0 mults) 0 - i0).
Proof.
  induction mults as [|x r IH]; intros i0 j0 a Ha; [simpl in Ha; lia|].
  change (k2m_aux i0 (x :: r)) with (repeat i0 x ++ k2m_aux (S i0) r) in *.
  rewrite app_length, repeat_length in Ha.
  destruct (Nat.lt_ge_cases a x) as [Hax|Hax].
  - rewrite (nth_rep_app_lt i0 x _ a Hax), Nat.sub_diag, !Nat.add_0_r.
    assert (E : exists R, k2m_aux j0 (refine_mults (x :: r)) = repeat j0 x ++ R) by (destruct r; eexists; reflexivity).
    destruct E as [R ->]. rewrite app_length, repeat_length. split; [lia | apply nth_rep_app_lt, Hax].
  - rewrite (nth_rep_app_ge i0 x _ a Hax).
    destruct r as [|y r']; [simpl in Ha; lia|].
    destruct (IH (S i0) (S (S j0)) (a - x) ltac:(lia)) as [H1 H2].
    pose proof (k2m_range (y :: r') (S i0) (a - x) ltac:(lia)) as Hlb.
    set (v := nth (a - x) (k2m_aux (S i0) (y :: r')) 0) in *.
    change (k2m_aux j0 (refine_mults (x :: y :: r')))
      with (repeat j0 x ++ (repeat (S j0) 1 ++ k2m_aux (S (S j0)) (refine_mults (y :: r')))).
    replace (a + (v - i0)) with (x + (1 + ((a - x) + (v - S i0)))) by lia.
    rewrite !app_length, !repeat_length. split; [lia|].
    rewrite nth_rep_app_ge, Nat.add_comm, Nat.add_sub by lia.
    rewrite nth_rep_app_ge, Nat.add_comm, Nat.add_sub by lia.
    rewrite H2. lia.
Qed.

Section AxisChildren.
  Variable a : axis.
  Hypothesis OK : axis_ok a.
  Let a' := ax_refine a.
  Let OK' : axis_ok a' := axis_ok_refine a OK.
  Let p := ax_p a.

  Lemma phi_spec : forall x, x < length (k2m a) ->
    phi a x < length (k2m a') /\ nth (phi a x) (k2m a') 0 = 2 * nth x (k2m a) 0.
  Proof.
    intros x Hx. unfold phi, k2m, a', ax_refine in *. simpl.
    pose proof (k2m_refine_nth (ax_mults a) 0 0 x Hx) as H. rewrite Nat.sub_0_r in H. exact H.
  Qed.

  (* a child is a function of the refined axis whose support (in refined cells) lies inside the
     parent's support refined once *)
  Lemma child_1d_spec : forall j i, j < ax_numdofs a -> is_child_1d a j i = true ->
    i < ax_numdofs a' /\
    2 * fst (nth j (ax_meshsupp a) (0,0)) <= fst (nth i (ax_meshsupp a') (0,0)) /\
    snd (nth i (ax_meshsupp a') (0,0)) <= 2 * snd (nth j (ax_meshsupp a) (0,0)).
  Proof.
    intros j i Hj Hc. unfold is_child_1d, children_1d in Hc. simpl in Hc.
    apply andb_true_iff in Hc. destruct Hc as [H1 H2]. apply Nat.leb_le in H1. apply Nat.ltb_lt in H2.
    fold p in H2.
    pose proof (n_def a OK) as Hn. pose proof (n_def a' OK') as Hn'.
    assert (Ep : ax_p a' = p) by reflexivity. rewrite Ep in Hn'. fold p in Hn.
    destruct (phi_spec j ltac:(lia)) as [Hp1 Hp2].
    destruct (phi_spec (j + p + 1) ltac:(lia)) as [Hq1 Hq2].
    assert (Hi : i < ax_numdofs a') by lia.
    split; [exact Hi|].
    rewrite (ms_nth a j Hj). rewrite (ms_nth a' i Hi). cbn [fst snd]. change (ax_p a') with p. change (ax_p a) with p.
    split.
    - rewrite <- Hp2. apply (K_mono a'); lia.
    - rewrite <- Hq2. apply (K_mono a'); lia.
  Qed.
End AxisChildren.

Lemma In_children1 : forall axes f g,
  In g (children1 (tpmesh_of axes) f) <-> Forall2 inr (lookup_children axes f) g.
Proof. intros. unfold children1. simpl. rewrite of_list_In. apply In_prod_ranges. Qed.

Lemma tp_children : forall axes f g, Forall axis_ok axes ->
  Forall2 (fun n xi => xi < n) (map ax_numdofs axes) f ->
  Forall2 inr (lookup_children axes f) g ->
  Forall2 (fun n xi => xi < n) (map ax_numdofs (map ax_refine axes)) g /\
  forall c', Forall2 inr (lookup_ranges (map ax_meshsupp (map ax_refine axes)) g) c' ->
             Forall2 inr (lookup_ranges (map ax_meshsupp axes) f) (parent1 c').
Proof.
  induction axes as [|a axes IH]; intros f g HA HF HG.
  - inversion HF; subst. simpl in HG. inversion HG; subst. split; [constructor|].
    intros c' Hc'. simpl in Hc'. inversion Hc'; subst. constructor.
  - inversion HA as [|? ? Ha HA']; subst. simpl in HF. inversion HF as [|nn j ns' f' Hj Hrest]; subst.
    simpl in HG. inversion HG as [|r i rs g' Hr Hrest2]; subst.
    assert (Hc : is_child_1d a j i = true).
    { unfold is_child_1d. unfold inr in Hr. apply andb_true_iff. split; [apply Nat.leb_le | apply Nat.ltb_lt]; lia. }
    destruct (child_1d_spec a Ha j i Hj Hc) as [Hi [Hlo Hhi]].
    destruct (IH f' g' HA' Hrest Hrest2) as [IH1 IH2].
    split; [simpl; constructor; auto|].
    intros c' Hc'. simpl in Hc'. inversion Hc' as [|r' k rs' c'' Hk Hrest3]; subst.
    simpl. constructor; [|apply IH2; exact Hrest3].
    unfold inr in *. pose proof (Nat.div2_odd k) as Hd. destruct (Nat.odd k); simpl in Hd; lia.
Qed.

Lemma children_inside_parent_support_l : forall axes f g, Forall axis_ok axes ->
  In f (tp_functions (tpmesh_of axes)) ->
  In g (children1 (tpmesh_of axes) f) ->
  In g (tp_functions (tp_refine (tpmesh_of axes))) /\
  forall c', In c' (support1 (tp_refine (tpmesh_of axes)) g) -> In (parent1 c') (support1 (tpmesh_of axes) f).
Proof.
  intros axes f g HA HF HG.
  unfold tp_functions in HF. simpl in HF. rewrite In_box in HF.
  apply In_children1 in HG.
  destruct (tp_children axes f g HA HF HG) as [H1 H2].
  split.
  - unfold tp_functions, tp_refine. simpl. rewrite In_box. exact H1.
  - intros c' Hc'. unfold support1, tp_refine in Hc'. simpl in Hc'. rewrite of_list_In, In_prod_ranges in Hc'.
    unfold support1. simpl. rewrite of_list_In, In_prod_ranges. apply H2. exact Hc'.
Qed.

Lemma In_function_children : forall st lv fs g,
  In g (function_children st lv fs) <-> exists f, In f fs /\ In g (children1 (msh st lv) f).
Proof. intros. unfold function_children. rewrite In_fold_union. simpl. tauto. Qed.

(* states of a valid hierarchy: the children of a deactivated function are active or deactivated on
   the next level *)

Section Good2Children.
  Variable axes : list axis.
  Hypothesis HA : Forall axis_ok axes.
  Variable st : hspace.
  Hypothesis G : good2 (tpmesh_of axes) st.

  Lemma children_inside_good2 : forall k f g, S k < numlevels st ->
    In f (tp_functions (msh st k)) -> In g (function_children st k [f]) ->
    In g (tp_functions (msh st (S k))) /\
    forall c', In c' (support1 (msh st (S k)) g) -> In (parent1 c') (support1 (msh st k) f).
  Proof.
    intros k f g Hk HF HG. apply In_function_children in HG. destruct HG as [f0 [[<-|[]] HG]].
    rewrite (good2_msh_axes axes st k G) in * by lia. rewrite (good2_msh_axes axes st (S k) G) by lia.
    change (Nat.iter (S k) (map ax_refine) axes) with (map ax_refine (Nat.iter k (map ax_refine) axes)).
    apply (children_inside_parent_support_l (Nat.iter k (map ax_refine) axes) f g); auto.
    apply axes_ok_iter; auto.
  Qed.

  Lemma children_closed_good2 : forall k f g,
    In f (DF st k) -> In g (function_children st k [f]) ->
    In g (AF st (S k)) \/ In g (DF st (S k)).
  Proof.
    intros k f g Hf Hg.
    pose proof (g2_good _ _ G) as [I _ _].
    assert (Hk : k < numlevels st).
    { destruct (Nat.lt_ge_cases k (numlevels st)) as [H|H]; auto.
      unfold DF in Hf. rewrite lvl_overflow in Hf by auto. destruct Hf. }
    pose proof (fi_deact _ (g2_funcs _ _ G) k f Hk) as FD. apply FD in Hf. destruct Hf as [HF SD].
    pose proof (good2_meshes_fine _ _ (hier_ok_valid axes HA) G k Hk) as MO.
    destruct (mo_nonempty _ MO f HF) as [c0 Hc0].
    assert (Hk1 : S k < numlevels st).
    { destruct (Nat.lt_ge_cases (S k) (numlevels st)) as [H|H]; auto.
      exfalso. apply (ci_last _ I k c0); [lia | apply SD; exact Hc0]. }
    destruct (children_inside_good2 k f g Hk1 HF Hg) as [HG Hin].
    assert (SO : subO st (S k) g).
    { intros c' Hc'. apply (ci_nest _ I k c'). apply SD. apply Hin. exact Hc'. }
    destruct (subD_dec st (S k) g) as [SDg|[c1 [Hc1 Hn]]].
    - right. apply (fi_deact _ (g2_funcs _ _ G) (S k) g Hk1). split; auto.
    - left. apply (fi_act _ (g2_funcs _ _ G) (S k) g Hk1). split; [exact HG|]. split; [exact SO|].
      intros SDg. apply Hn. apply SDg. exact Hc1.
  Qed.
End Good2Children.
