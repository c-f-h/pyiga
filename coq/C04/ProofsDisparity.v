(* C04 -- support extensions as a relation between cells of two levels, and its geometry: membership in
   cell_support_extension, independence of empty levels, and nestedness across consecutive levels (every
   function of a refined mesh has a parent whose support contains its own).  These are the geometric
   facts behind the admissibility induction of ProofsDisparityD.v. *)
From Coq Require Import List Arith Lia.
From Verif.lib Require Import FinSet.
From Verif.C04 Require Import Model Proofs ProofsFun ProofsMesh ProofsQuery Children ProofsChildren ProofsParents.
Import ListNotations.

(* c' lies in the support of a level-k function that does not vanish on the level-k ancestor of the
   level-j cell c  (= membership in cell_support_extension(j, [c], k), see in_cse_iff) *)
Definition inCSE (st : hspace) (j : nat) (c : mi) (k : nat) (c' : mi) : Prop :=
  exists f, In f (tp_functions (msh st k)) /\ In (anc (j - k) c) (support1 (msh st k) f) /\ In c' (support1 (msh st k) f).

(* default marking: refine(marked) without truncate=True; refine_region always marks by default *)
Definition op_default (o : op) : Prop := match o with Refine _ t => t = false | RefineRegion _ _ => True end.

Lemma inCSE_parent : forall st j c k c', k + 1 <= j ->
  (inCSE st j c k c' <-> inCSE st (j - 1) (parent1 c) k c').
Proof.
  intros st j c k c' Hk. unfold inCSE.
  replace (anc (j - k) c) with (anc (j - 1 - k) (parent1 c)); [tauto|].
  rewrite anc_parent. f_equal. lia.
Qed.

(* empty levels do not matter *)
Lemma inCSE_add_level : forall st j c k c', k < length (hs_meshes st) ->
  (inCSE (add_level st) j c k c' <-> inCSE st j c k c').
Proof. intros st j c k c' Hk. unfold inCSE. rewrite (msh_add_level_old st k Hk). tauto. Qed.

Section Geometry.
  Variable axes : list axis.
  Hypothesis HA : Forall axis_ok axes.
  Let base := tpmesh_of axes.
  Let H : hier_ok base := hier_ok_valid axes HA.

  (* the support extension of a list of cells is the union of those of its members *)
  Lemma in_cse_iff : forall st l cells k c', good2 base st -> k <= l -> l < numlevels st ->
    (forall c, In c cells -> In c (A st l) \/ In c (D st l)) ->
    (In c' (cell_support_extension st l cells k) <-> exists c, In c cells /\ inCSE st l c k c').
  Proof.
    intros st l cells k c' G Hk Hl Hcells.
    rewrite (cell_support_extension_spec base st l cells k c' G H Hk Hl Hcells).
    unfold inCSE. split.
    - intros [f [HF [[c [Hc Hin]] Hc']]]. exists c. split; [exact Hc|]. exists f. auto.
    - intros [c [Hc [f [HF [Hin Hc']]]]]. exists f. split; [exact HF|]. split; [|exact Hc']. exists c. auto.
  Qed.

  Hypothesis HP : Forall axis_pos axes.

  (* nestedness across two consecutive levels below the cell: the function g of level k+1 that carries c'
     has a parent f on level k, and the parent's support contains the parents of the cells of supp g *)
  Lemma support_extension_nested : forall st l c k c', good2 base st -> S k <= l -> l < numlevels st ->
    inCSE st l c (S k) c' -> inCSE st l c k (parent1 c').
  Proof.
    intros st l c k c' G Hk HlL [g [HG [Hc Hc']]].
    rewrite (good2_msh_axes axes st (S k) G ltac:(lia)) in HG, Hc, Hc'.
    change (Nat.iter (S k) (map ax_refine) axes) with (map ax_refine (Nat.iter k (map ax_refine) axes)) in HG, Hc, Hc'.
    set (ax_k := Nat.iter k (map ax_refine) axes) in *.
    assert (HAk : Forall axis_ok ax_k) by (apply axes_ok_iter; auto).
    assert (HPk : Forall axis_pos ax_k) by (apply axes_pos_iter; auto).
    change (tpmesh_of (map ax_refine ax_k)) with (tp_refine (tpmesh_of ax_k)) in HG, Hc, Hc'.
    destruct (parent_exists_l ax_k g HAk HPk HG) as [f [HF Hch]].
    destruct (children_inside_parent_support_l ax_k f g HAk HF Hch) as [_ Hin].
    exists f. rewrite (good2_msh_axes axes st k G ltac:(lia)). fold ax_k.
    split; [exact HF|]. split.
    - replace (l - k) with (S (l - S k)) by lia. rewrite anc_S. apply Hin. exact Hc.
    - apply Hin. exact Hc'.
  Qed.
End Geometry.
