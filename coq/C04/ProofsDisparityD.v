(* C04 -- admissibility for every finite disparity d >= 1 (default marking): no active function of level k
   is non-zero on an active cell of level > k + d, on every reachable state of a valid hierarchy whose knot
   multiplicities are all >= 1.  Induction over the calls with two cell-level invariants taken d levels
   below an active cell:
     CCd  the support extension of an active cell of level j on a level k < j - d is deactivated;
     I2d  its support extension on level j - d lies in Omega_{j-d}.
   A new active cell is the child of a marked cell cp.  Closedness of the marking closure
   (hs_refine_closed) turns I2d at cp into "deactivated after the step" (below_marked): that is CCd for the
   child on level j - 1 - d; nestedness of support extensions lifts it to I2d for the child on level j - d. *)
From Coq Require Import List Arith Lia.
From Verif.lib Require Import FinSet.
From Verif.C04 Require Import Model Proofs ProofsFun ProofsMesh ProofsQuery ProofsParents ProofsDisparity.
Import ListNotations.

Definition CCd (d : nat) (st : hspace) : Prop :=
  forall j c k c', In c (A st j) -> j < numlevels st -> k + d < j -> inCSE st j c k c' -> In c' (D st k).
Definition I2d (d : nat) (st : hspace) : Prop :=
  forall j c c', In c (A st j) -> d <= j -> j < numlevels st -> inCSE st j c (j - d) c' ->
    In c' (A st (j - d)) \/ In c' (D st (j - d)).
Definition closedd (d : nat) (st : hspace) (m : list set) : Prop :=
  forall l c0 c', d <= l -> l < numlevels st -> In c0 (mk m l) -> inCSE st l c0 (l - d) c' ->
    In c' (A st (l - d)) -> In c' (mk m (l - d)).

Section Disparity.
  Variable axes : list axis.
  Hypothesis HA : Forall axis_ok axes.
  Hypothesis HP : Forall axis_pos axes.
  Variable d : nat.
  Hypothesis Hd1 : 1 <= d.
  Let base := tpmesh_of axes.
  Let H : hier_ok base := hier_ok_valid axes HA.

  Section Refined.
    Variable st : hspace.
    Variable m : list set.
    Hypothesis G : good2 base st.
    Hypothesis V : marks_valid st m.
    Hypothesis HCC : CCd d st.
    Hypothesis HI2 : I2d d st.
    Hypothesis HCL : closedd d st m.

    Let I : cells_inv st := g_cells _ (g2_good _ _ G).
    Let st' := refined st m.

    (* the support extension d levels below a marked cell ends up deactivated *)
    Lemma below_marked : forall l cp c', d <= l -> l < numlevels st -> In cp (mk m l) ->
      inCSE st l cp (l - d) c' -> In c' (D st' (l - d)).
    Proof.
      intros l cp c' Hl1 HlL Hcp Hin. apply (refined_D st m V).
      destruct (HI2 l cp c' (proj1 V l cp Hcp) Hl1 HlL Hin) as [Ha|Hd]; [right | left; exact Hd].
      apply (HCL l cp c'); auto.
    Qed.

    Lemma CCd_refined : CCd d st'.
    Proof.
      intros j c k c' Hc Hj Hk Hin. unfold st' in Hj. rewrite numlevels_refined in Hj.
      change (inCSE st j c k c') in Hin.
      apply (refined_A st m V) in Hc. destruct Hc as [[Hold|[Hj0 Hp]] _].
      - apply (refined_D st m V). left. apply (HCC j c k c'); auto.
      - apply (inCSE_parent st j c k c') in Hin; [|lia].
        destruct (Nat.eq_dec (k + d + 1) j) as [E|E].
        + replace k with (j - 1 - d) in * by lia. apply (below_marked (j - 1) (parent1 c) c'); auto; lia.
        + apply (refined_D st m V). left.
          apply (HCC (j - 1) (parent1 c) k c'); auto; try lia. apply (proj1 V), Hp.
    Qed.

    Lemma I2d_refined : I2d d st'.
    Proof.
      intros j c c' Hc Hj1 Hj Hin. unfold st' in Hj. rewrite numlevels_refined in Hj.
      change (inCSE st j c (j - d) c') in Hin.
      apply (refined_A st m V) in Hc. destruct Hc as [[Hold|[Hj0 Hp]] _].
      - apply (refined_O_mono st m V). apply (HI2 j c c'); auto.
      - apply (inCSE_parent st j c (j - d) c') in Hin; [|lia].
        destruct (Nat.eq_dec j d) as [->|Hne].
        + (* level 0: every cell of a support lies in Omega_0 *)
          rewrite Nat.sub_diag in *. destruct Hin as [f [HF [_ Hc']]].
          apply (refined_O_mono st m V), (ci_root _ I).
          apply (mo_incells _ (good2_meshes_fine _ _ H G 0 ltac:(lia)) f c'); auto.
        + assert (Ek : j - d = S (j - 1 - d)) by lia. rewrite Ek in *.
          apply (ci_nest _ (cells_inv_refined st m I V)).
          apply (below_marked (j - 1) (parent1 c) (parent1 c')); auto; try lia.
          apply (support_extension_nested axes HA HP); auto; lia.
    Qed.
  End Refined.

  Lemma CCd_I2d_add_level : forall st, good2 base st -> CCd d st /\ I2d d st -> CCd d (add_level st) /\ I2d d (add_level st).
  Proof.
    intros st G [HCC HI2]. pose proof (g_meshes _ (g2_good _ _ G)) as M. unfold meshes_ok in M.
    split.
    - intros j c k c' Hc Hj Hk Hin. unfold A, D in *. rewrite lvl_add_level in *.
      rewrite numlevels_add_level in Hj.
      destruct (Nat.eq_dec j (numlevels st)) as [->|Hne]; [rewrite lvl_overflow in Hc by lia; destruct Hc|].
      apply (inCSE_add_level st j c k c') in Hin; [|lia].
      apply (HCC j c k c'); auto. lia.
    - intros j c c' Hc Hj1 Hj Hin. unfold A, D in *. rewrite !lvl_add_level in *.
      rewrite numlevels_add_level in Hj.
      destruct (Nat.eq_dec j (numlevels st)) as [->|Hne]; [rewrite lvl_overflow in Hc by lia; destruct Hc|].
      apply (inCSE_add_level st j c (j - d) c') in Hin; [|lia].
      apply (HI2 j c c'); auto. lia.
  Qed.

  Record invd (st : hspace) : Prop := {
    id_good : good2 base st; id_cc : CCd d st; id_i2 : I2d d st; id_disp : hs_disparity st = Some d }.

  Lemma invd_ensure : forall st L, invd st -> invd (ensure_levels st L).
  Proof.
    intros st L. unfold ensure_levels. induction (L - numlevels st) as [|n IH]; intros Hi; [exact Hi|].
    destruct (IH Hi) as [G HCC HI2 Hdisp]. destruct (CCd_I2d_add_level _ G (conj HCC HI2)).
    constructor; auto. apply good2_add_level; auto.
  Qed.

  Lemma invd_hs_refine : forall st raw st' m, invd st -> raw_valid st raw ->
    hs_refine st raw false = Ok (st', m) -> invd st'.
  Proof.
    intros st raw st' m Hi Hv E. pose proof (id_good _ Hi) as G. pose proof (id_disp _ Hi) as Hdisp.
    destruct (hs_refine_spec _ _ _ _ _ (g2_good _ _ G) Hv E) as [mx [Emx [-> [V _]]]].
    destruct (hs_refine_closed st raw false _ m d Hdisp Hd1 E) as [mx' [Emx' Hcl]].
    rewrite Emx in Emx'. injection Emx' as <-. simpl in Hcl.
    destruct (invd_ensure st (mx + 2) Hi) as [G1 HCC1 HI21 Hdisp1].
    set (st1 := ensure_levels st (mx + 2)) in *.
    assert (HCL : closedd d st1 m).
    { intros l c0 c' Hl1 HlL Hc0 Hin Ha.
      apply (Hcl l c' HlL). unfold cell_neighborhood.
      assert (El : (l <? d) = false) by (apply Nat.ltb_ge; lia). rewrite El.
      apply inter_In. split; [exact Ha|].
      apply (in_cse_iff axes HA st1 l (mk m l) (l - d) c' G1 ltac:(lia) HlL); [|exists c0; auto].
      intros c Hc. left. exact (proj1 V l c Hc). }
    constructor.
    - apply good2_refined; auto.
    - eapply CCd_refined; eassumption.
    - eapply I2d_refined; eassumption.
    - exact Hdisp1.
  Qed.

  Lemma invd_step : forall st o, invd st -> op_valid st o -> op_default o -> invd (fst (step st o)).
  Proof.
    intros st o Hi V Hdef. destruct (step_cases st o) as (L & raw & trunc & Hv & Ht & [->|[m E]]).
    - apply invd_ensure, Hi.
    - assert (trunc = false) as -> by (destruct Ht as [|[r ->]]; auto).
      eapply invd_hs_refine; [apply invd_ensure, Hi | apply Hv, V | exact E].
  Qed.

  Lemma invd_run : forall ops st, invd st -> ops_valid st ops -> Forall op_default ops -> invd (run st ops).
  Proof.
    induction ops as [|o ops IH]; intros st Hi V Hdef; simpl; auto.
    destruct V as [V1 V2]. inversion Hdef; subst. apply IH; auto. apply invd_step; auto.
  Qed.

  Lemma invd_init : invd (hs_init axes (Some d)).
  Proof.
    constructor.
    - apply good2_init; auto. intros d0 E. injection E as <-. exact Hd1.
    - intros j c k c' Hc Hj Hk. unfold numlevels, hs_init in Hj. simpl in Hj. lia.
    - intros j c c' Hc Hj1 Hj. unfold numlevels, hs_init in Hj. simpl in Hj. lia.
    - reflexivity.
  Qed.

  (* the cell condition on every reachable state *)
  Lemma cell_condition_d : forall ops,
    ops_valid (hs_init axes (Some d)) ops -> Forall op_default ops ->
    cell_condition axes (Some d) ops d.
  Proof.
    intros ops V Hdef j c k c' Hc Hj Hk Hin.
    destruct (invd_run ops _ invd_init V Hdef) as [G HCC _ _].
    apply (HCC j c k c'); auto.
    apply (in_cse_iff axes HA _ j [c] k c' G ltac:(lia) Hj) in Hin; [|intros c0 [<-|[]]; left; exact Hc].
    destruct Hin as [c0 [[<-|[]] Hin]]. exact Hin.
  Qed.
End Disparity.
