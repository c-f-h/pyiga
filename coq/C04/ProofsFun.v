(* C04 -- the activity characterisation of basis functions (function invariant), proved for
   every refinement history under the hypothesis [hier_ok] that the tensor-product tables of
   every level are consistent (suppfunc dual to meshsupp, supports non-empty and inside the
   mesh).  That hypothesis is a statement about KnotVector.mesh_support_idx_all /
   _compute_supported_functions only; ProofsMesh.v proves it for every valid knot-vector abstraction. *)
From Coq Require Import List Arith Lia.
From Verif.lib Require Import ListFacts FinSet.
From Verif.C04 Require Import Model Proofs.
Import ListNotations.

Definition dim (ms : tpmesh) : nat := length (tp_axes ms).

Record mesh_ok (ms : tpmesh) : Prop := {
  mo_dual : forall c f, length c = dim ms ->
      (In f (supported_in1 ms c) <-> In f (tp_functions ms) /\ In c (support1 ms f));
  mo_nonempty : forall f, In f (tp_functions ms) -> exists c, In c (support1 ms f);
  mo_incells : forall f c, In f (tp_functions ms) -> In c (support1 ms f) -> In c (tp_cells ms);
  mo_len : forall c, In c (tp_cells ms) -> length c = dim ms }.

Definition hier_ok (base : tpmesh) : Prop := forall j, mesh_ok (Nat.iter j tp_refine base).

Lemma In_supported_in : forall ms cs f,
  In f (supported_in ms cs) <-> exists c, In c cs /\ In f (supported_in1 ms c).
Proof. intros. unfold supported_in. rewrite In_fold_union. simpl. tauto. Qed.

Lemma In_support : forall ms fs c, In c (support ms fs) <-> exists f, In f fs /\ In c (support1 ms f).
Proof. intros. unfold support. rewrite In_fold_union. simpl. tauto. Qed.

Lemma length_anc : forall n c, length (anc n c) = length c.
Proof. induction n; intros c; simpl; auto. unfold anc in *. simpl. unfold parent1 at 1. rewrite map_length. apply IHn. Qed.

Lemma support_single : forall ms f, support ms [f] = support1 ms f.
Proof. reflexivity. Qed.

(* the two tensor-product queries are dual to each other *)
Lemma supported_in_spec : forall ms cs f, mesh_ok ms -> (forall c, In c cs -> length c = dim ms) ->
  (In f (supported_in ms cs) <-> In f (tp_functions ms) /\ exists c, In c cs /\ In c (support ms [f])).
Proof.
  intros ms cs f MO Hl. rewrite In_supported_in. split.
  - intros [c [Hc Hf]]. apply (mo_dual _ MO c f (Hl c Hc)) in Hf. destruct Hf. split; auto. exists c; auto.
  - intros [HF [c [Hc Hs]]]. exists c. split; auto. apply (mo_dual _ MO c f (Hl c Hc)). auto.
Qed.

Definition F (st : hspace) (k : nat) : set := tp_functions (msh st k).
Definition supp (st : hspace) (k : nat) (f : mi) : set := support1 (msh st k) f.
Definition subO (st : hspace) (k : nat) (f : mi) : Prop := forall c, In c (supp st k f) -> In c (A st k) \/ In c (D st k).
Definition subD (st : hspace) (k : nat) (f : mi) : Prop := forall c, In c (supp st k f) -> In c (D st k).

(* a basis function of level k is active iff its support lies in Omega_k but not entirely in
   Omega_{k+1} (= the deactivated cells of level k), and deactivated iff it lies in both *)
Record funcs_inv (st : hspace) : Prop := {
  fi_act : forall k f, k < numlevels st ->
     (In f (AF st k) <-> In f (F st k) /\ subO st k f /\ ~ subD st k f);
  fi_deact : forall k f, k < numlevels st ->
     (In f (DF st k) <-> In f (F st k) /\ subD st k f) }.

Definition meshes_fine (st : hspace) : Prop := forall k, k < numlevels st -> mesh_ok (msh st k).
Definition cells_len (st : hspace) : Prop :=
  forall k c, k < numlevels st -> In c (A st k) \/ In c (D st k) -> length c = dim (msh st k).

Lemma subD_dec : forall st k f, subD st k f \/ exists c, In c (supp st k f) /\ ~ In c (D st k).
Proof.
  intros. destruct (subset (supp st k f) (D st k)) eqn:E.
  - left. unfold subD. apply subset_spec; auto.
  - right. apply subset_false_witness; auto.
Qed.

Lemma subO_dec : forall st k f, subO st k f \/ exists c, In c (supp st k f) /\ ~ (In c (A st k) \/ In c (D st k)).
Proof.
  intros. destruct (subset (supp st k f) (union (A st k) (D st k))) eqn:E.
  - left. intros c Hc. apply union_In. revert c Hc. apply subset_spec; auto.
  - right. destruct (subset_false_witness _ _ E) as [c [H1 H2]]. exists c; split; auto.
    rewrite union_In in H2. auto.
Qed.

Section RefineFunctions.
  Variable st : hspace.
  Variable m : list set.
  Hypothesis I : cells_inv st.
  Hypothesis V : marks_valid st m.
  Hypothesis MF : meshes_fine st.
  Hypothesis CL : cells_len st.
  Hypothesis CL' : cells_len (refined st m).
  Hypothesis FI : funcs_inv st.

  Let st' := refined st m.
  Let I' : cells_inv st' := cells_inv_refined st m I V.

  Lemma O_new : forall k c, In c (A st' k) \/ In c (D st' k) ->
    (In c (A st k) \/ In c (D st k)) \/ (k <> 0 /\ In (parent1 c) (mk m (k - 1))).
  Proof.
    intros k c. unfold st'. rewrite (refined_A st m V), (refined_D st m V).
    pose proof V as [Va _]. intros [[[H|H] _]|[H|H]]; auto.
  Qed.

  Lemma D_mono : forall k c, In c (D st k) -> In c (D st' k).
  Proof. intros k c H. unfold st'. rewrite (refined_D st m V). auto. Qed.

  Lemma D_new : forall k c, In c (D st' k) -> In c (D st k) \/ In c (mk m k).
  Proof. intros k c. unfold st'. rewrite (refined_D st m V). auto. Qed.

  (* a child of a marked cell was not in Omega_k before *)
  Lemma new_not_old : forall k c, k <> 0 -> In (parent1 c) (mk m (k - 1)) -> ~ (In c (A st k) \/ In c (D st k)).
  Proof.
    intros k c Hk Hp H. destruct k as [|k]; [congruence|]. simpl in Hp. rewrite Nat.sub_0_r in Hp.
    apply (ci_nest _ I) in H. pose proof V as [Va _]. apply (ci_disj _ I k (parent1 c)); auto.
  Qed.

  Variable k : nat.
  Hypothesis Hk : k < numlevels st.

  Let ms := msh st k.
  Let mk_k := mk m k.
  Let newc := if k =? 0 then [] else cell_children (mk m (k - 1)).
  Let a' := A st' k.
  Let d' := D st' k.

  Lemma level_eq : lvl st' k = refine_level st m k.
  Proof. unfold st', refined. rewrite lvl_refined. apply Nat.ltb_lt in Hk. rewrite Hk. reflexivity. Qed.

  Definition mfP (f : mi) : Prop :=
    mk_k <> [] /\ In f (supported_in ms mk_k) /\ In f (AF st k) /\ (forall c, In c (support1 ms f) -> ~ In c a').
  Definition newfP (f : mi) : Prop :=
    In f (supported_in ms newc) /\ ~ In f (AF st k) /\ (forall c, In c (support1 ms f) -> In c a' \/ In c d').

  (* the function sets of the refined level: newf is added, mf moves from active to deactivated *)
  Lemma refined_AF_DF : forall f,
    (In f (AF st' k) <-> (In f (AF st k) \/ newfP f) /\ ~ mfP f) /\
    (In f (DF st' k) <-> In f (DF st k) \/ mfP f).
  Proof.
    intros f. unfold AF at 1, DF at 1. rewrite level_eq. unfold refine_level. cbn [lv_actfun lv_deactfun].
    fold ms. fold mk_k. fold newc.
    change (lv_actfun (lvl st k)) with (AF st k). change (lv_deactfun (lvl st k)) with (DF st k).
    set (aa := if numlevels st - 1 <=? k then union (lv_active (lvl st k)) (of_list newc)
               else diff (union (lv_active (lvl st k)) (of_list newc)) mk_k).
    set (dd := if numlevels st - 1 <=? k then lv_deact (lvl st k) else union (lv_deact (lvl st k)) mk_k).
    assert (Ea : aa = a') by (unfold a', A; rewrite level_eq; reflexivity).
    assert (Ed : dd = d') by (unfold d', D; rewrite level_eq; reflexivity).
    rewrite Ea, Ed.
    assert (Hnew : forall g, In g (filter (fun f0 => subset (support ms [f0]) (union a' d')) (diff (supported_in ms newc) (AF st k))) <-> newfP g).
    { intros g. rewrite filter_In, diff_In, subset_spec. unfold newfP. rewrite support_single.
      split.
      - intros [[H1 H2] H3]. repeat split; auto. intros c Hc. apply union_In. apply H3; auto.
      - intros [H1 [H2 H3]]. repeat split; auto. intros c Hc. apply union_In. apply H3; auto. }
    assert (Hmf : forall g, In g (if is_empty mk_k then [] else
                   filter (fun f0 => is_empty (inter (support ms [f0]) a')) (inter (supported_in ms mk_k) (AF st k))) <-> mfP g).
    { intros g. unfold mfP. destruct mk_k as [|x l] eqn:E; simpl.
      - split; [intros [] | intros [H _]; congruence].
      - rewrite filter_In, inter_In, is_empty_inter, support_single. split.
        + intros [[H1 H2] H3]. repeat split; auto. discriminate.
        + intros [_ [H1 [H2 H3]]]. auto. }
    destruct (numlevels st - 1 <=? k) eqn:El.
    - apply Nat.leb_le in El. rewrite union_In, Hnew.
      assert (~ mfP f) by (unfold mfP, mk_k; rewrite (proj2 V k) by lia; tauto). tauto.
    - rewrite diff_In, !union_In, Hnew, Hmf. tauto.
  Qed.

  Let MO : mesh_ok ms := MF k Hk.

  (* the new cells lie in Omega_k after the step *)
  Lemma len_newc : forall c, In c newc -> length c = dim ms.
  Proof.
    intros c H. apply In_new_cells in H. apply (CL' k c); [rewrite numlevels_refined; exact Hk|].
    rewrite (refined_A st m V), (refined_D st m V).
    destruct (In_dec_mi c (mk m k)); [right; right; auto | left; split; auto].
  Qed.

  Lemma touch : forall cs f, (forall c, In c cs -> length c = dim ms) ->
    (In f (supported_in ms cs) <-> In f (F st k) /\ exists c, In c cs /\ In c (support1 ms f)).
  Proof. intros cs f Hl. exact (supported_in_spec ms cs f MO Hl). Qed.

  Lemma mfP_intro : forall f c0, In f (AF st k) -> subD st' k f -> In c0 (support1 ms f) -> In c0 mk_k -> mfP f.
  Proof.
    intros f c0 Haf SD' Hc0 Hm. unfold mfP. split; [intros E; rewrite E in Hm; destruct Hm|].
    split; [|split; auto].
    - apply touch; [intros c Hc; apply (CL k c Hk); left; apply (proj1 V), Hc|].
      split; [apply (fi_act _ FI k f Hk); auto | exists c0; auto].
    - intros c Hc Ha. apply (ci_disj _ I' k c Ha). apply SD'. exact Hc.
  Qed.

  Lemma funcs_level_deact : forall f, In f (DF st' k) <-> In f (F st k) /\ subD st' k f.
  Proof.
    intros f. rewrite (proj2 (refined_AF_DF f)). split.
    - intros [H|H].
      + apply (fi_deact _ FI k f Hk) in H. destruct H as [HF SD]. split; auto.
        intros c Hc. apply D_mono. apply SD; auto.
      + destruct H as [_ [_ [Haf Hna]]]. apply (fi_act _ FI k f Hk) in Haf. destruct Haf as [HF [SO _]].
        split; auto. intros c Hc. destruct (refined_O_mono st m V k c (SO c Hc)) as [Ha|Hd]; auto.
        exfalso. apply (Hna c Hc). exact Ha.
    - intros [HF SD']. destruct (subD_dec st k f) as [SD|[c0 [Hc0 Hn]]].
      + left. apply (fi_deact _ FI k f Hk). auto.
      + right. assert (Hm : In c0 mk_k).
        { destruct (D_new k c0 (SD' c0 Hc0)); [contradiction | auto]. }
        apply (mfP_intro f c0); auto.
        apply (fi_act _ FI k f Hk). split; auto. split.
        * intros c Hc. destruct (D_new k c (SD' c Hc)) as [H|H]; auto. left. pose proof V as [Va _]. apply Va; auto.
        * intros SD. apply Hn. apply SD; auto.
  Qed.

  Lemma funcs_level_act : forall f, In f (AF st' k) <-> In f (F st k) /\ subO st' k f /\ ~ subD st' k f.
  Proof.
    intros f. rewrite (proj1 (refined_AF_DF f)). split.
    - intros [[Haf|Hnew] Hnmf].
      + pose proof Haf as Haf0. apply (fi_act _ FI k f Hk) in Haf. destruct Haf as [HF [SO NSD]].
        split; auto. split.
        * intros c Hc. apply (refined_O_mono st m V). apply SO; auto.
        * intros SD'. destruct (subD_dec st k f) as [SD|[c0 [Hc0 Hn]]]; [contradiction|].
          apply Hnmf. apply (mfP_intro f c0); auto.
          destruct (D_new k c0 (SD' c0 Hc0)); [contradiction | auto].
      + destruct Hnew as [H1 [H2 H3]]. apply touch in H1; [|exact len_newc].
        destruct H1 as [HF [c1 [Hc1 Hs1]]]. split; auto. split; [exact H3|].
        intros SD'. apply In_new_cells in Hc1. destruct Hc1 as [Hk0 Hp].
        apply (new_not_old k c1 Hk0 Hp).
        destruct (D_new k c1 (SD' c1 Hs1)) as [H|H]; auto. left. pose proof V as [Va _]. apply Va; auto.
    - intros [HF [SO' NSD']]. split.
      + destruct (In_dec_mi f (AF st k)) as [Haf|Hnaf]; [left; auto|]. right.
        split; [|split; auto].
        apply touch; [exact len_newc|]. split; auto.
        destruct (subO_dec st k f) as [SO|[c0 [Hc0 Hn]]].
        * exfalso. destruct (subD_dec st k f) as [SD|[c0 [Hc0 Hn]]].
          -- apply NSD'. intros c Hc. apply D_mono. apply SD; auto.
          -- apply Hnaf. apply (fi_act _ FI k f Hk). split; [exact HF|]. split; [exact SO|].
             intros SD. apply Hn. apply SD; auto.
        * exists c0. split; auto. apply In_new_cells.
          destruct (O_new k c0 (SO' c0 Hc0)) as [H|H]; [contradiction | auto].
      + intros [_ [_ [_ H4]]]. apply NSD'. intros c Hc.
        destruct (SO' c Hc) as [Ha|Hd]; auto. exfalso. apply (H4 c Hc). exact Ha.
  Qed.
End RefineFunctions.

(* one refinement step preserves the activity characterisation *)
Lemma funcs_inv_refined : forall st m,
  cells_inv st -> marks_valid st m -> meshes_fine st -> cells_len st -> cells_len (refined st m) ->
  funcs_inv st -> funcs_inv (refined st m).
Proof.
  intros st m I V MF CL CL' FI. constructor; intros k f Hk; rewrite numlevels_refined in Hk.
  - change (F (refined st m) k) with (F st k). apply funcs_level_act; assumption.
  - change (F (refined st m) k) with (F st k). apply funcs_level_deact; assumption.
Qed.

Lemma dim_refine : forall ms, dim (tp_refine ms) = dim ms.
Proof. intros; unfold dim, tp_refine, tpmesh_of; simpl. apply map_length. Qed.

Lemma dim_iter : forall j ms, dim (Nat.iter j tp_refine ms) = dim ms.
Proof. induction j; intros; simpl; auto. rewrite dim_refine; auto. Qed.

Record good2 (base : tpmesh) (st : hspace) : Prop := {
  g2_good : good st;
  g2_funcs : funcs_inv st;
  g2_len : cells_len st;
  g2_msh : forall k, k < numlevels st -> msh st k = Nat.iter k tp_refine base }.

Lemma good2_meshes_fine : forall base st, hier_ok base -> good2 base st -> meshes_fine st.
Proof. intros base st H G k Hk. rewrite (g2_msh _ _ G k Hk). apply H. Qed.

Lemma msh_add_level_old : forall st k, k < length (hs_meshes st) -> msh (add_level st) k = msh st k.
Proof. intros st k H. unfold msh, add_level; simpl. apply app_nth1; auto. Qed.

Lemma msh_add_level_new : forall st, 1 <= length (hs_meshes st) ->
  msh (add_level st) (length (hs_meshes st)) = tp_refine (msh st (length (hs_meshes st) - 1)).
Proof.
  intros st H. unfold msh, add_level; simpl. rewrite app_nth2 by lia. rewrite Nat.sub_diag. simpl.
  rewrite last_nth_len. reflexivity.
Qed.

Lemma good2_add_level : forall base st, hier_ok base -> good2 base st -> good2 base (add_level st).
Proof.
  intros base st H G. pose proof (g2_good _ _ G) as [I M Dp].
  pose proof (ci_pos _ I) as Hpos. unfold meshes_ok in M.
  assert (Hmsh : forall k, k < numlevels (add_level st) -> msh (add_level st) k = Nat.iter k tp_refine base).
  { intros k Hk. rewrite numlevels_add_level in Hk.
    destruct (Nat.eq_dec k (numlevels st)) as [->|Hne].
    - rewrite <- M. rewrite msh_add_level_new by lia. rewrite M.
      rewrite (g2_msh _ _ G (numlevels st - 1)) by lia.
      clear - Hpos. revert Hpos. generalize (numlevels st). intros [|n] Hn; [lia|].
      simpl. rewrite Nat.sub_0_r. reflexivity.
    - rewrite msh_add_level_old by lia. apply (g2_msh _ _ G). lia. }
  assert (Hnew : lvl (add_level st) (numlevels st) = empty_level) by (rewrite lvl_add_level; apply lvl_overflow; lia).
  assert (Hne : forall f, In f (F (add_level st) (numlevels st)) -> exists c, In c (supp (add_level st) (numlevels st) f)).
  { intros f HF. apply mo_nonempty; [|exact HF]. rewrite Hmsh by (rewrite numlevels_add_level; lia). apply H. }
  constructor; auto.
  - apply good_add_level, (g2_good _ _ G).
  - (* the new level is empty and supports are not: none of its functions is active or deactivated *)
    constructor; intros k f Hk; rewrite numlevels_add_level in Hk; destruct (Nat.eq_dec k (numlevels st)) as [->|Hne'].
    + unfold AF, subO, A, D. rewrite Hnew. simpl. split; [intros []|]. intros [HF [SO _]].
      destruct (Hne f HF) as [c Hc]. destruct (SO c Hc) as [[]|[]].
    + unfold AF, F, subO, subD, supp, A, D. rewrite !lvl_add_level, msh_add_level_old by lia.
      apply (fi_act _ (g2_funcs _ _ G)). lia.
    + unfold DF, subD, D. rewrite Hnew. simpl. split; [intros []|]. intros [HF SD].
      destruct (Hne f HF) as [c Hc]. destruct (SD c Hc).
    + unfold DF, F, subD, supp, D. rewrite !lvl_add_level, msh_add_level_old by lia.
      apply (fi_deact _ (g2_funcs _ _ G)). lia.
  - intros k c Hk Hc. rewrite numlevels_add_level in Hk. unfold A, D in Hc. rewrite lvl_add_level in Hc.
    destruct (Nat.eq_dec k (numlevels st)) as [->|Hne'].
    + rewrite lvl_overflow in Hc by lia. simpl in Hc. tauto.
    + rewrite msh_add_level_old by lia. apply (g2_len _ _ G); auto. lia.
Qed.

Lemma good2_ensure : forall base st L, hier_ok base -> good2 base st -> good2 base (ensure_levels st L).
Proof.
  intros base st L H G. unfold ensure_levels. induction (L - numlevels st); simpl; auto.
  apply good2_add_level; auto.
Qed.

Lemma cells_len_refined : forall base st m, good2 base st -> marks_valid st m -> cells_len (refined st m).
Proof.
  intros base st m G V k c Hk Hc. rewrite numlevels_refined in Hk.
  pose proof (g2_good _ _ G) as [I M Dp].
  change (msh (refined st m) k) with (msh st k).
  rewrite (refined_A st m V), (refined_D st m V) in Hc.
  pose proof V as [Va _].
  assert (Hold : In c (A st k) \/ In c (D st k) -> length c = dim (msh st k)) by (apply (g2_len _ _ G); auto).
  destruct Hc as [[[H|[Hk0 Hp]] _]|[H|H]]; auto.
  destruct k as [|k]; [congruence|]. simpl in Hp. rewrite Nat.sub_0_r in Hp.
  assert (Hl : length (parent1 c) = dim (msh st k)).
  { apply (g2_len _ _ G k); [lia | left; apply Va; auto]. }
  unfold parent1 in Hl. rewrite map_length in Hl. rewrite Hl.
  rewrite (g2_msh _ _ G k) by lia. rewrite (g2_msh _ _ G (S k)) by lia. rewrite !dim_iter. reflexivity.
Qed.

Lemma good2_refined : forall base st m, hier_ok base -> good2 base st -> marks_valid st m -> good2 base (refined st m).
Proof.
  intros base st m H G V. pose proof (cells_len_refined base st m G V) as CL'.
  constructor; auto.
  - apply good_refined; auto. apply (g2_good _ _ G).
  - apply funcs_inv_refined; auto.
    + apply (g2_good _ _ G).
    + eapply good2_meshes_fine; eauto.
    + apply (g2_len _ _ G).
    + apply (g2_funcs _ _ G).
  - intros k Hk. rewrite numlevels_refined in Hk. change (msh (refined st m) k) with (msh st k).
    apply (g2_msh _ _ G); auto.
Qed.

Lemma good2_hs_refine : forall base st raw trunc st' m, hier_ok base ->
  good2 base st -> raw_valid st raw -> hs_refine st raw trunc = Ok (st', m) -> good2 base st'.
Proof.
  intros base st raw trunc st' m H G Hv E.
  destruct (hs_refine_spec _ _ _ _ _ (g2_good _ _ G) Hv E) as [mx [_ [-> [V _]]]].
  apply good2_refined; auto. apply good2_ensure; auto.
Qed.

Lemma good2_step : forall base st o, hier_ok base -> good2 base st -> op_valid st o -> good2 base (fst (step st o)).
Proof.
  intros base st o H G V. destruct (step_cases st o) as (L & raw & trunc & Hv & _ & [->|[m E]]).
  - apply good2_ensure; auto.
  - eapply good2_hs_refine; [exact H | apply good2_ensure; eauto | apply Hv, V | exact E].
Qed.

Lemma good2_run : forall base ops st, hier_ok base -> good2 base st -> ops_valid st ops -> good2 base (run st ops).
Proof.
  intros base ops; induction ops as [|o ops IH]; intros st H G V; simpl; auto.
  destruct V as [V1 V2]. apply IH; auto. apply good2_step; auto.
Qed.

Lemma good2_init : forall axes disp, (forall d, disp = Some d -> 1 <= d) ->
  hier_ok (tpmesh_of axes) -> good2 (tpmesh_of axes) (hs_init axes disp).
Proof.
  intros axes disp Hd H. pose proof (H 0) as MO. simpl in MO.
  assert (K : forall k, k < numlevels (hs_init axes disp) -> k = 0) by (unfold numlevels; simpl; lia).
  constructor.
  - apply good_init; auto.
  - constructor; intros k f Hk; rewrite (K k Hk);
      unfold AF, DF, F, subO, subD, supp, A, D, lvl, msh, hs_init; simpl.
    + split; [|tauto]. intros HF. split; auto. split.
      * intros c Hc. left. apply (mo_incells _ MO f c); auto.
      * intros SD. destruct (mo_nonempty _ MO f HF) as [c Hc]. destruct (SD c Hc).
    + split; [intros [] | intros [HF SD]]. destruct (mo_nonempty _ MO f HF) as [c Hc]. destruct (SD c Hc).
  - intros k c Hk Hc. rewrite (K k Hk) in *. unfold A, D, lvl, msh, hs_init in *; simpl in *.
    destruct Hc as [Hc|[]]. apply (mo_len _ MO); auto.
  - intros k Hk. rewrite (K k Hk). reflexivity.
Qed.
