(* C04 -- the tensor-product tables of every level of every valid hierarchy are consistent:
   suppfunc (_compute_supported_functions) is dual to meshsupp (mesh_support_idx_all), supports
   are non-empty and lie inside the mesh.  This discharges the hypothesis [hier_ok] of the
   activity characterisation: every reachable state of a valid hierarchy satisfies good2 (at the end). *)
From Coq Require Import List Arith Bool Lia.
From Verif.lib Require Import ListFacts FinSet.
From Verif.C04 Require Import Model Proofs ProofsFun.
Import ListNotations.

Lemma k2m_aux_length : forall mults i, length (k2m_aux i mults) = fold_right Nat.add 0 mults.
Proof. induction mults as [|m r IH]; intros i; simpl; auto. rewrite app_length, repeat_length, IH. reflexivity. Qed.

Lemma k2m_range : forall mults i b, b < length (k2m_aux i mults) -> i <= nth b (k2m_aux i mults) 0 < i + length mults.
Proof.
  induction mults as [|m r IH]; intros i b H; simpl in *; [lia|].
  rewrite app_length, repeat_length in H.
  destruct (Nat.lt_ge_cases b m) as [Hb|Hb].
  - rewrite nth_rep_app_lt by auto. lia.
  - rewrite nth_rep_app_ge by auto. specialize (IH (S i) (b - m)). lia.
Qed.

Lemma k2m_mono : forall mults i a b, a <= b -> b < length (k2m_aux i mults) ->
  nth a (k2m_aux i mults) 0 <= nth b (k2m_aux i mults) 0.
Proof.
  induction mults as [|m r IH]; intros i a b Hab H; simpl in *; [lia|].
  rewrite app_length, repeat_length in H.
  destruct (Nat.lt_ge_cases b m) as [Hb|Hb].
  - rewrite !nth_rep_app_lt by lia. lia.
  - rewrite (nth_rep_app_ge i m _ b) by auto.
    destruct (Nat.lt_ge_cases a m) as [Ha|Ha].
    + rewrite nth_rep_app_lt by auto. pose proof (k2m_range r (S i) (b - m)). lia.
    + rewrite nth_rep_app_ge by auto. apply IH; lia.
Qed.

Lemma k2m_strict : forall q mults i a, Forall (fun m => m <= q) mults ->
  a + q < length (k2m_aux i mults) ->
  nth a (k2m_aux i mults) 0 < nth (a + q) (k2m_aux i mults) 0.
Proof.
  intros q. induction mults as [|m r IH]; intros i a HF H; simpl in *; [lia|].
  rewrite app_length, repeat_length in H. inversion HF as [|? ? Hm HF']; subst.
  destruct (Nat.lt_ge_cases a m) as [Ha|Ha].
  - rewrite nth_rep_app_lt by auto. rewrite nth_rep_app_ge by lia.
    pose proof (k2m_range r (S i) (a + q - m)). lia.
  - rewrite !nth_rep_app_ge by lia. replace (a + q - m) with (a - m + q) by lia.
    apply IH; auto. lia.
Qed.

Definition axis_ok (a : axis) : Prop :=
  Forall (fun m => m <= ax_p a + 1) (ax_mults a) /\ 1 <= ax_numdofs a.

Definition inr (r : nat * nat) (x : nat) : Prop := fst r <= x < snd r.

(* the functions that _compute_supported_functions finds for cell k: those whose meshsupp row covers k *)
Lemma In_covering : forall (ms : list (nat * nat)) k x,
  In x (map fst (filter (fun jr => covers_r (snd jr) k) (combine (seq 0 (length ms)) ms))) <->
  x < length ms /\ covers ms x k = true.
Proof.
  intros ms k x. rewrite in_map_iff. split.
  - intros [[j r] [E Hin]]. simpl in E. subst j. apply filter_In in Hin. destruct Hin as [Hc Hcov].
    apply In_combine_seq in Hc. destruct Hc as [Hr1 Hr2]. rewrite Nat.sub_0_r in Hr2.
    split; [lia|]. unfold covers. rewrite Hr2. exact Hcov.
  - intros [Hx Hcov]. exists (x, nth x ms (0,0)). split; [reflexivity|]. apply filter_In. split; [|exact Hcov].
    apply In_combine_seq. rewrite Nat.sub_0_r. split; [lia | reflexivity].
Qed.

Section Axis.
  Variable a : axis.
  Hypothesis OK : axis_ok a.
  Let K := k2m a.
  Let p := ax_p a.
  Let n := ax_numdofs a.
  Let ns := ax_numspans a.
  Let ms := ax_meshsupp a.
  Let sf := supported_functions ns n ms.

  Lemma n_def : n + p + 1 = length K.
  Proof. unfold n, ax_numdofs, ax_numknots. fold K. fold p. destruct OK as [_ H]. unfold ax_numdofs, ax_numknots in H. fold K in H. fold p in H. lia. Qed.

  Lemma ms_length : length ms = n.
  Proof. unfold ms, ax_meshsupp. rewrite map_length, seq_length. reflexivity. Qed.

  Lemma ms_nth : forall j, j < n -> nth j ms (0, 0) = (nth j K 0, nth (j + p + 1) K 0).
  Proof.
    intros j H. unfold ms, ax_meshsupp.
    rewrite (nth_map_seq (fun j => (nth j (k2m a) 0, nth (j + ax_p a + 1) (k2m a) 0)) 0 (ax_numdofs a) j (0,0) H). cbn [Nat.add].
    reflexivity.
  Qed.

  Lemma K_mono : forall x y, x <= y -> y < length K -> nth x K 0 <= nth y K 0.
  Proof. unfold K, k2m. intros; apply k2m_mono; auto. Qed.
  Lemma K_strict : forall x, x + (p + 1) < length K -> nth x K 0 < nth (x + (p + 1)) K 0.
  Proof. unfold K, k2m, p. intros; apply k2m_strict; auto. exact (proj1 OK). Qed.
  Lemma K_ub : forall y, y < length K -> nth y K 0 < length (ax_mults a).
  Proof. unfold K, k2m. intros y H. pose proof (k2m_range (ax_mults a) 0 y H). lia. Qed.

  Lemma ms_mono : forall j1 j2, j1 <= j2 -> j2 < n ->
    fst (nth j1 ms (0,0)) <= fst (nth j2 ms (0,0)) /\ snd (nth j1 ms (0,0)) <= snd (nth j2 ms (0,0)).
  Proof.
    intros j1 j2 H1 H2. rewrite !ms_nth by lia. simpl. pose proof n_def. split; apply K_mono; lia.
  Qed.

  Lemma ms_nonempty : forall j, j < n -> fst (nth j ms (0,0)) < snd (nth j ms (0,0)).
  Proof.
    intros j H. rewrite ms_nth by auto. simpl. pose proof n_def.
    replace (j + p + 1) with (j + (p + 1)) by lia.
    apply K_strict. lia.
  Qed.

  Lemma ms_in_mesh : forall j, j < n -> snd (nth j ms (0,0)) <= ns.
  Proof.
    intros j H. rewrite ms_nth by auto. simpl. pose proof n_def.
    pose proof (K_ub (j + p + 1)) as Hub.
    unfold ns, ax_numspans. lia.
  Qed.

  Lemma covers_spec : forall j k, covers ms j k = true <-> inr (nth j ms (0,0)) k.
  Proof.
    intros. unfold covers, inr. rewrite andb_true_iff, Nat.leb_le, Nat.ltb_lt. tauto.
  Qed.

  (* the interval lemma: the functions that do not vanish on cell k are exactly the range sf[k] *)
  Lemma axis_dual : forall k j, inr (nth k sf (0,0)) j <-> (j < n /\ inr (nth j ms (0,0)) k).
  Proof.
    intros k j. destruct (Nat.lt_ge_cases k ns) as [Hk|Hk].
    - unfold sf, supported_functions.
      set (g := fun k0 => let js := map fst (filter (fun jr => covers_r (snd jr) k0) (combine (seq 0 (length ms)) ms)) in
                         (fold_right Nat.min n js, S (fold_right Nat.max 0 js))).
      rewrite (nth_map_seq g 0 ns k (0,0) Hk). cbn [Nat.add]. unfold g.
      set (js := map fst (filter (fun jr => covers_r (snd jr) k) (combine (seq 0 (length ms)) ms))).
      assert (Hjs : forall x, In x js <-> x < n /\ inr (nth x ms (0,0)) k).
      { intros x. unfold js. rewrite In_covering, ms_length, covers_spec. tauto. }
      unfold inr at 1. simpl. split.
      + intros [Hlo Hhi].
        assert (Hne : js <> []).
        { intros E. rewrite E in Hlo, Hhi. simpl in *. destruct OK as [_ Hn]. fold n in Hn. lia. }
        assert (Hlo_in : In (fold_right Nat.min n js) js).
        { apply fold_min_in; auto. intros x Hx. apply Hjs in Hx. tauto. }
        assert (Hmx_in : In (fold_right Nat.max 0 js) js) by (apply fold_max_in; auto).
        apply Hjs in Hlo_in. apply Hjs in Hmx_in.
        destruct Hlo_in as [Hl1 [_ Hl2]]. destruct Hmx_in as [Hm1 [Hm2 _]].
        assert (Hj : j < n) by lia. split; auto. split.
        * pose proof (ms_mono j (fold_right Nat.max 0 js)). lia.
        * pose proof (ms_mono (fold_right Nat.min n js) j). lia.
      + intros [Hj Hin]. assert (In j js) by (apply Hjs; auto).
        pose proof (fold_min_le n js j H). pose proof (fold_max_ge 0 js j H). lia.
    - rewrite nth_overflow by (unfold sf, supported_functions; rewrite map_length, seq_length; auto).
      unfold inr at 1. simpl. split; [lia|].
      intros [Hj [_ Hin]]. pose proof (ms_in_mesh j Hj). lia.
  Qed.
End Axis.

Lemma refine_mults_Forall : forall (P : nat -> Prop) m, P 1 -> Forall P m -> Forall P (refine_mults m).
Proof.
  intros P m H1. induction m as [|x r IH]; intros H; simpl; auto.
  inversion H as [|? ? Hx Hr]; subst. destruct r as [|y r']; [constructor; auto|].
  constructor; [exact Hx|]. constructor; [exact H1|]. apply IH; exact Hr.
Qed.

(* one knot is inserted in every span *)
Lemma refine_mults_sum : forall m, m <> [] ->
  fold_right Nat.add 0 (refine_mults m) = fold_right Nat.add 0 m + (length m - 1).
Proof.
  induction m as [|x r IH]; intros Hne; [congruence|].
  destruct r as [|y r']; [simpl; lia|].
  change (refine_mults (x :: y :: r')) with (x :: 1 :: refine_mults (y :: r')).
  change (fold_right Nat.add 0 (x :: 1 :: refine_mults (y :: r')))
    with (x + (1 + fold_right Nat.add 0 (refine_mults (y :: r')))).
  rewrite IH by discriminate. simpl. lia.
Qed.

Lemma axis_ok_refine : forall a, axis_ok a -> axis_ok (ax_refine a).
Proof.
  intros a [H1 H2]. split.
  - simpl. apply refine_mults_Forall; auto. lia.
  - unfold ax_numdofs, ax_numknots, k2m in *. simpl. rewrite k2m_aux_length in *.
    destruct (ax_mults a) as [|x r] eqn:E; [exact H2|]. rewrite refine_mults_sum by discriminate. lia.
Qed.

(* the suppfunc table of one axis: the entries of tp_sf (tpmesh_of axes) *)
Definition ax_suppfunc (a : axis) := supported_functions (ax_numspans a) (ax_numdofs a) (ax_meshsupp a).

Lemma In_box : forall ns x, In x (of_list (prod_ranges (map (fun n => (0, n)) ns))) <-> Forall2 (fun n xi => xi < n) ns x.
Proof.
  intros ns x. rewrite of_list_In, In_prod_ranges. revert x.
  induction ns as [|n ns IH]; intros x; simpl.
  - split; intros H; inversion H; constructor.
  - split; intros H; inversion H; subst; constructor; simpl in *; try lia; apply IH; auto.
Qed.

Lemma tp_dual : forall axes c f, Forall axis_ok axes -> length c = length axes ->
  (Forall2 inr (lookup_ranges (map ax_suppfunc axes) c) f <->
   Forall2 (fun n xi => xi < n) (map ax_numdofs axes) f /\ Forall2 inr (lookup_ranges (map ax_meshsupp axes) f) c).
Proof.
  induction axes as [|a axes IH]; intros c f HA Hlen.
  - destruct c; [|discriminate]. simpl. split.
    + intros H; inversion H; subst. split; constructor.
    + intros [H _]; inversion H; subst. constructor.
  - destruct c as [|k c]; [discriminate|]. inversion HA as [|? ? Ha HA']; subst. simpl in Hlen.
    simpl. split.
    + intros H. inversion H as [|r j rs f' Hr Hrest]; subst.
      apply (axis_dual a Ha) in Hr. destruct Hr as [Hj Hin].
      apply IH in Hrest; auto. destruct Hrest as [H1 H2]. simpl. split; constructor; auto.
    + intros [H1 H2]. inversion H1 as [|nn j ns' f' Hj Hrest]; subst. simpl in H2.
      inversion H2 as [|r k' rs c' Hr Hrest2]; subst.
      constructor.
      * apply (axis_dual a Ha). split; auto.
      * apply IH; auto.
Qed.

Lemma tp_nonempty : forall axes f, Forall axis_ok axes -> Forall2 (fun n xi => xi < n) (map ax_numdofs axes) f ->
  exists c, Forall2 inr (lookup_ranges (map ax_meshsupp axes) f) c.
Proof.
  induction axes as [|a axes IH]; intros f HA HF; simpl in *.
  - exists []. inversion HF; subst. constructor.
  - inversion HA as [|? ? Ha HA']; subst. inversion HF as [|nn j ns' f' Hj Hrest]; subst.
    destruct (IH f' HA' Hrest) as [c Hc]. simpl.
    exists (fst (nth j (ax_meshsupp a) (0,0)) :: c). constructor; auto.
    unfold inr. pose proof (ms_nonempty a Ha j Hj). lia.
Qed.

Lemma tp_incells : forall axes f c, Forall axis_ok axes -> Forall2 (fun n xi => xi < n) (map ax_numdofs axes) f ->
  Forall2 inr (lookup_ranges (map ax_meshsupp axes) f) c -> Forall2 (fun n xi => xi < n) (map ax_numspans axes) c.
Proof.
  induction axes as [|a axes IH]; intros f c HA HF HC; simpl in *.
  - inversion HF; subst. simpl in HC. inversion HC; subst. constructor.
  - inversion HA as [|? ? Ha HA']; subst. inversion HF as [|nn j ns' f' Hj Hrest]; subst.
    simpl in HC. inversion HC as [|r k rs c' Hr Hrest2]; subst.
    constructor; [|eapply IH; eauto].
    pose proof (ms_in_mesh a Ha j Hj). unfold inr in Hr. lia.
Qed.

Lemma mesh_ok_tpmesh_of : forall axes, Forall axis_ok axes -> mesh_ok (tpmesh_of axes).
Proof.
  intros axes HA. constructor.
  - intros c f Hlen. unfold dim in Hlen. simpl in Hlen.
    unfold supported_in1, support1, tp_functions. simpl.
    rewrite of_list_In, In_prod_ranges, In_box, of_list_In, In_prod_ranges.
    apply (tp_dual axes c f HA Hlen).
  - intros f HF. unfold tp_functions in HF. simpl in HF. rewrite In_box in HF.
    destruct (tp_nonempty axes f HA HF) as [c Hc]. exists c.
    unfold support1. simpl. rewrite of_list_In, In_prod_ranges. exact Hc.
  - intros f c HF HC. unfold tp_functions in HF. simpl in HF. rewrite In_box in HF.
    unfold support1 in HC. simpl in HC. rewrite of_list_In, In_prod_ranges in HC.
    unfold tp_cells. simpl. rewrite In_box. eapply tp_incells; eauto.
  - intros c HC. unfold tp_cells in HC. simpl in HC. rewrite In_box in HC.
    unfold dim. simpl. apply Forall2_length in HC. rewrite map_length in HC. auto.
Qed.

Lemma iter_refine_tpmesh_of : forall j axes,
  Nat.iter j tp_refine (tpmesh_of axes) = tpmesh_of (Nat.iter j (map ax_refine) axes).
Proof. induction j; intros; simpl; auto. rewrite IHj. reflexivity. Qed.

Lemma good2_msh_axes : forall axes st k, good2 (tpmesh_of axes) st -> k < numlevels st ->
  msh st k = tpmesh_of (Nat.iter k (map ax_refine) axes).
Proof. intros axes st k G Hk. rewrite (g2_msh _ _ G k Hk). apply iter_refine_tpmesh_of. Qed.

Lemma axes_ok_iter : forall j axes, Forall axis_ok axes -> Forall axis_ok (Nat.iter j (map ax_refine) axes).
Proof.
  induction j; intros axes H; simpl; auto. apply Forall_map. specialize (IHj axes H).
  eapply Forall_impl; [|exact IHj]. intros a Ha. apply axis_ok_refine; auto.
Qed.

Lemma hier_ok_valid : forall axes, Forall axis_ok axes -> hier_ok (tpmesh_of axes).
Proof.
  intros axes H j. rewrite iter_refine_tpmesh_of. apply mesh_ok_tpmesh_of. apply axes_ok_iter; auto.
Qed.

(* every reachable state of a valid hierarchy carries the full invariant bundle *)
Lemma reachable_good2 : forall axes disp ops,
  Forall axis_ok axes -> (forall d, disp = Some d -> 1 <= d) ->
  ops_valid (hs_init axes disp) ops ->
  good2 (tpmesh_of axes) (run (hs_init axes disp) ops).
Proof.
  intros axes disp ops HA Hd V. pose proof (hier_ok_valid axes HA) as H.
  apply good2_run; auto. apply good2_init; auto.
Qed.

Lemma activity_characterisation_full : forall axes disp ops,
  Forall axis_ok axes ->
  (forall d, disp = Some d -> 1 <= d) ->
  ops_valid (hs_init axes disp) ops ->
  funcs_inv (run (hs_init axes disp) ops).
Proof. intros. apply (g2_funcs (tpmesh_of axes)), reachable_good2; auto. Qed.
