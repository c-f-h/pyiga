(* C04 -- every function of the refined mesh has a parent, hence support extensions are nested
   across levels (the geometric lemma behind the admissibility induction). *)
From Coq Require Import List Arith Bool Lia.
From Verif.lib Require Import ListFacts FinSet.
From Verif.C04 Require Import Model Proofs ProofsFun ProofsMesh Children ProofsChildren.
Import ListNotations.

(* all multiplicities at least one (every breakpoint is a knot) *)
Definition axis_pos (a : axis) : Prop := Forall (fun m => 1 <= m) (ax_mults a) /\ ax_mults a <> [].

Lemma k2m_first : forall x r i0, 1 <= x -> nth 0 (k2m_aux i0 (x :: r)) 0 = i0.
Proof. intros. simpl. apply nth_rep_app_lt. lia. Qed.

Lemma k2m_last : forall mults i0, Forall (fun m => 1 <= m) mults -> mults <> [] ->
  nth (length (k2m_aux i0 mults) - 1) (k2m_aux i0 mults) 0 = i0 + length mults - 1.
Proof.
  induction mults as [|x r IH]; intros i0 HF Hne; [congruence|].
  inversion HF as [|? ? Hx HF']; subst.
  destruct r as [|y r'].
  - simpl. rewrite app_nil_r, repeat_length. rewrite nth_repeat_lt by lia. lia.
  - change (k2m_aux i0 (x :: y :: r')) with (repeat i0 x ++ k2m_aux (S i0) (y :: r')).
    assert (Hlen : 1 <= length (k2m_aux (S i0) (y :: r'))).
    { rewrite k2m_aux_length. inversion HF'; subst. simpl. lia. }
    rewrite app_length, repeat_length. rewrite nth_rep_app_ge by lia.
    replace (x + length (k2m_aux (S i0) (y :: r')) - 1 - x) with (length (k2m_aux (S i0) (y :: r')) - 1) by lia.
    rewrite IH by (auto; discriminate). simpl. lia.
Qed.

Lemma axis_pos_refine : forall a, axis_pos a -> axis_pos (ax_refine a).
Proof.
  intros a [H1 H2]. split; simpl.
  - apply refine_mults_Forall; auto.
  - destruct (ax_mults a) as [|x [|y r]]; simpl; congruence.
Qed.

Section AxisParents.
  Variable a : axis.
  Hypothesis OK : axis_ok a.
  Hypothesis POS : axis_pos a.
  Let a' := ax_refine a.
  Let p := ax_p a.
  Let n := ax_numdofs a.

  Lemma phi_mono : forall x y, x < y -> y < length (k2m a) -> phi a x < phi a y.
  Proof. intros x y H1 H2. unfold phi. pose proof (K_mono a x y ltac:(lia) H2). lia. Qed.

  Lemma phi_zero : phi a 0 = 0.
  Proof.
    pose proof POS as [HF Hne]. unfold phi, k2m. destruct (ax_mults a) as [|x r]; [congruence|].
    inversion HF; subst. rewrite k2m_first by auto. reflexivity.
  Qed.

  Lemma phi_last : phi a (length (k2m a) - 1) = length (k2m a') - 1.
  Proof.
    pose proof POS as [HF Hne]. unfold phi, a', k2m, ax_refine. simpl ax_mults. rewrite (k2m_last _ 0 HF Hne).
    rewrite !k2m_aux_length. rewrite refine_mults_sum by auto.
    assert (1 <= fold_right Nat.add 0 (ax_mults a)).
    { destruct (ax_mults a) as [|x r]; [congruence|]. inversion HF; subst. simpl. lia. }
    lia.
  Qed.

  Lemma find_start : forall i k, phi a 0 <= i ->
    (exists j, j < k /\ phi a j <= i < phi a (S j)) \/ phi a k <= i.
  Proof.
    intros i. induction k as [|k IH]; intros H0; [right; exact H0|].
    destruct (IH H0) as [[j [Hj Hin]]|Hle].
    - left. exists j. split; [lia | exact Hin].
    - destruct (Nat.le_gt_cases (phi a (S k)) i) as [H|H]; [right; exact H|].
      left. exists k. split; [lia|]. split; [exact Hle | exact H].
  Qed.

  Lemma phi_step : forall q j, j + q + 1 < length (k2m a) -> phi a (S j) + q <= phi a (j + q + 1).
  Proof.
    induction q as [|q IHq]; intros j Hj.
    - replace (j + 0 + 1) with (S j) by lia. lia.
    - assert (phi a (j + q + 1) < phi a (j + S q + 1)) by (apply phi_mono; lia).
      specialize (IHq j ltac:(lia)). lia.
  Qed.

  (* every function of the refined axis is a child of some function of the axis *)
  Lemma parent_exists_1d : forall i, i < ax_numdofs a' -> exists j, j < n /\ is_child_1d a j i = true.
  Proof.
    intros i Hi.
    pose proof (n_def a OK) as Hn. fold n in Hn. fold p in Hn.
    pose proof (n_def a' (axis_ok_refine a OK)) as Hn'. change (ax_p a') with p in Hn'.
    assert (Hn1 : 1 <= n) by (destruct OK as [_ H]; exact H).
    assert (Hchild : forall j, j < n -> phi a j <= i -> i + p + 1 <= phi a (j + p + 1) -> is_child_1d a j i = true).
    { intros j Hj H1 H2. unfold is_child_1d, children_1d. simpl. fold p.
      apply andb_true_iff. split; [apply Nat.leb_le; exact H1 | apply Nat.ltb_lt; lia]. }
    destruct (find_start i (n - 1) ltac:(rewrite phi_zero; lia)) as [[j [Hj [H1 H2]]]|Hle].
    - exists j. split; [lia|]. apply Hchild; [lia | exact H1|].
      pose proof (phi_step p j ltac:(lia)). lia.
    - exists (n - 1). split; [lia|]. apply Hchild; [lia | exact Hle|].
      replace (n - 1 + p + 1) with (length (k2m a) - 1) by lia. rewrite phi_last. lia.
  Qed.
End AxisParents.

(* tensor product: every function of the refined mesh is a child of a function of the mesh *)
Lemma tp_parent_exists : forall axes g, Forall axis_ok axes -> Forall axis_pos axes ->
  Forall2 (fun n xi => xi < n) (map ax_numdofs (map ax_refine axes)) g ->
  exists f, Forall2 (fun n xi => xi < n) (map ax_numdofs axes) f /\ Forall2 inr (lookup_children axes f) g.
Proof.
  induction axes as [|a axes IH]; intros g HA HP HG.
  - simpl in HG. inversion HG; subst. exists []. split; constructor.
  - inversion HA as [|? ? Ha HA']; subst. inversion HP as [|? ? Hp HP']; subst.
    simpl in HG. inversion HG as [|nn i ns' g' Hi Hrest]; subst.
    destruct (IH g' HA' HP' Hrest) as [f' [Hf1 Hf2]].
    destruct (parent_exists_1d a Ha Hp i Hi) as [j [Hj Hc]].
    exists (j :: f'). split; simpl; constructor; auto.
    unfold is_child_1d in Hc. apply andb_true_iff in Hc. destruct Hc as [H1 H2].
    apply Nat.leb_le in H1. apply Nat.ltb_lt in H2. unfold inr. lia.
Qed.

Lemma parent_exists_l : forall axes g, Forall axis_ok axes -> Forall axis_pos axes ->
  In g (tp_functions (tp_refine (tpmesh_of axes))) ->
  exists f, In f (tp_functions (tpmesh_of axes)) /\ In g (children1 (tpmesh_of axes) f).
Proof.
  intros axes g HA HP HG. unfold tp_functions, tp_refine in HG. simpl in HG. rewrite In_box in HG.
  destruct (tp_parent_exists axes g HA HP HG) as [f [H1 H2]].
  exists f. split.
  - unfold tp_functions. simpl. rewrite In_box. exact H1.
  - apply In_children1. exact H2.
Qed.

Lemma axes_pos_iter : forall j axes, Forall axis_pos axes -> Forall axis_pos (Nat.iter j (map ax_refine) axes).
Proof.
  induction j; intros axes H; simpl; auto. apply Forall_map. specialize (IHj axes H).
  eapply Forall_impl; [|exact IHj]. intros a Ha. apply axis_pos_refine; auto.
Qed.
