(* C04 -- the incidence matrix and the cell/function support queries agree with the (index)
   geometry, in every state of a valid hierarchy that satisfies the invariants (good2). *)
From Coq Require Import List Arith Bool Lia.
From Verif.lib Require Import FinSet.
From Verif.C04 Require Import Model Proofs ProofsFun ProofsMesh.
Import ListNotations.

Lemma good2_dim : forall base st k, good2 base st -> k < numlevels st -> dim (msh st k) = dim base.
Proof. intros base st k G Hk. rewrite (g2_msh _ _ G k Hk). apply dim_iter. Qed.

Lemma anc_parent : forall n c, anc n (parent1 c) = anc (S n) c.
Proof. induction n; intros c; simpl; auto. unfold anc in *. simpl. rewrite IHn. reflexivity. Qed.

Lemma In_cell_parent : forall cells c0, In c0 (cell_parent cells) <-> exists c, In c cells /\ c0 = parent1 c.
Proof.
  intros. unfold cell_parent. rewrite of_list_In, in_map_iff. split; intros [c [H1 H2]]; exists c; auto.
Qed.

(* cell_grandparent applies cell_parent n times: the level-(l-n) ancestors of the cells *)
Lemma In_cell_grandparent : forall n cells c0,
  In c0 (cell_grandparent n cells) <-> exists c, In c cells /\ c0 = anc n c.
Proof.
  induction n as [|n IH]; intros cells c0; simpl.
  - split; [intros H; exists c0; auto | intros [c [H ->]]; auto].
  - rewrite IH. split.
    + intros [c1 [H1 ->]]. apply In_cell_parent in H1. destruct H1 as [c [Hc ->]].
      exists c. split; auto. apply anc_parent.
    + intros [c [Hc ->]]. exists (parent1 c). split; [apply In_cell_parent; exists c; auto|].
      symmetry. apply anc_parent.
Qed.

(* entry = 1 iff the level-k ancestor of the (level j >= k) cell lies in the support of the function *)
Lemma incidence_entry_spec : forall st k f j c,
  incidence_entry st (k, f) (j, c) = true <-> k <= j /\ In (anc (j - k) c) (support1 (msh st k) f).
Proof.
  intros. unfold incidence_entry. rewrite andb_true_iff, Nat.leb_le, mem_In. tauto.
Qed.

(* ... iff the function is one of those the mesh reports as supported in that ancestor cell *)
Lemma incidence_entry_supported_in : forall base st k f j c,
  good2 base st -> hier_ok base -> k <= j -> j < numlevels st ->
  In f (AF st k) -> In c (A st j) ->
  (incidence_entry st (k, f) (j, c) = true <-> In f (supported_in (msh st k) [anc (j - k) c])).
Proof.
  intros base st k f j c G H Hkj Hj Hf Hc.
  assert (Hk : k < numlevels st) by lia.
  pose proof (good2_meshes_fine base st H G k Hk) as MO.
  rewrite incidence_entry_spec.
  rewrite (supported_in_spec (msh st k) [anc (j - k) c] f MO).
  - assert (HF : In f (tp_functions (msh st k))).
    { apply (fi_act _ (g2_funcs _ _ G) k f Hk) in Hf. apply Hf. }
    split.
    + intros [_ Hin]. split; auto. exists (anc (j - k) c). split; [left; auto | exact Hin].
    + intros [_ [c0 [[<-|[]] Hin]]]. split; auto.
  - intros c0 [<-|[]]. rewrite length_anc. rewrite (g2_len _ _ G j c Hj (or_introl Hc)).
    rewrite (good2_dim base st j G Hj), (good2_dim base st k G Hk). reflexivity.
Qed.

(* the matrix is indexed by the canonical flat lists *)
Lemma incidence_nth : forall st i j, i < length (active_functions_flat st) -> j < length (active_cells_flat st) ->
  nth j (nth i (incidence st) []) false =
  incidence_entry st (nth i (active_functions_flat st) (0, [])) (nth j (active_cells_flat st) (0, [])).
Proof.
  intros st i j Hi Hj. unfold incidence.
  rewrite (nth_indep _ [] (map (incidence_entry st (0, [])) (active_cells_flat st))) by (rewrite map_length; auto).
  rewrite (map_nth (fun f => map (incidence_entry st f) (active_cells_flat st))).
  rewrite (nth_indep _ false (incidence_entry st (nth i (active_functions_flat st) (0, [])) (0, []))) by (rewrite map_length; auto).
  rewrite map_nth. reflexivity.
Qed.

Lemma cell_grandparent_or_self : forall l k cells, (if k =? l then cells else cell_grandparent (l - k) cells) = cell_grandparent (l - k) cells.
Proof.
  intros. destruct (k =? l) eqn:E; auto. apply Nat.eqb_eq in E. subst. rewrite Nat.sub_diag. reflexivity.
Qed.

(* cell_support_extension(l, cells, k): the cells of level k in the support of a level-k
   function that does not vanish on the level-k ancestor of one of the given cells *)
Lemma cell_support_extension_spec : forall base st l cells k c',
  good2 base st -> hier_ok base -> k <= l -> l < numlevels st ->
  (forall c, In c cells -> In c (A st l) \/ In c (D st l)) ->
  (In c' (cell_support_extension st l cells k) <->
   exists f, In f (tp_functions (msh st k)) /\
             (exists c, In c cells /\ In (anc (l - k) c) (support1 (msh st k) f)) /\
             In c' (support1 (msh st k) f)).
Proof.
  intros base st l cells k c' G H Hkl Hl Hcells.
  assert (Hk : k < numlevels st) by lia.
  pose proof (good2_meshes_fine base st H G k Hk) as MO.
  unfold cell_support_extension. rewrite cell_grandparent_or_self. rewrite In_support.
  assert (Hl2 : forall c0, In c0 (cell_grandparent (l - k) cells) -> length c0 = dim (msh st k)).
  { intros c0 Hc0. apply In_cell_grandparent in Hc0. destruct Hc0 as [c [Hc ->]].
    rewrite length_anc, (g2_len _ _ G l c Hl (Hcells c Hc)), (good2_dim base st l G Hl), (good2_dim base st k G Hk).
    reflexivity. }
  split.
  - intros [f [Hf Hc']]. apply (supported_in_spec _ _ f MO Hl2) in Hf. destruct Hf as [HF [c0 [Hc0 Hs]]].
    apply In_cell_grandparent in Hc0. destruct Hc0 as [c [Hc ->]].
    exists f. split; auto. split; auto. exists c; auto.
  - intros [f [HF [[c [Hc Hs]] Hc']]]. exists f. split; auto.
    apply (supported_in_spec _ _ f MO Hl2). split; auto.
    exists (anc (l - k) c). split; auto. apply In_cell_grandparent. exists c; auto.
Qed.

(* function_support_extension(l, functions, k): the level-k functions that do not vanish on the
   level-k ancestor of a cell in the support of one of the given level-l functions *)
Lemma function_support_extension_spec : forall base st l fs k f',
  good2 base st -> hier_ok base -> k <= l -> l < numlevels st ->
  (forall f, In f fs -> In f (tp_functions (msh st l))) ->
  (In f' (function_support_extension st l fs k) <->
   In f' (tp_functions (msh st k)) /\
   exists f c, In f fs /\ In c (support1 (msh st l) f) /\ In (anc (l - k) c) (support1 (msh st k) f')).
Proof.
  intros base st l fs k f' G H Hkl Hl HF.
  assert (Hk : k < numlevels st) by lia.
  pose proof (good2_meshes_fine base st H G k Hk) as MO.
  pose proof (good2_meshes_fine base st H G l Hl) as MOl.
  unfold function_support_extension. rewrite cell_grandparent_or_self.
  assert (Hl2 : forall c0, In c0 (cell_grandparent (l - k) (support (msh st l) fs)) -> length c0 = dim (msh st k)).
  { intros c0 Hc0. apply In_cell_grandparent in Hc0. destruct Hc0 as [c [Hc ->]].
    apply In_support in Hc. destruct Hc as [f [Hf Hc]].
    rewrite length_anc. rewrite (mo_len _ MOl c (mo_incells _ MOl f c (HF f Hf) Hc)).
    rewrite (good2_dim base st l G Hl), (good2_dim base st k G Hk). reflexivity. }
  rewrite (supported_in_spec _ _ f' MO Hl2). split.
  - intros [HF' [c0 [Hc0 Hs]]]. split; auto.
    apply In_cell_grandparent in Hc0. destruct Hc0 as [c [Hc ->]].
    apply In_support in Hc. destruct Hc as [f [Hf Hc]]. exists f, c. auto.
  - intros [HF' [f [c [Hf [Hc Hs]]]]]. split; auto.
    exists (anc (l - k) c). split; auto. apply In_cell_grandparent. exists c. split; auto.
    apply In_support. exists f; auto.
Qed.

Section Reachable.
  Variable axes : list axis.
  Variable disp : option nat.
  Variable ops : list op.
  Hypothesis HA : Forall axis_ok axes.
  Hypothesis Hd : forall d, disp = Some d -> 1 <= d.
  Hypothesis V : ops_valid (hs_init axes disp) ops.
  Let st := run (hs_init axes disp) ops.
  Let G : good2 (tpmesh_of axes) st := reachable_good2 axes disp ops HA Hd V.
  Let H : hier_ok (tpmesh_of axes) := hier_ok_valid axes HA.

  (* A sufficient cell-level condition for admissibility: if around every active cell c of level j
     all cells of the support extension on every level k with k + d < j are deactivated, then no
     active function of level k < j - d is non-zero on c. *)
  Definition cell_condition (d : nat) : Prop :=
    forall j c k c', In c (A st j) -> j < numlevels st -> k + d < j ->
      In c' (cell_support_extension st j [c] k) -> In c' (D st k).

  Definition admissible (d : nat) : Prop :=
    forall k f j c, In f (AF st k) -> In c (A st j) -> j < numlevels st -> k + d < j ->
      ~ In (anc (j - k) c) (support1 (msh st k) f).

  Lemma admissible_from_cell_condition_l : forall d, cell_condition d -> admissible d.
  Proof.
    intros d CC k f j c Hf Hc Hj Hkd Hin.
    assert (Hk : k < numlevels st) by lia.
    pose proof (fi_act _ (g2_funcs _ _ G) k f Hk) as FA. apply FA in Hf. destruct Hf as [HF [_ NSD]].
    apply NSD. intros c' Hc'. apply (CC j c k c' Hc Hj Hkd).
    apply (cell_support_extension_spec (tpmesh_of axes) st j [c] k c' G H); [lia | exact Hj | intros c0 [<-|[]]; left; exact Hc |].
    exists f. split; [exact HF|]. split; [|exact Hc']. exists c. split; [left; auto | exact Hin].
  Qed.
End Reachable.

(* executable form of the cell condition (for Examples / exploration) and its soundness *)
Definition cell_condition_b (st : hspace) (d : nat) : bool :=
  forallb (fun jc => let (j, c) := jc : nat * mi in
     forallb (fun k => negb (k + d <? j) || subset (cell_support_extension st j [c] k) (D st k)) (seq 0 j))
    (active_cells_flat st).

Lemma cell_condition_b_sound : forall axes disp ops d,
  cell_condition_b (run (hs_init axes disp) ops) d = true -> cell_condition axes disp ops d.
Proof.
  intros axes disp ops d Hb j c k c' Hc Hj Hkd Hin.
  unfold cell_condition_b in Hb. rewrite forallb_forall in Hb.
  specialize (Hb (j, c)). simpl in Hb.
  assert (Hflat : In (j, c) (active_cells_flat (run (hs_init axes disp) ops))) by (apply In_flat; auto).
  specialize (Hb Hflat). rewrite forallb_forall in Hb. specialize (Hb k).
  assert (Hk : In k (seq 0 j)) by (apply in_seq; lia). specialize (Hb Hk).
  apply orb_true_iff in Hb. destruct Hb as [Hb|Hb].
  - apply negb_true_iff, Nat.ltb_ge in Hb. lia.
  - rewrite subset_spec in Hb. apply Hb; auto.
Qed.
