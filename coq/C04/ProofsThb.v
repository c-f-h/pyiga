(* C04 -- the rational-matrix conjuncts, proved over the abstract multilevel basis of C05
   (coq/C05/Hier.v section Multilevel: n k = mesh(k).numbf, B k i = tensor-product B-spline i of
   level k, P k = tp_prolongation(k), two-scale relation B k i = sum_j P k j i * B (k+1) j;
   C05.tp_two_scale instantiates it with tensor-product B-splines of any dimension).

   Source: pyiga/hierarchical.py:1064-1151 represent_fine, :1153-1178 truncate_one_level,
           :1180-1191 thb_to_hb, :1193-1204 hb_to_thb.

   Coefficient arrays are functions level -> raveled index -> Qc that vanish outside the active
   functions (split_coeffs + _reindex); actb l i = true iff function i of level l is active,
   deactb l i = true iff it is deactivated.
     RF n P Z T m J i           represent_fine(lv=T) block of level T-m (C05); Z = noZ for HB, Z = actb for THB
     fine_coeff n P Z T u J     (represent_fine(lv=T, truncate) @ u)[J]
     t2h n P actb T u           thb_to_hb @ u  = (I - A_{T-1}) ... (I - A_0) u           (C05/HierThb.v)
     h2t T u                    hb_to_thb @ u  = (I + A_0) (I + A_1) ... (I + A_{T-1}) u (here)       *)
From Coq Require Import QArith Qcanon List Bool Arith Lia.
From Verif.lib Require Import Bsp.
From Verif.C05 Require Import Model Proofs Hier HierThb.
Import ListNotations.
Open Scope Qc_scope.

Section Thb.
  Variable n : nat -> nat.
  Variable P : nat -> nat -> nat -> Qc.
  Variable actb : nat -> nat -> bool.

  (* the block A of truncate_one_level(k) applied to w: non-zero rows = the active functions of level
     k+1, entries = represent_fine(lv=k+1, rows=actidx[k+1], truncate=False) restricted to the levels <= k *)
  Definition Acorr (k : nat) (w : nat -> nat -> Qc) (j : nat) : Qc :=
    if actb (S k) j
    then bigsum (S k) (fun l' => bigsum (n l') (fun i => RF n P noZ (S k) (S k - l') j i * w l' i))
    else 0.
  (* truncate_one_level(k) = I - A,  truncate_one_level(k, inverse=True) = I + A *)
  Definition minusA (k : nat) (w : nat -> nat -> Qc) : nat -> nat -> Qc :=
    fun l j => if Nat.eqb l (S k) then w (S k) j - Acorr k w j else w l j.
  Definition plusA (k : nat) (w : nat -> nat -> Qc) : nat -> nat -> Qc :=
    fun l j => if Nat.eqb l (S k) then w (S k) j + Acorr k w j else w l j.

  (* hb_to_thb: T = truncate_one_level(0, inverse=True); for k in 1..L-2: T = T @ truncate_one_level(k, inverse=True) *)
  Fixpoint h2t (T : nat) (u : nat -> nat -> Qc) : nat -> nat -> Qc :=
    match T with O => u | S T' => h2t T' (plusA T' u) end.

  Lemma t2h_S T u : t2h n P actb (S T) u = minusA T (t2h n P actb T u).
  Proof. reflexivity. Qed.

  Lemma Acorr_ext k u v j : (forall l i, (l <= k)%nat -> u l i = v l i) -> Acorr k u j = Acorr k v j.
  Proof.
    intros H. unfold Acorr. destruct (actb (S k) j); [|reflexivity].
    apply bigsum_ext. intros l Hl. apply bigsum_ext. intros i _. rewrite H by lia. reflexivity.
  Qed.

  Lemma minusA_ext k u v : (forall l i, u l i = v l i) -> forall l j, minusA k u l j = minusA k v l j.
  Proof.
    intros H l j. unfold minusA. rewrite (Acorr_ext k u v j) by (intros; apply H). rewrite !H. reflexivity.
  Qed.
  Lemma plusA_ext k u v : (forall l i, u l i = v l i) -> forall l j, plusA k u l j = plusA k v l j.
  Proof.
    intros H l j. unfold plusA. rewrite (Acorr_ext k u v j) by (intros; apply H). rewrite !H. reflexivity.
  Qed.

  (* A is strictly level-raising (rows on level k+1, columns on levels <= k), hence A*A = 0 and
     (I - A)(I + A) = (I + A)(I - A) = I *)
  Lemma minusA_plusA k w l j : minusA k (plusA k w) l j = w l j.
  Proof.
    unfold minusA. rewrite (Acorr_ext k (plusA k w) w j).
    2:{ intros l0 i Hl0. unfold plusA. destruct (Nat.eqb_spec l0 (S k)); [lia|reflexivity]. }
    unfold plusA. rewrite Nat.eqb_refl. destruct (Nat.eqb_spec l (S k)) as [->|]; [ring|reflexivity].
  Qed.
  Lemma plusA_minusA k w l j : plusA k (minusA k w) l j = w l j.
  Proof.
    unfold plusA. rewrite (Acorr_ext k (minusA k w) w j).
    2:{ intros l0 i Hl0. unfold minusA. destruct (Nat.eqb_spec l0 (S k)); [lia|reflexivity]. }
    unfold minusA. rewrite Nat.eqb_refl. destruct (Nat.eqb_spec l (S k)) as [->|]; [ring|reflexivity].
  Qed.

  Lemma h2t_ext : forall T u v, (forall l i, u l i = v l i) -> forall l j, h2t T u l j = h2t T v l j.
  Proof.
    induction T as [|T IH]; intros u v H l j; [apply H|].
    cbn [h2t]. apply IH. intros l0 i. apply plusA_ext. exact H.
  Qed.
  Lemma t2h_ext : forall T u v, (forall l i, u l i = v l i) -> forall l j, t2h n P actb T u l j = t2h n P actb T v l j.
  Proof.
    induction T as [|T IH]; intros u v H l j; [apply H|].
    rewrite !t2h_S. apply minusA_ext. intros l0 i. apply IH. exact H.
  Qed.

  (* coefficient arrays that vanish outside the active functions; I - A and I + A keep them so *)
  Definition act_supp (u : nat -> nat -> Qc) : Prop := forall l i, actb l i = false -> u l i = 0.
  Lemma minusA_supp k u : act_supp u -> act_supp (minusA k u).
  Proof.
    intros H l i Hi. unfold minusA, Acorr. destruct (Nat.eqb_spec l (S k)) as [->|]; [|apply H; exact Hi].
    rewrite Hi. rewrite (H _ _ Hi). ring.
  Qed.
  Lemma plusA_supp k u : act_supp u -> act_supp (plusA k u).
  Proof.
    intros H l i Hi. unfold plusA, Acorr. destruct (Nat.eqb_spec l (S k)) as [->|]; [|apply H; exact Hi].
    rewrite Hi. rewrite (H _ _ Hi). ring.
  Qed.
  (* partition of unity, coefficient form *)
  Variable deactb : nat -> nat -> bool.
  Variable Lmax : nat.
  (* rows of the prolongators sum to one *)
  Hypothesis P_rowsum : forall k j, (k < Lmax)%nat -> (j < n (S k))%nat -> bigsum (n k) (fun i => P k j i) = 1.
  (* every function of level 0 is active or deactivated (Omega_0 is the whole domain) *)
  Hypothesis level0_all : forall i, (i < n 0)%nat -> actb 0 i = true \/ deactb 0 i = true.
  (* children of a deactivated function lie in the refined region of the next level
     (C04.children_closed on reachable states; the hypothesis C05.index_hyp also carries) *)
  Hypothesis children_closed : forall k i j, (k < Lmax)%nat -> (i < n k)%nat -> (j < n (S k))%nat ->
    deactb k i = true -> P k j i <> 0 -> actb (S k) j = true \/ deactb (S k) j = true.

  Definition ind : nat -> nat -> Qc := fun l i => if actb l i then 1 else 0.

  (* the level-T coefficients of the sum of all truncated active functions of levels <= T are 1 on
     every function that is not deactivated on level T *)
  Lemma thb_pou_coeff_l : forall T J, (T <= Lmax)%nat -> (J < n T)%nat -> deactb T J = false ->
    fine_coeff n P actb T ind J = 1.
  Proof.
    induction T as [|T IH]; intros J HT HJ HD.
    - unfold fine_coeff. cbn [bigsum]. replace (0 - 0)%nat with 0%nat by lia. cbn [RF].
      rewrite (bigsum_one _ _ J HJ).
      2:{ intros j Hj Nj. destruct (Nat.eqb_spec J j); [lia|ring]. }
      rewrite Nat.eqb_refl. unfold ind. destruct (level0_all J HJ) as [E|E]; [rewrite E; ring|congruence].
    - rewrite fine_coeff_step by exact HJ. unfold ind at 1. destruct (actb (S T) J) eqn:EA.
      + rewrite bigsum_zero; [ring|]. intros; ring.
      + rewrite (bigsum_ext (n T) _ (fun l => P T J l)).
        * rewrite P_rowsum by (try exact HJ; lia). ring.
        * intros l Hl. destruct (deactb T l) eqn:ED.
          -- destruct (Qc_eq_dec (P T J l) 0) as [E0|E0]; [rewrite E0; ring|].
             exfalso. destruct (children_closed T l J ltac:(lia) Hl HJ ED E0); congruence.
          -- rewrite (IH l ltac:(lia) Hl ED). ring.
  Qed.
End Thb.

Section ThbFunctions.
  Variable X : Type.
  Variable n : nat -> nat.
  Variable B : nat -> nat -> X -> Qc.
  Variable P : nat -> nat -> nat -> Qc.
  Variable Lmax : nat.
  Variable actb : nat -> nat -> bool.

  (* the (truncated for Z = actb, plain for Z = noZ) basis function i of level l, on the finest level T *)
  Definition hfun (Z : nat -> nat -> bool) (T l i : nat) (x : X) : Qc :=
    bigsum (n T) (fun J => RF n P Z T (T - l) J i * B T J x).
  (* evaluation of a coefficient array in the THB basis *)
  Definition thb_eval (T : nat) (u : nat -> nat -> Qc) (x : X) : Qc :=
    bigsum (S T) (fun l => bigsum (n l) (fun i => u l i * hfun actb T l i x)).

  Lemma eval_fine Z T u x :
    bigsum (S T) (fun l => bigsum (n l) (fun i => u l i * hfun Z T l i x))
    = bigsum (n T) (fun J => fine_coeff n P Z T u J * B T J x).
  Proof.
    unfold hfun, fine_coeff. symmetry.
    rewrite (bigsum_ext (n T) _ (fun J => bigsum (S T) (fun l => bigsum (n l) (fun i => RF n P Z T (T - l)%nat J i * u l i * B T J x)))).
    2:{ intros J _. rewrite <- bigsum_scale_r. apply bigsum_ext. intros l _. rewrite <- bigsum_scale_r. reflexivity. }
    rewrite bigsum_swap. apply bigsum_ext. intros l Hl.
    rewrite bigsum_swap. apply bigsum_ext. intros i Hi.
    rewrite <- bigsum_scale. apply bigsum_ext. intros J _. ring.
  Qed.

  (* summing the two-scale relation over a level: the amounts by which the row sums of the prolongator
     differ from one, as coefficients on the finer level, give the difference of the two level sums *)
  Lemma rowsum_defect k x : two_scale_hyp n B P Lmax -> (k < Lmax)%nat ->
    bigsum (n (S k)) (fun j => (bigsum (n k) (fun i => P k j i) - 1) * B (S k) j x)
    = bigsum (n k) (fun i => B k i x) - bigsum (n (S k)) (fun j => B (S k) j x).
  Proof.
    intros two_scale Hk.
    rewrite (bigsum_ext _ _ (fun j => bigsum (n k) (fun i => P k j i * B (S k) j x) + (- (1)) * B (S k) j x)).
    2:{ intros j _. cbv beta. rewrite (bigsum_scale_r (n k) (B (S k) j x) (fun i => P k j i)). ring. }
    rewrite bigsum_plus, bigsum_scale, bigsum_swap.
    rewrite <- (bigsum_ext (n k) (fun i => B k i x)); [ring|].
    intros i Hi. apply (two_scale k i x Hk Hi).
  Qed.

  (* ---- linear independence of the active HB functions -------------------------------------
     cellpts l c = the points of cell c of level l, nz l i c = true iff function i of level l does not
     vanish on that cell. *)
  Variable cellpts : nat -> nat -> X -> Prop.
  Variable nz : nat -> nat -> nat -> bool.
  (* local linear independence of the level-l B-splines on a cell of level l (a B-spline fact: the
     (p+1)^d functions that do not vanish on a cell are polynomials forming a basis there) *)
  Definition local_lin_indep (l c : nat) : Prop :=
    forall a : nat -> Qc, (forall x, cellpts l c x -> bigsum (n l) (fun i => a i * B l i x) = 0) ->
      forall i, (i < n l)%nat -> nz l i c = true -> a i = 0.
  (* every active function has an ACTIVE cell of its own level in its support (C04
     activity_characterisation: supp not contained in Omega_{l+1}), on which all active functions of
     finer levels vanish (their supports lie in Omega_{l+1}) *)
  Definition active_cell_witness (Dom : X -> Prop) (T : nat) : Prop :=
    forall l i, (l <= T)%nat -> (i < n l)%nat -> actb l i = true ->
      exists c, nz l i c = true /\ (forall x, cellpts l c x -> Dom x) /\
        (forall l' i' x, (l < l' <= T)%nat -> (i' < n l')%nat -> actb l' i' = true -> cellpts l c x -> B l' i' x = 0).

  Lemma hb_independent_l (Dom : X -> Prop) T u :
    (forall l c, (l <= T)%nat -> local_lin_indep l c) ->
    active_cell_witness Dom T ->
    act_supp actb u ->
    (forall x, Dom x -> levelwise X n B T u x = 0) ->
    forall l i, (l <= T)%nat -> (i < n l)%nat -> u l i = 0.
  Proof.
    intros Hloc Hwit Hsupp Hzero.
    assert (Main : forall m l i, (l < m)%nat -> (l <= T)%nat -> (i < n l)%nat -> u l i = 0).
    { induction m as [|m IH]; intros l i Hl HlT Hi; [lia|].
      destruct (Nat.eq_dec l m) as [->|Nl]; [|apply IH; [lia|exact HlT|exact Hi]].
      destruct (actb m i) eqn:EA; [|apply Hsupp; exact EA].
      destruct (Hwit m i HlT Hi EA) as [c [Hnz [Hdom Hfiner]]].
      apply (Hloc m c HlT (u m)); [|exact Hi|exact Hnz].
      intros x Hx. rewrite <- (Hzero x (Hdom x Hx)). unfold levelwise. symmetry.
      apply (bigsum_one (S T) (fun l0 => bigsum (n l0) (fun i0 => u l0 i0 * B l0 i0 x)) m); [lia|].
      intros l' Hl' Nl'. apply bigsum_zero. intros i' Hi'.
      destruct (Nat.lt_ge_cases l' m) as [Hlt|Hge].
      - rewrite (IH l' i' Hlt ltac:(lia) Hi'). ring.
      - destruct (actb l' i') eqn:EA'.
        + rewrite (Hfiner l' i' x ltac:(lia) Hi' EA' Hx). ring.
        + rewrite (Hsupp l' i' EA'). ring. }
    intros l i HlT Hi. apply (Main (S l) l i); [lia|exact HlT|exact Hi].
  Qed.
End ThbFunctions.
