(* C04 -- property theorems only, each followed by Print Assumptions; the lemmas are in the Proofs*.v files.

   Vocabulary (coq/C04/Model.v, Proofs.v):
     hs_init axes disp         HSpace(kvs, disparity=disp)
     run st ops                the state after a list of refine / refine_region calls
     ops_valid st ops          every refine call marks currently active cells (any levels, any
                               container, order, repetitions); refine_region calls are arbitrary
     A/D/AF/DF st k            active / deactivated cells, active / deactivated functions of level k
     parent1 c, anc n c        parent cell, n-fold ancestor of a cell multi-index *)
From Coq Require Import List Arith Sorted.
From Verif.lib Require Import ListFacts FinSet.
From Verif.C04 Require Import Model Proofs ProofsFun ProofsMesh ProofsQuery Children ProofsChildren ProofsParents ProofsDisparity ProofsDisparityD Boundary Supports.
Import ListNotations.

(* Invariant of every reachable state, for every dimension, degree, knot multiplicities,
   disparity (>= 1 or infinite) and every history of valid calls:
   active and deactivated cells of a level are disjoint, together they form Omega_k with
   Omega_0 = all cells and Omega_{k+1} = the children of the deactivated cells of level k,
   and the last level has no deactivated cells. *)
Theorem reachable_cells_inv : forall axes disp ops,
  (forall d, disp = Some d -> 1 <= d) ->
  ops_valid (hs_init axes disp) ops ->
  cells_inv (run (hs_init axes disp) ops).
Proof. intros. apply g_cells, good_run; auto. apply good_init; auto. Qed.
Print Assumptions reachable_cells_inv.

(* Active cells tile the parameter domain exactly once: every cell c of the finest level
   (given by its multi-index; its level-0 ancestor is a cell of the coarse mesh) has exactly
   one active ancestor-or-self. *)
Theorem active_cells_tile : forall axes disp ops n c,
  (forall d, disp = Some d -> 1 <= d) ->
  ops_valid (hs_init axes disp) ops ->
  let st := run (hs_init axes disp) ops in
  S n = numlevels st ->
  In (anc n c) (tp_cells (msh st 0)) ->
  exists k, k <= n /\ In (anc (n - k) c) (A st k) /\
    forall k', k' <= n -> In (anc (n - k') c) (A st k') -> k' = k.
Proof.
  intros axes disp ops n c Hd Hv st HL. apply tiling; auto. apply reachable_cells_inv; auto.
Qed.
Print Assumptions active_cells_tile.

(* Canonical order: active_cells(flat=True) and active_functions(flat=True) are strictly
   increasing in (level, lexicographic multi-index) -- in particular without repetition --
   after every history (valid or not) ... *)
Theorem canonical_order : forall axes disp ops,
  let st := run (hs_init axes disp) ops in
  StronglySorted flat_lt (active_cells_flat st) /\ StronglySorted flat_lt (active_functions_flat st).
Proof.
  intros. assert (HS : all_sorted st) by apply all_sorted_run, all_sorted_init.
  split; apply flat_sorted; intros k; apply (HS k).
Qed.
Print Assumptions canonical_order.

(* ... and enumerate exactly the active cells / functions of the levels. *)
Theorem flat_lists_complete : forall st k x,
  (In (k, x) (active_cells_flat st) <-> k < numlevels st /\ In x (A st k)) /\
  (In (k, x) (active_functions_flat st) <-> k < numlevels st /\ In x (AF st k)).
Proof. intros; split; apply In_flat. Qed.
Print Assumptions flat_lists_complete.

(* A knot-vector abstraction (p, multiplicities) is valid when no multiplicity exceeds p+1 and
   there is at least one basis function (every open knot vector is).  For every valid
   tensor-product mesh and EVERY level of its dyadic hierarchy the tables are consistent:
   suppfunc (_compute_supported_functions) is dual to meshsupp (mesh_support_idx_all), every
   support is non-empty and lies inside the mesh. *)
Theorem tables_consistent : forall axes, Forall axis_ok axes ->
  forall j, mesh_ok (Nat.iter j tp_refine (tpmesh_of axes)).
Proof. exact hier_ok_valid. Qed.
Print Assumptions tables_consistent.

(* Activity characterisation, for every valid initial mesh and every history of valid calls: a
   basis function f of level k is active iff its support lies in Omega_k (active + deactivated
   cells of level k) but not entirely in Omega_{k+1} (= the deactivated cells of level k), and
   deactivated iff it lies entirely in the deactivated cells. *)
Theorem activity_characterisation : forall axes disp ops,
  Forall axis_ok axes ->
  (forall d, disp = Some d -> 1 <= d) ->
  ops_valid (hs_init axes disp) ops ->
  funcs_inv (run (hs_init axes disp) ops).
Proof. exact activity_characterisation_full. Qed.
Print Assumptions activity_characterisation.

(* One refinement step preserves the characterisation (the induction step, no hierarchy-wide
   hypothesis: only the meshes present in the state are assumed consistent). *)
Theorem activity_characterisation_step : forall st m,
  cells_inv st -> marks_valid st m -> meshes_fine st -> cells_len st -> cells_len (refined st m) ->
  funcs_inv st -> funcs_inv (refined st m).
Proof. exact funcs_inv_refined. Qed.
Print Assumptions activity_characterisation_step.

(* The result of HSpace.refine does not depend on the container type, the order or the
   repetitions in which the marked cells of each level are given (behaviour after
   fixes/C04-marks-container.patch; the unpatched source raises TypeError for list/tuple
   marks with finite disparity). *)
Theorem marks_any_container : forall st r1 r2 trunc,
  raw_equiv r1 r2 -> hs_refine st r1 trunc = hs_refine st r2 trunc.
Proof.
  intros st r1 r2 trunc H. unfold hs_refine. rewrite (max_marked_equiv _ _ H).
  destruct (max_marked_level r2) as [mx|]; auto.
  rewrite (map_ext _ (fun k => of_list (marks_get r2 k))); [reflexivity|].
  intros k. apply of_list_ext, marks_get_equiv, H.
Qed.
Print Assumptions marks_any_container.

(* Disparity-preserving marking, the call itself: the closure terminates (fuel
   bounded by the level), contains the caller's marks, and consists of currently active
   cells with none on the last level -- so the refinement it triggers is again a valid one. *)
Theorem disparity_admissible_partial : forall st raw trunc st' m,
  good st -> raw_valid st raw -> hs_refine st raw trunc = Ok (st', m) ->
  exists mx, max_marked_level raw = Some mx /\
    let st1 := ensure_levels st (mx + 2) in
    st' = refined st1 m /\ marks_valid st1 m /\
    (forall k c, In c (marks_get raw k) -> In c (mk m k)).
Proof. exact hs_refine_spec. Qed.
Print Assumptions disparity_admissible_partial.

(* The algorithmic half of the admissibility argument: the marks actually refined by
   HSpace.refine with finite disparity d are CLOSED -- every active cell in the neighbourhood
   (support extension on level l - d, or its truncated variant) of the cells marked on level l
   is itself marked on level l - d, for every level l, for default and truncated marking. *)
Theorem marking_closure_closed : forall st raw trunc st' m d,
  hs_disparity st = Some d -> 1 <= d -> hs_refine st raw trunc = Ok (st', m) ->
  exists mx, max_marked_level raw = Some mx /\
    let st1 := ensure_levels st (mx + 2) in
    forall l c, l < numlevels st1 ->
      In c (cell_neighborhood st1 d l (mk m l) trunc) -> In c (mk m (l - d)).
Proof. exact hs_refine_closed. Qed.
Print Assumptions marking_closure_closed.

(* The geometric half, from cells to functions: on every reachable state of a valid hierarchy the cell-level
   condition "around every active cell c of level j, all cells of cell_support_extension(j, [c], k)
   are deactivated for every k with k + d < j" implies admissibility: no active function of level
   k is non-zero on an active cell of level > k + d ... *)
Theorem disparity_admissible_partial_cells : forall axes disp ops,
  Forall axis_ok axes -> (forall d, disp = Some d -> 1 <= d) -> ops_valid (hs_init axes disp) ops ->
  forall d, cell_condition axes disp ops d -> admissible axes disp ops d.
Proof. exact admissible_from_cell_condition_l. Qed.
Print Assumptions disparity_admissible_partial_cells.

(* ... and admissibility is exactly "the incidence matrix has no entry between a function of level
   k and a cell of level > k + d". *)
Theorem admissible_iff_incidence : forall axes disp ops d,
  admissible axes disp ops d <->
  (let st := run (hs_init axes disp) ops in
   forall k f j c, In f (AF st k) -> In c (A st j) -> j < numlevels st -> k + d < j ->
     incidence_entry st (k, f) (j, c) = false).
Proof.
  intros axes disp ops d. unfold admissible. split; intros Hadm k f j c Hf Hc Hj Hkd.
  - apply Bool.not_true_iff_false. intros E. apply incidence_entry_spec in E.
    apply (Hadm k f j c); tauto.
  - intros Hin. specialize (Hadm k f j c Hf Hc Hj Hkd). apply Bool.not_true_iff_false in Hadm.
    apply Hadm, incidence_entry_spec. split; [|exact Hin].
    apply Nat.lt_le_incl, Nat.le_lt_trans with (k + d); [apply Nat.le_add_r | exact Hkd].
Qed.
Print Assumptions admissible_iff_incidence.

(* disparity_admissible itself is at the end of this file (for every finite d >= 1, default marking,
   valid axes with all knot multiplicities >= 1); the truncated marking variant (refine(..., truncate=True))
   is NOT covered by it: marking_closure_closed holds for it, but its neighbourhood is the parent of the
   level-(l-d+1) support extension and the invariant I2d would have to be restated for that set. *)

(* The rational-matrix conjuncts (thb_partition_of_unity, thb_nonneg, hb_thb_inverse, hb_thb_same_space,
   hb_independent) are in Props3.v, over the abstract multilevel basis of C05.  This model has no rational
   part; the harness checks them on the implementation within MAT_TOL (harness/props/c04.py). *)

(* Incidence matrix (any state): the matrix has one row per active function and one column per
   active cell, both in canonical order, and entry (i,j) is 1 iff the level of the function is
   <= the level of the cell and the cell's ancestor on the function's level lies in the
   function's support, i.e. iff function i is non-zero on active cell j. *)
Theorem incidence_spec : forall st i j,
  i < length (active_functions_flat st) -> j < length (active_cells_flat st) ->
  let f := nth i (active_functions_flat st) (0, []) in
  let c := nth j (active_cells_flat st) (0, []) in
  (nth j (nth i (incidence st) []) false = true <->
   fst f <= fst c /\ In (anc (fst c - fst f) (snd c)) (support1 (msh st (fst f)) (snd f))).
Proof.
  intros st i j Hi Hj f c. rewrite incidence_nth by auto. fold f. fold c.
  destruct f as [k fi]. destruct c as [jl ci]. simpl. apply incidence_entry_spec.
Qed.
Print Assumptions incidence_spec.

Theorem incidence_shape_spec : forall st,
  length (incidence st) = length (active_functions_flat st) /\
  Forall (fun r => length r = length (active_cells_flat st)) (incidence st).
Proof.
  intros st. unfold incidence. split; [apply map_length|].
  rewrite Forall_forall. intros r Hr. apply in_map_iff in Hr. destruct Hr as [f [<- _]]. apply map_length.
Qed.
Print Assumptions incidence_shape_spec.

(* The cell/function support queries agree with this geometry on every reachable state of a
   valid hierarchy: the incidence entry equals the answer of TPMesh.supported_in on the
   ancestor cell; supported_in and support are dual; cell_support_extension and
   function_support_extension are the sets their names say. *)
Theorem cell_function_queries_agree : forall axes disp ops,
  Forall axis_ok axes -> (forall d, disp = Some d -> 1 <= d) -> ops_valid (hs_init axes disp) ops ->
  let st := run (hs_init axes disp) ops in
  forall k f j c, k <= j -> j < numlevels st -> In f (AF st k) -> In c (A st j) ->
  (incidence_entry st (k, f) (j, c) = true <-> In f (supported_in (msh st k) [anc (j - k) c])).
Proof.
  intros axes disp ops HA Hd V st k f j c. apply (incidence_entry_supported_in (tpmesh_of axes)).
  - apply reachable_good2; auto.
  - apply hier_ok_valid, HA.
Qed.
Print Assumptions cell_function_queries_agree.

Theorem support_queries_dual : forall axes disp ops,
  Forall axis_ok axes -> (forall d, disp = Some d -> 1 <= d) -> ops_valid (hs_init axes disp) ops ->
  let st := run (hs_init axes disp) ops in
  forall k cs f, k < numlevels st ->
  (forall c, In c cs -> In c (A st k) \/ In c (D st k)) ->
  (In f (supported_in (msh st k) cs) <->
   In f (tp_functions (msh st k)) /\ exists c, In c cs /\ In c (support (msh st k) [f])).
Proof.
  intros axes disp ops HA Hd V st k cs f Hk Hcs.
  pose proof (reachable_good2 axes disp ops HA Hd V) as G. apply supported_in_spec.
  - apply (good2_meshes_fine _ _ (hier_ok_valid axes HA) G k Hk).
  - intros c Hc. apply (g2_len _ _ G k c Hk), Hcs, Hc.
Qed.
Print Assumptions support_queries_dual.

Theorem cell_support_extension_is_support_extension : forall axes disp ops,
  Forall axis_ok axes -> (forall d, disp = Some d -> 1 <= d) -> ops_valid (hs_init axes disp) ops ->
  let st := run (hs_init axes disp) ops in
  forall l cells k c', k <= l -> l < numlevels st ->
  (forall c, In c cells -> In c (A st l) \/ In c (D st l)) ->
  (In c' (cell_support_extension st l cells k) <->
   exists f, In f (tp_functions (msh st k)) /\
             (exists c, In c cells /\ In (anc (l - k) c) (support1 (msh st k) f)) /\
             In c' (support1 (msh st k) f)).
Proof.
  intros axes disp ops HA Hd V st l cells k c'. apply (cell_support_extension_spec (tpmesh_of axes)).
  - apply reachable_good2; auto.
  - apply hier_ok_valid, HA.
Qed.
Print Assumptions cell_support_extension_is_support_extension.

Theorem function_support_extension_is_support_extension : forall axes disp ops,
  Forall axis_ok axes -> (forall d, disp = Some d -> 1 <= d) -> ops_valid (hs_init axes disp) ops ->
  let st := run (hs_init axes disp) ops in
  forall l fs k f', k <= l -> l < numlevels st ->
  (forall f, In f fs -> In f (tp_functions (msh st l))) ->
  (In f' (function_support_extension st l fs k) <->
   In f' (tp_functions (msh st k)) /\
   exists f c, In f fs /\ In c (support1 (msh st l) f) /\ In (anc (l - k) c) (support1 (msh st k) f')).
Proof.
  intros axes disp ops HA Hd V st l fs k f'. apply (function_support_extension_spec (tpmesh_of axes)).
  - apply reachable_good2; auto.
  - apply hier_ok_valid, HA.
Qed.
Print Assumptions function_support_extension_is_support_extension.

(* Function children (Children.v: the children of the 1-D function j on the dyadically refined axis are
   the index range phi(j) .. phi(j+p+1)-(p+1); tensor product over the axes; tied exactly to
   HMesh.function_children / function_parents / grand* of the implementation on every run).
   Every child of a function of a valid mesh is a function of the refined mesh, and its support (in
   refined cells) is contained in the parent's support refined once. *)
Theorem children_inside_parent_support : forall axes f g, Forall axis_ok axes ->
  In f (tp_functions (tpmesh_of axes)) ->
  In g (children1 (tpmesh_of axes) f) ->
  In g (tp_functions (tp_refine (tpmesh_of axes))) /\
  forall c', In c' (support1 (tp_refine (tpmesh_of axes)) g) -> In (parent1 c') (support1 (tpmesh_of axes) f).
Proof. exact children_inside_parent_support_l. Qed.
Print Assumptions children_inside_parent_support.

(* On every reachable state the children of a deactivated function of level k are active or
   deactivated functions of level k+1 (the form C05's prolongation builder needs). *)
Theorem children_closed : forall axes disp ops,
  Forall axis_ok axes -> (forall d, disp = Some d -> 1 <= d) -> ops_valid (hs_init axes disp) ops ->
  let st := run (hs_init axes disp) ops in
  forall k f g, In f (DF st k) -> In g (function_children st k [f]) ->
  In g (AF st (S k)) \/ In g (DF st (S k)).
Proof.
  intros axes disp ops HA Hd V st. apply (children_closed_good2 axes HA), reachable_good2; auto.
Qed.
Print Assumptions children_closed.

(* Every function of the refined mesh is a child of some function of the mesh (valid axes whose knot
   multiplicities are all >= 1). *)
Theorem every_function_has_parent : forall axes g, Forall axis_ok axes -> Forall axis_pos axes ->
  In g (tp_functions (tp_refine (tpmesh_of axes))) ->
  exists f, In f (tp_functions (tpmesh_of axes)) /\ In g (children1 (tpmesh_of axes) f).
Proof. exact parent_exists_l. Qed.
Print Assumptions every_function_has_parent.

(* Nestedness of support extensions across levels: a cell in the level-l support extension of a level-l
   cell c has its parent in the level-(l-1) support extension of c. *)
Theorem support_extensions_nested : forall axes, Forall axis_ok axes -> Forall axis_pos axes ->
  forall st l c c', good2 (tpmesh_of axes) st -> 1 <= l -> l < numlevels st ->
  inCSE st l c l c' -> inCSE st l c (l - 1) (parent1 c').
Proof.
  intros axes HA HP st [|l] c c' G Hl1 HlL Hin; [inversion Hl1|].
  simpl. rewrite Nat.sub_0_r. apply (support_extension_nested axes HA HP); auto.
Qed.
Print Assumptions support_extensions_nested.

(* DISPARITY, every finite d >= 1, default marking (refine(marked) without truncate=True, refine_region):
   after every history of valid calls no active function of level k is non-zero on an active cell of level
   > k + d.  (Induction over the calls with the cell-level invariants CCd / I2d of ProofsDisparityD.v,
   marking_closure_closed, support_extensions_nested, every_function_has_parent and the activity
   characterisation.) *)
Theorem disparity_admissible : forall axes, Forall axis_ok axes -> Forall axis_pos axes ->
  forall d, 1 <= d ->
  forall ops, ops_valid (hs_init axes (Some d)) ops -> Forall op_default ops ->
  admissible axes (Some d) ops d.
Proof.
  intros axes HA HP d Hd ops V Hdef. apply admissible_from_cell_condition_l; auto.
  - intros d0 E. injection E as <-. exact Hd.
  - apply cell_condition_d; auto.
Qed.
Print Assumptions disparity_admissible.

(* DISPARITY 1: after every history of valid calls no active function of level k is non-zero on an active
   cell of level > k + 1. *)
Theorem disparity_admissible_d1 : forall axes, Forall axis_ok axes -> Forall axis_pos axes ->
  forall ops, ops_valid (hs_init axes (Some 1)) ops -> Forall op_default ops ->
  admissible axes (Some 1) ops 1.
Proof. intros axes HA HP. exact (disparity_admissible axes HA HP 1 (le_n 1)). Qed.
Print Assumptions disparity_admissible_d1.

(* hmesh_cells merges the per-level results (a missing merge, dict.update instead of _dict_union, is
   what one of the seeded changes broke): its level-k entry is the union over the query levels lv of the
   level-k entries of _TP_to_HMesh_cells(lv, cells[lv]).
   NOT PROVED: that on reachable states the supports of all active functions cover all active cells
   (supports_cover_b); evaluated on the implementation and compared with the model on every run. *)
Theorem hmesh_cells_is_union_over_levels : forall st cells k c,
  In c (nth k (hmesh_cells st cells) []) <->
  k < numlevels st /\ exists lv, lv < numlevels st /\ In c (nth k (tp_to_hmesh st lv (nth lv cells [])) []).
Proof.
  intros st cells k c. unfold hmesh_cells. cbv zeta.
  destruct (Nat.lt_ge_cases k (numlevels st)) as [Hk|Hk].
  - rewrite nth_map_seq by exact Hk. cbn [Nat.add]. rewrite (In_fold_union _ (fun d => nth k d [])). simpl. split.
    + intros [[]|[d [Hd Hc]]]. apply in_map_iff in Hd. destruct Hd as [lv [<- Hlv]]. apply in_seq in Hlv.
      split; auto. exists lv. split; [apply Hlv | exact Hc].
    + intros [_ [lv [Hlv Hc]]]. right. exists (tp_to_hmesh st lv (nth lv cells [])). split; auto.
      apply in_map_iff. exists lv. split; auto. apply in_seq. split; [apply Nat.le_0_l | exact Hlv].
  - rewrite nth_overflow by (rewrite map_length, seq_length; auto). simpl. split; [tauto|].
    intros [H _]. destruct (Nat.lt_irrefl k (Nat.lt_le_trans _ _ _ H Hk)).
Qed.
Print Assumptions hmesh_cells_is_union_over_levels.
