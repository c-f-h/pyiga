(* C04 -- the rational-matrix conjuncts (THB partition of unity, non-negativity, HB<->THB inverse,
   same space, linear independence): property theorems only, each followed by Print Assumptions; the lemmas
   are in ProofsThb.v.

   Setting (C05/Hier.v, section Multilevel; any number of levels, any dimension): n k = number of
   tensor-product B-splines of level k, B k i = the i-th of them (raveled index), P k = the
   prolongator tp_prolongation(k) with the two-scale relation
   two_scale_hyp n B P Lmax :  B k i x = sum_j P k j i * B (k+1) j x   (k < Lmax)
   (C05.tp_two_scale: holds for tensor-product B-splines of dyadically refined knot vectors).
   actb l i / deactb l i: function i of level l is active / deactivated.  Coefficient arrays
   u : level -> index -> Qc stand for split_coeffs + _reindex (zero outside the active functions).
     RF n P Z T m J i         the block of level T-m of represent_fine(lv=T); Z = noZ: HB, Z = actb: THB
     fine_coeff n P Z T u J   (represent_fine(lv=T, truncate) @ u)[J]
     hfun .. Z T l i x        the (truncated, for Z = actb) basis function i of level l, through its
                              representation on the finest level T
     t2h n P actb T u         thb_to_hb @ u = truncate_one_level(T-1) @ .. @ truncate_one_level(0) @ u
     h2t n P actb T u         hb_to_thb @ u = truncate_one_level(0, inverse=True) @ .. @ (T-1, inverse=True) @ u
   Tie: the implementation's matrices are checked against these statements within MAT_TOL only
   (harness/props/c04.py); an exact Gallina evaluation of the model is not in place yet. *)
From Coq Require Import QArith Qcanon List Bool Arith.
From Verif.lib Require Import QcFacts.
From Verif.C05 Require Import Model Proofs Hier HierThb.
From Verif.C04 Require Import ProofsThb.
Open Scope Qc_scope.

(* thb_to_hb and hb_to_thb are mutually inverse (both products), for every number of levels, every
   prolongator family and every set of active functions: truncate_one_level(k) = I -+ A with A
   strictly level-raising (rows on level k+1, columns on levels <= k). *)
Theorem hb_thb_inverse : forall n P actb T u l j,
  h2t n P actb T (t2h n P actb T u) l j = u l j.
Proof.
  intros n P actb. induction T as [|T IH]; intros u l j; [reflexivity|].
  rewrite t2h_S. cbn [h2t].
  rewrite (h2t_ext n P actb T _ (t2h n P actb T u)) by (intros; apply plusA_minusA). apply IH.
Qed.
Print Assumptions hb_thb_inverse.

Theorem thb_hb_inverse : forall n P actb T u l j,
  t2h n P actb T (h2t n P actb T u) l j = u l j.
Proof.
  intros n P actb. induction T as [|T IH]; intros u l j; [reflexivity|].
  rewrite t2h_S. cbn [h2t].
  rewrite (minusA_ext n P actb T _ (plusA n P actb T u)) by (intros; apply IH). apply minusA_plusA.
Qed.
Print Assumptions thb_hb_inverse.

(* both transforms map coefficient arrays supported on the active functions to such arrays *)
Theorem thb_to_hb_keeps_active_support : forall n P actb T u,
  act_supp actb u -> act_supp actb (t2h n P actb T u).
Proof.
  intros n P actb. induction T as [|T IH]; intros u H; [exact H|].
  rewrite t2h_S. apply minusA_supp, IH, H.
Qed.
Print Assumptions thb_to_hb_keeps_active_support.
Theorem hb_to_thb_keeps_active_support : forall n P actb T u,
  act_supp actb u -> act_supp actb (h2t n P actb T u).
Proof.
  intros n P actb. induction T as [|T IH]; intros u H; [exact H|].
  cbn [h2t]. apply IH, plusA_supp, H.
Qed.
Print Assumptions hb_to_thb_keeps_active_support.

(* Same space, function level: every combination of THB functions is the combination of HB functions
   with coefficients thb_to_hb @ u, and every combination of HB functions is the combination of THB
   functions with coefficients hb_to_thb @ u (any number of levels, any dimension). *)
Theorem hb_thb_same_space : forall (X : Type) n (B : nat -> nat -> X -> Qc) P Lmax actb,
  two_scale_hyp n B P Lmax ->
  forall T u x, (T <= Lmax)%nat ->
    thb_eval X n B P actb T u x = levelwise X n B T (t2h n P actb T u) x.
Proof.
  intros X n B P Lmax actb TS T u x HT. unfold thb_eval. rewrite eval_fine. symmetry.
  apply (levelwise_thb_l n B P Lmax actb TS T u x HT).
Qed.
Print Assumptions hb_thb_same_space.

Theorem hb_thb_same_space_converse : forall (X : Type) n (B : nat -> nat -> X -> Qc) P Lmax actb,
  two_scale_hyp n B P Lmax ->
  forall T u x, (T <= Lmax)%nat ->
    levelwise X n B T u x = thb_eval X n B P actb T (h2t n P actb T u) x.
Proof.
  intros X n B P Lmax actb TS T u x HT. rewrite (hb_thb_same_space X n B P Lmax actb TS) by exact HT.
  apply levelwise_ext. intros l i _ _. symmetry. apply thb_hb_inverse.
Qed.
Print Assumptions hb_thb_same_space_converse.

(* ... and matrix level: represent_fine(truncate=True) @ hb_to_thb = represent_fine(truncate=False)
   (the other identity, represent_fine(False) @ thb_to_hb = represent_fine(True), is
   C05.thb_to_hb_represent_fine) *)
Theorem represent_fine_thb_hb_to_thb : forall n P actb T u J, (J < n T)%nat ->
  fine_coeff n P actb T (h2t n P actb T u) J = fine_coeff n P noZ T u J.
Proof.
  intros n P actb T u J HJ. rewrite <- (thb_coeffs_l n P actb T (h2t n P actb T u) J HJ).
  apply fine_coeff_ext. intros l i _. apply thb_hb_inverse.
Qed.
Print Assumptions represent_fine_thb_hb_to_thb.

(* Non-negativity: with non-negative two-scale coefficients every entry of represent_fine (HB or
   THB) is non-negative, and every basis function is non-negative wherever the finest-level
   B-splines are. *)
Theorem represent_fine_nonneg : forall n (P : nat -> nat -> nat -> Qc) Z T,
  (forall k j i, 0 <= P k j i) -> forall m J i, 0 <= RF n P Z T m J i.
Proof.
  intros n P Z T P_nonneg. induction m as [|m IH]; intros J i; cbn [RF].
  - destruct (Nat.eqb J i); [discriminate|apply Qcle_refl].
  - apply bigsum_nonneg. intros l _. apply Qcmult_nonneg; [apply IH|].
    destruct (Z (T - m)%nat l); [apply Qcle_refl|apply P_nonneg].
Qed.
Print Assumptions represent_fine_nonneg.

Theorem thb_nonneg : forall (X : Type) n (B : nat -> nat -> X -> Qc) (P : nat -> nat -> nat -> Qc) Z T l i x,
  (forall k j i, 0 <= P k j i) -> (forall J, (J < n T)%nat -> 0 <= B T J x) ->
  0 <= hfun X n B P Z T l i x.
Proof.
  intros X n B P Z T l i x HP HB. unfold hfun. apply bigsum_nonneg. intros J HJ.
  apply Qcmult_nonneg; [apply represent_fine_nonneg, HP | apply HB, HJ].
Qed.
Print Assumptions thb_nonneg.

(* Partition of unity, matrix form: represent_fine(lv=T, truncate=True) applied to the all-ones vector
   gives 1 in every row that is not a deactivated function of level T (on the finest level: every row).
   Hypotheses: rows of the prolongators sum to one; every level-0 function is active or deactivated;
   children of deactivated functions are active or deactivated (C04.children_closed on reachable
   states). *)
Theorem thb_partition_of_unity_coeff : forall n (P : nat -> nat -> nat -> Qc) actb deactb Lmax,
  (forall k j, (k < Lmax)%nat -> (j < n (S k))%nat -> bigsum (n k) (fun i => P k j i) = 1) ->
  (forall i, (i < n 0%nat)%nat -> actb 0%nat i = true \/ deactb 0%nat i = true) ->
  (forall k i j, (k < Lmax)%nat -> (i < n k)%nat -> (j < n (S k))%nat ->
     deactb k i = true -> P k j i <> 0 -> actb (S k) j = true \/ deactb (S k) j = true) ->
  forall T J, (T <= Lmax)%nat -> (J < n T)%nat -> deactb T J = false ->
  fine_coeff n P actb T (ind actb) J = 1.
Proof. exact thb_pou_coeff_l. Qed.
Print Assumptions thb_partition_of_unity_coeff.

(* Partition of unity, function level: the truncated active functions sum to one at every point
   where the finest-level B-splines do. *)
Theorem thb_partition_of_unity : forall (X : Type) n (B : nat -> nat -> X -> Qc) (P : nat -> nat -> nat -> Qc) Lmax
    (actb deactb : nat -> nat -> bool) T x,
  (T <= Lmax)%nat ->
  (forall k j, (k < Lmax)%nat -> (j < n (S k))%nat -> bigsum (n k) (fun i => P k j i) = 1) ->
  (forall i, (i < n 0%nat)%nat -> actb 0%nat i = true \/ deactb 0%nat i = true) ->
  (forall k i j, (k < Lmax)%nat -> (i < n k)%nat -> (j < n (S k))%nat ->
     deactb k i = true -> P k j i <> 0 -> actb (S k) j = true \/ deactb (S k) j = true) ->
  (forall J, (J < n T)%nat -> deactb T J = false) ->
  bigsum (n T) (fun J => B T J x) = 1 ->
  bigsum (S T) (fun l => bigsum (n l) (fun i => if actb l i then hfun X n B P actb T l i x else 0)) = 1.
Proof.
  intros X n B P Lmax actb deactb T x HT Hrow H0 Hcc Hfin HB.
  rewrite (bigsum_ext (S T) _ (fun l => bigsum (n l) (fun i => ind actb l i * hfun X n B P actb T l i x))).
  2:{ intros l _. apply bigsum_ext. intros i _. unfold ind. destruct (actb l i); ring. }
  rewrite eval_fine, <- HB. apply bigsum_ext. intros J HJ.
  rewrite (thb_pou_coeff_l n P actb deactb Lmax Hrow H0 Hcc T J HT HJ (Hfin J HJ)). ring.
Qed.
Print Assumptions thb_partition_of_unity.

(* The row-sum hypothesis is a consequence of level-wise partition of unity and linear independence of
   the finer level's B-splines on the domain. *)
Theorem prolongator_rows_sum_one_from_pou : forall (X : Type) n (B : nat -> nat -> X -> Qc) P Lmax,
  two_scale_hyp n B P Lmax ->
  forall (Dom : X -> Prop) k, (k < Lmax)%nat ->
  (forall x, Dom x -> bigsum (n k) (fun i => B k i x) = 1) ->
  (forall x, Dom x -> bigsum (n (S k)) (fun j => B (S k) j x) = 1) ->
  (forall a : nat -> Qc, (forall x, Dom x -> bigsum (n (S k)) (fun j => a j * B (S k) j x) = 0) ->
     forall j, (j < n (S k))%nat -> a j = 0) ->
  forall j, (j < n (S k))%nat -> bigsum (n k) (fun i => P k j i) = 1.
Proof.
  intros X n B P Lmax TS Dom k Hk H1 H2 Hind j Hj.
  assert (E : bigsum (n k) (fun i => P k j i) - 1 = 0).
  { apply (Hind (fun j => bigsum (n k) (fun i => P k j i) - 1)); [|exact Hj].
    intros x Hx. rewrite (rowsum_defect X n B P Lmax k x TS Hk), (H1 x Hx), (H2 x Hx). ring. }
  replace (bigsum (n k) (fun i => P k j i)) with (bigsum (n k) (fun i => P k j i) - 1 + 1) by ring. rewrite E. ring.
Qed.
Print Assumptions prolongator_rows_sum_one_from_pou.

(* Linear independence of the active HB functions on Dom, under the two NAMED hypotheses
     local_lin_indep l c      the level-l B-splines that do not vanish on cell c of level l are linearly
                              independent on that cell (a B-spline fact, not proved here);
     active_cell_witness      every active function has an active cell of its own level in its support,
                              on which all active functions of finer levels vanish (geometry: C04's
                              activity_characterisation -- supp not contained in Omega_{l+1}; the bridge
                              from C04's index tables to point sets is not formalised). *)
Theorem hb_independent : forall (X : Type) n (B : nat -> nat -> X -> Qc) actb cellpts nz (Dom : X -> Prop) T u,
  (forall l c, (l <= T)%nat -> local_lin_indep X n B cellpts nz l c) ->
  active_cell_witness X n B actb cellpts nz Dom T ->
  act_supp actb u ->
  (forall x, Dom x -> levelwise X n B T u x = 0) ->
  forall l i, (l <= T)%nat -> (i < n l)%nat -> u l i = 0.
Proof. exact hb_independent_l. Qed.
Print Assumptions hb_independent.

(* NOT PROVED: local linear independence of B-splines on a cell (hypothesis local_lin_indep) and the
   bridge from C04's integer tables to point sets (active_cell_witness, children_closed as a statement
   about non-zero prolongator entries; C05.children_closed_reachable has the latter for the index
   pattern); linear independence of the THB functions is the composition of hb_independent with
   hb_thb_same_space and hb_thb_inverse and is not stated separately. *)
