(* C05 -- HSpace.boundary (hierarchical.py:540-580): the boundary space keeps, per level, the functions whose
   multi-index has the first resp. last index on the boundary axis (assemble.boundary_dofs) and drops that
   component (_drop_index_in_tuples).  On the tensor-product model TPN of C05/Hier.v: the trace of the
   tensor-product B-spline with multi-index (i1, j, i2) on the face  x_axis = end of the knot vector  is
   [j = end index] * the tensor-product B-spline (i1, i2) of the remaining axes (Props3.tp_trace).  Here: the
   end-point values of the Cox-de Boor reference (from coq/C07/Ends.v) and the splitting of TPN along a
   concatenation of axes. *)
From Coq Require Import QArith Qcanon List Arith Lia.
From Verif.lib Require Import Bsp ListFacts.
From Verif.C02 Require Import Proofs.
From Verif.C05 Require Import Model Proofs Hier.
Require Verif.C07.Ends.
Import ListNotations.
Open Scope Qc_scope.

Definition open_ends (kv : list Qc) (p : nat) : Prop := kv_ok kv p /\ kn kv p < kn kv (S p).
Definition end_idx (kv : list Qc) (p side : nat) : nat := if Nat.eqb side 0 then 0%nat else (numdofs kv p - 1)%nat.
Definition end_pt (kv : list Qc) (side : nat) : Qc := if Nat.eqb side 0 then kn kv 0 else kn kv (length kv - 1).

Lemma N_at_end kv p side j : open_ends kv p -> (j < numdofs kv p)%nat ->
  Nref kv p j (end_pt kv side) = if Nat.eqb j (end_idx kv p side) then 1 else 0.
Proof.
  intros [Hok Hlt] Hj. unfold end_pt, end_idx. destruct (Nat.eqb side 0).
  - apply Verif.C07.Ends.N_at_left_end; assumption.
  - apply (Verif.C07.Ends.N_at_right_end kv p j Hok Hj).
Qed.

Lemma tp_dofs_app k1 r : tp_dofs (k1 ++ r) = (tp_dofs k1 * tp_dofs r)%nat.
Proof. induction k1 as [|[kv p] k1 IH]; cbn [app tp_dofs]; [lia|]. rewrite IH. lia. Qed.

(* C-order raveling splits along a concatenation of axes *)
Lemma TPN_app : forall k1 r a b xs1 xs2,
  length xs1 = length k1 -> (a < tp_dofs k1)%nat -> (b < tp_dofs r)%nat ->
  TPN (k1 ++ r) (a * tp_dofs r + b) (xs1 ++ xs2) = TPN k1 a xs1 * TPN r b xs2.
Proof.
  induction k1 as [|[kv p] k1 IH]; intros r a b xs1 xs2 Hl Ha Hb.
  - destruct xs1; [|discriminate]. cbn [tp_dofs] in Ha. assert (a = 0)%nat by lia. subst a.
    cbn [app TPN Nat.mul Nat.add]. ring.
  - destruct xs1 as [|x xs1]; [discriminate|]. cbn [length] in Hl.
    cbn [app TPN tp_dofs hd tl] in *. rewrite tp_dofs_app.
    set (d1 := tp_dofs k1) in *. set (dr := tp_dofs r) in *.
    assert (Hd1 : (0 < d1)%nat) by (destruct d1; lia).
    pose proof (Nat.div_mod a d1 ltac:(lia)) as Ea.
    pose proof (Nat.mod_upper_bound a d1 ltac:(lia)) as Hs.
    set (q := (a / d1)%nat) in *. set (s := (a mod d1)%nat) in *.
    assert (Hsb : (s * dr + b < d1 * dr)%nat) by nia.
    assert (Eidx : (a * dr + b = q * (d1 * dr) + (s * dr + b))%nat) by nia.
    rewrite Eidx. destruct (divmod_lin q (d1 * dr) (s * dr + b) Hsb) as [-> ->].
    subst dr. rewrite (IH r s b xs1 xs2) by lia. ring.
Qed.
