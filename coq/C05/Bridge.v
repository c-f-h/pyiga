(* C05 -- bridge between the knot-function model of C05 (list Qc, Boehm knot insertion) and the integer
   child pattern of C04 (coq/C04/Children.v: children_1d / is_child_1d).

   Any refinement: the non-zero entries of the exact knot-insertion product prolongation_spec kv p us lie in
   posmap i <= j <= posmap (i+p+1) - (p+1),  posmap x = position of the x-th coarse knot in the refined knot
   vector (composition of the shifts of the single insertions): ki_support for one insertion, the product in
   Props3.prolongation_support.
   posmap x = x + #{u in us : u < kv[x]}  (Props3.posmap_counts; any refinement, any order of us).
   One new knot strictly inside every mesh span (KnotVector.refine(): the mid points), any multiplicities:
   #{u < kv[x]} = mesh index of knot x = k2m[x]  (cnt_lt_spans), hence posmap = C04's phi
   (Props3.posmap_is_phi), from which Props3.dyadic_child_pattern places the non-zero entries inside
   is_child_1d. *)
From Coq Require Import QArith Qcanon Qcabs ZArith List Bool Arith Lia.
From Verif.lib Require Import Bsp QcFacts ListFacts.
From Verif.C02 Require Import Proofs.
From Verif.C05 Require Import Model Proofs.
Require Verif.C04.Model Verif.C04.Children.
Import ListNotations.
Open Scope Qc_scope.

Module M4 := Verif.C04.Model.
Module C4 := Verif.C04.Children.

(* new position of the x-th knot after a knot has been inserted behind position k *)
Definition shift (k x : nat) : nat := if (x <=? k)%nat then x else S x.

Fixpoint posmap (kv : list Qc) (p : nat) (us : list Qc) (x : nat) : nat :=
  match us with
  | [] => x
  | u :: us' => posmap (insert_knot kv p u) p us' (shift (findspan kv p u) x)
  end.

Lemma shift_mono k x y : (x <= y)%nat -> (shift k x <= shift k y)%nat.
Proof. unfold shift. intros H. destruct (Nat.leb_spec x k); destruct (Nat.leb_spec y k); lia. Qed.

Lemma posmap_mono us : forall kv p x y, (x <= y)%nat -> (posmap kv p us x <= posmap kv p us y)%nat.
Proof. induction us as [|u us IH]; intros kv p x y H; cbn [posmap]; [exact H|]. apply IH. apply shift_mono. exact H. Qed.

Lemma ki_support kv p u j i :
  kv_ok kv p -> kn kv 0 <= u -> u <= kn kv (length kv - 1) ->
  (i < numdofs kv p)%nat -> (j < S (numdofs kv p))%nat ->
  lookup (knot_insertion kv p u) j i <> 0 ->
  (shift (findspan kv p u) i <= j)%nat /\ (j + p + 1 <= shift (findspan kv p u) (i + p + 1))%nat.
Proof.
  intros Hok Hu0 Hu1 Hi Hj Hnz.
  destruct (findspan_in kv p u Hok Hu0 Hu1) as [A [B _]].
  unfold knot_insertion in Hnz. set (k := findspan kv p u) in *.
  rewrite ki_lookup in Hnz by assumption. unfold ki_entry, ki_coef in Hnz. unfold shift.
  destruct (Nat.eqb_spec j i) as [->|Nji].
  - destruct (Nat.leb_spec i k) as [C|C].
    + destruct (Nat.leb_spec (i + p + 1) k); lia.
    + exfalso. apply Hnz. destruct (Nat.leb_spec (i + p) k); [lia|reflexivity].
  - destruct (Nat.eqb_spec j (S i)) as [->|Nji'].
    + destruct (Nat.leb_spec (S i + p) k) as [C1|C1].
      * exfalso. apply Hnz. ring.
      * destruct (Nat.leb_spec i k); destruct (Nat.leb_spec (i + p + 1) k); lia.
    + exfalso. apply Hnz. reflexivity.
Qed.

Definition cnt_lt (us : list Qc) (t : Qc) : nat := length (filter (fun u => qltb u t) us).

(* spans bs us: bs = the break points (strictly increasing), us = one point strictly inside each span *)
Inductive spans : list Qc -> list Qc -> Prop :=
| sp_one b : spans [b] []
| sp_cons a b t u us : a < u -> u < b -> spans (b :: t) us -> spans (a :: b :: t) (u :: us).

(* the mid points, KnotVector.refine() bspline.py:176-183 *)
Fixpoint mids (bs : list Qc) : list Qc :=
  match bs with
  | a :: t => match t with b :: _ => (a + b) / (1 + 1) :: mids t | [] => [] end
  | [] => []
  end.

Fixpoint increasing (bs : list Qc) : Prop :=
  match bs with
  | a :: t => match t with b :: _ => a < b /\ increasing t | [] => True end
  | [] => True
  end.

Lemma mid_between (a b : Qc) : a < b -> a < (a + b) / (1 + 1) /\ (a + b) / (1 + 1) < b.
Proof.
  intros H. assert (E : (a + b) / (1 + 1) = a + (b - a) / (1 + 1)) by (field; discriminate).
  assert (P : 0 < (b - a) / (1 + 1)).
  { unfold Qcdiv. replace 0 with (0 * / (1 + 1)) by ring. apply Qcmult_lt_compat_r; [reflexivity|apply Qcsub_pos; exact H]. }
  assert (E2 : b = a + (b - a) / (1 + 1) + (b - a) / (1 + 1)) by (field; discriminate).
  split; apply Qclt_minus_iff.
  - replace ((a + b) / (1 + 1) + - a) with ((b - a) / (1 + 1)) by (field; discriminate). exact P.
  - replace (b + - ((a + b) / (1 + 1))) with ((b - a) / (1 + 1)) by (field; discriminate). exact P.
Qed.

Lemma spans_mids bs : bs <> [] -> increasing bs -> spans bs (mids bs).
Proof.
  induction bs as [|a t IH]; intros Hne Hinc; [congruence|].
  destruct t as [|b t']; [constructor|].
  destruct Hinc as [Hab Hinc]. destruct (mid_between a b Hab) as [M1 M2].
  change (mids (a :: b :: t')) with ((a + b) / (1 + 1) :: mids (b :: t')).
  constructor; [exact M1|exact M2|]. apply IH; [discriminate|exact Hinc].
Qed.

Lemma spans_hd_lt bs us : spans bs us -> Forall (fun u => hd 0 bs < u) us.
Proof.
  induction 1 as [b|a b t u us Hau Hub Hs IH]; [constructor|]. cbn [hd] in *. constructor; [exact Hau|].
  eapply Forall_impl; [|exact IH]. intros c Hc. eapply Qclt_trans; [exact Hau|]. eapply Qclt_trans; eassumption.
Qed.

Lemma spans_lt_last bs us : spans bs us -> Forall (fun u => u < last bs 0) us.
Proof.
  induction 1 as [b|a b t u us Hau Hub Hs IH]; [constructor|].
  change (last (a :: b :: t) 0) with (last (b :: t) 0). constructor; [|exact IH].
  inversion Hs; subst.
  - exact Hub.
  - inversion IH; subst. eapply Qclt_trans; [exact Hub|]. eapply Qclt_trans; eassumption.
Qed.

Lemma spans_nth_ge bs us : spans bs us -> forall m, (m < length bs)%nat -> hd 0 bs <= nth m bs 0.
Proof.
  induction 1 as [b|a b t u us Hau Hub Hs IH]; intros m Hm.
  - destruct m; [apply Qcle_refl|cbn in Hm; lia].
  - destruct m; [apply Qcle_refl|]. cbn [hd nth length] in *.
    apply Qclt_le_weak. eapply Qclt_le_trans; [eapply Qclt_trans; eassumption|]. apply (IH m). lia.
Qed.

Lemma cnt_lt_zero us t : Forall (fun u => t <= u) us -> cnt_lt us t = 0%nat.
Proof.
  induction 1 as [|u us Hu _ IH]; [reflexivity|]. unfold cnt_lt in *. cbn [filter].
  destruct (qltb u t) eqn:Q; [apply qltb_iff in Q; exfalso; revert Q; apply Qcle_not_lt; exact Hu|exact IH].
Qed.

(* the number of new knots before the m-th break point is m *)
Lemma cnt_lt_spans bs us : spans bs us -> forall m, (m < length bs)%nat -> cnt_lt us (nth m bs 0) = m.
Proof.
  induction 1 as [b|a b t u us Hau Hub Hs IH]; intros m Hm.
  - cbn in Hm. destruct m; [reflexivity|lia].
  - destruct m as [|m].
    + cbn [nth]. apply cnt_lt_zero. constructor; [apply Qclt_le_weak; exact Hau|].
      eapply Forall_impl; [|exact (spans_hd_lt _ _ Hs)]. cbn [hd]. intros c Hc.
      apply Qclt_le_weak. eapply Qclt_trans; [exact Hau|]. eapply Qclt_trans; eassumption.
    + change (nth (S m) (a :: b :: t) 0) with (nth m (b :: t) 0). cbn [length] in Hm.
      assert (Hge : b <= nth m (b :: t) 0) by (apply (spans_nth_ge _ _ Hs m); cbn [length]; lia).
      unfold cnt_lt. cbn [filter].
      destruct (qltb u (nth m (b :: t) 0)) eqn:Q.
      * cbn [length]. f_equal. apply IH. cbn [length]. lia.
      * apply qltb_false_iff in Q. exfalso. revert Hub. apply Qcle_not_lt. eapply Qcle_trans; eassumption.
Qed.

(* kv is the knot vector of the integer axis a with break points bs: knot x has the value bs[k2m[x]] *)
Definition axis_of (a : M4.axis) (bs kv : list Qc) : Prop :=
  length (M4.k2m a) = length kv /\ kn kv 0 = hd 0 bs /\ kn kv (length kv - 1) = last bs 0 /\
  forall x, (x < length kv)%nat ->
    (nth x (M4.k2m a) 0 < length bs)%nat /\ kn kv x = nth (nth x (M4.k2m a) 0%nat) bs 0.

Lemma spans_in_dom a bs kv us : axis_of a bs kv -> spans bs us -> Forall (in_dom kv) us.
Proof.
  intros [_ [E0 [E1 _]]] Hs. pose proof (spans_hd_lt _ _ Hs) as H1. pose proof (spans_lt_last _ _ Hs) as H2.
  rewrite Forall_forall in *. intros u Hu. unfold in_dom. rewrite E0, E1.
  split; [apply Qclt_le_weak; apply H1; exact Hu|apply H2; exact Hu].
Qed.

(* the knot vector built from break points and multiplicities is the knot vector of the axis *)
Fixpoint expand (bs : list Qc) (mults : list nat) : list Qc :=
  match bs, mults with
  | b :: bs', m :: ms' => repeat b m ++ expand bs' ms'
  | _, _ => []
  end.

Lemma expand_length : forall mults bs i, length bs = length mults ->
  length (M4.k2m_aux i mults) = length (expand bs mults).
Proof.
  induction mults as [|m ms IH]; intros [|b bs] i H; cbn in *; try reflexivity; try discriminate.
  rewrite !app_length, !repeat_length. rewrite (IH bs (S i)) by lia. reflexivity.
Qed.

Lemma expand_k2m : forall mults bs i x, length bs = length mults -> (x < length (expand bs mults))%nat ->
  exists m, nth x (M4.k2m_aux i mults) 0%nat = (i + m)%nat /\ (m < length bs)%nat /\
            nth x (expand bs mults) 0 = nth m bs 0.
Proof.
  induction mults as [|m0 ms IH]; intros [|b bs] i x H Hx; cbn [expand length M4.k2m_aux] in *; try lia; try discriminate.
  rewrite app_length, repeat_length in Hx.
  destruct (Nat.lt_ge_cases x m0) as [L|L].
  - exists 0%nat. rewrite !app_nth1 by (rewrite repeat_length; exact L). rewrite !nth_repeat_lt by exact L.
    repeat split; [lia|lia].
  - rewrite !app_nth2 by (rewrite repeat_length; exact L). rewrite !repeat_length.
    destruct (IH bs (S i) (x - m0)%nat ltac:(lia) ltac:(lia)) as [m [E1 [E2 E3]]].
    exists (S m). rewrite E1, E3. repeat split; lia.
Qed.

Lemma hd_expand : forall mults bs, length bs = length mults -> Forall (fun m => 0 < m)%nat mults ->
  nth 0 (expand bs mults) 0 = hd 0 bs.
Proof.
  intros [|m ms] [|b bs] H F; cbn in *; try reflexivity; try discriminate.
  inversion F; subst. destruct m; [lia|]. reflexivity.
Qed.

Lemma last_expand : forall mults bs, length bs = length mults -> Forall (fun m => 0 < m)%nat mults ->
  nth (length (expand bs mults) - 1) (expand bs mults) 0 = last bs 0.
Proof.
  induction mults as [|m ms IH]; intros [|b bs] H F; cbn [expand length last] in *; try reflexivity; try discriminate.
  inversion F as [|? ? Hm F']; subst. destruct ms as [|m1 ms'].
  - destruct bs; [|discriminate]. cbn [expand]. rewrite app_nil_r, repeat_length. apply nth_repeat_lt. lia.
  - destruct bs as [|b1 bs']; [discriminate|]. inversion F'; subst.
    specialize (IH (b1 :: bs') ltac:(cbn in *; lia) F').
    assert (Hpos : (0 < length (expand (b1 :: bs') (m1 :: ms')))%nat).
    { cbn [expand]. rewrite app_length, repeat_length. lia. }
    rewrite app_length, repeat_length. rewrite app_nth2 by (rewrite repeat_length; lia). rewrite repeat_length.
    replace (m + length (expand (b1 :: bs') (m1 :: ms')) - 1 - m)%nat
      with (length (expand (b1 :: bs') (m1 :: ms')) - 1)%nat by lia.
    exact IH.
Qed.

Lemma expand_axis_of p bs mults :
  length bs = length mults -> Forall (fun m => 0 < m)%nat mults ->
  axis_of (M4.mk_axis p mults) bs (expand bs mults).
Proof.
  intros H F. unfold axis_of, M4.k2m. cbn [M4.ax_mults]. split; [apply expand_length; exact H|].
  split; [apply hd_expand; assumption|]. split; [apply last_expand; assumption|].
  intros x Hx. destruct (expand_k2m mults bs 0 x H Hx) as [m [E1 [E2 E3]]].
  rewrite E1. cbn [Nat.add]. split; [exact E2|exact E3].
Qed.

(* ---- executable check used by the correspondence run: on a concrete dyadic case the hypotheses of the
   bridge hold (the knot vector is expand bs mults, it is a well-formed open knot vector, the refined knot
   vector is the implementation's) and the non-zero entries of the exact product AND of the implementation's
   matrix beyond `bound` lie inside C04's child pattern *)
Fixpoint increasingb (bs : list Qc) : bool :=
  match bs with
  | a :: t => match t with b :: _ => qltb a b && increasingb t | [] => true end
  | [] => true
  end.

Definition check_bridge (kv1 : list Qc) (p : nat) (bs : list Qc) (mults : list nat) (kv2 : list Qc)
                        (impl : list (list Qc)) (bound : Qc) : bool :=
  let a := M4.mk_axis p mults in
  let us := mids bs in
  let M := prolongation_spec kv1 p us in
  let n1 := numdofs kv1 p in
  let n2 := numdofs kv2 p in
  qlist_eqb (expand bs mults) kv1 && open_kv kv1 p && increasingb bs
  && Nat.eqb (length bs) (length mults) && forallb (fun m => (0 <? m)%nat) mults
  && qlist_eqb (refine_kv kv1 p us) kv2
  && Nat.eqb n1 (M4.ax_numdofs a) && Nat.eqb n2 (M4.ax_numdofs (M4.ax_refine a))
  && forallb (fun j => forallb (fun i =>
        let c := C4.is_child_1d a i j in
        implb (negb (qeqb (get2 M j i) 0)) c
        && implb (negb (qleb (Qcabs (get2 impl j i)) bound)) c) (seq 0 n1)) (seq 0 n2).
