(* C05 -- non-vacuity: concrete inputs meeting the hypotheses of the theorems, and the
   conclusions evaluated on them. *)
From Coq Require Import QArith Qcanon ZArith List Arith Lia.
From Verif.lib Require Import Bsp.
From Verif.C02 Require Import Proofs.
From Verif.C02 Require Proofs_ref.
From Verif.C05 Require Import Model Proofs.
Import ListNotations.
Open Scope Qc_scope.

Definition q (n : Z) (d : positive) : Qc := Q2Qc (n # d).
(* degree 2, non-uniform, a double interior knot *)
Definition ex_kv := map (fun z => q z 4) [0;0;0;1;2;2;4;4;4]%Z.

Example ex_ok : kv_ok ex_kv 2.
Proof. apply Proofs_ref.open_kv_ok_l. vm_compute. reflexivity. Qed.

(* u strictly inside a span; u on the double knot (multiplicity becomes 3 = p+1); u = left end *)
Example ex_dom1 : in_dom ex_kv (q 3 4).
Proof. split; vm_compute; discriminate || reflexivity. Qed.
Example ex_dom2 : in_dom ex_kv (q 2 4).
Proof. split; vm_compute; discriminate || reflexivity. Qed.

Example ex_insert : qlist_eqb (insert_knot ex_kv 2 (q 3 4)) (map (fun z => q z 4) [0;0;0;1;2;2;3;4;4;4]%Z) = true.
Proof. vm_compute. reflexivity. Qed.

(* the matrix is not trivial: the three affected rows carry proper convex weights *)
Definition mat_eqb (A B : list (list Qc)) : bool :=
  Nat.eqb (length A) (length B) && forallb (fun ab => qlist_eqb (fst ab) (snd ab)) (combine A B).

Example ex_matrix :
  mat_eqb (dense (knot_insertion ex_kv 2 (q 3 4)) 7 6)
  [[q 1 1; q 0 1; q 0 1; q 0 1; q 0 1; q 0 1];
   [q 0 1; q 1 1; q 0 1; q 0 1; q 0 1; q 0 1];
   [q 0 1; q 0 1; q 1 1; q 0 1; q 0 1; q 0 1];
   [q 0 1; q 0 1; q 0 1; q 1 1; q 0 1; q 0 1];
   [q 0 1; q 0 1; q 0 1; q 1 2; q 1 2; q 0 1];
   [q 0 1; q 0 1; q 0 1; q 0 1; q 1 2; q 1 2];
   [q 0 1; q 0 1; q 0 1; q 0 1; q 0 1; q 1 1]] = true.
Proof. vm_compute. reflexivity. Qed.

(* conclusion of knot_insertion_preserves evaluated (a test, not a proof): points in
   every span, on knots, at both ends *)
Example ex_preserves_eval :
  forallb (fun u => forallb (preserves_at ex_kv (insert_knot ex_kv 2 u) 2
                               (dense (knot_insertion ex_kv 2 u) 7 6))
                            (map (fun z => q z 8) [0;1;2;3;4;5;6;7;8]%Z))
          [q 3 4; q 2 4; q 0 4; q 1 8] = true.
Proof. vm_compute. reflexivity. Qed.

(* hypotheses of prolongation_preserves: a refinement by three knots, one repeated *)
Example ex_refine_dom : Forall (in_dom ex_kv) [q 3 4; q 1 8; q 3 4].
Proof. repeat constructor; vm_compute; discriminate || reflexivity. Qed.

Example ex_refine_kv :
  qlist_eqb (refine_kv ex_kv 2 [q 3 4; q 1 8; q 3 4]) (map (fun z => q z 8) [0;0;0;1;2;4;4;6;6;8;8;8]%Z) = true.
Proof. vm_compute. reflexivity. Qed.

Example ex_prolongation_eval :
  let us := [q 3 4; q 1 8; q 3 4] in
  let P := prolongation_spec ex_kv 2 us in
  forallb (preserves_at ex_kv (refine_kv ex_kv 2 us) 2 P) (map (fun z => q z 16) [0;1;3;4;5;8;9;12;13;16]%Z)
  && rows_sum_one P 9 6 && nonneg P 9 6 && negb (qlist_eqb (nth 4 P []) (nth 4 (ident 9) [])) = true.
Proof. vm_compute. reflexivity. Qed.

(* boehm_identity: sorted local knots with a repeated one, interior removed knot *)
Example ex_boehm_hyp :
  let s := fun j => nth j (map (fun z => q z 1) [0;1;1;2;5]%Z) (q 5 1) in
  (forall j, (j <= 3)%nat -> s j <= s (S j)) /\ (1 <= 2 <= 3)%nat.
Proof.
  split; [|lia]. intros j Hj.
  do 4 (destruct j as [|j]; [vm_compute; discriminate|]). lia.
Qed.
