(* C05 -- non-vacuity for coq/C05/Props3.v *)
From Coq Require Import QArith Qcanon ZArith List Arith Bool Lia.
From Verif.lib Require Import Bsp.
From Verif.C02 Require Import Proofs.
From Verif.C02 Require Proofs_ref.
From Verif.C05 Require Import Model Proofs Hier Bridge BoundaryTrace.
Import ListNotations.
Open Scope Qc_scope.

Definition q (n : Z) (d : positive) : Qc := Q2Qc (n # d).
(* degree 2, non-uniform, a double interior knot: 0,0,0,1/4,1/2,1/2,1,1,1 *)
Definition ex_bs := map (fun z => q z 4) [0;1;2;4]%Z.
Definition ex_mults := [3;1;2;3]%nat.
Definition ex_kv := expand ex_bs ex_mults.
Definition ex_axis := M4.mk_axis 2 ex_mults.

Example ex_kv_is : ex_kv = map (fun z => q z 4) [0;0;0;1;2;2;4;4;4]%Z.
Proof. vm_compute. reflexivity. Qed.
Example ex_ok : kv_ok ex_kv 2.
Proof. apply Proofs_ref.open_kv_ok_l. vm_compute. reflexivity. Qed.
Example ex_increasing : increasing ex_bs.
Proof. repeat split. Qed.
Example ex_spans : spans ex_bs (mids ex_bs).
Proof. apply spans_mids; [discriminate|exact ex_increasing]. Qed.
Example ex_axis_of : axis_of ex_axis ex_bs ex_kv.
Proof. apply expand_axis_of; [reflexivity|repeat constructor]. Qed.
Example ex_in_dom : Forall (in_dom ex_kv) (mids ex_bs).
Proof. exact (spans_in_dom ex_axis ex_bs ex_kv _ ex_axis_of ex_spans). Qed.

(* hypotheses of dyadic_child_pattern are met with a non-zero entry, and the pattern is not everything *)
Example ex_nonzero : get2 (prolongation_spec ex_kv 2 (mids ex_bs)) 4 2 <> 0.
Proof. vm_compute. discriminate. Qed.
Example ex_child : C4.is_child_1d ex_axis 2 4 = true.
Proof. vm_compute. reflexivity. Qed.
Example ex_not_child : C4.is_child_1d ex_axis 2 1 = false /\ get2 (prolongation_spec ex_kv 2 (mids ex_bs)) 1 2 = 0.
Proof. split; vm_compute; reflexivity. Qed.
(* test (a sample, not a theorem): on this axis the child pattern is attained exactly *)
Example ex_pattern_exact :
  forallb (fun j => forallb (fun i =>
     Bool.eqb (negb (qeqb (get2 (prolongation_spec ex_kv 2 (mids ex_bs)) j i) 0)) (C4.is_child_1d ex_axis i j))
     (seq 0 (numdofs ex_kv 2))) (seq 0 (numdofs (refine_kv ex_kv 2 (mids ex_bs)) 2)) = true.
Proof. vm_compute. reflexivity. Qed.
Example ex_posmap : map (posmap ex_kv 2 (mids ex_bs)) (seq 0 9) = map (C4.phi ex_axis) (seq 0 9).
Proof. vm_compute. reflexivity. Qed.
Example ex_check_bridge :
  check_bridge ex_kv 2 ex_bs ex_mults (refine_kv ex_kv 2 (mids ex_bs))
               (prolongation_spec ex_kv 2 (mids ex_bs)) 0 = true.
Proof. vm_compute. reflexivity. Qed.

(* boundary_restriction: 3 axes, the middle one is the boundary axis, both sides *)
Definition ex_kv1 := map (fun z => q z 1) [0;0;1;2;2]%Z.       (* p = 1 *)
Example ex_open_ends : open_ends ex_kv 2.
Proof. split; [exact ex_ok|vm_compute; reflexivity]. Qed.
Example ex_trace_right :
  TPN ([(ex_kv1, 1%nat)] ++ [(ex_kv1, 1%nat)]) (1 * 3 + 2) ([q 1 2] ++ [q 3 2])
  = TPN ([(ex_kv1, 1%nat)] ++ (ex_kv, 2%nat) :: [(ex_kv1, 1%nat)]) ((1 * 6 + 5) * 3 + 2) ([q 1 2] ++ q 1 1 :: [q 3 2])
  /\ TPN ([(ex_kv1, 1%nat)] ++ [(ex_kv1, 1%nat)]) (1 * 3 + 2) ([q 1 2] ++ [q 3 2]) <> 0
  /\ end_idx ex_kv 2 1 = 5%nat /\ qeqb (end_pt ex_kv 1) (q 1 1) = true.
Proof. split; [apply Qc_is_canon; vm_compute; reflexivity|]. split; [vm_compute; discriminate|]. split; vm_compute; reflexivity. Qed.
Example ex_trace_left_vanish :
  TPN ([(ex_kv1, 1%nat)] ++ (ex_kv, 2%nat) :: [(ex_kv1, 1%nat)]) ((1 * 6 + 1) * 3 + 2) ([q 1 2] ++ end_pt ex_kv 0 :: [q 3 2]) = 0.
Proof. apply Qc_is_canon. vm_compute. reflexivity. Qed.
