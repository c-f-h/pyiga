(* C05 -- the hierarchical conjuncts.
   Sums over lists of labels.
   Kronecker lifting: tensor products of function-preserving 1-D transfers preserve the
   tensor-product functions (any number of axes, raveled C-order indices as in
   numpy.ravel_multi_index / scipy.sparse.kron).
   An abstract multilevel basis with a two-scale relation (instantiated by the lifting with the
   B-spline bases of the levels of an HSpace): represent_fine, level-wise evaluation, truncation,
   virtual-hierarchy prolongators, prolongate_to.
   Source: pyiga/hierarchical.py:1059-1146 (represent_fine), 1148-1199 (truncate_one_level,
           thb_to_hb, hb_to_thb), 1294-1324 (virtual_hierarchy_prolongators), 1326-1356
           (coeffs_to_levelwise_funcs, grid_eval), 976-1057 (prolongate_to), utils.py:69-101. *)
From Coq Require Import QArith Qcanon ZArith List Bool Arith Lia.
From Verif.lib Require Import Bsp ListFacts.
From Verif.C02 Require Import Proofs.
From Verif.C05 Require Import Model Proofs.
Import ListNotations.
Open Scope Qc_scope.

Fixpoint lsum {A} (l : list A) (f : A -> Qc) : Qc :=
  match l with [] => 0 | a :: r => f a + lsum r f end.

Lemma lsum_ext {A} (l : list A) f g : (forall a, In a l -> f a = g a) -> lsum l f = lsum l g.
Proof.
  induction l as [|a r IH]; intros H; [reflexivity|]. cbn [lsum].
  rewrite (H a (or_introl eq_refl)). rewrite IH; [reflexivity|]. intros b Hb. apply H. right. exact Hb.
Qed.
Lemma lsum_zero {A} (l : list A) f : (forall a, In a l -> f a = 0) -> lsum l f = 0.
Proof.
  induction l as [|a r IH]; intros H; [reflexivity|]. cbn [lsum].
  rewrite (H a (or_introl eq_refl)). rewrite IH; [ring|]. intros b Hb. apply H. right. exact Hb.
Qed.
Lemma lsum_plus {A} (l : list A) f g : lsum l (fun a => f a + g a) = lsum l f + lsum l g.
Proof. induction l as [|a r IH]; cbn [lsum]; [ring|rewrite IH; ring]. Qed.
Lemma lsum_scale {A} (l : list A) c f : lsum l (fun a => c * f a) = c * lsum l f.
Proof. induction l as [|a r IH]; cbn [lsum]; [ring|rewrite IH; ring]. Qed.
Lemma lsum_scale_r {A} (l : list A) c f : lsum l (fun a => f a * c) = lsum l f * c.
Proof. induction l as [|a r IH]; cbn [lsum]; [ring|rewrite IH; ring]. Qed.
Lemma lsum_app {A} (l1 l2 : list A) f : lsum (l1 ++ l2) f = lsum l1 f + lsum l2 f.
Proof. induction l1 as [|a r IH]; cbn [lsum app]; [ring|rewrite IH; ring]. Qed.
Lemma lsum_swap {A B} (l1 : list A) (l2 : list B) (f : A -> B -> Qc) :
  lsum l1 (fun a => lsum l2 (fun b => f a b)) = lsum l2 (fun b => lsum l1 (fun a => f a b)).
Proof.
  induction l1 as [|a r IH]; cbn [lsum].
  - symmetry. apply lsum_zero. reflexivity.
  - rewrite IH. rewrite <- lsum_plus. reflexivity.
Qed.
Lemma lsum_mul {A B} (l1 : list A) (l2 : list B) f g :
  lsum l1 f * lsum l2 g = lsum l2 (fun r => lsum l1 (fun a => f a * g r)).
Proof.
  rewrite <- lsum_scale. apply lsum_ext. intros r _.
  rewrite Qcmult_comm, <- lsum_scale. apply lsum_ext. intros a _. ring.
Qed.
Lemma lsum_map {A B} (g : A -> B) (l : list A) f : lsum (map g l) f = lsum l (fun a => f (g a)).
Proof. induction l as [|a r IH]; cbn [lsum map]; [reflexivity|rewrite IH; reflexivity]. Qed.
Lemma lsum_flat_map {A B} (g : A -> list B) (l : list A) f :
  lsum (flat_map g l) f = lsum l (fun a => lsum (g a) f).
Proof. induction l as [|a r IH]; cbn [lsum flat_map]; [reflexivity|rewrite lsum_app, IH; reflexivity]. Qed.

(* converse of ListFacts.NoDup_app_intro *)
Lemma NoDup_app_inv {A} (a b : list A) :
  NoDup (a ++ b) -> NoDup a /\ NoDup b /\ forall x, In x a -> ~ In x b.
Proof.
  induction a as [|y a IH]; cbn [app]; intros H.
  - repeat split; [constructor | exact H | intros x []].
  - inversion H as [|? ? Hn Hr]; subst. destruct (IH Hr) as [Ha [Hb Hd]]. repeat split.
    + constructor; [|exact Ha]. intro Hin. apply Hn, in_app_iff. left. exact Hin.
    + exact Hb.
    + intros x [->|Hx] Hxb; [apply Hn, in_app_iff; right; exact Hxb | exact (Hd x Hx Hxb)].
Qed.

Lemma NoDup_flat_map {A B} (g : A -> list B) l :
  NoDup l -> (forall a, In a l -> NoDup (g a)) ->
  (forall a a' x, In x (g a) -> In x (g a') -> a = a') -> NoDup (flat_map g l).
Proof.
  intros Hl Hg Hd. induction l as [|a l IH]; cbn [flat_map]; [constructor|].
  inversion Hl as [|? ? Hn Hl']; subst. apply NoDup_app_intro.
  - apply Hg. left. reflexivity.
  - apply IH; [exact Hl' | intros; apply Hg; right; assumption].
  - intros x Hx Hx'. apply in_flat_map in Hx'. destruct Hx' as [a' [Ha' Hx']].
    apply Hn. rewrite (Hd a a' x Hx Hx'). exact Ha'.
Qed.

Lemma lsum_single {A} (l : list A) (c : A) f :
  NoDup l -> In c l -> (forall a, In a l -> a <> c -> f a = 0) -> lsum l f = f c.
Proof.
  induction l as [|a r IH]; intros Hnd Hin Hz; [destruct Hin|].
  inversion Hnd as [|? ? Hna Hnd']; subst. cbn [lsum]. destruct Hin as [->|Hin].
  - rewrite lsum_zero; [ring|]. intros b Hb. apply Hz; [right; exact Hb|]. intro E. subst. contradiction.
  - rewrite (Hz a (or_introl eq_refl)) by (intro E; subst; contradiction).
    rewrite (IH Hnd' Hin); [ring|]. intros b Hb Hn. apply Hz; [right; exact Hb|exact Hn].
Qed.

Lemma bigsum_lsum n (l : list nat) f :
  NoDup l -> (forall j, In j l -> (j < n)%nat) -> (forall j, (j < n)%nat -> ~ In j l -> f j = 0) ->
  bigsum n f = lsum l f.
Proof.
  revert l. induction n as [|n IH]; intros l Hnd Hlt Hz.
  - destruct l as [|a r]; [reflexivity|]. exfalso. specialize (Hlt a (or_introl eq_refl)). lia.
  - cbn [bigsum]. destruct (in_dec Nat.eq_dec n l) as [Hin|Hnin].
    + destruct (in_split _ _ Hin) as [l1 [l2 ->]].
      apply NoDup_remove in Hnd. destruct Hnd as [Hnd Hn].
      assert (A1 : forall j, In j (l1 ++ l2) -> (j < n)%nat).
      { intros j Hj. assert (j < S n)%nat.
        { apply Hlt. apply in_app_iff. apply in_app_iff in Hj. destruct Hj; [left|right;right]; assumption. }
        assert (j <> n) by (intro; subst; contradiction). lia. }
      assert (A2 : forall j, (j < n)%nat -> ~ In j (l1 ++ l2) -> f j = 0).
      { intros j Hj Hnj. apply Hz; [lia|]. intro Hc. apply in_app_iff in Hc. destruct Hc as [Hc|[Hc|Hc]].
        - apply Hnj. apply in_app_iff. left; exact Hc.
        - lia.
        - apply Hnj. apply in_app_iff. right; exact Hc. }
      rewrite lsum_app. cbn [lsum]. rewrite (IH (l1 ++ l2) Hnd A1 A2). rewrite lsum_app. ring.
    + assert (A1 : forall j, In j l -> (j < n)%nat).
      { intros j Hj. assert (j < S n)%nat by (apply Hlt; exact Hj).
        assert (j <> n) by (intro; subst; contradiction). lia. }
      assert (A2 : forall j, (j < n)%nat -> ~ In j l -> f j = 0).
      { intros j Hj Hnj. apply Hz; [lia|exact Hnj]. }
      rewrite (Hz n) by (auto; lia). rewrite (IH l Hnd A1 A2). ring.
Qed.

(* Tensor products.  An axis is (knot vector, degree); multi-indices are raveled in C
   order (last axis fastest), exactly as numpy.ravel_multi_index and scipy.sparse.kron do. *)
Definition axisQ := (list Qc * nat)%type.
Fixpoint tp_dofs (axes : list axisQ) : nat :=
  match axes with [] => 1 | (kv, p) :: r => (numdofs kv p * tp_dofs r)%nat end.

(* the tensor-product B-spline with raveled index idx at the point xs (one coordinate per axis) *)
Fixpoint TPN (axes : list axisQ) (idx : nat) (xs : list Qc) : Qc :=
  match axes with
  | [] => 1
  | (kv, p) :: r =>
      Nref kv p (idx / tp_dofs r) (hd 0 xs) * TPN r (idx mod tp_dofs r) (tl xs)
  end.

(* Kronecker product of per-axis matrices (entry functions), raveled indices:
   utils.multi_kron_sparse / scipy.sparse.kron *)
Fixpoint kron (Ms : list (nat -> nat -> Qc)) (fine coarse : list axisQ) (J I : nat) : Qc :=
  match Ms, fine, coarse with
  | M :: Ms', (_ :: rf) as f0, (_ :: rc) =>
      M (J / tp_dofs rf)%nat (I / tp_dofs rc)%nat * kron Ms' rf rc (J mod tp_dofs rf) (I mod tp_dofs rc)
  | _, _, _ => 1
  end.

Lemma tp_dofs_pos_or axes : (0 < tp_dofs axes)%nat \/ tp_dofs axes = 0%nat.
Proof. lia. Qed.

(* per axis: coarse (kv1,p), fine (kv2,p), matrix M with the function-preservation property *)
Inductive axes_preserve : list (nat -> nat -> Qc) -> list axisQ -> list axisQ -> Prop :=
| ap_nil : axes_preserve [] [] []
| ap_cons M Ms kv1 kv2 p rc rf :
    (forall i x, (i < numdofs kv1 p)%nat ->
       Nref kv1 p i x = bigsum (numdofs kv2 p) (fun j => M j i * Nref kv2 p j x)) ->
    axes_preserve Ms rc rf ->
    axes_preserve (M :: Ms) ((kv1, p) :: rc) ((kv2, p) :: rf).

(* transfers between families of functions labelled by their dofs *)
Section Labelled.
  Variables (D X : Type).
  Definition lpres (D1 D2 : list D) (f1 f2 : D -> X -> Qc) (M : D -> D -> Qc) : Prop :=
    forall c x, In c D1 -> f1 c x = lsum D2 (fun r => M r c * f2 r x).

  Lemma lpres_compose D1 D2 D3 f1 f2 f3 M N :
    lpres D1 D2 f1 f2 M -> lpres D2 D3 f2 f3 N ->
    lpres D1 D3 f1 f3 (fun r c => lsum D2 (fun s => N r s * M s c)).
  Proof.
    intros H1 H2 c x Hc. rewrite (H1 c x Hc).
    rewrite (lsum_ext D2 _ (fun s => lsum D3 (fun r => N r s * M s c * f3 r x))).
    2:{ intros s Hs. rewrite (H2 s x Hs). rewrite <- lsum_scale. apply lsum_ext. intros r _. ring. }
    rewrite lsum_swap. apply lsum_ext. intros r _. rewrite <- lsum_scale_r. reflexivity.
  Qed.

  (* change of basis on both sides: g_i = f_i combined with the columns of T_i (THB functions in
     terms of HB functions, T_i = thb_to_hb); if H2 undoes T2 then H2 * M * T1 transfers the g's *)
  Lemma lpres_change_of_basis D1 D2 f1 f2 M T1 T2 H2 :
    lpres D1 D2 f1 f2 M ->
    (forall r (W : D -> Qc), In r D2 ->
        lsum D2 (fun a => W a * lsum D2 (fun r' => T2 r r' * H2 r' a)) = W r) ->
    lpres D1 D2 (fun c x => lsum D1 (fun b => T1 b c * f1 b x))
                (fun c x => lsum D2 (fun r => T2 r c * f2 r x))
                (fun r' c => lsum D2 (fun a => H2 r' a * lsum D1 (fun b => M a b * T1 b c))).
  Proof.
    intros HM Hinv c x Hc. cbv beta.
    set (W := fun a => lsum D1 (fun b => M a b * T1 b c)).
    (* left: sum_a W a * f2 a *)
    rewrite (lsum_ext D1 _ (fun b => lsum D2 (fun a => M a b * T1 b c * f2 a x))).
    2:{ intros b Hb. rewrite (HM b x Hb). rewrite <- lsum_scale. apply lsum_ext. intros a _. ring. }
    rewrite lsum_swap.
    rewrite (lsum_ext D2 _ (fun a => W a * f2 a x)) by (intros a _; unfold W; rewrite <- lsum_scale_r; reflexivity).
    (* right *)
    symmetry.
    rewrite (lsum_ext D2 _ (fun r' => lsum D2 (fun r => lsum D2 (fun a => f2 r x * (W a * (T2 r r' * H2 r' a)))))).
    2:{ intros r' _. rewrite lsum_mul. apply lsum_ext; intros r _. apply lsum_ext; intros a _. unfold W. ring. }
    rewrite lsum_swap. apply lsum_ext. intros r Hr.
    rewrite lsum_swap.
    rewrite (lsum_ext D2 _ (fun a => f2 r x * (W a * lsum D2 (fun r' => T2 r r' * H2 r' a)))).
    2:{ intros a _. rewrite <- !lsum_scale. apply lsum_ext. intros r' _. reflexivity. }
    rewrite lsum_scale. rewrite (Hinv r W Hr). ring.
  Qed.
End Labelled.

Definition two_scale_hyp {X : Type} (n : nat -> nat) (B : nat -> nat -> X -> Qc)
           (P : nat -> nat -> nat -> Qc) (Lmax : nat) : Prop :=
  forall k i x, (k < Lmax)%nat -> (i < n k)%nat ->
    B k i x = bigsum (n (S k)) (fun j => P k j i * B (S k) j x).

Definition index_hyp (n : nat -> nat) (P : nat -> nat -> nat -> Qc) (act deact : nat -> list nat) : Prop :=
  (forall k, NoDup (act k ++ deact k))
  /\ (forall k j, In j (act k ++ deact k) -> (j < n k)%nat)
  /\ (forall k i j, In i (deact k) -> (j < n (S k))%nat -> P k j i <> 0 -> In j (act (S k) ++ deact (S k))).

Section Multilevel.
  Variable X : Type.                          (* points of the parameter domain *)
  Variable n : nat -> nat.                    (* mesh(k).numbf *)
  Variable B : nat -> nat -> X -> Qc.         (* tensor-product basis function i of level k *)
  Variable P : nat -> nat -> nat -> Qc.       (* P k j i: tp_prolongation(k, kron=True)[j, i] *)
  Variable Lmax : nat.                        (* number of levels - 1: two_scale is available below it *)
  Hypothesis two_scale : two_scale_hyp n B P Lmax.

  (* represent_fine, hierarchical.py:1102-1143: walking down from level T, the accumulated matrix
     is multiplied from the right by the prolongator of the next coarser level; with truncate the
     rows act_indices[k+1] of that prolongator are zeroed first (:1135-1136).
     RF Z T m = the matrix P of the loop when k = T - m; Z lv j = true iff row j of level lv is
     zeroed (HB: Z = fun _ _ => false). *)
  Fixpoint RF (Z : nat -> nat -> bool) (T m : nat) (J i : nat) : Qc :=
    match m with
    | O => if Nat.eqb J i then 1 else 0
    | S m' => bigsum (n (T - m')%nat) (fun l => RF Z T m' J l * (if Z (T - m')%nat l then 0 else P (T - S m')%nat l i))
    end.
  Definition noZ : nat -> nat -> bool := fun _ _ => false.

  (* HB: every function of level T - m is reproduced on level T by its column *)
  Lemma RF_hb_preserves T m i x : (T <= Lmax)%nat -> (m <= T)%nat -> (i < n (T - m))%nat ->
    B (T - m)%nat i x = bigsum (n T) (fun J => RF noZ T m J i * B T J x).
  Proof.
    intros HT. revert i x. induction m as [|m IH]; intros i x Hm Hi.
    - rewrite Nat.sub_0_r in *. cbn [RF]. symmetry. apply bigsum_delta. exact Hi.
    - rewrite (two_scale (T - S m)%nat i x ltac:(lia) Hi).
      replace (S (T - S m)) with (T - m)%nat by lia.
      rewrite (bigsum_ext _ _ (fun l => bigsum (n T) (fun J => RF noZ T m J l * P (T - S m)%nat l i * B T J x))).
      2:{ intros l Hl. rewrite (IH l x) by lia. rewrite <- bigsum_scale. apply bigsum_ext. intros J _. ring. }
      rewrite bigsum_swap. apply bigsum_ext. intros J HJ. cbn [RF noZ]. rewrite <- bigsum_scale_r.
      reflexivity.
  Qed.

  (* coeffs_to_levelwise_funcs / grid_eval (:1326-1356): u l is the level-l coefficient array
     after split_coeffs and _reindex (zero outside the active functions).  The sum of the
     level-wise functions is the finest-level function whose coefficients are
     represent_fine * u. *)
  Definition levelwise (T : nat) (u : nat -> nat -> Qc) (x : X) : Qc :=
    bigsum (S T) (fun l => bigsum (n l) (fun i => u l i * B l i x)).
  Definition fine_coeff (Z : nat -> nat -> bool) (T : nat) (u : nat -> nat -> Qc) (J : nat) : Qc :=
    bigsum (S T) (fun l => bigsum (n l) (fun i => RF Z T (T - l)%nat J i * u l i)).

  Lemma levelwise_eval_eq_fine_l T u x :
    (T <= Lmax)%nat ->
    levelwise T u x = bigsum (n T) (fun J => fine_coeff noZ T u J * B T J x).
  Proof.
    intros HTL. unfold levelwise, fine_coeff.
    rewrite (bigsum_ext (n T) _ (fun J => bigsum (S T) (fun l => bigsum (n l) (fun i => RF noZ T (T - l)%nat J i * u l i * B T J x)))).
    2:{ intros J _. rewrite <- bigsum_scale_r. apply bigsum_ext. intros l _. rewrite <- bigsum_scale_r. reflexivity. }
    rewrite bigsum_swap. apply bigsum_ext. intros l Hl.
    rewrite bigsum_swap. apply bigsum_ext. intros i Hi.
    pose proof (RF_hb_preserves T (T - l) i x HTL ltac:(lia)) as R.
    replace (T - (T - l))%nat with l in R by lia. rewrite (R Hi).
    rewrite <- bigsum_scale. apply bigsum_ext. intros J _. ring.
  Qed.

  Lemma levelwise_ext T u v x :
    (forall l i, (l <= T)%nat -> (i < n l)%nat -> u l i = v l i) -> levelwise T u x = levelwise T v x.
  Proof.
    intros H. unfold levelwise. apply bigsum_ext. intros l Hl. apply bigsum_ext. intros i Hi.
    rewrite H by (exact Hi || lia). reflexivity.
  Qed.

  (* ---- truncation, two levels (one refinement step) ------------------------------------
     THB coefficients c on levels (T-1, T): coeffs_to_levelwise_funcs first applies thb_to_hb =
     truncate_one_level(T-1) = I - A, where A adds to the coefficient of the level-T function j in
     act(T) the level-(T-1) coefficients times P[j, i] (:1148-1173).  Evaluating level-wise with
     those HB coefficients gives the finest-level function with coefficients
     represent_fine(truncate=True) * c. *)
  Definition thb_to_hb2 (T : nat) (actT : nat -> bool) (u : nat -> nat -> Qc) : nat -> nat -> Qc :=
    fun l j => if Nat.eqb l T
               then u T j - (if actT j then bigsum (n (T - 1)%nat) (fun i => P (T - 1)%nat j i * u (T - 1)%nat i) else 0)
               else u l j.

  (* ---- virtual hierarchy, HB (:1294-1316) ------------------------------------------------
     act k / deact k: raveled indices of the active / deactivated functions of level k
     (active_indices(), deactivated_indices()).  The dofs of virtual level k, in matrix order:
     the active functions of levels 0..k (canonical order), then the deactivated ones of level k. *)
  Variables act deact : nat -> list nat.
  Definition dof := (nat * nat)%type.
  Definition dof_eqb (a b : dof) : bool := Nat.eqb (fst a) (fst b) && Nat.eqb (snd a) (snd b).
  Definition memb (i : nat) (l : list nat) : bool := existsb (Nat.eqb i) l.
  Definition fnHB (d : dof) (x : X) : Qc := B (fst d) (snd d) x.
  Definition dofsV (k : nat) : list dof :=
    flat_map (fun l => map (pair l) (act l)) (seq 0 k) ++ map (pair k) (act k ++ deact k).
  (* P_hb = bmat((eye(nt[k]), None), (None, kron_partial(Ps[k], rows=IR[k+1])[:, ID[k]])), entries
     addressed by the dofs they belong to *)
  Definition Phb (k : nat) (r c : dof) : Qc :=
    if Nat.eqb (fst c) k && memb (snd c) (deact k)
    then (if Nat.eqb (fst r) (S k) && memb (snd r) (act (S k) ++ deact (S k)) then P k (snd r) (snd c) else 0)
    else if dof_eqb r c then 1 else 0.

  Lemma memb_In i l : memb i l = true <-> In i l.
  Proof.
    unfold memb. rewrite existsb_exists. split.
    - intros [j [Hj E]]. apply Nat.eqb_eq in E. subst. exact Hj.
    - intros H. exists i. split; [exact H|apply Nat.eqb_refl].
  Qed.
  Lemma dof_eqb_eq a b : dof_eqb a b = true <-> a = b.
  Proof.
    destruct a, b. unfold dof_eqb. cbn. rewrite andb_true_iff, !Nat.eqb_eq.
    split; [intros [-> ->]; reflexivity|intros E; inversion E; auto].
  Qed.

  Lemma lsum_dofsV k f :
    lsum (dofsV k) f = lsum (seq 0 k) (fun l => lsum (act l) (fun i => f (l, i)))
                       + lsum (act k ++ deact k) (fun i => f (k, i)).
  Proof.
    unfold dofsV. rewrite lsum_app, lsum_flat_map, lsum_map. f_equal.
    apply lsum_ext. intros l _. apply lsum_map.
  Qed.

  Lemma in_dofsV k l i :
    In (l, i) (dofsV k) <-> (l < k)%nat /\ In i (act l) \/ l = k /\ In i (act k ++ deact k).
  Proof.
    unfold dofsV. rewrite in_app_iff, in_flat_map, in_map_iff. split.
    - intros [[l' [Hl' H]]|[a [E Ha]]].
      + apply in_map_iff in H. destruct H as [a [E Ha]]. inversion E; subst.
        apply in_seq in Hl'. left. split; [lia|exact Ha].
      + inversion E; subst. right. split; [reflexivity|exact Ha].
    - intros [[Hl Hi]|[-> Hi]].
      + left. exists l. split; [apply in_seq; lia|apply in_map; exact Hi].
      + right. exists i. split; [reflexivity|exact Hi].
  Qed.

  Hypothesis idx_nodup : forall k, NoDup (act k ++ deact k).
  Hypothesis idx_range : forall k j, In j (act k ++ deact k) -> (j < n k)%nat.
  (* the children of a deactivated function all lie in the refined region of the next level
     (support of a child is contained in the support of its parent, which is covered by
     active/deactivated cells of level k+1): a consequence of the C04 invariant funcs_inv and
     of the locality of the two-scale relation, stated here as an explicit hypothesis *)
  Hypothesis children_closed : forall k i j, In i (deact k) -> (j < n (S k))%nat ->
    P k j i <> 0 -> In j (act (S k) ++ deact (S k)).

  Lemma act_not_deact k i : In i (act k) -> ~ In i (deact k).
  Proof. apply (NoDup_app_inv _ _ (idx_nodup k)). Qed.

  (* a deactivated function is the combination of its children, all of which are active or
     deactivated on the next level: the one place where the three index hypotheses meet *)
  Lemma deact_two_scale k i x : (k < Lmax)%nat -> In i (deact k) ->
    B k i x = lsum (act (S k) ++ deact (S k)) (fun j => P k j i * B (S k) j x).
  Proof.
    intros HkL Hi.
    rewrite (two_scale k i x HkL) by (apply idx_range, in_app_iff; right; exact Hi).
    apply bigsum_lsum; [apply idx_nodup|apply idx_range|].
    intros j Hj Hn. destruct (Qc_eq_dec (P k j i) 0) as [E|E]; [rewrite E; ring|].
    exfalso. apply Hn. eapply children_closed; eassumption.
  Qed.

  Lemma dofsV_NoDup k : NoDup (dofsV k).
  Proof using idx_nodup.
    assert (Hpair : forall (l : nat) (L : list nat), NoDup L -> NoDup (map (pair l) L)).
    { intros l L. apply NoDup_map_inj_on. intros a b _ _ E. inversion E. reflexivity. }
    unfold dofsV. apply NoDup_app_intro.
    - apply NoDup_flat_map.
      + apply seq_NoDup.
      + intros l _. apply Hpair. exact (proj1 (NoDup_app_inv _ _ (idx_nodup l))).
      + intros l l' c Hc Hc'. apply in_map_iff in Hc, Hc'.
        destruct Hc as [a [<- _]], Hc' as [a' [E _]]. inversion E. reflexivity.
    - apply Hpair, idx_nodup.
    - intros c H1 H2. apply in_flat_map in H1. destruct H1 as [l [Hl H1]]. apply in_seq in Hl.
      apply in_map_iff in H1, H2. destruct H1 as [a [<- _]], H2 as [a' [E _]]. inversion E. lia.
  Qed.

  Lemma dofsV_delta k (f : dof -> Qc) c :
    In c (dofsV k) -> lsum (dofsV k) (fun r => (if dof_eqb r c then 1 else 0) * f r) = f c.
  Proof using idx_nodup.
    intros Hc. rewrite (lsum_single (dofsV k) c _ (dofsV_NoDup k) Hc).
    - rewrite (proj2 (dof_eqb_eq c c) eq_refl). ring.
    - intros r _ Hr. destruct (dof_eqb r c) eqn:E; [apply dof_eqb_eq in E; contradiction|ring].
  Qed.

  Lemma vh_hb k : (k < Lmax)%nat -> lpres dof X (dofsV k) (dofsV (S k)) fnHB fnHB (Phb k).
  Proof.
    intros HkL [l i] x Hc. apply in_dofsV in Hc.
    assert (Hcase : (l <= k)%nat /\ In i (act l) \/ l = k /\ In i (deact k)).
    { destruct Hc as [[Hl Hi]|[-> Hi]]; [left; split; [lia|exact Hi]|].
      apply in_app_iff in Hi. destruct Hi as [Hi|Hi]; [left|right]; split; auto. }
    destruct Hcase as [[Hl Hi]|[-> Hi]].
    - (* an active function of a level <= k keeps its coefficient: its column is a unit vector *)
      assert (Hsel : Nat.eqb (fst (l, i)) k && memb (snd (l, i)) (deact k) = false).
      { cbn [fst snd]. destruct (Nat.eqb_spec l k) as [->|]; [|reflexivity]. cbn [andb].
        destruct (memb i (deact k)) eqn:E; [|reflexivity]. apply memb_In in E. exfalso. eapply act_not_deact; eassumption. }
      rewrite (lsum_ext (dofsV (S k)) _ (fun r => (if dof_eqb r (l, i) then 1 else 0) * fnHB r x))
        by (intros r _; unfold Phb; rewrite Hsel; reflexivity).
      symmetry. apply dofsV_delta. apply in_dofsV. left. split; [lia|exact Hi].
    - (* a deactivated function of level k is replaced by its children on level k+1 *)
      assert (Hsel : Nat.eqb (fst (k, i)) k && memb (snd (k, i)) (deact k) = true).
      { cbn [fst snd]. rewrite Nat.eqb_refl. cbn [andb]. apply memb_In. exact Hi. }
      rewrite lsum_dofsV, lsum_zero.
      2:{ intros l' Hl'. apply in_seq in Hl'. apply lsum_zero. intros a Ha. unfold Phb. rewrite Hsel.
          cbn [fst snd]. destruct (Nat.eqb_spec l' (S k)); [lia|]. cbn [andb]. ring. }
      unfold fnHB at 1. cbn [fst snd].
      rewrite (deact_two_scale k i x HkL Hi), Qcplus_0_l.
      apply lsum_ext. intros j Hj. unfold Phb. rewrite Hsel. cbn [fst snd].
      rewrite Nat.eqb_refl. cbn [andb].
      replace (memb j (act (S k) ++ deact (S k))) with true by (symmetry; apply memb_In; exact Hj).
      reflexivity.
  Qed.

  (* ---- prolongate_to, repaired (uncapped) propagation (:1033-1056 after 78cb8af) ---------
     act/deact are those of the FINE space.  A coarse function that is not active in the fine
     space is deactivated there; its coefficient vector d on the deactivated functions of level l
     is pushed to level l+1 (P_act = P[fa, fd_prev] @ P_current goes to the output,
     P_deact = P[fd, fd_prev] @ P_current is propagated) until no deactivated functions remain. *)
  Definition dstep (l : nat) (d : nat -> Qc) : nat -> Qc :=
    fun j => lsum (deact l) (fun s => P l j s * d s).
  (* the part of the propagated function that lands on active functions: what prolongate_to writes to `out` *)
  Fixpoint expand_act (m l : nat) (d : nat -> Qc) (x : X) : Qc :=
    match m with
    | O => 0
    | S m' => lsum (act (S l)) (fun j => dstep l d j * B (S l) j x) + expand_act m' (S l) (dstep l d) x
    end.

  Lemma deact_step l d x :
    (l < Lmax)%nat ->
    lsum (deact l) (fun s => d s * B l s x)
    = lsum (act (S l)) (fun j => dstep l d j * B (S l) j x)
      + lsum (deact (S l)) (fun j => dstep l d j * B (S l) j x).
  Proof.
    intros HlL. rewrite <- lsum_app.
    rewrite (lsum_ext (deact l) _ (fun s => lsum (act (S l) ++ deact (S l)) (fun j => P l j s * d s * B (S l) j x))).
    2:{ intros s Hs. rewrite (deact_two_scale l s x HlL Hs), <- lsum_scale.
        apply lsum_ext. intros j _. ring. }
    rewrite lsum_swap. apply lsum_ext. intros j _. unfold dstep. rewrite <- lsum_scale_r. reflexivity.
  Qed.

  Lemma deact_expand_act : forall m l d x, (l + m <= Lmax)%nat -> deact (l + m)%nat = [] ->
    lsum (deact l) (fun s => d s * B l s x) = expand_act m l d x.
  Proof.
    induction m as [|m IH]; intros l d x Hlm He.
    - rewrite Nat.add_0_r in He. rewrite He. reflexivity.
    - cbn [expand_act]. rewrite deact_step by lia. f_equal. apply IH; [lia|].
      rewrite <- He. f_equal. lia.
  Qed.

  (* a replaced coarse function (level l, index i, deactivated in the fine space) equals the
     combination of ACTIVE fine functions of the levels l+1 .. l+m that the propagation produces,
     as soon as level l+m has no deactivated functions -- for every m, i.e. without any
     disparity cap *)
  Lemma prolongate_to_replaced_l l i m x :
    (l + m <= Lmax)%nat -> In i (deact l) -> deact (l + m)%nat = [] ->
    B l i x = expand_act m l (fun s => if Nat.eqb s i then 1 else 0) x.
  Proof.
    intros HL Hi Hm. rewrite <- deact_expand_act by assumption.
    rewrite (lsum_single (deact l) i).
    - rewrite Nat.eqb_refl. ring.
    - exact (proj1 (proj2 (NoDup_app_inv _ _ (idx_nodup l)))).
    - exact Hi.
    - intros s Hs Hn. destruct (Nat.eqb_spec s i); [contradiction|ring].
  Qed.

  (* ---- THB, the code as it is (:1318-1323): prolongators[k] = truncate_one_level(k,
     num_rows=P.shape[0], inverse=True) @ P_hb[k], and truncate_one_level(k, inverse=True) = I + A,
     A[(k+1, j), (l, i)] = represent_fine(lv=k+1, rows=act(k+1), truncate=False)[j, (l, i)] for the
     active functions (l, i) of levels l <= k, j in act(k+1)  (:1148-1173) *)
  Definition Aold (k : nat) (r c : dof) : Qc :=
    if Nat.eqb (fst r) (S k) && memb (snd r) (act (S k)) && (fst c <=? k)%nat && memb (snd c) (act (fst c))
    then RF noZ (S k) (S k - fst c) (snd r) (snd c) else 0.
  Definition Pthb_old (k : nat) (r c : dof) : Qc :=
    Phb k r c + lsum (dofsV (S k)) (fun s => Aold k r s * Phb k s c).
  (* THB basis function of virtual level T: represent_fine(lv=T, truncate=True), whose zeroed
     rows are act_indices[lv] (on the top level: active and deactivated) *)
  Definition Zthb (T : nat) : nat -> nat -> bool :=
    fun lv j => if Nat.eqb lv T then memb j (act T ++ deact T) else memb j (act lv).
  Definition fnTHB (T : nat) (d : dof) (x : X) : Qc :=
    bigsum (n T) (fun J => RF (Zthb T) T (T - fst d) J (snd d) * B T J x).
End Multilevel.

(* composition of the HB prolongators of the levels k, k+1, ..., k+m-1 *)
Fixpoint Phb_chain (P : nat -> nat -> nat -> Qc) (act deact : nat -> list nat) (k m : nat) : dof -> dof -> Qc :=
  match m with
  | O => fun r c => if dof_eqb r c then 1 else 0
  | S m' => fun r c => lsum (dofsV act deact (k + m')) (fun s => Phb P act deact (k + m') r s * Phb_chain P act deact k m' s c)
  end.
