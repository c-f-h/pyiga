(* C05 -- a concrete three-level hierarchy (1-D, p = 2, four cells, the corner refined twice):
   the witness for vh_prolongators_thb_old_refuted, and non-vacuity of the multilevel theorems. *)
From Coq Require Import QArith Qcanon ZArith List Bool Arith Lia.
From Verif.lib Require Import Bsp.
From Verif.C02 Require Import Proofs.
From Verif.C02 Require Proofs_ref.
From Verif.C05 Require Import Model Proofs Hier.
Import ListNotations.
Open Scope Qc_scope.

Definition q (n : Z) (d : positive) : Qc := Q2Qc (n # d).
Definition exkv0 := map (fun z => q z 1) [0;0;0;1;2;3;4;4;4]%Z.
Definition exmid0 := map (fun z => q z 2) [1;3;5;7]%Z.
Definition exkv1 := refine_kv exkv0 2 exmid0.
Definition exmid1 := map (fun z => q z 4) [1;3;5;7;9;11;13;15]%Z.
Definition exkv2 := refine_kv exkv1 2 exmid1.
Definition exK (k : nat) : list Qc := nth k [exkv0; exkv1; exkv2] [].
Definition exn (k : nat) : nat := numdofs (exK k) 2.
Definition exB (k i : nat) (x : Qc) : Qc := Nref (exK k) 2 i x.
Definition exPm0s := prolongation_spec exkv0 2 exmid0.
Definition exPm1s := prolongation_spec exkv1 2 exmid1.
Definition exPm0 := Eval vm_compute in exPm0s.        (* evaluated once, for the computations below *)
Definition exPm1 := Eval vm_compute in exPm1s.
Definition exP (k j i : nat) : Qc := get2 (nth k [exPm0; exPm1] []) j i.
(* HSpace(make_knots(2, 0, 4, 4)); refine({0: cells 0,1}); refine({1: cells 0,1}) *)
Definition exact (k : nat) : list nat := nth k [[2;3;4;5]; [2;3]; [0;1;2;3]]%nat [].
Definition exdeact (k : nat) : list nat := nth k [[0;1]; [0;1]; []]%nat [].

Example ex_sizes : (exn 0, exn 1, exn 2) = (6, 10, 18)%nat.
Proof. vm_compute. reflexivity. Qed.

Definition ex_c : dof := (0, 2)%nat.          (* level-0 function 2, first dof of virtual level 1 *)
Definition ex_x : Qc := q 1 8.
Definition ex_lhs := fnTHB Qc exn exB exP exact exdeact 1 ex_c ex_x.
Definition ex_rhs := lsum (dofsV exact exdeact 2)
                          (fun r => Pthb_old exn exP exact exdeact 1 r ex_c * fnTHB Qc exn exB exP exact exdeact 2 r ex_x).

(* the same hierarchy meets the hypotheses of the multilevel theorems *)
Lemma exkv0_ok : kv_ok exkv0 2.
Proof. apply Proofs_ref.open_kv_ok_l. vm_compute. reflexivity. Qed.
Lemma exkv1_ok : kv_ok exkv1 2.
Proof. apply Proofs_ref.open_kv_ok_l. vm_compute. reflexivity. Qed.

Lemma exmid0_dom : Forall (in_dom exkv0) exmid0.
Proof. repeat constructor; vm_compute; discriminate || reflexivity. Qed.
Lemma exmid1_dom : Forall (in_dom exkv1) exmid1.
Proof. repeat constructor; vm_compute; discriminate || reflexivity. Qed.

(* the evaluated matrices have the entries of the knot insertion products *)
Definition entries_eqb (A B : list (list Qc)) (r c : nat) : bool :=
  forallb (fun j => forallb (fun i => qeqb (get2 A j i) (get2 B j i)) (seq 0 c)) (seq 0 r).

Lemma exPm0_entries : entries_eqb exPm0 (prolongation_rec exkv0 2 exmid0) (exn 1) (exn 0) = true.
Proof. vm_compute. reflexivity. Qed.
Lemma exPm1_entries : entries_eqb exPm1 (prolongation_rec exkv1 2 exmid1) (exn 2) (exn 1) = true.
Proof. vm_compute. reflexivity. Qed.

Lemma two_scale_of_prol kv p us Pm :
  kv_ok kv p -> Forall (in_dom kv) us ->
  entries_eqb Pm (prolongation_rec kv p us) (numdofs (refine_kv kv p us) p) (numdofs kv p) = true ->
  forall i x, (i < numdofs kv p)%nat ->
    Nref kv p i x = bigsum (numdofs (refine_kv kv p us) p) (fun j => get2 Pm j i * Nref (refine_kv kv p us) p j x).
Proof.
  intros Hok Hd HP i x Hi. rewrite (prolongation_preserves_l us kv p Hok Hd i x Hi).
  apply bigsum_ext. intros j Hj. f_equal. rewrite prolongation_rec_entry by assumption. symmetry.
  unfold entries_eqb in HP. rewrite forallb_forall in HP. specialize (HP j ltac:(apply in_seq; lia)).
  rewrite forallb_forall in HP. apply qeqb_iff, HP, in_seq. lia.
Qed.

Lemma ex_two_scale : forall k i x, (k < 2)%nat -> (i < exn k)%nat ->
  exB k i x = bigsum (exn (S k)) (fun j => exP k j i * exB (S k) j x).
Proof.
  intros k i x Hk Hi. destruct k as [|[|k]]; [| |lia].
  - exact (two_scale_of_prol exkv0 2 exmid0 exPm0 exkv0_ok exmid0_dom exPm0_entries i x Hi).
  - exact (two_scale_of_prol exkv1 2 exmid1 exPm1 exkv1_ok exmid1_dom exPm1_entries i x Hi).
Qed.

Example ex_idx_ok :
  forallb (fun k => forallb (fun j => (j <? exn k)%nat) (exact k ++ exdeact k)) (seq 0 4) = true.
Proof. vm_compute. reflexivity. Qed.

(* children of deactivated functions lie in the refined region (decidable form of children_closed) *)
Example ex_children_closed :
  forallb (fun k => forallb (fun i => forallb (fun j =>
     qeqb (exP k j i) 0 || memb j (exact (S k) ++ exdeact (S k))) (seq 0 (exn (S k)))) (exdeact k)) (seq 0 3) = true.
Proof. vm_compute. reflexivity. Qed.

(* conclusions evaluated on the example (tests): HB prolongators reproduce every function of every
   virtual level at sample points; level-wise evaluation = finest-level representation *)
Example ex_vh_hb_eval :
  forallb (fun k => forallb (fun c => forallb (fun x =>
     qeqb (fnHB Qc exB c x) (lsum (dofsV exact exdeact (S k)) (fun r => Phb exP exact exdeact k r c * fnHB Qc exB r x)))
     [q 1 8; q 3 4; q 5 2; q 4 1]) (dofsV exact exdeact k)) [0; 1]%nat = true.
Proof. vm_compute. reflexivity. Qed.
