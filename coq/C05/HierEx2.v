(* C05 -- non-vacuity for HierThb.v and HierReach.v. *)
From Coq Require Import QArith Qcanon ZArith List Bool Arith Lia.
From Verif.lib Require Import FinSet Bsp.
Require Verif.C04.Examples.
From Verif.C05 Require Import Model Proofs Hier HierEx HierThb HierReach.
Import ListNotations.
Open Scope Qc_scope.

(* the three-level hierarchy of HierEx.v, coefficients on all three levels (zero outside the
   active functions, as split_coeffs/_reindex produce them) *)
Definition ex_actb (k j : nat) : bool := memb j (exact k).
Definition ex_u (l i : nat) : Qc := if ex_actb l i then q (Z.of_nat (3 * l + i + 1)) 2 else 0.

(* the hypotheses of levelwise_eval_eq_fine_thb hold (HierEx.ex_two_scale, Lmax = 2, T = 2), hence
   its conclusion at the sample points; truncation is not the identity here *)
Example ex_thb_levelwise_eval :
  forallb (fun x => qeqb (levelwise Qc exn exB 2 (t2h exn exP ex_actb 2 ex_u) x)
                         (bigsum (exn 2) (fun J => fine_coeff exn exP ex_actb 2 ex_u J * exB 2 J x)))
          [q 1 8; q 3 4; q 3 2; q 7 2] = true.
Proof.
  apply forallb_forall. intros x _. apply BspFacts.qeqb_iff.
  apply (levelwise_thb_l exn exB exP 2 ex_actb ex_two_scale). lia.
Qed.

Example ex_thb_nontrivial :
  existsb (fun J => negb (qeqb (fine_coeff exn exP noZ 2 ex_u J) (fine_coeff exn exP ex_actb 2 ex_u J))) (seq 0 (exn 2)) = true.
Proof. vm_compute. reflexivity. Qed.

(* HierReach.v: a reachable C04 state with deactivated functions on two levels meets the hypotheses
   on axes / disparity / history *)
Example ex_reachable_hyps :
  Forall Verif.C04.ProofsMesh.axis_ok Verif.C04.Examples.ex_axes
  /\ (forall d, Some 1%nat = Some d -> (1 <= d)%nat)
  /\ P4.ops_valid (M4.hs_init Verif.C04.Examples.ex_axes (Some 1%nat)) Verif.C04.Examples.ex_ops.
Proof.
  split; [exact Verif.C04.Examples.ex_axes_ok|]. split; [exact Verif.C04.Examples.ex_disp|exact Verif.C04.Examples.ex_ops_valid].
Qed.

Example ex_reachable_deact_nonempty :
  negb (Nat.eqb (length (P4.DF Verif.C04.Examples.ex_st 0)) 0) && negb (Nat.eqb (length (P4.DF Verif.C04.Examples.ex_st 1)) 0) = true.
Proof. vm_compute. reflexivity. Qed.
