(* C05 -- the hierarchical theorems on REACHABLE HSpace states: the hypothesis "the children of a
   deactivated function lie among the active/deactivated functions of the next level" of index_hyp
   is discharged by C04's children_closed (coq/C04/Props.v) for every history of valid refine calls.

   Link between the two models: rav k maps the multi-indices of level k to the raveled indices the
   matrices use; `pattern` says that the non-zero entries of a prolongator column of a deactivated
   function lie inside the children pattern of the C04 model (function_children, which C04's check
   ties exactly to the sparsity pattern of the implementation's prolongation matrices on every run). *)
From Coq Require Import QArith Qcanon List Arith Lia.
From Verif.lib Require Import FinSet Bsp.
Require Verif.C04.Model Verif.C04.Proofs Verif.C04.ProofsMesh Verif.C04.Children Verif.C04.Props.
From Verif.C05 Require Import Model Proofs Hier.
Import ListNotations.
Open Scope Qc_scope.

Module M4 := Verif.C04.Model.
Module P4 := Verif.C04.Proofs.
Module C4 := Verif.C04.Children.

Section Reachable.
  Variables (axes : list M4.axis) (disp : option nat) (ops : list M4.op).
  Hypothesis Haxes : Forall Verif.C04.ProofsMesh.axis_ok axes.
  Hypothesis Hdisp : forall d, disp = Some d -> (1 <= d)%nat.
  Hypothesis Hops : P4.ops_valid (M4.hs_init axes disp) ops.
  Let st := M4.run (M4.hs_init axes disp) ops.

  Variable rav : nat -> mi -> nat.
  Definition act_of (k : nat) : list nat := map (rav k) (P4.AF st k).
  Definition deact_of (k : nat) : list nat := map (rav k) (P4.DF st k).

  Variables (n : nat -> nat) (P : nat -> nat -> nat -> Qc).
  Hypothesis pattern : forall k f j, In f (P4.DF st k) -> (j < n (S k))%nat -> P k j (rav k f) <> 0 ->
    exists g, In g (C4.function_children st k [f]) /\ j = rav (S k) g.

  Lemma children_closed_reachable_l : forall k i j,
    In i (deact_of k) -> (j < n (S k))%nat -> P k j i <> 0 -> In j (act_of (S k) ++ deact_of (S k)).
  Proof.
    intros k i j Hi Hj Hnz. unfold deact_of in Hi. apply in_map_iff in Hi. destruct Hi as [f [<- Hf]].
    destruct (pattern k f j Hf Hj Hnz) as [g [Hg ->]].
    pose proof (Verif.C04.Props.children_closed axes disp ops Haxes Hdisp Hops k f g Hf Hg) as H.
    apply in_app_iff. unfold act_of, deact_of. destruct H as [H|H]; [left|right]; apply in_map; exact H.
  Qed.

  (* index_hyp with its third part discharged; the first two (no duplicates, range) are statements
     about the raveling of the active/deactivated sets *)
  Lemma index_hyp_reachable :
    (forall k, NoDup (act_of k ++ deact_of k)) ->
    (forall k j, In j (act_of k ++ deact_of k) -> (j < n k)%nat) ->
    index_hyp n P act_of deact_of.
  Proof. intros H1 H2. repeat split; auto. apply children_closed_reachable_l. Qed.
End Reachable.
