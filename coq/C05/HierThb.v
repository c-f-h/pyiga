(* C05 -- THB level-wise evaluation for any number of levels: thb_to_hb (the product of the
   truncate_one_level matrices, hierarchical.py:1148-1186) followed by the HB finest-level
   representation equals represent_fine(truncate=True) (rows of the active functions zeroed level
   by level, :1135-1136).  Pure matrix algebra over the multilevel setting of Hier.v. *)
From Coq Require Import QArith Qcanon List Bool Arith Lia.
From Verif.lib Require Import Bsp.
From Verif.C05 Require Import Model Proofs Hier.
Import ListNotations.
Open Scope Qc_scope.

Section ThbLevels.
  Variable n : nat -> nat.
  Variable P : nat -> nat -> nat -> Qc.

  (* the last prolongator can be split off on the fine side (associativity of the product) *)
  Lemma RF_peel_fine Z T : forall m J i, (J < n T)%nat -> (i < n (T - S m))%nat ->
    RF n P Z T (S m) J i
    = bigsum (n (T - 1)%nat) (fun l => (if Z T J then 0 else P (T - 1)%nat J l) * RF n P Z (T - 1)%nat m l i).
  Proof.
    induction m as [|m IH]; intros J i HJ Hi.
    - cbn [RF]. replace (T - 0)%nat with T by lia.
      rewrite (bigsum_one _ _ J HJ).
      2:{ intros j Hj Nj. destruct (Nat.eqb_spec J j); [lia|ring]. }
      rewrite Nat.eqb_refl.
      rewrite (bigsum_one _ _ i Hi).
      2:{ intros j Hj Nj. destruct (Nat.eqb_spec j i); [lia|ring]. }
      rewrite Nat.eqb_refl. ring.
    - change (RF n P Z T (S (S m)) J i)
        with (bigsum (n (T - S m)%nat) (fun l => RF n P Z T (S m) J l * (if Z (T - S m)%nat l then 0 else P (T - S (S m))%nat l i))).
      rewrite (bigsum_ext (n (T - S m)%nat) _
                 (fun l => bigsum (n (T - 1)%nat) (fun l' =>
                    (if Z T J then 0 else P (T - 1)%nat J l') * (RF n P Z (T - 1)%nat m l' l
                      * (if Z (T - S m)%nat l then 0 else P (T - S (S m))%nat l i))))).
      2:{ intros l Hl. rewrite (IH J l HJ Hl). rewrite <- bigsum_scale_r. apply bigsum_ext. intros l' _. ring. }
      rewrite bigsum_swap. apply bigsum_ext. intros l' Hl'.
      rewrite bigsum_scale. f_equal.
      change (RF n P Z (T - 1)%nat (S m) l' i)
        with (bigsum (n (T - 1 - m)%nat) (fun l => RF n P Z (T - 1)%nat m l' l * (if Z (T - 1 - m)%nat l then 0 else P (T - 1 - S m)%nat l i))).
      replace (T - 1 - m)%nat with (T - S m)%nat by lia.
      replace (T - 1 - S m)%nat with (T - S (S m))%nat by lia. reflexivity.
  Qed.

  (* the levels below the top one, with the last prolongator split off *)
  Lemma lower_sum Z T' w J : (J < n (S T'))%nat ->
    bigsum (S T') (fun l => bigsum (n l) (fun i => RF n P Z (S T') (S T' - l) J i * w l i))
    = bigsum (n T') (fun l2 => (if Z (S T') J then 0 else P T' J l2) * fine_coeff n P Z T' w l2).
  Proof.
    intros HJ.
    rewrite (bigsum_ext (S T') _ (fun l => bigsum (n T') (fun l2 =>
               (if Z (S T') J then 0 else P T' J l2) * bigsum (n l) (fun i => RF n P Z T' (T' - l) l2 i * w l i)))).
    2:{ intros l Hl. replace (S T' - l)%nat with (S (T' - l)) by lia.
        rewrite (bigsum_ext (n l) _ (fun i => bigsum (n T') (fun l2 =>
                   (if Z (S T') J then 0 else P T' J l2) * RF n P Z T' (T' - l) l2 i * w l i))).
        2:{ intros i Hi. rewrite RF_peel_fine.
            - replace (S T' - 1)%nat with T' by lia. rewrite <- bigsum_scale_r. reflexivity.
            - exact HJ.
            - replace (S T' - S (T' - l))%nat with l by lia. exact Hi. }
        rewrite bigsum_swap. apply bigsum_ext. intros l2 _. rewrite <- bigsum_scale. apply bigsum_ext. intros i _. ring. }
    rewrite bigsum_swap. apply bigsum_ext. intros l2 _. unfold fine_coeff. rewrite <- bigsum_scale. reflexivity.
  Qed.

  (* finest-level coefficients, split into the top level and the contribution of the lower levels *)
  Lemma fine_coeff_step Z T' u J : (J < n (S T'))%nat ->
    fine_coeff n P Z (S T') u J
    = u (S T') J + bigsum (n T') (fun l => (if Z (S T') J then 0 else P T' J l) * fine_coeff n P Z T' u l).
  Proof.
    intros HJ. unfold fine_coeff at 1. rewrite (bigsum_S (S T')), lower_sum, Nat.sub_diag by exact HJ.
    cbn [RF]. rewrite (bigsum_delta_r _ (u (S T')) J HJ). ring.
  Qed.

  Lemma fine_coeff_top Z T u J : (forall l i, (l < T)%nat -> u l i = 0) -> (J < n T)%nat ->
    fine_coeff n P Z T u J = u T J.
  Proof.
    intros Hlow HJ. unfold fine_coeff. rewrite bigsum_S, Nat.sub_diag. cbn [RF].
    rewrite (bigsum_delta_r _ (u T) J HJ), bigsum_zero; [ring|].
    intros l Hl. apply bigsum_zero. intros i _. rewrite Hlow by exact Hl. ring.
  Qed.

  Lemma fine_coeff_ext Z T u v J :
    (forall l i, (l <= T)%nat -> u l i = v l i) -> fine_coeff n P Z T u J = fine_coeff n P Z T v J.
  Proof.
    intros H. unfold fine_coeff. apply bigsum_ext. intros l Hl. apply bigsum_ext. intros i _. rewrite H by lia. reflexivity.
  Qed.

  (* thb_to_hb = truncate_one_level(T-1) @ ... @ truncate_one_level(0) on coefficient arrays
     (zero outside the active functions): truncate_one_level(k) = I - A changes only level k+1,
     subtracting from the coefficient of an ACTIVE function j of level k+1 the level-(k+1)
     HB representation (represent_fine(lv=k+1, truncate=False), row j) of the levels <= k *)
  Variable actb : nat -> nat -> bool.
  Fixpoint t2h (T : nat) (u : nat -> nat -> Qc) : nat -> nat -> Qc :=
    match T with
    | O => u
    | S T' =>
        let w := t2h T' u in
        fun l j => if Nat.eqb l (S T')
                   then w (S T') j - (if actb (S T') j
                                      then bigsum (S T') (fun l' => bigsum (n l') (fun i => RF n P noZ (S T') (S T' - l') j i * w l' i))
                                      else 0)
                   else w l j
    end.

  Lemma t2h_above : forall T u l j, (T < l)%nat -> t2h T u l j = u l j.
  Proof.
    induction T as [|T IH]; intros u l j Hl; [reflexivity|].
    cbn [t2h]. destruct (Nat.eqb_spec l (S T)); [lia|]. apply IH. lia.
  Qed.

  Lemma t2h_inactive : forall T u, (forall lv j, (lv <= T)%nat -> actb lv j = false) ->
    forall l j, t2h T u l j = u l j.
  Proof.
    induction T as [|T IH]; intros u Hz l j; [reflexivity|].
    cbn [t2h]. rewrite (Hz (S T) j), !IH by (lia || intros; apply Hz; lia).
    destruct (Nat.eqb_spec l (S T)) as [->|]; [ring|reflexivity].
  Qed.

  (* the heart: for every number of levels, the HB finest-level coefficients of thb_to_hb(u) are the
     coefficients represent_fine(truncate=True) assigns to u *)
  Lemma thb_coeffs_l : forall T u J, (J < n T)%nat ->
    fine_coeff n P noZ T (t2h T u) J = fine_coeff n P actb T u J.
  Proof.
    induction T as [|T IH]; intros u J HJ; [reflexivity|].
    rewrite !fine_coeff_step by exact HJ. unfold noZ at 1.
    assert (Hlow : forall l, (l < n T)%nat -> fine_coeff n P noZ T (t2h (S T) u) l = fine_coeff n P actb T u l).
    { intros l Hl. rewrite <- (IH u l Hl). apply fine_coeff_ext. intros l0 i Hl0. cbn [t2h].
      destruct (Nat.eqb_spec l0 (S T)); [lia|reflexivity]. }
    rewrite (bigsum_ext (n T) (fun l => P T J l * fine_coeff n P noZ T (t2h (S T) u) l)
                              (fun l => P T J l * fine_coeff n P actb T u l))
      by (intros l Hl; rewrite Hlow by exact Hl; reflexivity).
    cbn [t2h]. rewrite Nat.eqb_refl. rewrite (t2h_above T u (S T) J) by lia.
    rewrite lower_sum by exact HJ. unfold noZ at 1.
    rewrite (bigsum_ext (n T) (fun l => P T J l * fine_coeff n P noZ T (t2h T u) l)
                              (fun l => P T J l * fine_coeff n P actb T u l))
      by (intros l Hl; rewrite IH by exact Hl; reflexivity).
    destruct (actb (S T) J).
    - rewrite (bigsum_zero (n T) (fun l => 0 * fine_coeff n P actb T u l)) by (intros; ring). ring.
    - ring.
  Qed.
End ThbLevels.

(* level-wise evaluation of THB coefficients = evaluation of represent_fine(truncate=True) * u,
   any number of levels, any dimension *)
Lemma levelwise_thb_l {X} n (B : nat -> nat -> X -> Qc) P Lmax (actb : nat -> nat -> bool) :
  two_scale_hyp n B P Lmax ->
  forall T u x, (T <= Lmax)%nat ->
    levelwise X n B T (t2h n P actb T u) x = bigsum (n T) (fun J => fine_coeff n P actb T u J * B T J x).
Proof.
  intros H T u x HT. rewrite (levelwise_eval_eq_fine_l X n B P Lmax H T _ x HT).
  apply bigsum_ext. intros J HJ. rewrite thb_coeffs_l by exact HJ. reflexivity.
Qed.

(* one refinement step: with active functions on the top level only, thb_to_hb is the single
   truncate_one_level step thb_to_hb2 *)
Lemma t2h_two_level n P T actT u l j :
  (1 <= T)%nat -> (forall l i, (l < T - 1)%nat -> u l i = 0) -> (j < n l)%nat ->
  t2h n P (fun lv j => Nat.eqb lv T && actT j) T u l j = thb_to_hb2 n P T actT u l j.
Proof.
  intros HT Hlow Hj. destruct T as [|T]; [lia|].
  set (actb := fun lv j => Nat.eqb lv (S T) && actT j).
  assert (Hw : forall l j, t2h n P actb T u l j = u l j).
  { apply t2h_inactive. intros lv j' Hlv. unfold actb. destruct (Nat.eqb_spec lv (S T)); [lia|reflexivity]. }
  cbn [t2h]. unfold thb_to_hb2. rewrite !Hw. destruct (Nat.eqb_spec l (S T)) as [->|]; [|reflexivity].
  unfold actb at 1. rewrite Nat.eqb_refl. cbn [andb]. destruct (actT j); [|reflexivity]. f_equal.
  rewrite lower_sum by exact Hj. replace (S T - 1)%nat with T by lia.
  apply bigsum_ext. intros i Hi. unfold noZ at 1. f_equal.
  rewrite (fine_coeff_ext n P noZ T _ u i) by (intros; apply Hw).
  apply fine_coeff_top; [intros; apply Hlow; lia | exact Hi].
Qed.
