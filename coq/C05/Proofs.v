(* C05 -- proofs: Boehm knot insertion preserves the function (Cox-de Boor reference),
   composition to arbitrary refinement, row sums, non-negativity. *)
From Coq Require Import QArith Qcanon ZArith List Bool Arith Lia Lqa.
From Verif.lib Require Import Bsp QcFacts ListFacts.
From Verif.C02 Require Import Proofs.
From Verif.C05 Require Import Model.
Import ListNotations.
Open Scope Qc_scope.

(* order reasoning on Qc through lra on Q *)
Lemma Qc_eq_Qeq (a b : Qc) : a = b <-> (a == b)%Q.
Proof. split; [intros ->; reflexivity | apply Qc_is_canon]. Qed.

Ltac qo :=
  repeat match goal with
  | H : @eq Qc _ _ |- _ => apply Qc_eq_Qeq in H
  | H : ~ @eq Qc _ _ |- _ => rewrite Qc_eq_Qeq in H
  end;
  try apply Qc_eq_Qeq; unfold Qcle, Qclt in *; lra.

Lemma Qcsub_neq0 (a b : Qc) : a <> b -> a - b <> 0.
Proof. intros N E. apply N. rewrite <- (Qcplus_0_l b), <- E. ring. Qed.

(* x / 0 = 0 does no harm in front of a factor that vanishes with the denominator *)
Lemma Qcdiv_self_absorb (a b N : Qc) : (a = b -> N = 0) -> (a - b) / (a - b) * N = N.
Proof.
  intros H. destruct (Qc_eq_dec a b) as [E|E].
  - rewrite (H E). ring.
  - field. apply Qcsub_neq0. exact E.
Qed.

Lemma Qcdiv_compl_absorb (u a b N : Qc) : (a = b -> N = 0) -> (1 - (u - b) / (a - b)) * N = (a - u) / (a - b) * N.
Proof.
  intros H. destruct (Qc_eq_dec a b) as [E|E].
  - rewrite (H E). ring.
  - field. apply Qcsub_neq0. exact E.
Qed.

Lemma mono_range (s : nat -> Qc) a b :
  (forall j, (a <= j < b)%nat -> s j <= s (S j)) -> (a <= b)%nat -> s a <= s b.
Proof.
  intros Hs Hab. induction b as [|b IHb].
  - replace a with 0%nat by lia. apply Qcle_refl.
  - destruct (Nat.eq_dec a (S b)) as [->|Hn]; [apply Qcle_refl|].
    eapply Qcle_trans; [apply IHb; [intros; apply Hs|]; lia|]. apply Hs. lia.
Qed.

Lemma Qc01 : 0 <= 1.
Proof. unfold Qcle, Qle. cbn. lia. Qed.

Lemma bigsum_S k f : bigsum (S k) f = bigsum k f + f k.
Proof. reflexivity. Qed.

Lemma bigsum_app a b f : bigsum (a + b) f = bigsum a f + bigsum b (fun j => f (a + j)%nat).
Proof.
  induction b as [|b IH].
  - rewrite Nat.add_0_r. cbn [bigsum]. ring.
  - replace (a + S b)%nat with (S (a + b)) by lia. cbn [bigsum]. rewrite IH. ring.
Qed.

Lemma bigsum_ext n f g : (forall j, (j < n)%nat -> f j = g j) -> bigsum n f = bigsum n g.
Proof.
  induction n as [|n IH]; intros H; [reflexivity|]. cbn [bigsum].
  rewrite IH by (intros; apply H; lia). rewrite H by lia. reflexivity.
Qed.

Lemma bigsum_zero n f : (forall j, (j < n)%nat -> f j = 0) -> bigsum n f = 0.
Proof.
  induction n as [|n IH]; intros H; [reflexivity|]. cbn [bigsum].
  rewrite IH by (intros; apply H; lia). rewrite H by lia. ring.
Qed.

Lemma bigsum_plus n f g : bigsum n (fun j => f j + g j) = bigsum n f + bigsum n g.
Proof. induction n as [|n IH]; cbn [bigsum]; [ring|rewrite IH; ring]. Qed.

Lemma bigsum_scale n c f : bigsum n (fun j => c * f j) = c * bigsum n f.
Proof. induction n as [|n IH]; cbn [bigsum]; [ring|rewrite IH; ring]. Qed.

Lemma bigsum_scale_r n c f : bigsum n (fun j => f j * c) = bigsum n f * c.
Proof. induction n as [|n IH]; cbn [bigsum]; [ring|rewrite IH; ring]. Qed.

Lemma bigsum_swap n m (f : nat -> nat -> Qc) :
  bigsum n (fun j => bigsum m (fun l => f j l)) = bigsum m (fun l => bigsum n (fun j => f j l)).
Proof.
  induction n as [|n IH]; cbn [bigsum].
  - symmetry. apply bigsum_zero. reflexivity.
  - rewrite IH. rewrite <- bigsum_plus. reflexivity.
Qed.

Lemma bigsum_prod n m f :
  bigsum (n * m) f = bigsum n (fun i => bigsum m (fun a => f (i * m + a)%nat)).
Proof.
  induction n as [|n IH]; [reflexivity|].
  replace (S n * m)%nat with (n * m + m)%nat by lia.
  rewrite bigsum_app, IH. cbn [bigsum]. reflexivity.
Qed.

Lemma bigsum_mul_distr n m f g :
  bigsum n f * bigsum m g = bigsum n (fun i => bigsum m (fun a => f i * g a)).
Proof.
  rewrite <- bigsum_scale_r. apply bigsum_ext. intros i _. rewrite bigsum_scale. reflexivity.
Qed.

Lemma bigsum_one n f i : (i < n)%nat -> (forall j, (j < n)%nat -> j <> i -> f j = 0) -> bigsum n f = f i.
Proof.
  induction n as [|n IH]; intros Hi H; [lia|]. cbn [bigsum].
  destruct (Nat.eq_dec i n) as [->|Hn].
  - rewrite bigsum_zero by (intros; apply H; lia). ring.
  - rewrite IH by (try lia; intros; apply H; lia). rewrite (H n) by lia. ring.
Qed.

Lemma bigsum_two n f i : (S i < n)%nat ->
  (forall j, (j < n)%nat -> j <> i -> j <> S i -> f j = 0) -> bigsum n f = f i + f (S i).
Proof.
  induction n as [|n IH]; intros Hi H; [lia|]. cbn [bigsum].
  destruct (Nat.eq_dec (S i) n) as [E|Hn].
  - subst n. rewrite (bigsum_one (S i) f i) by (try lia; intros; apply H; lia). reflexivity.
  - rewrite IH by (try lia; intros; apply H; lia). rewrite (H n) by lia. ring.
Qed.

Lemma bigsum_delta n f i : (i < n)%nat ->
  bigsum n (fun j => (if Nat.eqb j i then 1 else 0) * f j) = f i.
Proof.
  intros Hi. rewrite (bigsum_one _ _ i Hi).
  - rewrite Nat.eqb_refl. ring.
  - intros j _ N. destruct (Nat.eqb_spec j i); [contradiction|ring].
Qed.

Lemma bigsum_delta_r n f i : (i < n)%nat ->
  bigsum n (fun j => (if Nat.eqb i j then 1 else 0) * f j) = f i.
Proof.
  intros Hi. rewrite <- (bigsum_delta n f i Hi). apply bigsum_ext. intros j _. rewrite (Nat.eqb_sym i j). reflexivity.
Qed.

Lemma bigsum_nonneg n f : (forall j, (j < n)%nat -> 0 <= f j) -> 0 <= bigsum n f.
Proof.
  induction n as [|n IH]; intros H; cbn [bigsum]; [apply Qcle_refl|].
  pose proof (IH ltac:(intros; apply H; lia)). pose proof (H n ltac:(lia)).
  replace 0 with (0 + 0) by ring. apply Qcplus_le_compat; assumption.
Qed.

Lemma mul_nonzero (a b : Qc) : a * b <> 0 -> a <> 0 /\ b <> 0.
Proof. intros H. split; intro E; apply H; rewrite E; ring. Qed.

Lemma bigsum_nonzero n f : bigsum n f <> 0 -> exists l, (l < n)%nat /\ f l <> 0.
Proof.
  induction n as [|n IH]; cbn [bigsum]; intros H; [exfalso; apply H; reflexivity|].
  destruct (Qc_eq_dec (f n) 0) as [E|E].
  - destruct IH as [l [Hl Hf]]; [intro E'; apply H; rewrite E', E; ring|]. exists l. split; [lia|exact Hf].
  - exists n. split; [lia|exact E].
Qed.

(* degree 0: the indicator of a span, split at an inserted knot *)
Definition ind (a b last x : Qc) : Qc :=
  if (qleb a x && qltb x b) || (qeqb x last && qltb a b && qeqb b last) then 1 else 0.

Lemma ind_empty a last x : ind a a last x = 0.
Proof.
  unfold ind.
  replace (qltb a a) with false by (symmetry; apply qltb_false_iff; apply Qcle_refl).
  rewrite andb_false_r. cbn [andb orb].
  destruct (qleb a x) eqn:E1; [|reflexivity].
  destruct (qltb x a) eqn:E2; [|reflexivity].
  apply qleb_iff in E1. apply qltb_iff in E2. exfalso. qo.
Qed.

Ltac bcase b :=
  let E := fresh "E" in
  lazymatch b with
  | qeqb ?x ?y =>
      destruct b eqn:E;
      [ apply qeqb_iff in E
      | assert (x <> y) by (let H := fresh in intro H; apply qeqb_iff in H; congruence) ]
  | qleb _ _ => destruct b eqn:E; [apply qleb_iff in E | apply qleb_false_iff in E]
  | qltb _ _ => destruct b eqn:E; [apply qltb_iff in E | apply qltb_false_iff in E]
  end.

Lemma ind_split a b c last x :
  a <= b -> b <= c -> c <= last -> ind a c last x = ind a b last x + ind b c last x.
Proof.
  intros Hab Hbc Hcl.
  destruct (Qc_eq_dec a b) as [->|Nab]; [rewrite ind_empty; ring|].
  destruct (Qc_eq_dec b c) as [->|Nbc]; [rewrite ind_empty; ring|].
  unfold ind.
  replace (qltb a c) with true by (symmetry; apply qltb_iff; qo).
  replace (qltb a b) with true by (symmetry; apply qltb_iff; qo).
  replace (qltb b c) with true by (symmetry; apply qltb_iff; qo).
  replace (qeqb b last) with false.
  2:{ symmetry. destruct (qeqb b last) eqn:E; [|reflexivity]. apply qeqb_iff in E. exfalso. qo. }
  rewrite !andb_true_r, !andb_false_r, !orb_false_r.
  rewrite <- (negb_involutive (qleb b x)). change (negb (qleb b x)) with (qltb x b).
  bcase (qltb x b); bcase (qleb a x); bcase (qltb x c); bcase (qeqb x last); bcase (qeqb c last);
  cbn [andb orb negb]; try (exfalso; qo); try ring.
Qed.

(* the Cox-de Boor reference over knot functions *)
Definition in_spanF (t : nat -> Qc) (last : Qc) (i : nat) (u : Qc) : bool :=
  (qleb (t i) u && qltb u (t (S i)))
  || (qeqb u last && qltb (t i) (t (S i)) && qeqb (t (S i)) last).

Fixpoint NF (t : nat -> Qc) (last : Qc) (p i : nat) (u : Qc) : Qc :=
  match p with
  | O => if in_spanF t last i u then 1 else 0
  | S q =>
      (u - t i) / (t (i + p)%nat - t i) * NF t last q i u
      + (t (i + p + 1)%nat - u) / (t (i + p + 1)%nat - t (i + 1)%nat) * NF t last q (S i) u
  end.

Lemma Nref_NF kv p : forall i u, Nref kv p i u = NF (kn kv) (kn kv (length kv - 1)) p i u.
Proof.
  induction p as [|q IH]; intros i u.
  - reflexivity.
  - cbn [Nref NF]. rewrite !IH. reflexivity.
Qed.

Lemma NF0_ind t last i x : NF t last 0 i x = ind (t i) (t (S i)) last x.
Proof. reflexivity. Qed.

Lemma NF_S t last q i x :
  NF t last (S q) i x =
    (x - t i) / (t (S (i + q)) - t i) * NF t last q i x
    + (t (S (S (i + q))) - x) / (t (S (S (i + q))) - t (S i)) * NF t last q (S i) x.
Proof.
  cbn [NF]. replace (i + S q)%nat with (S (i + q)) by lia.
  replace (S (i + q) + 1)%nat with (S (S (i + q))) by lia.
  replace (i + 1)%nat with (S i) by lia. reflexivity.
Qed.

(* locality: only the knots i .. i+p+1 (and the right end point) matter *)
Lemma NF_ext last p : forall t t' i i' u,
  (forall j, (j <= p + 1)%nat -> t (i + j)%nat = t' (i' + j)%nat) ->
  NF t last p i u = NF t' last p i' u.
Proof.
  induction p as [|q IH]; intros t t' i i' u H.
  - cbn [NF]. unfold in_spanF.
    pose proof (H 0%nat ltac:(lia)) as H0. pose proof (H 1%nat ltac:(lia)) as H1.
    rewrite !Nat.add_0_r in H0. rewrite !Nat.add_1_r in H1. rewrite H0, H1. reflexivity.
  - cbn [NF].
    pose proof (H 0%nat ltac:(lia)) as H0. rewrite !Nat.add_0_r in H0.
    pose proof (H 1%nat ltac:(lia)) as H1.
    pose proof (H (S q) ltac:(lia)) as H2.
    pose proof (H (S q + 1)%nat ltac:(lia)) as H3. rewrite !Nat.add_assoc in H3.
    rewrite H0, H1, H2, H3.
    rewrite (IH t t' i i' u) by (intros j Hj; apply H; lia).
    rewrite (IH t t' (S i) (S i') u); [reflexivity|].
    intros j Hj. cbn [Nat.add]. rewrite !plus_n_Sm. apply H. lia.
Qed.

(* a B-spline over p+2 coinciding knots is the zero function *)
Lemma NF_zero last p : forall t i u,
  (forall j, (i <= j <= i + p)%nat -> t j <= t (S j)) ->
  t i = t (S (i + p)) -> NF t last p i u = 0.
Proof.
  induction p as [|q IH]; intros t i u Hs He.
  - rewrite Nat.add_0_r in He. rewrite NF0_ind, <- He. apply ind_empty.
  - rewrite Nat.add_succ_r in He.
    pose proof (mono_range t i (S (i + q)) ltac:(intros; apply Hs; lia) ltac:(lia)) as A.
    pose proof (mono_range t (S i) (S (S (i + q))) ltac:(intros; apply Hs; lia) ltac:(lia)) as B.
    pose proof (Hs i ltac:(lia)) as C. pose proof (Hs (S (i + q)) ltac:(lia)) as D.
    rewrite NF_S, (IH t i u), (IH t (S i) u);
      [ring | intros; apply Hs; lia | cbn [Nat.add]; qo | intros; apply Hs; lia | qo].
Qed.

(* Boehm's identity, local form: s_i <= ... <= s_{i+p+2}; removing the interior knot s_m
   (i < m <= i+p+1) gives the coarse B-spline, which is the stated combination of the
   two fine ones.  Division by zero is 0 as in the reference; the identity holds
   nevertheless because the affected B-splines vanish identically. *)
Definition remove_at (s : nat -> Qc) (m : nat) : nat -> Qc :=
  fun j => if (j <? m)%nat then s j else s (S j).

Lemma remove_at_lt s m j : (j < m)%nat -> remove_at s m j = s j.
Proof. intros H. unfold remove_at. apply Nat.ltb_lt in H. rewrite H. reflexivity. Qed.
Lemma remove_at_ge s m j : (m <= j)%nat -> remove_at s m j = s (S j).
Proof. intros H. unfold remove_at. apply Nat.ltb_ge in H. rewrite H. reflexivity. Qed.

Lemma boehm_local last x : forall p s m i,
  (forall j, (i <= j <= i + S p)%nat -> s j <= s (S j)) ->
  s (S (S (i + p))) <= last ->
  (i < m <= S (i + p))%nat ->
  NF (remove_at s m) last p i x =
    (s m - s i) / (s (S (i + p)) - s i) * NF s last p i x
    + (s (S (S (i + p))) - s m) / (s (S (S (i + p))) - s (S i)) * NF s last p (S i) x.
Proof.
  induction p as [|q IH]; intros s m i Hs Hl Hm.
  - assert (m = S i) by lia. subst m. rewrite Nat.add_0_r in *. rewrite !NF0_ind.
    rewrite (remove_at_lt s (S i) i), (remove_at_ge s (S i) (S i)) by lia.
    rewrite !Qcdiv_self_absorb by (intros ->; apply ind_empty).
    apply ind_split; [apply Hs; lia | apply Hs; lia | exact Hl].
  - rewrite Nat.add_succ_r in *.
    assert (Hmono : forall a b, (i <= a)%nat -> (a <= b)%nat -> (b <= S (S (S (i + q))))%nat -> s a <= s b)
      by (intros; apply mono_range; [intros; apply Hs|]; lia).
    assert (Z0 : s i = s (S (i + q)) -> NF s last q i x = 0)
      by (apply NF_zero; intros; apply Hs; lia).
    assert (Z1 : s (S i) = s (S (S (i + q))) -> NF s last q (S i) x = 0)
      by (apply (NF_zero last q s (S i)); intros; apply Hs; lia).
    assert (Z2 : s (S (S i)) = s (S (S (S (i + q)))) -> NF s last q (S (S i)) x = 0)
      by (apply (NF_zero last q s (S (S i))); intros; apply Hs; lia).
    (* the two degree-q pieces of the coarse function: by induction while the removed knot is
       interior to their support, copies of fine functions when it is their outermost knot *)
    assert (L0 : (m <= S (i + q))%nat -> NF (remove_at s m) last q i x =
              (s m - s i) / (s (S (i + q)) - s i) * NF s last q i x
              + (s (S (S (i + q))) - s m) / (s (S (S (i + q))) - s (S i)) * NF s last q (S i) x).
    { intro Hle. apply IH; [intros; apply Hs; lia | | lia].
      eapply Qcle_trans; [apply (Hs (S (S (i + q)))); lia | exact Hl]. }
    assert (L0' : m = S (S (i + q)) -> NF (remove_at s m) last q i x = NF s last q i x).
    { intro E. apply NF_ext. intros j Hj. apply remove_at_lt. lia. }
    assert (L1 : (S i < m)%nat -> NF (remove_at s m) last q (S i) x =
              (s m - s (S i)) / (s (S (S (i + q))) - s (S i)) * NF s last q (S i) x
              + (s (S (S (S (i + q)))) - s m) / (s (S (S (S (i + q)))) - s (S (S i))) * NF s last q (S (S i)) x).
    { intro Hge. apply (IH s m (S i)); [intros; apply Hs; lia | exact Hl | lia]. }
    assert (L1' : m = S i -> NF (remove_at s m) last q (S i) x = NF s last q (S (S i)) x).
    { intro E. apply NF_ext. intros j Hj. rewrite remove_at_ge by lia. reflexivity. }
    rewrite !NF_S. cbn [Nat.add].
    rewrite (remove_at_lt s m i) by lia.
    rewrite (remove_at_ge s m (S (S (i + q)))) by lia.
    pose proof (Hmono i (S i) ltac:(lia) ltac:(lia) ltac:(lia)) as M01.
    pose proof (Hmono (S i) (S (S i)) ltac:(lia) ltac:(lia) ltac:(lia)) as M12.
    pose proof (Hmono (S i) (S (S (i + q))) ltac:(lia) ltac:(lia) ltac:(lia)) as M1p.
    pose proof (Hmono (S (S (i + q))) (S (S (S (i + q)))) ltac:(lia) ltac:(lia) ltac:(lia)) as Mpp.
    pose proof (Hmono (S (i + q)) (S (S (i + q))) ltac:(lia) ltac:(lia) ltac:(lia)) as Mqp.
    pose proof (Hmono i (S (i + q)) ltac:(lia) ltac:(lia) ltac:(lia)) as M0q.
    pose proof (Hmono (S (S i)) (S (S (S (i + q)))) ltac:(lia) ltac:(lia) ltac:(lia)) as M2e.
    (* in each case below: a term whose denominator may vanish carries a factor NF that then vanishes
       (Z0, Z1, Z2); the remaining inverses of possibly vanishing denominators occur alike on both sides
       and are abstracted, so that `field` asks only for denominators known to be non-zero *)
    destruct (Nat.eq_dec m (S (S (i + q)))) as [Em|Em]; destruct (Nat.eq_dec m (S i)) as [E1|E1]; try lia.
    + (* m = i+p+1: the last knot of the first fine function is the new one *)
      rewrite (remove_at_lt s m (S (i + q))) by lia. rewrite (remove_at_lt s m (S i)) by lia.
      rewrite (L0' Em), (L1 ltac:(lia)). subst m.
      destruct (Qc_eq_dec (s (S i)) (s (S (S (i + q))))) as [A|A].
      * rewrite (Z1 A).
        destruct (Qc_eq_dec (s i) (s (S (S (i + q))))) as [B|B].
        -- rewrite (Z0 ltac:(qo)). unfold Qcdiv. ring.
        -- unfold Qcdiv. generalize (/ (s (S (i + q)) - s i)) (/ (s (S (S (S (i + q)))) - s (S (S i))))
                                    (/ (s (S (S (S (i + q)))) - s (S i))) (/ (s (S (S (i + q))) - s (S i))).
           intros. field. apply Qcsub_neq0. congruence.
      * unfold Qcdiv. generalize (/ (s (S (i + q)) - s i)) (/ (s (S (S (S (i + q)))) - s (S (S i)))).
        intros. field. repeat split; apply Qcsub_neq0; intro; qo.
    + (* m = i+1: the first knot of the second fine function is the new one *)
      rewrite (remove_at_ge s m (S (i + q))) by lia. rewrite (remove_at_ge s m (S i)) by lia.
      rewrite (L0 ltac:(lia)), (L1' E1). subst m.
      destruct (Qc_eq_dec (s (S i)) (s (S (S (i + q))))) as [A|A].
      * rewrite (Z1 A).
        destruct (Qc_eq_dec (s (S i)) (s (S (S (S (i + q)))))) as [B|B].
        -- rewrite (Z2 ltac:(qo)). unfold Qcdiv. ring.
        -- unfold Qcdiv. generalize (/ (s (S (i + q)) - s i)) (/ (s (S (S (S (i + q)))) - s (S (S i))))
                                    (/ (s (S (S (i + q))) - s i)) (/ (s (S (S (i + q))) - s (S i))).
           intros. field. apply Qcsub_neq0. congruence.
      * unfold Qcdiv. generalize (/ (s (S (i + q)) - s i)) (/ (s (S (S (S (i + q)))) - s (S (S i)))).
        intros. field. repeat split; apply Qcsub_neq0; intro; qo.
    + (* interior *)
      rewrite (remove_at_ge s m (S (i + q))) by lia. rewrite (remove_at_lt s m (S i)) by lia.
      rewrite (L0 ltac:(lia)), (L1 ltac:(lia)).
      destruct (Qc_eq_dec (s (S i)) (s (S (S (i + q))))) as [A|A].
      * rewrite (Z1 A). unfold Qcdiv. ring.
      * unfold Qcdiv. generalize (/ (s (S (i + q)) - s i)) (/ (s (S (S (S (i + q)))) - s (S (S i)))).
        intros. field. repeat split; apply Qcsub_neq0; intro; qo.
Qed.

(* the same for every position m of the new knot relative to function i, with the coefficient
   clamped to 1 (new knot behind the support) and 0 (before it): the closed form of a matrix column *)
Definition bcoef (s : nat -> Qc) (m p i : nat) : Qc :=
  if (i + p <? m)%nat then 1 else if (i <? m)%nat then (s m - s i) / (s (S (i + p)) - s i) else 0.

Lemma boehm_column last x s m p i :
  (forall j, (i <= j <= i + S p)%nat -> s j <= s (S j)) ->
  s (S (S (i + p))) <= last ->
  NF (remove_at s m) last p i x =
    bcoef s m p i * NF s last p i x + (1 - bcoef s m p (S i)) * NF s last p (S i) x.
Proof.
  intros Hs Hl. unfold bcoef.
  destruct (Nat.ltb_spec (S i + p) m) as [C1|C1]; [|destruct (Nat.ltb_spec i m) as [C2|C2]].
  - (* both fine functions end before the new knot *)
    destruct (Nat.ltb_spec (i + p) m); [|lia].
    rewrite (NF_ext last p (remove_at s m) s i i x); [ring|]. intros j Hj. apply remove_at_lt. lia.
  - rewrite boehm_local by (assumption || lia).
    assert (Z0 : s (S (i + p)) = s i -> NF s last p i x = 0)
      by (intro E; apply NF_zero; [intros; apply Hs; lia | symmetry; exact E]).
    assert (Z1 : s (S (S (i + p))) = s (S i) -> NF s last p (S i) x = 0)
      by (intro E; apply (NF_zero last p s (S i)); [intros; apply Hs; lia | symmetry; exact E]).
    f_equal.
    + destruct (Nat.ltb_spec (i + p) m); [|reflexivity].
      replace m with (S (i + p)) by lia. rewrite Qcmult_1_l. apply Qcdiv_self_absorb. exact Z0.
    + cbn [Nat.add]. destruct (Nat.ltb_spec (S i) m).
      * symmetry. apply Qcdiv_compl_absorb. exact Z1.
      * replace m with (S i) by lia. replace (1 - 0) with 1 by ring. rewrite Qcmult_1_l.
        apply Qcdiv_self_absorb. exact Z1.
  - (* the new knot lies before both: indices shift by one *)
    destruct (Nat.ltb_spec (i + p) m); [lia|]. destruct (Nat.ltb_spec (S i) m); [lia|].
    rewrite (NF_ext last p (remove_at s m) s i (S i) x); [ring|].
    intros j Hj. cbn [Nat.add]. apply remove_at_ge. lia.
Qed.

Lemma nth_firstn_skipn (l : list Qc) n j :
  nth j l 0 = if (j <? n)%nat then nth j (firstn n l) 0 else nth (j - n) (skipn n l) 0.
Proof.
  destruct (Nat.le_gt_cases (length l) n) as [L|L].
  - rewrite firstn_all2 by exact L. rewrite skipn_all2 by exact L.
    destruct (Nat.ltb_spec j n); [reflexivity|].
    rewrite nth_overflow by lia. destruct (j - n)%nat; reflexivity.
  - rewrite <- (firstn_skipn n l) at 1.
    assert (length (firstn n l) = n) by (apply firstn_length_le; lia).
    destruct (Nat.ltb_spec j n).
    + apply app_nth1. lia.
    + rewrite app_nth2 by lia. rewrite H. reflexivity.
Qed.

Lemma length_insert_at kv k u : length (insert_at kv k u) = S (length kv).
Proof.
  unfold insert_at. rewrite app_length. cbn [length]. rewrite firstn_length, skipn_length. lia.
Qed.

Lemma kn_ins_le kv k u j : (S k <= length kv)%nat -> (j <= k)%nat -> kn (insert_at kv k u) j = kn kv j.
Proof.
  intros Hk Hj. unfold kn, insert_at.
  assert (length (firstn (S k) kv) = S k) by (apply firstn_length_le; lia).
  rewrite app_nth1 by lia. rewrite (nth_firstn_skipn kv (S k) j).
  destruct (Nat.ltb_spec j (S k)); [reflexivity|lia].
Qed.

Lemma kn_ins_eq kv k u : (S k <= length kv)%nat -> kn (insert_at kv k u) (S k) = u.
Proof.
  intros Hk. unfold kn, insert_at.
  assert (length (firstn (S k) kv) = S k) by (apply firstn_length_le; lia).
  rewrite app_nth2 by lia. rewrite H. rewrite Nat.sub_diag. reflexivity.
Qed.

Lemma kn_ins_gt kv k u j : (S k <= length kv)%nat -> (k < j)%nat -> kn (insert_at kv k u) (S j) = kn kv j.
Proof.
  intros Hk Hj. unfold kn, insert_at.
  assert (length (firstn (S k) kv) = S k) by (apply firstn_length_le; lia).
  rewrite app_nth2 by lia. rewrite H.
  replace (S j - S k)%nat with (S (j - S k)) by lia. cbn [nth].
  rewrite (nth_firstn_skipn kv (S k) j).
  destruct (Nat.ltb_spec j (S k)); [lia|reflexivity].
Qed.

Section Insertion.
  Variables (kv : list Qc) (p k : nat) (u : Qc).
  Hypothesis Hsorted : sorted kv.
  Hypothesis Hk : (S (S k) <= length kv)%nat.
  Hypothesis Hlo : kn kv k <= u.
  Hypothesis Hhi : u <= kn kv (S k).

  Let kv' := insert_at kv k u.
  Let L := kn kv (length kv - 1).

  Lemma ins_last : kn kv' (length kv' - 1) = L.
  Proof.
    unfold kv'. rewrite length_insert_at.
    replace (S (length kv) - 1)%nat with (S (length kv - 1)) by lia.
    apply kn_ins_gt; lia.
  Qed.

  Lemma ins_sorted_step j : (j < length kv)%nat -> kn kv' j <= kn kv' (S j).
  Proof.
    unfold kv'. intros Hj.
    destruct (Nat.lt_trichotomy j k) as [A|[A|A]].
    - rewrite !kn_ins_le by lia. apply Hsorted; lia.
    - subst j. rewrite kn_ins_le by lia. rewrite kn_ins_eq by lia. exact Hlo.
    - destruct (Nat.eq_dec j (S k)) as [->|B].
      + rewrite kn_ins_eq by lia. rewrite kn_ins_gt by lia. exact Hhi.
      + destruct j as [|j']; [lia|]. rewrite !kn_ins_gt by lia. apply Hsorted; lia.
  Qed.

  Lemma ins_le_last j : (j <= length kv)%nat -> kn kv' j <= L.
  Proof.
    intros Hj. rewrite <- ins_last. apply (mono_range (kn kv')).
    - intros a Ha. apply ins_sorted_step. unfold kv' in Ha. rewrite length_insert_at in Ha. lia.
    - unfold kv'. rewrite length_insert_at. lia.
  Qed.

  Lemma ki_coef_bcoef i : (i + p < length kv)%nat -> ki_coef kv p k u i = bcoef (kn kv') (S k) p i.
  Proof.
    intros Hi. unfold ki_coef, ki_alpha, bcoef, kv'.
    change (i + p <? S k)%nat with (i + p <=? k)%nat. change (i <? S k)%nat with (i <=? k)%nat.
    destruct (Nat.leb_spec (i + p) k); [reflexivity|]. destruct (Nat.leb_spec i k); [|reflexivity].
    rewrite kn_ins_eq, (kn_ins_le kv k u i), (kn_ins_gt kv k u (i + p)) by lia. reflexivity.
  Qed.

  (* Boehm: column i of the knot insertion matrix; the old knot vector is the new one with knot k+1 removed *)
  Lemma ki_column i x :
    (i + p + 1 < length kv)%nat ->
    Nref kv p i x =
      ki_coef kv p k u i * Nref kv' p i x + (1 - ki_coef kv p k u (S i)) * Nref kv' p (S i) x.
  Proof.
    intros Hi. rewrite !Nref_NF, ins_last, !ki_coef_bcoef by lia. fold L.
    rewrite <- (boehm_column L x (kn kv') (S k) p i).
    - apply NF_ext. intros j Hj. unfold remove_at, kv'.
      destruct (Nat.ltb_spec (i + j) (S k)); [rewrite kn_ins_le|rewrite kn_ins_gt]; (lia || reflexivity).
    - intros j Hj. apply ins_sorted_step. lia.
    - apply ins_le_last. lia.
  Qed.
End Insertion.

Lemma lookup_in (l : asg) j i v :
  (forall e e', In e l -> In e' l -> fst e = fst e' -> snd e = snd e') ->
  In (j, i, v) l -> lookup l j i = v.
Proof.
  intros Hf Hin. unfold lookup. destruct (find (at_pos j i) (rev l)) as [e|] eqn:E.
  - apply find_some in E. destruct E as [E1 E2]. apply in_rev in E1.
    unfold at_pos in E2. apply andb_prop in E2. destruct E2 as [A B].
    apply Nat.eqb_eq in A, B.
    apply (Hf e (j, i, v) E1 Hin). destruct e as [[a b] c]. cbn in *. congruence.
  - exfalso. pose proof (find_none _ _ E (j, i, v)) as N.
    rewrite <- in_rev in N. specialize (N Hin). unfold at_pos in N. cbn in N.
    rewrite !Nat.eqb_refl in N. discriminate.
Qed.

Lemma lookup_notin (l : asg) j i :
  (forall e, In e l -> fst e <> (j, i)) -> lookup l j i = 0.
Proof.
  intros H. unfold lookup. destruct (find (at_pos j i) (rev l)) as [e|] eqn:E; [|reflexivity].
  exfalso. apply find_some in E. destruct E as [E1 E2]. apply in_rev in E1.
  apply (H e E1). unfold at_pos in E2. apply andb_prop in E2. destruct E2 as [A B].
  apply Nat.eqb_eq in A, B. destruct e as [[a b] c]. cbn in *. congruence.
Qed.

Lemma ki_in kv p k u e :
  In e (knot_insertion_at kv p k u) <->
    (exists a, (a < k - p + 1)%nat /\ e = (a, a, 1))
    \/ (exists a, (k + 1 <= a < numdofs kv p + 1)%nat /\ e = (a, (a - 1)%nat, 1))
    \/ (exists a, (k - p + 1 <= a < k + 1)%nat /\
                  (e = (a, (a - 1)%nat, 1 - ki_alpha kv p u a) \/ e = (a, a, ki_alpha kv p u a))).
Proof.
  unfold knot_insertion_at. rewrite !in_app_iff, !in_map_iff, in_flat_map. split.
  - intros [[a [E H]]|[[a [E H]]|[a [H E]]]].
    + left. exists a. apply in_seq in H. split; [lia|congruence].
    + right; left. exists a. apply in_seq in H. split; [lia|congruence].
    + right; right. exists a. apply in_rev in H. apply in_seq in H. split; [lia|].
      cbn in E. destruct E as [E|[E|[]]]; [left|right]; congruence.
  - intros [[a [H ->]]|[[a [H ->]]|[a [H E]]]].
    + left. exists a. split; [reflexivity|]. apply in_seq. lia.
    + right; left. exists a. split; [reflexivity|]. apply in_seq. lia.
    + right; right. exists a. split.
      * rewrite <- in_rev. apply in_seq. lia.
      * cbn. destruct E as [->| ->]; auto.
Qed.

Lemma ki_functional kv p k u e e' :
  In e (knot_insertion_at kv p k u) -> In e' (knot_insertion_at kv p k u) ->
  fst e = fst e' -> snd e = snd e'.
Proof.
  intros H H'. apply ki_in in H, H'.
  destruct H as [[a [Ha ->]]|[[a [Ha ->]]|[a [Ha [->| ->]]]]];
  destruct H' as [[b [Hb ->]]|[[b [Hb ->]]|[b [Hb [->| ->]]]]];
  cbn [fst snd]; intro E; injection E as E1 E2; try lia; try (subst; reflexivity);
  try (assert (a = b) by lia; subst; reflexivity).
Qed.

Lemma ki_lookup kv p k u j i :
  (p <= k)%nat -> (k < numdofs kv p)%nat -> (i < numdofs kv p)%nat -> (j < S (numdofs kv p))%nat ->
  lookup (knot_insertion_at kv p k u) j i = ki_entry kv p k u j i.
Proof.
  intros Hp Hk Hi Hj. unfold ki_entry, ki_coef.
  destruct (Nat.eqb_spec j i) as [->|Nji].
  - destruct (Nat.leb_spec (i + p) k) as [C1|C1]; [|destruct (Nat.leb_spec i k) as [C2|C2]].
    + apply lookup_in; [apply ki_functional|]. apply ki_in. left. exists i. split; [lia|reflexivity].
    + apply lookup_in; [apply ki_functional|]. apply ki_in. right; right. exists i. split; [lia|]. right; reflexivity.
    + apply lookup_notin. intros e He. apply ki_in in He.
      destruct He as [[a [Ha ->]]|[[a [Ha ->]]|[a [Ha [->| ->]]]]]; cbn [fst]; intro E; injection E as E1 E2; lia.
  - destruct (Nat.eqb_spec j (S i)) as [->|Nji'].
    + destruct (Nat.leb_spec (S i + p) k) as [C1|C1]; [|destruct (Nat.leb_spec (S i) k) as [C2|C2]].
      * replace (1 - 1) with 0 by ring.
        apply lookup_notin. intros e He. apply ki_in in He.
        destruct He as [[a [Ha ->]]|[[a [Ha ->]]|[a [Ha [->| ->]]]]]; cbn [fst]; intro E; injection E as E1 E2; lia.
      * apply lookup_in; [apply ki_functional|]. apply ki_in. right; right. exists (S i). split; [lia|]. left.
        replace (S i - 1)%nat with i by lia. reflexivity.
      * replace (1 - 0) with 1 by ring.
        apply lookup_in; [apply ki_functional|]. apply ki_in. right; left. exists (S i). split; [lia|].
        replace (S i - 1)%nat with i by lia. reflexivity.
    + apply lookup_notin. intros e He. apply ki_in in He.
      destruct He as [[a [Ha ->]]|[[a [Ha ->]]|[a [Ha [->| ->]]]]]; cbn [fst]; intro E; injection E as E1 E2; lia.
Qed.

(* column i of the matrix against any vector: only the entries (i, i) and (i+1, i) are non-zero *)
Lemma ki_column_sum kv p k u (a : nat -> Qc) i :
  (p <= k)%nat -> (k < numdofs kv p)%nat -> (i < numdofs kv p)%nat ->
  bigsum (S (numdofs kv p)) (fun j => lookup (knot_insertion_at kv p k u) j i * a j)
  = ki_coef kv p k u i * a i + (1 - ki_coef kv p k u (S i)) * a (S i).
Proof.
  intros Hp Hk Hi. rewrite (bigsum_two _ _ i).
  - rewrite !ki_lookup by lia. unfold ki_entry.
    rewrite Nat.eqb_refl. destruct (Nat.eqb_spec (S i) i); [lia|]. rewrite Nat.eqb_refl. reflexivity.
  - lia.
  - intros j Hj N1 N2. rewrite ki_lookup by lia. unfold ki_entry.
    destruct (Nat.eqb_spec j i); [lia|]. destruct (Nat.eqb_spec j (S i)); [lia|]. ring.
Qed.

Lemma findspan_in kv p u :
  kv_ok kv p -> kn kv 0 <= u -> u <= kn kv (length kv - 1) ->
  let k := findspan kv p u in
  (p <= k)%nat /\ (k < numdofs kv p)%nat /\ kn kv k < kn kv (S k) /\ kn kv k <= u /\ u <= kn kv (S k).
Proof.
  intros Hok Hu0 Hu1. destruct (findspan_spec_l kv p u Hok Hu0 Hu1) as [A [B [C [D E]]]].
  cbv zeta. repeat split; auto.
  destruct E as [E|[E1 E2]]; [qo|]. rewrite E2, E1. apply Qcle_refl.
Qed.

Lemma knot_insertion_preserves_l kv p u i x :
  kv_ok kv p -> kn kv 0 <= u -> u <= kn kv (length kv - 1) -> (i < numdofs kv p)%nat ->
  Nref kv p i x =
    bigsum (S (numdofs kv p))
           (fun j => lookup (knot_insertion kv p u) j i * Nref (insert_knot kv p u) p j x).
Proof.
  intros Hok Hu0 Hu1 Hi.
  destruct (findspan_in kv p u Hok Hu0 Hu1) as [A [B [C [D E]]]].
  unfold knot_insertion, insert_knot. rewrite ki_column_sum by assumption.
  pose proof (ok_len _ _ Hok) as Hlen. unfold numdofs in B, Hi.
  apply (ki_column kv p _ u (ok_sorted _ _ Hok)); assumption || lia.
Qed.

Lemma ki_coef_range kv p k u i :
  sorted kv -> (S k < length kv)%nat -> kn kv k < kn kv (S k) -> kn kv k <= u -> u <= kn kv (S k) ->
  (i + p < length kv)%nat ->
  0 <= ki_coef kv p k u i /\ 0 <= 1 - ki_coef kv p k u i.
Proof.
  intros Hs Hk Hne Hlo Hhi Hi. unfold ki_coef.
  destruct (Nat.leb_spec (i + p) k) as [C1|C1]; [|destruct (Nat.leb_spec i k) as [C2|C2]].
  - split; [apply Qc01|]. replace (1 - 1) with 0 by ring. apply Qcle_refl.
  - assert (A : kn kv i <= kn kv k) by (apply Hs; lia).
    assert (B : kn kv (S k) <= kn kv (i + p)) by (apply Hs; lia).
    unfold ki_alpha. split.
    + apply Qcdiv_nonneg; apply Qcsub_nonneg; qo.
    + replace (1 - (u - kn kv i) / (kn kv (i + p) - kn kv i))
        with ((kn kv (i + p) - u) / (kn kv (i + p) - kn kv i)).
      * apply Qcdiv_nonneg; apply Qcsub_nonneg; qo.
      * field. apply Qcsub_neq0. intro E. qo.
  - split; [apply Qcle_refl|]. replace (1 - 0) with 1 by ring. apply Qc01.
Qed.

Lemma ki_row_sum kv p k u j :
  (p <= k)%nat -> (k < numdofs kv p)%nat -> (j < S (numdofs kv p))%nat ->
  bigsum (numdofs kv p) (fun i => ki_entry kv p k u j i) = 1.
Proof.
  intros Hp Hk Hj. set (n := numdofs kv p) in *. unfold ki_entry.
  destruct j as [|j'].
  - rewrite (bigsum_one n _ 0%nat); [|lia|].
    + cbn. unfold ki_coef. destruct (Nat.leb_spec (0 + p) k); [reflexivity|lia].
    + intros j Hj' N. destruct (Nat.eqb_spec 0 j); [lia|]. destruct (Nat.eqb_spec 0 (S j)); [lia|reflexivity].
  - destruct (Nat.eq_dec (S j') n) as [E|N].
    + rewrite (bigsum_one n _ j'); [|lia|].
      * destruct (Nat.eqb_spec (S j') j'); [lia|]. rewrite Nat.eqb_refl.
        unfold ki_coef. destruct (Nat.leb_spec (S j' + p) k); [lia|]. destruct (Nat.leb_spec (S j') k); [lia|]. ring.
      * intros j Hj' N. destruct (Nat.eqb_spec (S j') j); [lia|]. destruct (Nat.eqb_spec (S j') (S j)); [lia|reflexivity].
    + rewrite (bigsum_two n _ j'); [|lia|].
      * destruct (Nat.eqb_spec (S j') j'); [lia|]. rewrite !Nat.eqb_refl. ring.
      * intros j Hj' N1 N2. destruct (Nat.eqb_spec (S j') j); [lia|]. destruct (Nat.eqb_spec (S j') (S j)); [lia|reflexivity].
Qed.

Lemma ki_entry_nonneg kv p k u j i :
  sorted kv -> (S k < length kv)%nat -> kn kv k < kn kv (S k) -> kn kv k <= u -> u <= kn kv (S k) ->
  (S i + p < length kv)%nat -> 0 <= ki_entry kv p k u j i.
Proof.
  intros Hs Hk Hne Hlo Hhi Hi. unfold ki_entry.
  destruct (Nat.eqb j i); [|destruct (Nat.eqb j (S i))].
  - apply ki_coef_range; auto. lia.
  - apply (ki_coef_range kv p k u (S i)); auto.
  - apply Qcle_refl.
Qed.

Lemma get2_gen (f : nat -> nat -> Qc) r c j i :
  (j < r)%nat -> (i < c)%nat ->
  get2 (map (fun j => map (fun i => f j i) (seq 0 c)) (seq 0 r)) j i = f j i.
Proof.
  intros Hj Hi. unfold get2. rewrite (nth_map_seq (fun j => map (fun i => f j i) (seq 0 c))) by lia.
  apply (nth_map_seq (fun i => f j i)). lia.
Qed.

Lemma get2_dense l r c j i : (j < r)%nat -> (i < c)%nat -> get2 (dense l r c) j i = lookup l j i.
Proof. apply (get2_gen (fun j i => lookup l j i)). Qed.

Lemma get2_mmul A B r m c j i : (j < r)%nat -> (i < c)%nat ->
  get2 (mmul A B r m c) j i = bigsum m (fun l => get2 A j l * get2 B l i).
Proof. apply (get2_gen (fun j i => bigsum m (fun l => get2 A j l * get2 B l i))). Qed.

Lemma get2_ident n j i : (j < n)%nat -> (i < n)%nat -> get2 (ident n) j i = if Nat.eqb j i then 1 else 0.
Proof. apply (get2_gen (fun j i => if Nat.eqb j i then 1 else 0)). Qed.

Lemma mmul_rows_sum_one A B r m c j : (j < r)%nat ->
  bigsum m (fun l => get2 A j l) = 1 -> (forall l, (l < m)%nat -> bigsum c (fun i => get2 B l i) = 1) ->
  bigsum c (fun i => get2 (mmul A B r m c) j i) = 1.
Proof.
  intros Hj HA HB.
  rewrite (bigsum_ext c _ (fun i => bigsum m (fun l => get2 A j l * get2 B l i)))
    by (intros; apply get2_mmul; assumption).
  rewrite bigsum_swap, <- HA. apply bigsum_ext. intros l Hl. rewrite bigsum_scale, HB by exact Hl. ring.
Qed.

Lemma mmul_nonneg A B r m c j i : (j < r)%nat -> (i < c)%nat ->
  (forall l, (l < m)%nat -> 0 <= get2 A j l) -> (forall l, (l < m)%nat -> 0 <= get2 B l i) ->
  0 <= get2 (mmul A B r m c) j i.
Proof.
  intros Hj Hi HA HB. rewrite get2_mmul by assumption. apply bigsum_nonneg. intros l Hl.
  apply Qcmult_nonneg; auto.
Qed.

Lemma numdofs_insert kv p u : kv_ok kv p -> numdofs (insert_knot kv p u) p = S (numdofs kv p).
Proof.
  intros Hok. pose proof (ok_len _ _ Hok). unfold numdofs, insert_knot. rewrite length_insert_at. lia.
Qed.

Lemma insert_knot_ok kv p u :
  kv_ok kv p -> kn kv 0 <= u -> u < kn kv (length kv - 1) ->
  kv_ok (insert_knot kv p u) p
  /\ kn (insert_knot kv p u) 0 = kn kv 0
  /\ kn (insert_knot kv p u) (length (insert_knot kv p u) - 1) = kn kv (length kv - 1).
Proof.
  intros Hok Hu0 Hu1.
  destruct (findspan_in kv p u Hok Hu0 (Qclt_le_weak _ _ Hu1)) as [A [B [C [D E]]]].
  unfold insert_knot. set (k := findspan kv p u) in *.
  pose proof (ok_len _ _ Hok) as Hlen. unfold numdofs in B.
  pose proof (ok_sorted _ _ Hok) as Hs.
  assert (Hk : (S (S k) <= length kv)%nat) by lia.
  assert (Hlast := ins_last kv k u Hk).
  split; [|split].
  - constructor.
    + rewrite length_insert_at. lia.
    + intros i j Hij Hj. rewrite length_insert_at in Hj. apply mono_range; [|exact Hij].
      intros a Ha. apply ins_sorted_step; auto. lia.
    + rewrite !kn_ins_le by lia. apply (ok_first _ _ Hok).
    + rewrite Hlast. rewrite length_insert_at.
      replace (S (length kv) - p - 1)%nat with (S (length kv - p - 1)) by lia.
      rewrite kn_ins_gt by lia. apply (ok_last _ _ Hok).
    + rewrite length_insert_at.
      replace (S (length kv) - p - 1)%nat with (S (length kv - p - 1)) by lia.
      rewrite (kn_ins_gt kv k u (length kv - p - 1)) by lia.
      replace (S (length kv) - p - 2)%nat with (length kv - p - 1)%nat by lia.
      destruct (Nat.eq_dec (S k) (length kv - p - 1)) as [Eq|Nq].
      * rewrite <- Eq. rewrite kn_ins_eq by lia. rewrite Eq. rewrite (ok_last _ _ Hok). exact Hu1.
      * replace (length kv - p - 1)%nat with (S (length kv - p - 2)) at 1 by lia.
        rewrite kn_ins_gt by lia. apply (ok_last_span _ _ Hok).
  - apply kn_ins_le; lia.
  - exact Hlast.
Qed.

Definition in_dom (kv : list Qc) (u : Qc) : Prop := kn kv 0 <= u /\ u < kn kv (length kv - 1).

Definition preserves (kv1 kv2 : list Qc) (p : nat) (P : list (list Qc)) : Prop :=
  forall i x, (i < numdofs kv1 p)%nat ->
    Nref kv1 p i x = bigsum (numdofs kv2 p) (fun j => get2 P j i * Nref kv2 p j x).

(* induction over the inserted knots: each insertion keeps the knot vector well-formed and its
   domain unchanged, so the remaining knots stay in the domain *)
Lemma refine_ind p (Q : list Qc -> list Qc -> Prop) :
  (forall kv, kv_ok kv p -> Q kv []) ->
  (forall kv u us, kv_ok kv p -> kn kv 0 <= u -> u < kn kv (length kv - 1) ->
     kv_ok (insert_knot kv p u) p -> numdofs (insert_knot kv p u) p = S (numdofs kv p) ->
     Q (insert_knot kv p u) us -> Q kv (u :: us)) ->
  forall us kv, kv_ok kv p -> Forall (in_dom kv) us -> Q kv us.
Proof.
  intros Hnil Hcons. induction us as [|u us IH]; intros kv Hok Hd; [apply Hnil; exact Hok|].
  inversion Hd as [|? ? [Hu0 Hu1] Hd']; subst.
  destruct (insert_knot_ok kv p u Hok Hu0 Hu1) as [Hok' [E0 E1]].
  apply Hcons; try assumption; [apply numdofs_insert; exact Hok|].
  apply IH; [exact Hok'|]. eapply Forall_impl; [|exact Hd'].
  intros a [Ha0 Ha1]. unfold in_dom. rewrite E0, E1. split; assumption.
Qed.

Lemma preserves_compose kv1 kv2 kv3 p P Q :
  preserves kv1 kv2 p P -> preserves kv2 kv3 p Q ->
  preserves kv1 kv3 p (mmul Q P (numdofs kv3 p) (numdofs kv2 p) (numdofs kv1 p)).
Proof.
  intros H1 H2 i x Hi. rewrite (H1 i x Hi).
  rewrite (bigsum_ext _ _ (fun l => bigsum (numdofs kv3 p) (fun j => get2 Q j l * get2 P l i * Nref kv3 p j x))).
  2:{ intros l Hl. rewrite (H2 l x Hl). rewrite <- bigsum_scale. apply bigsum_ext. intros j Hj. ring. }
  rewrite bigsum_swap. apply bigsum_ext. intros j Hj.
  rewrite get2_mmul by lia. rewrite <- bigsum_scale_r. reflexivity.
Qed.

Lemma prolongation_preserves_l us kv p :
  kv_ok kv p -> Forall (in_dom kv) us ->
  preserves kv (refine_kv kv p us) p (prolongation_spec kv p us).
Proof.
  revert us kv. apply (refine_ind p (fun kv us => preserves kv (refine_kv kv p us) p (prolongation_spec kv p us))).
  - intros kv _ i x Hi. cbn [refine_kv prolongation_spec].
    rewrite (bigsum_ext _ _ (fun j => (if Nat.eqb j i then 1 else 0) * Nref kv p j x))
      by (intros; rewrite get2_ident by lia; reflexivity).
    symmetry. apply bigsum_delta. exact Hi.
  - intros kv u us Hok Hu0 Hu1 Hok' En IH. cbn [refine_kv prolongation_spec]. rewrite <- En.
    apply preserves_compose; [|exact IH]. intros i x Hi. rewrite En.
    rewrite (knot_insertion_preserves_l kv p u i x Hok Hu0 (Qclt_le_weak _ _ Hu1) Hi).
    apply bigsum_ext. intros j Hj. rewrite get2_dense by lia. reflexivity.
Qed.

(* the product, one insertion at a time: multiplying by a knot insertion matrix combines two
   neighbouring columns.  Same entries as prolongation_spec at a fraction of the arithmetic; the
   examples evaluate this form. *)
Fixpoint prolongation_rec (kv : list Qc) (p : nat) (us : list Qc) : list (list Qc) :=
  match us with
  | [] => ident (numdofs kv p)
  | u :: us' =>
      let kv' := insert_knot kv p u in
      let k := findspan kv p u in
      let A := prolongation_rec kv' p us' in
      map (fun j => map (fun i => ki_coef kv p k u i * get2 A j i + (1 - ki_coef kv p k u (S i)) * get2 A j (S i))
                        (seq 0 (numdofs kv p)))
          (seq 0 (numdofs (refine_kv kv' p us') p))
  end.

Lemma prolongation_rec_entry us kv p :
  kv_ok kv p -> Forall (in_dom kv) us ->
  forall j i, (j < numdofs (refine_kv kv p us) p)%nat -> (i < numdofs kv p)%nat ->
    get2 (prolongation_spec kv p us) j i = get2 (prolongation_rec kv p us) j i.
Proof.
  revert us kv. apply (refine_ind p (fun kv us => forall j i,
    (j < numdofs (refine_kv kv p us) p)%nat -> (i < numdofs kv p)%nat ->
    get2 (prolongation_spec kv p us) j i = get2 (prolongation_rec kv p us) j i)).
  - reflexivity.
  - intros kv u us Hok Hu0 Hu1 Hok' En IH j i Hj Hi. cbn [refine_kv prolongation_spec prolongation_rec] in *.
    destruct (findspan_in kv p u Hok Hu0 (Qclt_le_weak _ _ Hu1)) as [A [B _]].
    rewrite get2_mmul, get2_gen by assumption.
    rewrite <- ki_column_sum by assumption. apply bigsum_ext. intros l Hl.
    rewrite get2_dense, IH by lia. apply Qcmult_comm.
Qed.
