(* C05 -- property theorems only.  Nref is the Cox-de Boor reference of coq/lib/Bsp.v
   (x / 0 = 0, half-open spans, last non-empty span closed at the right end);
   knot_insertion / prolongation_spec are the transcriptions in C05/Model.v. *)
From Coq Require Import QArith Qcanon List Arith Lia.
From Verif.lib Require Import Bsp ListFacts.
From Verif.C02 Require Import Proofs.
From Verif.C02 Require Proofs_ref.
From Verif.C05 Require Import Model Proofs Hier HierEx HierThb HierReach.
Import ListNotations.
Open Scope Qc_scope.

(* Boehm knot insertion (bspline.knot_insertion): for every well-formed open knot vector
   (any degree p >= 0, non-uniform, repeated interior knots), every u in its domain
   (also u equal to an existing knot, and the end points), every old basis function i
   and EVERY point x, the old function is the combination of the new basis functions
   with the entries of column i of the returned matrix. *)
Theorem knot_insertion_preserves : forall kv p u i x,
  kv_ok kv p -> kn kv 0 <= u -> u <= kn kv (length kv - 1) -> (i < numdofs kv p)%nat ->
  Nref kv p i x =
    bigsum (S (numdofs kv p))
           (fun j => lookup (knot_insertion kv p u) j i * Nref (insert_knot kv p u) p j x).
Proof. exact knot_insertion_preserves_l. Qed.
Print Assumptions knot_insertion_preserves.

(* the same identity in its local form (Boehm's identity for one B-spline, any sorted
   knots s_0..s_{p+2}, removed knot s_m interior), on which the theorem above rests *)
Theorem boehm_identity : forall last x p s m,
  (forall j, (j <= S p)%nat -> s j <= s (S j)) ->
  (forall j, (j <= S (S p))%nat -> s j <= last) ->
  (1 <= m <= S p)%nat ->
  NF (remove_at s m) last p 0 x =
    (s m - s 0%nat) / (s (S p) - s 0%nat) * NF s last p 0 x
    + (s (S (S p)) - s m) / (s (S (S p)) - s 1%nat) * NF s last p 1 x.
Proof.
  intros last x p s m Hs Hl Hm.
  apply (boehm_local last x p s m 0); [intros; apply Hs; lia | apply Hl; lia | lia].
Qed.
Print Assumptions boehm_identity.

Theorem knot_insertion_rows_sum_one : forall kv p u j,
  kv_ok kv p -> kn kv 0 <= u -> u <= kn kv (length kv - 1) -> (j < S (numdofs kv p))%nat ->
  bigsum (numdofs kv p) (fun i => lookup (knot_insertion kv p u) j i) = 1.
Proof.
  intros kv p u j Hok Hu0 Hu1 Hj.
  destruct (findspan_in kv p u Hok Hu0 Hu1) as [A [B _]].
  rewrite <- (ki_row_sum kv p (findspan kv p u) u j A B Hj).
  apply bigsum_ext. intros i Hi. apply ki_lookup; assumption.
Qed.
Print Assumptions knot_insertion_rows_sum_one.

Theorem knot_insertion_nonneg : forall kv p u j i,
  kv_ok kv p -> kn kv 0 <= u -> u <= kn kv (length kv - 1) ->
  (j < S (numdofs kv p))%nat -> (i < numdofs kv p)%nat ->
  0 <= lookup (knot_insertion kv p u) j i.
Proof.
  intros kv p u j i Hok Hu0 Hu1 Hj Hi.
  destruct (findspan_in kv p u Hok Hu0 Hu1) as [A [B [C [D E]]]].
  unfold knot_insertion. rewrite ki_lookup by assumption.
  pose proof (ok_len _ _ Hok). unfold numdofs in B, Hi.
  apply ki_entry_nonneg; auto; [apply (ok_sorted _ _ Hok)|lia|lia].
Qed.
Print Assumptions knot_insertion_nonneg.

(* the entries the three loops of knot_insertion assign are the closed form ki_entry *)
Theorem knot_insertion_entries : forall kv p k u j i,
  (p <= k)%nat -> (k < numdofs kv p)%nat -> (i < numdofs kv p)%nat -> (j < S (numdofs kv p))%nat ->
  lookup (knot_insertion_at kv p k u) j i = ki_entry kv p k u j i.
Proof. exact ki_lookup. Qed.
Print Assumptions knot_insertion_entries.

(* inserting a knot of the domain keeps the knot vector well-formed (so insertions can be iterated) *)
Theorem refinement_wellformed : forall us kv p,
  kv_ok kv p -> Forall (in_dom kv) us -> kv_ok (refine_kv kv p us) p.
Proof.
  intros us kv p. revert us kv. apply (refine_ind p (fun kv us => kv_ok (refine_kv kv p us) p)); auto.
Qed.
Print Assumptions refinement_wellformed.

(* arbitrary knot refinement kv1 c kv2 (prolongation(kv1, kv2) specified as the product of the
   single insertions of the knots us = kv2 \ kv1, any number, any order, repetitions allowed):
   every coarse basis function is, at every point, the combination of the fine basis
   functions with the entries of its column. *)
Theorem prolongation_preserves : forall us kv p,
  kv_ok kv p -> Forall (in_dom kv) us ->
  forall i x, (i < numdofs kv p)%nat ->
    Nref kv p i x =
      bigsum (numdofs (refine_kv kv p us) p)
             (fun j => get2 (prolongation_spec kv p us) j i * Nref (refine_kv kv p us) p j x).
Proof. exact prolongation_preserves_l. Qed.
Print Assumptions prolongation_preserves.

Theorem prolongation_rows_sum_one : forall us kv p j,
  kv_ok kv p -> Forall (in_dom kv) us -> (j < numdofs (refine_kv kv p us) p)%nat ->
  bigsum (numdofs kv p) (fun i => get2 (prolongation_spec kv p us) j i) = 1.
Proof.
  intros us kv p j Hok Hd. revert us kv Hok Hd j.
  apply (refine_ind p (fun kv us => forall j, (j < numdofs (refine_kv kv p us) p)%nat ->
           bigsum (numdofs kv p) (fun i => get2 (prolongation_spec kv p us) j i) = 1)).
  - intros kv _ j Hj. cbn [refine_kv prolongation_spec] in *.
    rewrite (bigsum_ext _ _ (fun i => (if Nat.eqb j i then 1 else 0) * 1))
      by (intros; rewrite get2_ident by lia; ring).
    apply (bigsum_delta_r _ (fun _ => 1)). exact Hj.
  - intros kv u us Hok Hu0 Hu1 Hok' En IH j Hj. cbn [refine_kv prolongation_spec] in *.
    apply mmul_rows_sum_one; [exact Hj | rewrite <- En; apply IH; exact Hj |].
    intros l Hl. rewrite (bigsum_ext _ _ (fun i => lookup (knot_insertion kv p u) l i))
      by (intros; apply get2_dense; lia).
    apply knot_insertion_rows_sum_one; auto. apply Qclt_le_weak. exact Hu1.
Qed.
Print Assumptions prolongation_rows_sum_one.

Theorem prolongation_nonneg : forall us kv p j i,
  kv_ok kv p -> Forall (in_dom kv) us ->
  (j < numdofs (refine_kv kv p us) p)%nat -> (i < numdofs kv p)%nat ->
  0 <= get2 (prolongation_spec kv p us) j i.
Proof.
  intros us kv p j i Hok Hd. revert us kv Hok Hd j i.
  apply (refine_ind p (fun kv us => forall j i, (j < numdofs (refine_kv kv p us) p)%nat -> (i < numdofs kv p)%nat ->
           0 <= get2 (prolongation_spec kv p us) j i)).
  - intros kv _ j i Hj Hi. cbn [refine_kv prolongation_spec] in *. rewrite get2_ident by lia.
    destruct (Nat.eqb j i); [apply Qc01|apply Qcle_refl].
  - intros kv u us Hok Hu0 Hu1 Hok' En IH j i Hj Hi. cbn [refine_kv prolongation_spec] in *.
    apply mmul_nonneg; [exact Hj | exact Hi | intros l Hl; apply IH; lia |].
    intros l Hl. rewrite get2_dense by lia.
    apply knot_insertion_nonneg; auto. apply Qclt_le_weak. exact Hu1.
Qed.
Print Assumptions prolongation_nonneg.

(* transfers compose (successive levels), and a transfer maps every coefficient vector to the
   coefficients of the pointwise identical function *)
Theorem transfer_compose : forall kv1 kv2 kv3 p P Q,
  preserves kv1 kv2 p P -> preserves kv2 kv3 p Q ->
  preserves kv1 kv3 p (mmul Q P (numdofs kv3 p) (numdofs kv2 p) (numdofs kv1 p)).
Proof. exact preserves_compose. Qed.
Print Assumptions transfer_compose.

Theorem transfer_coefficients : forall kv1 kv2 p P (c : nat -> Qc) x,
  preserves kv1 kv2 p P ->
  bigsum (numdofs kv1 p) (fun i => c i * Nref kv1 p i x)
  = bigsum (numdofs kv2 p)
           (fun j => bigsum (numdofs kv1 p) (fun i => get2 P j i * c i) * Nref kv2 p j x).
Proof.
  intros kv1 kv2 p P c x H.
  rewrite (bigsum_ext _ _ (fun i => bigsum (numdofs kv2 p) (fun j => get2 P j i * c i * Nref kv2 p j x))).
  2:{ intros i Hi. rewrite (H i x Hi). rewrite <- bigsum_scale. apply bigsum_ext. intros j Hj. ring. }
  rewrite bigsum_swap. apply bigsum_ext. intros j Hj. rewrite <- bigsum_scale_r. reflexivity.
Qed.
Print Assumptions transfer_coefficients.

(* the boolean test used in the case files implies the hypothesis kv_ok *)
Theorem open_kv_wellformed : forall kv p, open_kv kv p = true -> kv_ok kv p.
Proof. exact Proofs_ref.open_kv_ok_l. Qed.
Print Assumptions open_kv_wellformed.

(* ======================= hierarchical conjuncts (coq/C05/Hier.v) =======================
   Setting: levels k = 0..Lmax; n k = number of tensor-product functions of level k, B k i = the
   i-th of them (raveled C-order index), P k = tp_prolongation(k, kron=True).
   two_scale_hyp n B P Lmax : B k i = sum_j P k j i * B (k+1) j for k < Lmax.
   index_hyp n P act deact  : act k ++ deact k duplicate-free, in range, and the children of a
                              deactivated function lie in act (k+1) ++ deact (k+1) (consequence of the
                              C04 invariant funcs_inv + locality of the two-scale relation; explicit
                              hypothesis here). *)

(* Kronecker lifting, any number of axes: if every 1-D matrix preserves its basis functions, the
   Kronecker product preserves the tensor-product functions at every point *)
Theorem tp_prolongation_preserves : forall Ms coarse fine,
  axes_preserve Ms coarse fine ->
  forall I xs, (I < tp_dofs coarse)%nat ->
    TPN coarse I xs = bigsum (tp_dofs fine) (fun J => kron Ms fine coarse J I * TPN fine J xs).
Proof.
  induction 1 as [|M Ms kv1 kv2 p rc rf H1 Hr IH]; intros I xs HI.
  - cbn. ring.
  - cbn [tp_dofs TPN kron] in *.
    assert (Hnc : (0 < tp_dofs rc)%nat) by (destruct (tp_dofs rc); lia).
    assert (Hq : (I / tp_dofs rc < numdofs kv1 p)%nat) by (apply Nat.div_lt_upper_bound; lia).
    assert (Hm : (I mod tp_dofs rc < tp_dofs rc)%nat) by (apply Nat.mod_upper_bound; lia).
    rewrite (H1 _ (hd 0 xs) Hq), (IH _ (tl xs) Hm), bigsum_mul_distr, bigsum_prod.
    apply bigsum_ext. intros j Hj. apply bigsum_ext. intros b Hb.
    destruct (divmod_lin j (tp_dofs rf) b Hb) as [-> ->]. ring.
Qed.
Print Assumptions tp_prolongation_preserves.

(* ... and the hypothesis of that lifting is discharged axis by axis by prolongation_preserves *)
Theorem tp_axes_from_prolongation : forall kv p us Ms rc rf,
  kv_ok kv p -> Forall (in_dom kv) us -> axes_preserve Ms rc rf ->
  axes_preserve (get2 (prolongation_spec kv p us) :: Ms) ((kv, p) :: rc) ((refine_kv kv p us, p) :: rf).
Proof.
  intros kv p us Ms rc rf Hok Hd Hr. constructor; [|exact Hr].
  intros i x Hi. apply prolongation_preserves_l; assumption.
Qed.
Print Assumptions tp_axes_from_prolongation.

(* hence the tensor-product B-spline bases of the levels of a hierarchical space satisfy the
   two-scale relation with the Kronecker products of the 1-D prolongations (any dimension) *)
Theorem tp_two_scale : forall (axes : nat -> list axisQ) (Ms : nat -> list (nat -> nat -> Qc)) Lmax,
  (forall k, (k < Lmax)%nat -> axes_preserve (Ms k) (axes k) (axes (S k))) ->
  two_scale_hyp (fun k => tp_dofs (axes k)) (fun k i xs => TPN (axes k) i xs)
                (fun k => kron (Ms k) (axes (S k)) (axes k)) Lmax.
Proof. intros axes Ms Lmax H k i x Hk Hi. apply tp_prolongation_preserves; auto. Qed.
Print Assumptions tp_two_scale.

(* represent_fine (HB), any number of refinement steps: column i of the accumulated product
   (RF = the loop of hierarchical.py:1102-1143) represents function i of level T-m on level T *)
Theorem represent_fine_hb : forall (X : Type) n (B : nat -> nat -> X -> Qc) P Lmax,
  two_scale_hyp n B P Lmax ->
  forall T m i x, (T <= Lmax)%nat -> (m <= T)%nat -> (i < n (T - m))%nat ->
    B (T - m)%nat i x = bigsum (n T) (fun J => RF n P noZ T m J i * B T J x).
Proof. exact RF_hb_preserves. Qed.
Print Assumptions represent_fine_hb.

(* level-wise evaluation = evaluation of the finest-level tensor-product representation (HB, any
   number of levels, any coefficient arrays): sum_l sum_i u_l[i] B_l,i(x) = sum_J (represent_fine u)_J B_T,J(x).
   Gradients and Hessians: B is arbitrary, so the statement applies verbatim to any family of
   derivatives that satisfies the same two-scale relation (differentiation is linear). *)
Theorem levelwise_eval_eq_fine : forall (X : Type) n (B : nat -> nat -> X -> Qc) P Lmax,
  two_scale_hyp n B P Lmax ->
  forall T u x, (T <= Lmax)%nat ->
    levelwise X n B T u x = bigsum (n T) (fun J => fine_coeff n P noZ T u J * B T J x).
Proof. exact levelwise_eval_eq_fine_l. Qed.
Print Assumptions levelwise_eval_eq_fine.

(* THB, one refinement step (two levels carrying coefficients), any dimension: converting THB
   coefficients with thb_to_hb = truncate_one_level and evaluating level-wise gives the finest-level
   function whose coefficients are represent_fine(truncate=True) * u (rows act(T) of the prolongator
   zeroed) *)
Theorem levelwise_eval_eq_fine_thb_partial : forall (X : Type) n (B : nat -> nat -> X -> Qc) P Lmax,
  two_scale_hyp n B P Lmax ->
  forall T actT u x, (1 <= T <= Lmax)%nat ->
    (forall l i, (l < T - 1)%nat -> u l i = 0) -> (forall j, actT j = false -> u T j = 0) ->
    levelwise X n B T (thb_to_hb2 n P T actT u) x
    = bigsum (n T) (fun J => fine_coeff n P (fun lv j => Nat.eqb lv T && actT j) T u J * B T J x).
Proof.
  intros X n B P Lmax H T actT u x HT Hlow _.
  rewrite <- (levelwise_thb_l n B P Lmax _ H T u x) by lia.
  apply levelwise_ext. intros l i Hl Hi. symmetry. apply t2h_two_level; assumption || lia.
Qed.
Print Assumptions levelwise_eval_eq_fine_thb_partial.

(* THB, ANY number of levels, any dimension.  t2h = thb_to_hb applied to the coefficient arrays
   (truncate_one_level(T-1) @ ... @ truncate_one_level(0), each I - A changing only level k+1);
   actb k j = function j of level k is active.  First the matrix identity
   represent_fine(truncate=False) * thb_to_hb = represent_fine(truncate=True), then the evaluation:
   level-wise evaluation of THB coefficients (coeffs_to_levelwise_funcs with truncate=True) equals the
   finest-level function with coefficients represent_fine(truncate=True) * u. *)
Theorem thb_to_hb_represent_fine : forall n P (actb : nat -> nat -> bool) T u J, (J < n T)%nat ->
  fine_coeff n P noZ T (t2h n P actb T u) J = fine_coeff n P actb T u J.
Proof. exact thb_coeffs_l. Qed.
Print Assumptions thb_to_hb_represent_fine.

Theorem levelwise_eval_eq_fine_thb : forall (X : Type) n (B : nat -> nat -> X -> Qc) P Lmax (actb : nat -> nat -> bool),
  two_scale_hyp n B P Lmax ->
  forall T u x, (T <= Lmax)%nat ->
    levelwise X n B T (t2h n P actb T u) x = bigsum (n T) (fun J => fine_coeff n P actb T u J * B T J x).
Proof. exact @levelwise_thb_l. Qed.
Print Assumptions levelwise_eval_eq_fine_thb.

(* virtual_hierarchy_prolongators, HB: every function of virtual level k (the active functions of
   levels <= k and the deactivated ones of level k) is reproduced on virtual level k+1 by its column *)
Theorem vh_prolongators_hb : forall (X : Type) n (B : nat -> nat -> X -> Qc) P Lmax act deact,
  two_scale_hyp n B P Lmax -> index_hyp n P act deact ->
  forall k, (k < Lmax)%nat ->
    lpres dof X (dofsV act deact k) (dofsV act deact (S k)) (fnHB X B) (fnHB X B) (Phb P act deact k).
Proof.
  intros X n B P Lmax act deact H [A [B' C]]. exact (vh_hb X n B P Lmax H act deact A B' C).
Qed.
Print Assumptions vh_prolongators_hb.

(* ... and composed from any level k over m levels (k = 0, k + m = last level: level-0 tensor-product
   coefficients to HB coefficients of the identical function) *)
Theorem vh_prolongators_hb_composed : forall (X : Type) n (B : nat -> nat -> X -> Qc) P Lmax act deact,
  two_scale_hyp n B P Lmax -> index_hyp n P act deact ->
  forall m k, (k + m <= Lmax)%nat ->
    lpres dof X (dofsV act deact k) (dofsV act deact (k + m)) (fnHB X B) (fnHB X B) (Phb_chain P act deact k m).
Proof.
  intros X n B P Lmax act deact H Hi. induction m as [|m IH]; intros k Hk.
  - rewrite Nat.add_0_r. intros c x Hc. cbn [Phb_chain]. symmetry.
    apply (dofsV_delta act deact (proj1 Hi) k (fun r => fnHB X B r x) c). exact Hc.
  - replace (k + S m)%nat with (S (k + m)) by lia. cbn [Phb_chain].
    apply (lpres_compose dof X (dofsV act deact k) (dofsV act deact (k + m)) (dofsV act deact (S (k + m)))
             (fnHB X B) (fnHB X B) (fnHB X B) (Phb_chain P act deact k m) (Phb P act deact (k + m))).
    + apply IH. lia.
    + apply (vh_prolongators_hb X n B P Lmax act deact H Hi). lia.
Qed.
Print Assumptions vh_prolongators_hb_composed.

(* ---- on REACHABLE HSpace states (coq/C04): for every valid initial mesh and every history of valid
   refine calls, st = run (hs_init axes disp) ops, with act_of/deact_of = the raveled active/deactivated
   function sets of st.  `pattern`: the non-zero entries of a prolongator column of a deactivated function
   lie inside the children pattern function_children of the C04 model (which C04's check ties to the
   sparsity pattern of the implementation's prolongation matrices on every run).  The children-closed
   part of index_hyp is then a theorem (C04.children_closed), not a hypothesis. *)
Theorem children_closed_reachable : forall axes disp ops,
  Forall Verif.C04.ProofsMesh.axis_ok axes -> (forall d, disp = Some d -> (1 <= d)%nat) ->
  P4.ops_valid (M4.hs_init axes disp) ops ->
  forall (rav : nat -> FinSet.mi -> nat) (n : nat -> nat) (P : nat -> nat -> nat -> Qc),
  (forall k f j, In f (P4.DF (M4.run (M4.hs_init axes disp) ops) k) -> (j < n (S k))%nat ->
     P k j (rav k f) <> 0 ->
     exists g, In g (C4.function_children (M4.run (M4.hs_init axes disp) ops) k [f]) /\ j = rav (S k) g) ->
  forall k i j, In i (deact_of axes disp ops rav k) -> (j < n (S k))%nat -> P k j i <> 0 ->
    In j (act_of axes disp ops rav (S k) ++ deact_of axes disp ops rav (S k)).
Proof. exact children_closed_reachable_l. Qed.
Print Assumptions children_closed_reachable.

Theorem vh_prolongators_hb_reachable : forall axes disp ops,
  Forall Verif.C04.ProofsMesh.axis_ok axes -> (forall d, disp = Some d -> (1 <= d)%nat) ->
  P4.ops_valid (M4.hs_init axes disp) ops ->
  forall (rav : nat -> FinSet.mi -> nat) (n : nat -> nat) (P : nat -> nat -> nat -> Qc),
  (forall k f j, In f (P4.DF (M4.run (M4.hs_init axes disp) ops) k) -> (j < n (S k))%nat ->
     P k j (rav k f) <> 0 ->
     exists g, In g (C4.function_children (M4.run (M4.hs_init axes disp) ops) k [f]) /\ j = rav (S k) g) ->
  forall (X : Type) (B : nat -> nat -> X -> Qc) Lmax,
  two_scale_hyp n B P Lmax ->
  (forall k, NoDup (act_of axes disp ops rav k ++ deact_of axes disp ops rav k)) ->
  (forall k j, In j (act_of axes disp ops rav k ++ deact_of axes disp ops rav k) -> (j < n k)%nat) ->
  forall m k, (k + m <= Lmax)%nat ->
    lpres dof X (dofsV (act_of axes disp ops rav) (deact_of axes disp ops rav) k)
          (dofsV (act_of axes disp ops rav) (deact_of axes disp ops rav) (k + m)) (fnHB X B) (fnHB X B)
          (Phb_chain P (act_of axes disp ops rav) (deact_of axes disp ops rav) k m).
Proof.
  intros axes disp ops Ha Hd Ho rav n P Hpat X B Lmax H2s H1 H2.
  apply (vh_prolongators_hb_composed X n B P Lmax _ _ H2s). exact (index_hyp_reachable axes disp ops Ha Hd Ho rav n P Hpat H1 H2).
Qed.
Print Assumptions vh_prolongators_hb_reachable.

Theorem prolongate_to_replaced_reachable : forall axes disp ops,
  Forall Verif.C04.ProofsMesh.axis_ok axes -> (forall d, disp = Some d -> (1 <= d)%nat) ->
  P4.ops_valid (M4.hs_init axes disp) ops ->
  forall (rav : nat -> FinSet.mi -> nat) (n : nat -> nat) (P : nat -> nat -> nat -> Qc),
  (forall k f j, In f (P4.DF (M4.run (M4.hs_init axes disp) ops) k) -> (j < n (S k))%nat ->
     P k j (rav k f) <> 0 ->
     exists g, In g (C4.function_children (M4.run (M4.hs_init axes disp) ops) k [f]) /\ j = rav (S k) g) ->
  forall (X : Type) (B : nat -> nat -> X -> Qc) Lmax,
  two_scale_hyp n B P Lmax ->
  (forall k, NoDup (act_of axes disp ops rav k ++ deact_of axes disp ops rav k)) ->
  (forall k j, In j (act_of axes disp ops rav k ++ deact_of axes disp ops rav k) -> (j < n k)%nat) ->
  forall l i m x, (l + m <= Lmax)%nat -> In i (deact_of axes disp ops rav l) ->
    deact_of axes disp ops rav (l + m)%nat = [] ->
    B l i x = expand_act X B P (act_of axes disp ops rav) (deact_of axes disp ops rav) m l
                         (fun s => if Nat.eqb s i then 1 else 0) x.
Proof.
  intros axes disp ops Ha Hd Ho rav n P Hpat X B Lmax H2s H1 H2.
  exact (prolongate_to_replaced_l X n B P Lmax H2s _ _ H1 H2 (children_closed_reachable_l axes disp ops Ha Hd Ho rav n P Hpat)).
Qed.
Print Assumptions prolongate_to_replaced_reachable.
(* NOT PROVED in the reachable versions: `pattern` itself for the Kronecker products of prolongation_spec
   (the link between a Qc knot vector and the integer axis of C04: non-zero entries of the 1-D knot
   insertion product lie in children_1d), and that the raveling is injective and in range on the
   active/deactivated sets (the two remaining hypotheses). *)

(* THB, REPAIRED composition (fixes/C05-thb-virtual-hierarchy.patch): H2T(k+1) * P_hb[k] * T2H(k)
   transfers the THB functions, where a THB function is the HB functions combined with a column of
   thb_to_hb and H2 undoes T2 on virtual level k+1 *)
Theorem vh_prolongators_thb_repaired : forall (X : Type) n (B : nat -> nat -> X -> Qc) P Lmax,
  (forall k i x, (k < Lmax)%nat -> (i < n k)%nat ->
     B k i x = bigsum (n (S k)) (fun j => P k j i * B (S k) j x)) ->
  forall act deact,
  (forall k, NoDup (act k ++ deact k)) ->
  (forall k j, In j (act k ++ deact k) -> (j < n k)%nat) ->
  (forall k i j, In i (deact k) -> (j < n (S k))%nat -> P k j i <> 0 -> In j (act (S k) ++ deact (S k))) ->
  forall k (T1 T2 H2 : dof -> dof -> Qc),
  (k < Lmax)%nat ->
  (forall r (W : dof -> Qc), In r (dofsV act deact (S k)) ->
      lsum (dofsV act deact (S k)) (fun a => W a * lsum (dofsV act deact (S k)) (fun r' => T2 r r' * H2 r' a)) = W r) ->
  lpres dof X (dofsV act deact k) (dofsV act deact (S k))
        (fun c x => lsum (dofsV act deact k) (fun b => T1 b c * fnHB X B b x))
        (fun c x => lsum (dofsV act deact (S k)) (fun r => T2 r c * fnHB X B r x))
        (fun r' c => lsum (dofsV act deact (S k))
                          (fun a => H2 r' a * lsum (dofsV act deact k) (fun b => Phb P act deact k a b * T1 b c))).
Proof.
  intros X n B P Lmax H2s act deact Hnd Hrg Hcc k T1 T2 H2 Hk Hinv.
  apply lpres_change_of_basis; [exact (vh_hb X n B P Lmax H2s act deact Hnd Hrg Hcc k Hk) | exact Hinv].
Qed.
Print Assumptions vh_prolongators_thb_repaired.
(* NOT PROVED for the repaired variant: that the product of truncate_one_level(j, inverse=True,
   virtual=(j = k)) matrices is the inverse of the product of the truncate_one_level(j, virtual=...)
   matrices (each factor is I -+ A with A*A = 0), i.e. the hypothesis on T2/H2 above, and that the
   functions so defined are the truncated functions of represent_fine(truncate=True) ON THE VIRTUAL
   levels (for the space itself this is thb_to_hb_represent_fine, any number of levels). *)

(* THB, the code as it is (truncate_one_level(k, inverse=True) @ P_hb[k]): refuted on three levels.
   1-D, p = 2, knots 0,0,0,1,2,3,4,4,4, cells [0,2) refined, then [0,1): the truncated level-0
   function 2 of virtual level 1 vanishes at x = 1/8, its image under prolongator 1 is 1/128 there. *)
Theorem vh_prolongators_thb_old_refuted :
  exists c x, In c (dofsV exact exdeact 1) /\
    fnTHB Qc exn exB exP exact exdeact 1 c x
    <> lsum (dofsV exact exdeact 2)
            (fun r => Pthb_old exn exP exact exdeact 1 r c * fnTHB Qc exn exB exP exact exdeact 2 r x).
Proof.
  exists ex_c, ex_x. split; [vm_compute; auto|].
  intro E. apply (f_equal this) in E. vm_compute in E. discriminate.
Qed.
Print Assumptions vh_prolongators_thb_old_refuted.

(* prolongate_to, repaired (uncapped) propagation, any disparity: a coarse function that is
   deactivated in the fine space equals the combination of ACTIVE fine functions produced by pushing
   its coefficient through the deactivated functions level by level (P_act / P_deact of
   hierarchical.py:1033-1056), as soon as a level without deactivated functions is reached -- no cap
   on the number of levels.  act/deact are those of the fine space. *)
Theorem prolongate_to_replaced_partial : forall (X : Type) n (B : nat -> nat -> X -> Qc) P Lmax,
  (forall k i x, (k < Lmax)%nat -> (i < n k)%nat ->
     B k i x = bigsum (n (S k)) (fun j => P k j i * B (S k) j x)) ->
  forall act deact,
  (forall k, NoDup (act k ++ deact k)) ->
  (forall k j, In j (act k ++ deact k) -> (j < n k)%nat) ->
  (forall k i j, In i (deact k) -> (j < n (S k))%nat -> P k j i <> 0 -> In j (act (S k) ++ deact (S k))) ->
  forall l i m x, (l + m <= Lmax)%nat -> In i (deact l) -> deact (l + m)%nat = [] ->
    B l i x = expand_act X B P act deact m l (fun s => if Nat.eqb s i then 1 else 0) x.
Proof. exact prolongate_to_replaced_l. Qed.
Print Assumptions prolongate_to_replaced_partial.
(* NOT PROVED: prolongate_to_preserves at the level of the returned matrix: the canonical-index
   bookkeeping (np.ix_, _levelwise_to_canonical, the identity block of the common functions) around
   the propagation proved above; and the link `coarse-active and not fine-active => fine-deactivated`
   (is_subspace_of + C04 invariant).  It remains covered by the exact oracle on the implementation
   (harness/props/c05.py).  boundary_restriction is proved in coq/C05/Props3.v.
   The hypotheses two_scale_hyp / index_hyp are met by a concrete three-level hierarchy:
   HierEx.ex_two_scale, ex_idx_ok, ex_children_closed. *)
