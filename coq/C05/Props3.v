(* C05 -- property theorems: (a) boundary_restriction, (b) the bridge between the Qc knot vectors of C05 and
   the integer child pattern of C04 (coq/C04/Children.v).  The lemmas they rest on are in
   coq/C05/BoundaryTrace.v and coq/C05/Bridge.v. *)
From Coq Require Import QArith Qcanon List Arith Lia.
From Verif.lib Require Import Bsp ListFacts.
From Verif.C02 Require Import Proofs.
From Verif.C05 Require Import Model Proofs Hier Bridge BoundaryTrace.
Import ListNotations.
Open Scope Qc_scope.

(* ---- (a) HSpace.boundary, hierarchical.py:540-580 ------------------------------------------------------
   axes of a level = k1 ++ (kv,p) :: k2 (any number of axes before and behind the boundary axis), raveled
   C-order indices; end_idx = 0 / numdofs-1 (assemble.boundary_dofs), end_pt = first / last knot;
   open_ends kv p = well-formed open knot vector with a non-empty first span.
   First the trace of any tensor-product function on the face; the two statements about boundary() follow. *)
Theorem tp_trace : forall k1 kv p k2 u1 u2 side i1 j i2,
  length u1 = length k1 -> open_ends kv p ->
  (i1 < tp_dofs k1)%nat -> (j < numdofs kv p)%nat -> (i2 < tp_dofs k2)%nat ->
  TPN (k1 ++ (kv, p) :: k2) ((i1 * numdofs kv p + j) * tp_dofs k2 + i2) (u1 ++ end_pt kv side :: u2)
  = (if Nat.eqb j (end_idx kv p side) then 1 else 0) * TPN (k1 ++ k2) (i1 * tp_dofs k2 + i2) (u1 ++ u2).
Proof.
  intros k1 kv p k2 u1 u2 side i1 j i2 Hl Ho H1 Hj H2.
  replace ((i1 * numdofs kv p + j) * tp_dofs k2 + i2)%nat
    with (i1 * tp_dofs ((kv, p) :: k2) + (j * tp_dofs k2 + i2))%nat by (cbn [tp_dofs]; lia).
  assert (Hb : (j * tp_dofs k2 + i2 < tp_dofs ((kv, p) :: k2))%nat) by (cbn [tp_dofs]; nia).
  rewrite (TPN_app k1 ((kv, p) :: k2) i1 _ u1 (end_pt kv side :: u2) Hl H1 Hb).
  rewrite (TPN_app k1 k2 i1 i2 u1 u2 Hl H1 H2).
  cbn [TPN hd tl]. destruct (divmod_lin j (tp_dofs k2) i2 H2) as [-> ->].
  rewrite (N_at_end kv p side j Ho Hj). ring.
Qed.
Print Assumptions tp_trace.

(* function k = (i1, i2) of the boundary space (multi-index with the boundary axis dropped) is, at every point
   of the face, the function map[k] = (i1, end_idx, i2) of the space it was taken from -- on every level, so
   for every HB basis function of the boundary space *)
Theorem boundary_restriction : forall k1 kv p k2 u1 u2 side i1 i2,
  length u1 = length k1 -> open_ends kv p -> (i1 < tp_dofs k1)%nat -> (i2 < tp_dofs k2)%nat ->
  TPN (k1 ++ k2) (i1 * tp_dofs k2 + i2) (u1 ++ u2)
  = TPN (k1 ++ (kv, p) :: k2) ((i1 * numdofs kv p + end_idx kv p side) * tp_dofs k2 + i2)
        (u1 ++ end_pt kv side :: u2).
Proof.
  intros k1 kv p k2 u1 u2 side i1 i2 Hl Ho H1 H2.
  assert (Hj : (end_idx kv p side < numdofs kv p)%nat).
  { destruct Ho as [Hok _]. pose proof (ok_len _ _ Hok). unfold end_idx, numdofs. destruct (Nat.eqb side 0); lia. }
  rewrite (tp_trace k1 kv p k2 u1 u2 side i1 _ i2 Hl Ho H1 Hj H2). rewrite Nat.eqb_refl. ring.
Qed.
Print Assumptions boundary_restriction.

(* every function that boundary() does not keep vanishes on the face: the trace of the space is spanned by
   the kept functions *)
Theorem boundary_restriction_others_vanish : forall k1 kv p k2 u1 u2 side i1 j i2,
  length u1 = length k1 -> open_ends kv p ->
  (i1 < tp_dofs k1)%nat -> (j < numdofs kv p)%nat -> (i2 < tp_dofs k2)%nat -> j <> end_idx kv p side ->
  TPN (k1 ++ (kv, p) :: k2) ((i1 * numdofs kv p + j) * tp_dofs k2 + i2) (u1 ++ end_pt kv side :: u2) = 0.
Proof.
  intros k1 kv p k2 u1 u2 side i1 j i2 Hl Ho H1 Hj H2 Hne.
  rewrite (tp_trace k1 kv p k2 u1 u2 side i1 j i2 Hl Ho H1 Hj H2).
  destruct (Nat.eqb_spec j (end_idx kv p side)); [contradiction|ring].
Qed.
Print Assumptions boundary_restriction_others_vanish.

(* the end-point values used (from coq/C07/Ends.v), in C05's vocabulary *)
Theorem basis_at_ends : forall kv p side j, open_ends kv p -> (j < numdofs kv p)%nat ->
  Nref kv p j (end_pt kv side) = if Nat.eqb j (end_idx kv p side) then 1 else 0.
Proof. exact N_at_end. Qed.
Print Assumptions basis_at_ends.
(* NOT PROVED: boundary_restriction for the TRUNCATED (THB) functions of the boundary space (that truncation
   on the face commutes with taking the trace: needs P_axis[end_idx, end_idx] = 1 and P_axis[end_idx, i] = 0
   for the open knot vectors of the boundary axis, i.e. the boundary block of the Kronecker prolongator is the
   prolongator of the boundary space); the set bookkeeping of boundary() (intersection of actfun/deactfun/cells
   with the boundary index sets, cropping of empty levels) stays with C04 (coq/C04/Boundary.v) and the oracle. *)

(* ---- (b) bridge to C04's child pattern ------------------------------------------------------------------
   ANY refinement: the non-zero entries of column i of the exact Boehm product lie between the new positions
   of the first and the last knot of coarse function i: posmap i <= j <= posmap (i+p+1) - (p+1), where
   posmap composes the shifts of the single insertions ... *)
Theorem prolongation_support : forall us kv p j i,
  kv_ok kv p -> Forall (in_dom kv) us ->
  (j < numdofs (refine_kv kv p us) p)%nat -> (i < numdofs kv p)%nat ->
  get2 (prolongation_spec kv p us) j i <> 0 ->
  (posmap kv p us i <= j)%nat /\ (j + p + 1 <= posmap kv p us (i + p + 1))%nat.
Proof.
  intros us kv p j i Hok Hd. revert us kv Hok Hd j i.
  apply (refine_ind p (fun kv us => forall j i,
    (j < numdofs (refine_kv kv p us) p)%nat -> (i < numdofs kv p)%nat ->
    get2 (prolongation_spec kv p us) j i <> 0 ->
    (posmap kv p us i <= j)%nat /\ (j + p + 1 <= posmap kv p us (i + p + 1))%nat)).
  - intros kv _ j i Hj Hi Hnz. cbn [refine_kv prolongation_spec posmap] in *. rewrite get2_ident in Hnz by lia.
    destruct (Nat.eqb_spec j i); [lia|exfalso; apply Hnz; reflexivity].
  - intros kv u us Hok Hu0 Hu1 Hok' En IH j i Hj Hi Hnz. cbn [refine_kv prolongation_spec posmap] in *.
    rewrite get2_mmul in Hnz by lia.
    apply bigsum_nonzero in Hnz. destruct Hnz as [l [Hl Hnz]].
    apply mul_nonzero in Hnz. destruct Hnz as [N1 N2].
    rewrite get2_dense in N2 by lia.
    destruct (IH j l Hj ltac:(lia) N1) as [I1 I2].
    destruct (ki_support kv p u l i Hok Hu0 (Qclt_le_weak _ _ Hu1) Hi Hl N2) as [K1 K2].
    split.
    + eapply Nat.le_trans; [|exact I1]. apply posmap_mono. exact K1.
    + eapply Nat.le_trans; [exact I2|]. apply posmap_mono. exact K2.
Qed.
Print Assumptions prolongation_support.

(* ... and posmap x = x + the number of inserted knots that lie before knot x (any list us, any order) *)
Theorem posmap_counts : forall us kv p x,
  kv_ok kv p -> Forall (in_dom kv) us -> (x < length kv)%nat ->
  posmap kv p us x = (x + cnt_lt us (kn kv x))%nat.
Proof.
  intros us kv p x Hok Hd. revert us kv Hok Hd x.
  apply (refine_ind p (fun kv us => forall x, (x < length kv)%nat -> posmap kv p us x = (x + cnt_lt us (kn kv x))%nat)).
  - intros kv _ x _. unfold cnt_lt. cbn. lia.
  - intros kv u us Hok Hu0 Hu1 Hok' _ IH x Hx. cbn [posmap].
    destruct (findspan_spec_l kv p u Hok Hu0 (Qclt_le_weak _ _ Hu1)) as [A [B [C [D E]]]].
    destruct E as [E|[E _]]; [|subst u; exfalso; revert Hu1; apply Qcle_not_lt; apply Qcle_refl].
    pose proof (ok_sorted _ _ Hok) as Hs. pose proof (ok_len _ _ Hok) as Hlen.
    unfold insert_knot in *. set (k := findspan kv p u) in *.
    unfold cnt_lt. cbn [filter]. unfold shift.
    destruct (Nat.leb_spec x k) as [L|L].
    + rewrite (IH x) by (rewrite length_insert_at; lia).
      rewrite kn_ins_le by lia.
      assert (Hle : kn kv x <= u) by (eapply Qcle_trans; [apply Hs; [exact L|lia]|exact D]).
      destruct (qltb u (kn kv x)) eqn:Q; [apply qltb_iff in Q; exfalso; revert Q; apply Qcle_not_lt; exact Hle|].
      unfold cnt_lt. lia.
    + rewrite (IH (S x)) by (rewrite length_insert_at; lia).
      rewrite kn_ins_gt by lia.
      assert (Hlt : u < kn kv x) by (eapply Qclt_le_trans; [exact E|apply Hs; lia]).
      destruct (qltb u (kn kv x)) eqn:Q; [|apply qltb_false_iff in Q; exfalso; revert Hlt; apply Qcle_not_lt; exact Q].
      unfold cnt_lt. cbn [length]. lia.
Qed.
Print Assumptions posmap_counts.

(* dyadic refinement (KnotVector.refine(): one new knot strictly inside every mesh span; `spans bs us`), any
   degree, ANY interior multiplicities kv_ok allows: for the integer axis a of C04 whose knot vector is kv
   (axis_of: knot x has the value bs[k2m a [x]]), posmap is C04's phi ... *)
Theorem posmap_is_phi : forall a bs kv us x,
  kv_ok kv (M4.ax_p a) -> axis_of a bs kv -> spans bs us -> (x < length kv)%nat ->
  posmap kv (M4.ax_p a) us x = C4.phi a x.
Proof.
  intros a bs kv us x Hok Hax Hs Hx.
  rewrite posmap_counts; [|exact Hok|exact (spans_in_dom a bs kv us Hax Hs)|exact Hx].
  unfold C4.phi. destruct Hax as [_ [_ [_ Hk]]]. destruct (Hk x Hx) as [Hm ->].
  rewrite (cnt_lt_spans bs us Hs _ Hm). reflexivity.
Qed.
Print Assumptions posmap_is_phi.

(* ... hence the non-zero entries of the exact knot-insertion product lie inside C04's child pattern
   (the 1-D content of the hypothesis `pattern` of the *_reachable theorems of coq/C05/Props.v and of
   coq/C03 hassemble_entry_pattern_partial) *)
Theorem dyadic_child_pattern : forall a bs kv us j i,
  kv_ok kv (M4.ax_p a) -> axis_of a bs kv -> spans bs us ->
  (j < numdofs (refine_kv kv (M4.ax_p a) us) (M4.ax_p a))%nat -> (i < numdofs kv (M4.ax_p a))%nat ->
  get2 (prolongation_spec kv (M4.ax_p a) us) j i <> 0 ->
  C4.is_child_1d a i j = true.
Proof.
  intros a bs kv us j i Hok Hax Hs Hj Hi Hnz.
  pose proof (spans_in_dom a bs kv us Hax Hs) as Hd.
  destruct (prolongation_support us kv (M4.ax_p a) j i Hok Hd Hj Hi Hnz) as [S1 S2].
  unfold numdofs in Hi.
  rewrite (posmap_is_phi a bs kv us i Hok Hax Hs) in S1 by lia.
  rewrite (posmap_is_phi a bs kv us (i + M4.ax_p a + 1) Hok Hax Hs) in S2 by lia.
  unfold C4.is_child_1d, C4.children_1d. cbn [fst snd].
  apply andb_true_intro. split; [apply Nat.leb_le; exact S1|apply Nat.ltb_lt; lia].
Qed.
Print Assumptions dyadic_child_pattern.

(* the same with the hypotheses axis_of / spans discharged for the concrete construction: kv = the break
   points bs repeated mults times, new knots = the mid points *)
Theorem dyadic_child_pattern_midpoints : forall p bs mults j i,
  bs <> [] -> increasing bs -> length bs = length mults -> Forall (fun m => 0 < m)%nat mults ->
  kv_ok (expand bs mults) p ->
  (j < numdofs (refine_kv (expand bs mults) p (mids bs)) p)%nat -> (i < numdofs (expand bs mults) p)%nat ->
  get2 (prolongation_spec (expand bs mults) p (mids bs)) j i <> 0 ->
  C4.is_child_1d (M4.mk_axis p mults) i j = true.
Proof.
  intros p bs mults j i Hne Hinc Hl Hpos Hok Hj Hi Hnz.
  apply (dyadic_child_pattern (M4.mk_axis p mults) bs (expand bs mults) (mids bs) j i); try assumption.
  - apply expand_axis_of; assumption.
  - apply spans_mids; assumption.
Qed.
Print Assumptions dyadic_child_pattern_midpoints.

Theorem knot_vector_of_axis : forall p bs mults,
  length bs = length mults -> Forall (fun m => 0 < m)%nat mults ->
  axis_of (M4.mk_axis p mults) bs (expand bs mults).
Proof. exact expand_axis_of. Qed.
Print Assumptions knot_vector_of_axis.
(* NOT PROVED: `pattern` itself, i.e. the lifting of dyadic_child_pattern through the Kronecker product and the
   raveling (kron Ms nonzero => every factor nonzero => the multi-index lies in prod_ranges (lookup_children ..)
   = C4.function_children) together with the statement that the axes of level k of a C04 state are the k-fold
   ax_refine of the initial axes and match the k-fold refine_kv .. (mids ..) of the initial knot vectors;
   that the child pattern is attained exactly (every entry inside it is non-zero: the tie of C04 observes this
   on the implementation); prolongate_to's canonical-index bookkeeping (np.ix_, identity block). *)
