(* C06 -- value-preserving node functions and the traversal of VForm.transform. *)
From Coq Require Import List String Bool Arith.
From Verif.C06 Require Import Model Proofs.
Import ListNotations.

Section Compose.
Variable F : Type.
Variables (f0 : F) (fadd fmul fsub fdiv : F -> F -> F) (fopp : F -> F).
Notation eval := (eval F fadd fmul fsub fdiv fopp).
Notation expr := (expr F).
Notation env := (env F).

(* a node function preserves the value in the environment [en] *)
Definition sound_in (en : env) (f : expr -> option expr) : Prop :=
  forall e e', f e = Some e' -> eval en e' = eval en e.

Lemma transform_sound_in : forall en f, sound_in en f -> sound_in en (transform F f).
Proof.
  intros en f Hf e. induction e; intros e' H; simpl in H; try (apply Hf; assumption).
  - destruct (transform F f e) as [x'|] eqn:E; [|discriminate].
    rewrite (Hf _ _ H). simpl. rewrite (IHe x' eq_refl). reflexivity.
  - destruct (transform F f e) as [x'|] eqn:E; [|discriminate].
    rewrite (Hf _ _ H). simpl. rewrite (IHe x' eq_refl). reflexivity.
  - destruct (transform F f e1) as [x'|] eqn:E1; [|discriminate].
    destruct (transform F f e2) as [y'|] eqn:E2; [|discriminate].
    rewrite (Hf _ _ H). simpl. rewrite (IHe1 x' eq_refl), (IHe2 y' eq_refl). reflexivity.
Qed.

(* replace_physical_derivs as a node function is sound in every environment in which each
   emitted replacement has the value of the physical jet it replaces *)
Lemma rpd_node_sound_in : forall st d en,
  (forall n c D p e' ds, rpd_bf F f0 st d n c D p = RNew e' ds -> eval en e' = e_pd en n c D p) ->
  sound_in en (rpd_node F f0 st d).
Proof.
  intros st d en Hj e e' H. destruct e; simpl in H; try (inversion H; reflexivity).
  destruct (rpd_bf F f0 st d name comp D phys) as [|e1 ds|] eqn:E; inversion H; subst.
  - reflexivity.
  - simpl. apply (Hj _ _ _ _ _ _ E).
Qed.

Lemma cse_pass_sound_in_l : forall en same v,
  (forall e, same e = true -> eval en e = eval en v) ->
  forall e, eval en (cse_subst F same v e) = eval en e.
Proof. intros. apply cse_subst_eval. assumption. Qed.

End Compose.
