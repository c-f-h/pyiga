(* C06 -- non-vacuity: concrete non-trivial inputs meet the hypotheses of the theorems
   (Qc instance; everything by computation). *)
From Coq Require Import List String Bool Arith ZArith QArith Qcanon Field.
From Verif.C06 Require Import Model Proofs Props.
Import ListNotations. Import QcInst.
Close Scope Qc_scope. Close Scope Q_scope. Open Scope nat_scope. Open Scope string_scope.

Definition q (n : Z) (d : positive) : Qc := Q2Qc (Qmake n d).
Definition C (n : Z) (d : positive) : qexpr := Const (q n d).

(* Qc is a field in the sense of the theorems *)
Example qc_field : field_theory (q 0 1) (q 1 1) Qcplus Qcmult Qcminus Qcopp Qcdiv Qcinv (@eq Qc).
Proof. exact Qcft. Qed.

(* the exact equality test satisfies the hypothesis "near c v -> c = v" of fold1_sound *)
Example qeqb_exact : forall c v : Qc, qeqb c v = true -> c = v.
Proof.
  intros c v H. unfold qeqb in H. apply Qc_is_canon. apply Qeq_bool_eq. exact H.
Qed.

(* a form-like tree on which the rule chain really fires:
   (0*u + 1*(f - (-g))) / 1  folds to  f + g *)
Definition ex_tree : qexpr :=
  Op ODiv (Op OAdd (Op OMul (C 0 1) (PD "u" None [0;0] false))
                   (Op OMul (C 1 1) (Op OSub (VR "f_a" [] [0;0] true) (Neg (VR "g_a" [0] [0;0] true)))))
          (C 1 1).

Example ex_fold : qfold_all ex_tree = Some (Op OAdd (VR "f_a" [] [0;0] true) (VR "g_a" [0] [0;0] true)).
Proof. vm_compute. reflexivity. Qed.

(* division of constants by an exact zero is the ZeroDivisionError of the code *)
Example ex_fold_raises : qfold_all (Op OMul (PD "u" None [0] false) (Op ODiv (C 1 1) (C 0 1))) = None.
Proof. vm_compute. reflexivity. Qed.

(* Dx of a quotient of an input field and a basis function returns an expression *)
Definition ex_kind (n : string) : vkind := if String.eqb n "f_a" then KInput else KParam.
Example ex_dx :
  qdx ex_kind 1 1 true (Op ODiv (VR "f_a" [] [0;0] true) (PD "u" None [0;0] false)) =
  Ok (Op ODiv (Op OSub (Op OMul (VR "f_a" [] [0;1] true) (PD "u" None [0;0] false))
                       (Op OMul (VR "f_a" [] [0;0] true) (PD "u" None [0;1] false)))
              (Op OMul (PD "u" None [0;0] false) (PD "u" None [0;0] false))).
Proof. vm_compute. reflexivity. Qed.

(* mixing physical and parametric derivatives is rejected *)
Example ex_dx_raises : qdx ex_kind 0 1 true (PD "u" None [1;0] true) = Raise.
Proof. vm_compute. reflexivity. Qed.

(* an environment, definitions in an admissible order, and the value of a forest:
   _tmp1 := f*u ; integrand _tmp1 + _tmp1 with f = 3/2, u = 1/4 is 3/4 *)
Definition ex_env : qenv :=
  qenv_of [(pd_key "u" None [0;0] false, q 1 4)] [(vr_key "f_a" [] [0;0] true, q 3 2)] [q 1 2; q 1 2] (q 0 1) (q 0 1) qfn.
Definition ex_defs : list (string * qtexpr) :=
  [("_tmp1", TS (Op OMul (VR "f_a" [] [0;0] true) (PD "u" None [0;0] false)))].
Definition ex_root : qtexpr := TS (Op OAdd (VR "_tmp1" [] [0;0] false) (VR "_tmp1" [] [0;0] false)).

Example ex_forest_value :
  match qeval_forest ex_env ex_defs ex_root with Some [x] => qeqb x (q 3 4) | _ => false end = true.
Proof. vm_compute. reflexivity. Qed.

Example ex_forest_wf : wf_forest Qc ["f_a"] ex_defs [ex_root] = true.
Proof. vm_compute. reflexivity. Qed.

(* use before definition is rejected by the schedule checker *)
Example ex_forest_not_wf :
  wf_forest Qc ["f_a"] (("_tmp2", TS (VR "_tmp1" [] [0;0] false)) :: ex_defs) [ex_root] = false.
Proof. vm_compute. reflexivity. Qed.

(* CSE with the structural key: replacing f*u by the variable leaves the value unchanged,
   and the hypothesis "the new variable has the value of the representative" is met by
   the environment after evaluating the definitions *)
Example ex_cse :
  let rep := Op OMul (VR "f_a" [] [0;0] true) (PD "u" None [0;0] false) in
  cse_subst Qc (fun x => qexpr_eqb x rep) (VR "_tmp1" [] [0;0] false) (Op OAdd rep rep) =
  Op OAdd (VR "_tmp1" [] [0;0] false) (VR "_tmp1" [] [0;0] false).
Proof. vm_compute. reflexivity. Qed.

Example ex_cse_hyp :
  let en := qeval_defs ex_env ex_defs in
  qeval en (VR "_tmp1" [] [0;0] false) = qeval en (Op OMul (VR "f_a" [] [0;0] true) (PD "u" None [0;0] false)).
Proof. apply Qc_is_canon. vm_compute. reflexivity. Qed.

(* the function-name-blind key identifies sin(f) and cos(f), whose values differ under the
   interpretation used by the correspondence runs *)
Example ex_blind_key :
  erase_fn Qc (Fn "sin" (VR "f_a" [] [0;0] true)) = erase_fn Qc (Fn "cos" (VR "f_a" [] [0;0] true)) /\
  qeqb (qeval ex_env (Fn "sin" (VR "f_a" [] [0;0] true))) (qeval ex_env (Fn "cos" (VR "f_a" [] [0;0] true))) = false.
Proof. split; vm_compute; reflexivity. Qed.

(* indexing of a matrix-vector product expands to the left-nested sum of products *)
Example ex_matvec :
  qtat (TMatVec (TLM 2 2 [C 1 1; C 2 1; C 3 1; C 4 1]) (TLV [PD "u" None [0] false; PD "v" None [0] false])) [1] =
  Some (Op OAdd (Op OMul (C 3 1) (PD "u" None [0] false)) (Op OMul (C 4 1) (PD "v" None [0] false))).
Proof. vm_compute. reflexivity. Qed.

(* operator expansions, physical derivatives, the space-time split, composition of passes *)
From Verif.C06 Require Import Sched Ops Phys PhysST Compose.

(* a geometry Jacobian with det J = 2 <> 0 meets the hypothesis of physical_*_sound_2 *)
Definition exJ (a b : nat) : Qc := match a, b with 0, 0 => q 2 1 | 0, 1 => q 1 1 | 1, 0 => q 0 1 | _, _ => q 1 1 end.
Example ex_detJ : qeqb (detJ Qc (q 0 1) (q 1 1) Qcplus Qcmult Qcminus Qcdiv Qcopp exJ 2) (q 2 1) = true.
Proof. vm_compute. reflexivity. Qed.
Example ex_detJ_nonzero : detJ Qc (q 0 1) (q 1 1) Qcplus Qcmult Qcminus Qcdiv Qcopp exJ 2 <> q 0 1.
Proof. intro H. apply (f_equal (fun x => qeqb x (q 0 1))) in H. vm_compute in H. discriminate H. Qed.

(* the model's output for the mixed derivative d_x0 d_t^2 u in a 2+1 space-time form: the helper
   variables carry TWO time derivatives (the multiplicity indices_to_D must keep) *)
Example ex_spacetime_rpd :
  qrpd_bf true 3 "u" None [1; 0; 2] true =
  RNew (Op OAdd (Op OMul (VR "JacInv" [0; 0] [0; 0; 0] false) (VR "_du_102" [] [0; 0; 0] false))
                (Op OMul (VR "JacInv" [1; 0] [0; 0; 0] false) (VR "_du_012" [] [0; 0; 0] false)))
       [("_du_102", TS (PD "u" None [1; 0; 2] false)); ("_du_012", TS (PD "u" None [0; 1; 2] false))].
Proof. vm_compute. reflexivity. Qed.

(* an environment meeting st_env_ok (dim 2, n = 2 time derivatives) exists *)
Section ExST.
Variables (Js : nat -> nat -> Qc) (P : nat -> Qc).
Definition ex_st_env : qenv :=
  mkEnv (fun _ _ _ _ => Qcplus (Qcmult (Js 0 0) (P 0)) (q 0 1))
        (fun n Ix _ _ => if String.eqb n "JacInv"
                         then qeval (PhysST.dummy Qc (q 0 1))
                                (inv_entry Qc (q 0 1) (q 1 1) Qcopp (Jcm Qc (q 0 1) (q 1 1) Js 2) (nth 0 Ix 0) (nth 1 Ix 0))
                         else Qcplus (Qcmult (Js 0 0) (P 0)) (q 0 1))
        (fun _ => q 0 1) (q 0 1) (q 0 1) (fun _ x => x).
Example ex_st_env_ok :
  st_env_ok Qc (q 0 1) (q 1 1) Qcplus Qcmult Qcminus Qcdiv Qcopp Js P 2 "u" None 2 ex_st_env.
Proof.
  split; [|split].
  - intros a b. reflexivity.
  - intros i Hi. reflexivity.
  - intros i Hi. destruct i; [reflexivity|]. exfalso. simpl in Hi. apply Nat.lt_1_r in Hi. discriminate Hi.
Qed.
End ExST.

(* det and inv of a concrete matrix *)
Definition exA : list (list qexpr) := [[C 2 1; C 1 1]; [C 0 1; C 1 1]].
Example ex_det : match qe_det 3 exA with Some d => qeqb (qeval ex_env d) (q 2 1) | None => false end = true.
Proof. vm_compute. reflexivity. Qed.
Example ex_inv_entry : qeqb (qeval ex_env (inv_entry Qc (q 0 1) (q 1 1) Qcopp exA 0 1)) (q (-1) 2) = true.
Proof. vm_compute. reflexivity. Qed.

(* vector component substitution: u[1]*v[0] with u <- e_1, v <- e_0 becomes u*v, with u <- e_0 it is 0*v *)
Example ex_subst_vec :
  qsubst_vec2 "u" "v" 0 1 (Op OMul (PD "u" (Some 1) [0] false) (PD "v" (Some 0) [0] false)) =
  Op OMul (PD "u" None [0] false) (PD "v" None [0] false) /\
  qsubst_vec2 "u" "v" 0 0 (Op OMul (PD "u" (Some 1) [0] false) (PD "v" (Some 0) [0] false)) =
  Op OMul (Const (Q2Qc 0)) (PD "v" None [0] false).
Proof. split; vm_compute; reflexivity. Qed.

(* an index inside the shape of a definition accepted by the checker *)
Example ex_in_shape : in_shape (tshape Qc (TLM 2 2 [C 1 1; C 2 1; C 3 1; C 4 1])) [1; 0].
Proof. repeat constructor. Qed.

(* a pipeline of two passes on a tree *)
Example ex_run_passes :
  run_passes Qc [rpd_node Qc 0%Qc false 2; qfold1] (Op OMul (C 1 1) (PD "u" None [0; 0] true)) =
  Some (PD "u" None [0; 0] false).
Proof. vm_compute. reflexivity. Qed.
