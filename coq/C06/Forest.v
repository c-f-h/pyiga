(* C06 -- passes on forests: expressions with variable references (a DAG through names).
   Applying a value-preserving node function to every definition once (mapexprs with its `seen`
   set visits a shared node once) leaves the environment computed by the emitted order unchanged,
   and adding definitions of fresh names (helper variables) does not change existing values. *)
From Coq Require Import List String Bool Arith.
From Verif.lib Require Import ListFacts.
From Verif.C06 Require Import Model Sched Compose.
Import ListNotations.

Section Forest.
Variable F : Type.
Variables (f0 : F) (fadd fmul fsub fdiv : F -> F -> F) (fopp : F -> F).
Notation eval := (eval F fadd fmul fsub fdiv fopp).
Notation expr := (expr F).
Notation texpr := (texpr F).
Notation env := (env F).
Notation eval_defs := (eval_defs F f0 fadd fmul fsub fdiv fopp).
Notation bind := (bind F f0).
Notation agree_outside := (agree_outside F).

(* the pass on a definition: literal tensors entry by entry; a non-literal tensor root (gone after
   _to_literal_vec_mat) is left alone *)
Definition ttransform (f : expr -> option expr) (t : texpr) : option texpr :=
  match t with
  | TS e => match transform F f e with Some e' => Some (TS e') | None => None end
  | TLV es => match omap (transform F f) es with Some es' => Some (TLV es') | None => None end
  | TLM r c es => match omap (transform F f) es with Some es' => Some (TLM r c es') | None => None end
  | _ => Some t
  end.

Definition transform_forest (f : expr -> option expr) (ds : list (def F)) : option (list (def F)) :=
  omap (fun d => match ttransform f (snd d) with Some t' => Some (fst d, t') | None => None end) ds.

Definition sound_in (en : env) (f : expr -> option expr) : Prop :=
  forall e e', f e = Some e' -> eval en e' = eval en e.

Section Entries.
Variables (en : env) (f : expr -> option expr).
Hypothesis Hf : sound_in en f.

Definition same_value (e e' : expr) : Prop := eval en e' = eval en e.

(* two lookups: both fail, or both succeed with the same value *)
Definition same_lookup (a b : option expr) : Prop :=
  match a, b with Some x, Some y => same_value x y | None, None => True | _, _ => False end.

Lemma nth_error_same_lookup : forall l l', Forall2 same_value l l' ->
  forall k, same_lookup (nth_error l k) (nth_error l' k).
Proof. intros l l' H. induction H; intros k; destruct k; simpl; auto. Qed.

(* entry lists collected through lookups that agree have the same values *)
Lemma omap_same_lookup : forall (A : Type) (g g' : A -> option expr) l,
  (forall x, same_lookup (g x) (g' x)) ->
  match omap g l, omap g' l with
  | Some ys, Some ys' => map (eval en) ys' = map (eval en) ys
  | None, None => True
  | _, _ => False
  end.
Proof.
  intros A g g' l H. induction l as [|a l IH]; simpl; [reflexivity|].
  specialize (H a). unfold same_lookup, same_value in H.
  destruct (g a), (g' a); try contradiction;
    destruct (omap g l), (omap g' l); try contradiction; auto.
  simpl. congruence.
Qed.

Lemma omap_transform_same_value : forall es es',
  omap (transform F f) es = Some es' -> Forall2 same_value es es'.
Proof.
  induction es; intros es' H; simpl in H.
  - inversion H. constructor.
  - destruct (transform F f a) eqn:Ea; [|discriminate]. destruct (omap (transform F f) es) eqn:Eo; [|discriminate].
    inversion H; subst. constructor; [|auto].
    exact (transform_sound_in F fadd fmul fsub fdiv fopp en f Hf _ _ Ea).
Qed.

Lemma ttransform_entries : forall t t',
  ttransform f t = Some t' ->
  tshape F t' = tshape F t /\
  match tentries F t, tentries F t' with
  | Some es, Some es' => map (eval en) es' = map (eval en) es
  | None, None => True
  | _, _ => False
  end.
Proof.
  intros t t' H.
  destruct t; simpl in H;
    (* a non-literal root is left alone *)
    try (inversion H; subst; split; [reflexivity|]; destruct (tentries F _); auto; fail).
  - destruct (transform F f e) eqn:E; inversion H; subst. split; [reflexivity|].
    unfold tentries. simpl. rewrite (transform_sound_in F fadd fmul fsub fdiv fopp en f Hf _ _ E). reflexivity.
  - destruct (omap (transform F f) es) as [es'|] eqn:E; inversion H; subst.
    apply omap_transform_same_value in E.
    split; [simpl; rewrite (Forall2_length _ _ _ E); reflexivity|].
    unfold tentries. simpl. rewrite <- (Forall2_length _ _ _ E).
    apply omap_same_lookup. intro i. apply nth_error_same_lookup, E.
  - destruct (omap (transform F f) es) as [es'|] eqn:E; inversion H; subst.
    apply omap_transform_same_value in E.
    split; [reflexivity|]. unfold tentries. simpl.
    apply omap_same_lookup. intros [i j]. simpl.
    destruct ((i <? r) && (j <? c)); [apply nth_error_same_lookup, E | exact I].
Qed.
End Entries.

Lemma transform_forest_cons : forall f n t r,
  transform_forest f ((n, t) :: r) =
  match ttransform f t with
  | Some t' => match transform_forest f r with Some r' => Some ((n, t') :: r') | None => None end
  | None => None
  end.
Proof. intros. unfold transform_forest. simpl. destruct (ttransform f t); reflexivity. Qed.

(* [P] describes the environments in which the node function preserves values; it must be stable under
   binding a variable (every environment met while the definitions are evaluated satisfies it). *)
Theorem transform_forest_eval_defs : forall (P : env -> Prop) f,
  (forall en name shape vals, P en -> P (bind en name shape vals)) ->
  (forall en, P en -> sound_in en f) ->
  forall ds ds' en, P en -> transform_forest f ds = Some ds' ->
  eval_defs en ds' = eval_defs en ds.
Proof.
  intros P f Hbind Hsound. induction ds as [|[name t] r IH]; intros ds' en HP H.
  - inversion H. reflexivity.
  - rewrite transform_forest_cons in H.
    destruct (ttransform f t) as [t'|] eqn:Et; [|discriminate].
    destruct (transform_forest f r) as [r'|] eqn:Er; [|discriminate]. inversion H; subst. clear H.
    destruct (ttransform_entries en f (Hsound en HP) t t' Et) as [Hsh Hen].
    simpl. rewrite Hsh.
    destruct (tentries F t) as [es|], (tentries F t') as [es'|]; try contradiction.
    + rewrite Hen. apply IH; [apply Hbind; assumption | reflexivity].
    + apply IH; [assumption | reflexivity].
Qed.

Fixpoint run_forest (fs : list (expr -> option expr)) (ds : list (def F)) : option (list (def F)) :=
  match fs with
  | [] => Some ds
  | f :: r => match transform_forest f ds with Some ds' => run_forest r ds' | None => None end
  end.

Lemma eval_defs_app : forall ds1 ds2 (en : env), eval_defs en (ds1 ++ ds2) = eval_defs (eval_defs en ds1) ds2.
Proof.
  induction ds1 as [|[n t] r IH]; intros ds2 en; simpl; [reflexivity|].
  destruct (tentries F t); apply IH.
Qed.

Definition mentions_none (X : list string) (ds : list (def F)) : Prop :=
  forall name t es e v, In (name, t) ds -> tentries F t = Some es -> In e es -> In v (vrefs F e) -> ~ In v X.

Lemma eval_defs_agree : forall X ds (en1 en2 : env),
  agree_outside X en1 en2 -> mentions_none X ds ->
  agree_outside X (eval_defs en1 ds) (eval_defs en2 ds).
Proof.
  intros X. induction ds as [|[name t] r IH]; intros en1 en2 Ha Hm; simpl; [assumption|].
  assert (Hm' : mentions_none X r).
  { intros n' t' es e v Hin. apply (Hm n' t' es e v). right. assumption. }
  destruct (tentries F t) as [es|] eqn:Ees; [|apply IH; assumption].
  apply IH; [|assumption].
  assert (Hv : map (eval en1) es = map (eval en2) es).
  { apply map_ext_in. intros e He. apply (eval_agree F fadd fmul fsub fdiv fopp X); [assumption|].
    intros v Hv. apply (Hm name t es e v); auto. left. reflexivity. }
  destruct Ha as [H1 [H2 [H3 [H4 [H5 H6]]]]].
  repeat split; simpl; auto.
  intros n Hn Ix D p. rewrite Hv. destruct (String.eqb n name); [reflexivity|]. apply H6. assumption.
Qed.

End Forest.
