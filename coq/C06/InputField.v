(* C06 -- input fields: replace_physical_derivs on VarRefExpr (vform.py:554-605, the same code path
   as for basis functions with a different leaf class) and insert_input_field_derivs (626-646). *)
From Coq Require Import List String Bool Arith Lia Field Ring.
From Verif.C06 Require Import Model Ops Phys.
Import ListNotations.

Section InputField.
Variable F : Type.
Variables (f0 f1 : F) (fadd fmul fsub fdiv : F -> F -> F) (fopp finv : F -> F).
Hypothesis Fth : field_theory f0 f1 fadd fmul fsub fopp fdiv finv (@eq F).
Add Field Ffield7 : Fth.
Infix "+" := fadd. Infix "*" := fmul. Infix "-" := fsub. Infix "/" := fdiv.
Notation "- x" := (fopp x).
Notation eval := (eval F fadd fmul fsub fdiv fopp).
Notation eval_defs := (eval_defs F f0 fadd fmul fsub fdiv fopp).
Notation expr := (expr F).
Notation env := (env F).

(* replace the basis-function leaves of an expression *)
Fixpoint leafmap (g : list nat -> expr) (e : expr) : expr :=
  match e with
  | PD _ _ D _ => g D
  | Neg x => Neg (leafmap g x)
  | Fn f x => Fn f (leafmap g x)
  | Op o x y => Op o (leafmap g x) (leafmap g y)
  | _ => e
  end.

(* replace_physical_derivs on a reference to an input field: the decisions of 555-570, then the SAME
   formulas as for basis functions (588-605) with e.without_derivs() = VarRefExpr(var, I, 0, parametric=True)
   and its parametric derivatives as leaves *)
Definition rpd_vr (d : nat) (name : string) (Ix D : list nat) (par srcphys : bool) : rpd_res F :=
  if sumD D =? 0 then (if par then RSame else RNew (VR name Ix D true) [])
  else if negb srcphys && par then RSame            (* parametric derivative of a parametric field *)
  else if srcphys && negb par then RSame            (* physical derivative of a physical field *)
  else if srcphys && par then RFail                 (* RuntimeError, 569-570 *)
  else match rpd_bf F f0 false d "" None D true with
       | RNew e ds => RNew (leafmap (fun D' => VR name Ix D' true) e) ds
       | r => r
       end.

(* insert_input_field_derivs, 626-646: the derivative of order 1 / 2 of the field is read from the
   arrays <field>_grad_a / <field>_hess_a (the Hessian in symmetric storage) *)
Definition iifd (d : nat) (base : string) (Ix D : list nat) : rpd_res F :=
  if sumD D =? 0 then RSame
  else match D_to_indices D with
       | [k] => RNew (VR (append base "_grad_a") (Ix ++ [k]) (zerosD d) false) []
       | [i; j] => RNew (VR (append base "_hess_a") (Ix ++ [sym_index_to_seq d i j]) (zerosD d) false) []
       | _ => RFail
       end.

Variable J : nat -> nat -> F.
Variable HG : nat -> nat -> nat -> F.
Variable gu : nat -> F.
Variable Hu : nat -> nat -> F.
Variable u0 : F.
Notation par_jet := (par_jet F f0 fadd fmul J HG gu Hu u0).
Notation phys_env := (phys_env F f0 f1 fadd fmul fsub fdiv fopp J HG gu Hu u0).
Notation detJ := (detJ F f0 f1 fadd fmul fsub fdiv fopp J).

(* the environment of Phys.v, and the parametric derivatives of the field "f_a" are its jets: the
   composition of its physical jets (gu, Hu) with the geometry 2-jet *)
Definition field_env (d : nat) : env :=
  mkEnv (e_pd (phys_env d))
        (fun n Ix D p => if String.eqb n "f_a" then par_jet d D else e_vr (phys_env d) n Ix D p)
        (e_gw (phys_env d)) f0 f0 (fun _ x => x).

Definition fgrad_ok (d k : nat) : Prop :=
  match rpd_vr d "f_a" [] (unitD d k) false false with
  | RNew e ds => eval (eval_defs (field_env d) ds) e = gu k
  | _ => False
  end.
Definition fhess_ok (d i j : nat) : Prop :=
  match rpd_vr d "f_a" [] (bump (unitD d i) j 1) false false with
  | RNew e ds => eval (eval_defs (field_env d) ds) e = sHu F Hu i j
  | _ => False
  end.

(* [field_env] with an arbitrary matrix K in the place of the model's inverse of J *)
Notation jenv := (jenv F f0 fadd fmul J HG gu Hu u0).
Definition field_jenv (K : nat -> nat -> F) (d : nat) : env :=
  mkEnv (e_pd (jenv K d))
        (fun n Ix D p => if String.eqb n "f_a" then par_jet d D else e_vr (jenv K d) n Ix D p)
        (e_gw (jenv K d)) f0 f0 (fun _ x => x).

(* the emitted expressions are those of the basis-function case with other leaves, and the leaves have the
   same values: computed with K and the jets as atoms, both are the same term *)
Lemma field_grad_jenv d K : 1 <= d <= 3 -> forall k, k < d ->
  match rpd_bf F f0 false d "" None (unitD d k) true, rpd_vr d "f_a" [] (unitD d k) false false with
  | RNew e ds, RNew e' ds' => eval (eval_defs (field_jenv K d) ds') e' = eval (eval_defs (jenv K d) ds) e
  | _, _ => False
  end.
Proof. intros Hd k Hk. destruct d as [|[|[|[|d]]]]; try lia; small k; cbv; reflexivity. Qed.

Lemma field_hess_jenv d K : 1 <= d <= 3 -> forall i j, i < d -> j < d ->
  match rpd_bf F f0 false d "" None (bump (unitD d i) j 1) true,
        rpd_vr d "f_a" [] (bump (unitD d i) j 1) false false with
  | RNew e ds, RNew e' ds' => eval (eval_defs (field_jenv K d) ds') e' = eval (eval_defs (jenv K d) ds) e
  | _, _ => False
  end.
Proof. intros Hd i j Hi Hj. destruct d as [|[|[|[|d]]]]; try lia; small i; small j; cbv; reflexivity. Qed.

Notation Kinv d := (fun a b => eval (dummy F f0) (inv_entry F f0 f1 fopp (Jm F J d) a b)).

Lemma field_grad d : 1 <= d <= 3 -> detJ d <> f0 -> forall k, k < d -> fgrad_ok d k.
Proof.
  intros Hd Hn k Hk.
  assert (R := field_grad_jenv d (Kinv d) Hd k Hk).
  assert (X := grad_jenv F f0 f1 fadd fmul fsub fdiv fopp finv Fth J HG gu Hu u0 d _ Hd
                 (Jm_right_inverse F f0 f1 fadd fmul fsub fdiv fopp finv Fth J d Hd Hn) ""%string None k Hk).
  unfold fgrad_ok. change (field_env d) with (field_jenv (Kinv d) d).
  destruct (rpd_bf _ _ _ _ _ _ _ _), (rpd_vr _ _ _ _ _ _); try contradiction. rewrite R. exact X.
Qed.

Lemma field_hess d : 1 <= d <= 3 -> detJ d <> f0 -> forall i j, i < d -> j < d -> fhess_ok d i j.
Proof.
  intros Hd Hn i j Hi Hj.
  assert (R := field_hess_jenv d (Kinv d) Hd i j Hi Hj).
  assert (X := hess_jenv F f0 f1 fadd fmul fsub fdiv fopp finv Fth J HG gu Hu u0 d _ Hd
                 (Jm_right_inverse F f0 f1 fadd fmul fsub fdiv fopp finv Fth J d Hd Hn) ""%string None i j Hi Hj).
  unfold fhess_ok. change (field_env d) with (field_jenv (Kinv d) d).
  destruct (rpd_bf _ _ _ _ _ _ _ _), (rpd_vr _ _ _ _ _ _); try contradiction. rewrite R. exact X.
Qed.

(* the arrays hold the jets of the field: the gradient entry by entry, the Hessian in symmetric storage *)
Definition arrays_hold_jets (d : nat) (base : string) (Ix : list nat) (par : bool) (en : env) : Prop :=
  (forall k, k < d ->
     e_vr en (append base "_grad_a") (Ix ++ [k]) (zerosD d) false = e_vr en (append base "_a") Ix (unitD d k) par) /\
  (forall i j, i <= j -> j < d ->
     e_vr en (append base "_hess_a") (Ix ++ [sym_index_to_seq d i j]) (zerosD d) false =
     e_vr en (append base "_a") Ix (bump (unitD d i) j 1) par).

Definition iifd_ok (d : nat) (base : string) (Ix D : list nat) (par : bool) (en : env) : Prop :=
  match iifd d base Ix D with
  | RNew e _ => eval en e = e_vr en (append base "_a") Ix D par
  | _ => False
  end.

End InputField.
