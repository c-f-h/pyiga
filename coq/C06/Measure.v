(* C06 -- measure and normal expansion (vform.py:46-54, 197-211, 270-272): transcription of the
   expanded expressions and what they evaluate to; the algebraic identities about them (those that do not
   need sqrt/abs) are in Props2.v. *)
From Coq Require Import List String Bool Arith Field Ring.
From Verif.C06 Require Import Model.
Import ListNotations.

Section Measure.
Variable F : Type.
Variables (f0 f1 : F) (fadd fmul fsub fdiv : F -> F -> F) (fopp finv : F -> F).
Hypothesis Fth : field_theory f0 f1 fadd fmul fsub fopp fdiv finv (@eq F).
Add Field Ffield6 : Fth.
Infix "+" := fadd. Infix "*" := fmul. Infix "-" := fsub. Infix "/" := fdiv.
Notation "- x" := (fopp x).
Notation eval := (eval F fadd fmul fsub fdiv fopp).
Notation expr := (expr F).
Notation env := (env F).

(* _gaussweight, 270-272: reduce(operator.mul, [GaussWeightExpr(i) for i in range(dim)]) *)
Definition e_gaussweight (d : nat) : option expr :=
  match map (fun i => GW i) (seq 0 d) with
  | [] => None
  | x :: r => Some (fold_left (fun acc t => Op OMul acc t) r x)
  end.

(* _volume_weight, 197-200: GaussWeight * abs(det(Jac)); GaussWeight and Jac are variables *)
Definition e_volume_weight (d : nat) (jac : list (list expr)) : option expr :=
  match e_det F f1 fopp (S d) jac with
  | Some dt => Some (Op OMul (VR "GaussWeight" [] (zerosD d) false) (Fn "abs" dt))
  | None => None
  end.

(* _jac_to_unscaled_normal, 46-54: a line in the plane and a surface in space *)
Definition e_unscaled_normal_21 (x0 x1 : expr) : list expr := [Neg x1; x0].
Definition e_unscaled_normal_32 (x0 x1 x2 y0 y1 y2 : expr) : list expr :=
  [Op OSub (Op OMul x1 y2) (Op OMul x2 y1); Op OSub (Op OMul x2 y0) (Op OMul x0 y2);
   Op OSub (Op OMul x0 y1) (Op OMul x1 y0)].

(* norm(x) = sqrt(inner(x, x)), 1713-1718; _surface_weight 202-205; _surface_normal 207-211 *)
Definition e_norm (xs : list expr) : option expr :=
  match e_inner F xs xs with Some s => Some (Fn "sqrt" s) | None => None end.
Definition e_surface_weight (d : nat) (un : list expr) : option expr :=
  match e_norm un with
  | Some nn => Some (Op OMul (VR "GaussWeight" [] (zerosD d) false) nn)
  | None => None
  end.
Definition e_surface_normal (un : list expr) : option (list expr) :=
  match e_norm un with
  | Some nn => Some (map (fun c => Op ODiv c nn) un)
  | None => None
  end.

(* GaussWeight is the product of the axis weights (dims 1-3) *)
Lemma gaussweight_spec_l : forall (en : env),
  (exists e, e_gaussweight 1 = Some e /\ eval en e = e_gw en 0) /\
  (exists e, e_gaussweight 2 = Some e /\ eval en e = e_gw en 0 * e_gw en 1) /\
  (exists e, e_gaussweight 3 = Some e /\ eval en e = e_gw en 0 * e_gw en 1 * e_gw en 2).
Proof. intros. repeat split; eexists; split; reflexivity. Qed.

(* dx = GaussWeight * |det J| with det by the Leibniz formula *)
Lemma volume_weight_spec_3_l : forall (en : env) a00 a01 a02 a10 a11 a12 a20 a21 a22,
  exists e, e_volume_weight 3 [[a00; a01; a02]; [a10; a11; a12]; [a20; a21; a22]] = Some e /\
  eval en e = e_vr en "GaussWeight" [] [0; 0; 0] false *
    e_fn en "abs"
      (eval en a00 * eval en a11 * eval en a22 + eval en a01 * eval en a12 * eval en a20
       + eval en a02 * eval en a10 * eval en a21 - eval en a02 * eval en a11 * eval en a20
       - eval en a01 * eval en a10 * eval en a22 - eval en a00 * eval en a12 * eval en a21).
Proof.
  intros. eexists. split; [reflexivity|]. simpl. f_equal. f_equal. ring.
Qed.

Lemma surface_weight_spec_21_l : forall (en : env) x0 x1,
  let un := e_unscaled_normal_21 x0 x1 in
  let n := map (eval en) un in
  exists e, e_surface_weight 1 un = Some e /\
  eval en e = e_vr en "GaussWeight" [] [0] false *
              e_fn en "sqrt" (nth 0 n f0 * nth 0 n f0 + nth 1 n f0 * nth 1 n f0).
Proof. cbv zeta. intros. eexists. split; [reflexivity|]. reflexivity. Qed.

End Measure.
