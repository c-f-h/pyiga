(* C06 -- finite sums, the operator expansions of the model (det, inv), the chain rule for 2-jets that
   replace_physical_derivs implements.  Over an arbitrary field. *)
From Coq Require Import List String Bool Arith Lia Field Ring.
From Verif.C06 Require Import Model.
Import ListNotations.

(* case analysis on an index below 3 *)
Ltac small i := destruct i as [|[|[|i]]]; try lia.

Section Ops.
Variable F : Type.
Variables (f0 f1 : F) (fadd fmul fsub fdiv : F -> F -> F) (fopp finv : F -> F).
Hypothesis Fth : field_theory f0 f1 fadd fmul fsub fopp fdiv finv (@eq F).
Add Field Ffield2 : Fth.
Infix "+" := fadd. Infix "*" := fmul. Infix "-" := fsub. Infix "/" := fdiv.
Notation "- x" := (fopp x).
Notation eval := (eval F fadd fmul fsub fdiv fopp).
Notation expr := (expr F).
Notation env := (env F).
Notation e_det := (e_det F f1 fopp).
Notation e_inv := (e_inv F f1 fopp).
Notation inv_entry := (inv_entry F f0 f1 fopp).

Definition sumL {A} (l : list A) (f : A -> F) : F := fold_right (fun k acc => f k + acc) f0 l.

Lemma sumL_ext A (l : list A) f g : (forall k, In k l -> f k = g k) -> sumL l f = sumL l g.
Proof.
  induction l as [|a l IH]; intros H; simpl; [reflexivity|].
  rewrite (H a), IH; auto using in_eq, in_cons.
Qed.

Lemma sumL_app A (l l' : list A) f : sumL (l ++ l') f = sumL l f + sumL l' f.
Proof. induction l as [|a l IH]; simpl; [|rewrite IH]; ring. Qed.

Lemma sumL_add A (l : list A) f g : sumL l (fun k => f k + g k) = sumL l f + sumL l g.
Proof. induction l as [|a l IH]; simpl; [|rewrite IH]; ring. Qed.

Lemma sumL_scal A (l : list A) c f : c * sumL l f = sumL l (fun k => c * f k).
Proof. induction l as [|a l IH]; simpl; [|rewrite <- IH]; ring. Qed.

Lemma sumL_scal_r A (l : list A) c f : sumL l f * c = sumL l (fun k => f k * c).
Proof. induction l as [|a l IH]; simpl; [|rewrite <- IH]; ring. Qed.

Lemma sumL_swap A B (l : list A) (l' : list B) f :
  sumL l (fun a => sumL l' (f a)) = sumL l' (fun b => sumL l (fun a => f a b)).
Proof.
  induction l as [|a l IH]; simpl.
  - induction l'; simpl; [|rewrite <- IHl']; ring.
  - rewrite IH, <- sumL_add. reflexivity.
Qed.

Lemma sumL_map A B (h : A -> B) l f : sumL (map h l) f = sumL l (fun a => f (h a)).
Proof. induction l as [|x l IH]; simpl; [|rewrite IH]; reflexivity. Qed.

Lemma sumL_flat_map A B (g : A -> list B) l f : sumL (flat_map g l) f = sumL l (fun a => sumL (g a) f).
Proof.
  induction l as [|x l IH]; simpl; [|rewrite sumL_app, IH]; reflexivity.
Qed.

Lemma sumL_left A (l : list A) f a : fold_left (fun acc x => acc + f x) l a = a + sumL l f.
Proof. revert a. induction l as [|x l IH]; intro a; simpl; [|rewrite IH]; ring. Qed.

(* reduce(operator.add, terms): left nested, no initial element *)
Definition lsum {A} (l : list A) (f : A -> F) : F :=
  match l with [] => f0 | k :: r => fold_left (fun acc x => acc + f x) r (f k) end.

Lemma lsum_sumL A (l : list A) f : lsum l f = sumL l f.
Proof. destruct l; simpl; [|rewrite sumL_left]; reflexivity. Qed.

Lemma fold_add_eval : forall (en : env) r x,
  eval en (fold_left (fun acc t => Op OAdd acc t) r x) = fold_left fadd (map (eval en) r) (eval en x).
Proof. intros en r. induction r; intros x; simpl; [reflexivity|]. rewrite IHr. reflexivity. Qed.

Lemma det_spec_1_l : forall (en : env) a, exists d, e_det 2 [[a]] = Some d /\ eval en d = eval en a.
Proof. intros. eexists. split; [reflexivity|]. reflexivity. Qed.

Definition entry (en : env) (A : list (list expr)) (i j : nat) : F :=
  eval en (nth j (nth i A []) (Const f0)).
Definition ientry (en : env) (A : list (list expr)) (i j : nat) : F := eval en (inv_entry A i j).
Definition delta (i j : nat) : F := if i =? j then f1 else f0.
Definition detv (en : env) (A : list (list expr)) : F :=
  match e_det (S (List.length A)) A with Some d => eval en d | None => f0 end.

Lemma delta_sym a b : delta a b = delta b a.
Proof. unfold delta. rewrite Nat.eqb_sym. reflexivity. Qed.

Lemma sumL_delta l i f : NoDup l -> In i l -> sumL l (fun k => delta k i * f k) = f i.
Proof.
  unfold delta. induction 1 as [|a l Ha _ IH]; intros Hi; [destruct Hi|]. simpl.
  destruct (Nat.eqb_spec a i) as [->|Hn].
  - rewrite (sumL_ext _ l _ (fun _ => f0 * f0)), <- sumL_scal by
      (intros k Hk; destruct (Nat.eqb_spec k i) as [->|_]; [contradiction|ring]).
    ring.
  - rewrite IH by (destruct Hi; [contradiction|assumption]). ring.
Qed.

Definition mat (n : nat) (a : nat -> nat -> expr) : list (list expr) :=
  map (fun i => map (a i) (seq 0 n)) (seq 0 n).

(* Every entry of inv A is a cofactor over the determinant.  The determinant is kept as ONE atom [dt] while
   the denominators are cleared (they are all dt, not three copies of a cubic); what remains is the
   adjugate identity  sum_k a_ik cof_kj = det * delta_ij,  a polynomial identity of degree n. *)
Lemma inv_spec : forall n (a : nat -> nat -> expr) (en : env), 1 <= n <= 3 ->
  detv en (mat n a) <> f0 ->
  forall i j, i < n -> j < n ->
  sumL (seq 0 n) (fun k => ientry en (mat n a) i k * eval en (a k j)) = delta i j /\
  sumL (seq 0 n) (fun k => eval en (a i k) * ientry en (mat n a) k j) = delta i j.
Proof.
  intros n a en Hn Hd i j Hi Hj.
  destruct n as [|[|[|[|n]]]]; try lia; small i; small j;
    cbv -[Model.eval not] in Hd |- *; cbn [Model.eval Model.opf] in Hd |- *;
    match type of Hd with ?D <> _ => set (dt := D) in * end;
    split; field_simplify_eq; try exact Hd; subst dt; ring.
Qed.

(* The chain rule for 2-jets.
   J is the Jacobian of the geometry map, K any right inverse of it (J K = I on the index list l),
   gu / H the physical gradient / Hessian of a function, S m its second derivatives of component m of the
   geometry map; p and q are the parametric first and second derivatives of the composition.  Over any
   commutative ring, for any number of indices. *)
Section Chain.
Variable l : list nat.
Hypothesis Hl : NoDup l.
Variables J K : nat -> nat -> F.
Hypothesis JK : forall k i, In k l -> In i l -> sumL l (fun a => J k a * K a i) = delta k i.
Notation sum := (sumL l).

(* x^T (C y) = (x^T C) y *)
Lemma sum_assoc x (c : nat -> nat -> F) y :
  sum (fun a => x a * sum (fun b => c a b * y b)) = sum (fun b => sum (fun a => x a * c a b) * y b).
Proof.
  rewrite (sumL_ext _ _ _ (fun a => sum (fun b => x a * c a b * y b))).
  - rewrite sumL_swap. apply sumL_ext. intros b _. symmetry. apply sumL_scal_r.
  - intros a _. rewrite sumL_scal. apply sumL_ext. intros. ring.
Qed.

(* K^T (J^T v) = v,  (v^T J) K = v^T,  J (K t) = t *)
Lemma pull v i : In i l -> sum (fun a => K a i * sum (fun k => J k a * v k)) = v i.
Proof.
  intro Hi. rewrite sum_assoc, <- (sumL_delta l i v Hl Hi).
  apply sumL_ext. intros k Hk. rewrite <- (JK k i Hk Hi). f_equal. apply sumL_ext. intros. ring.
Qed.

Lemma pull_r v j : In j l -> sum (fun b => sum (fun k => v k * J k b) * K b j) = v j.
Proof.
  intro Hj. rewrite <- sum_assoc, <- (sumL_delta l j v Hl Hj).
  apply sumL_ext. intros k Hk. rewrite (JK k j Hk Hj). ring.
Qed.

Lemma push t m : In m l -> sum (fun k => J m k * sum (fun m' => K k m' * t m')) = t m.
Proof.
  intro Hm. rewrite sum_assoc, <- (sumL_delta l m t Hl Hm).
  apply sumL_ext. intros k Hk. rewrite (JK m k Hm Hk), delta_sym. reflexivity.
Qed.

Variables (gu : nat -> F) (H : nat -> nat -> F) (S : nat -> nat -> nat -> F).
Variables (q : nat -> nat -> F) (p : nat -> F).
Hypothesis Hq : forall a b, In a l -> In b l ->
  q a b = sum (fun k => J k a * sum (fun m => H k m * J m b)) + sum (fun m => gu m * S m a b).
Hypothesis Hp : forall k, In k l -> p k = sum (fun m => gu m * J m k).

Theorem grad_chain i : In i l -> sum (fun a => K a i * p a) = gu i.
Proof.
  intro Hi. rewrite <- (pull gu i Hi). apply sumL_ext. intros a Ha. rewrite (Hp a Ha).
  f_equal. apply sumL_ext. intros. ring.
Qed.

(* The first sum is K^T q K; with T m = K^T (S m) K it is H i j + sum_m gu m * T m (pull, pull_r).  The
   correction term is -sum_m gu m * T m, because J K = I again (push). *)
Theorem hess_chain i j : In i l -> In j l ->
  sum (fun a => K a i * sum (fun b => q a b * K b j))
  + sum (fun k => p k * - sum (fun m => sum (fun e => sum (fun u => S m e u * K k m * K e i * K u j)))) = H i j.
Proof.
  intros Hi Hj.
  set (T m := sum (fun a => K a i * sum (fun b => S m a b * K b j))).
  assert (A : sum (fun a => K a i * sum (fun b => q a b * K b j)) = H i j + sum (fun m => gu m * T m)).
  { rewrite <- (pull (fun k => H k j) i Hi).
    rewrite (sumL_ext _ _ (fun m => gu m * T m) (fun m => T m * gu m)) by (intros; ring).
    unfold T. rewrite <- sum_assoc, <- sumL_add. apply sumL_ext. intros a Ha.
    rewrite (sumL_ext _ _ (fun b => q a b * K b j)
               (fun b => sum (fun k => J k a * sum (fun m => H k m * J m b)) * K b j
                         + sum (fun m => gu m * S m a b) * K b j))
      by (intros b Hb; rewrite (Hq a b Ha Hb); ring).
    rewrite sumL_add, <- !sum_assoc.
    rewrite (sumL_ext _ _ _ (fun k => J k a * H k j)) by (intros k _; rewrite (pull_r (H k) j Hj); reflexivity).
    rewrite (sumL_ext _ _ (fun m => gu m * _) (fun m => sum (fun b => S m a b * K b j) * gu m)) by (intros; ring).
    ring. }
  assert (G : forall k, sum (fun m => sum (fun e => sum (fun u => S m e u * K k m * K e i * K u j)))
                        = sum (fun m => K k m * T m)).
  { intro k. apply sumL_ext. intros m _. unfold T. rewrite sumL_scal. apply sumL_ext. intros e _.
    rewrite !sumL_scal. apply sumL_ext. intros. ring. }
  rewrite A.
  rewrite (sumL_ext _ _ (fun k => p k * - _)
             (fun k => (- f1) * (sum (fun m => gu m * J m k) * sum (fun m => K k m * T m))))
    by (intros k Hk; rewrite G, (Hp k Hk); ring).
  rewrite <- sumL_scal, <- sum_assoc.
  rewrite (sumL_ext _ _ (fun m => gu m * sum _) (fun m => gu m * T m))
    by (intros m Hm; rewrite (push T m Hm); reflexivity).
  ring.
Qed.

(* the same with the bracketing of the emitted expressions (vform.py:589-605, 609-624) *)
Theorem grad_emit i : In i l -> lsum l (fun a => K a i * p a) = gu i.
Proof. rewrite lsum_sumL. apply grad_chain. Qed.

Theorem hess_emit i j : In i l -> In j l ->
  fold_left (fun acc k => acc + p k * - fold_left (fun acc t => acc + t)
               (flat_map (fun m => flat_map (fun e => map (fun u => S m e u * K k m * K e i * K u j) l) l) l) f0)
    l (lsum l (fun a => K a i * lsum l (fun b => q a b * K b j))) = H i j.
Proof.
  intros Hi Hj. rewrite sumL_left, lsum_sumL, <- (hess_chain i j Hi Hj). f_equal.
  - apply sumL_ext. intros. rewrite lsum_sumL. reflexivity.
  - apply sumL_ext. intros k _. do 2 f_equal.
    rewrite (sumL_left _ _ (fun t => t)), sumL_flat_map, (Radd_0_l (F_R Fth)).
    apply sumL_ext. intros m _. rewrite sumL_flat_map. apply sumL_ext. intros e _. apply sumL_map.
Qed.
End Chain.

End Ops.
