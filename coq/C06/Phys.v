(* C06 -- replace_physical_derivs + _geo_hess_trf of the MODEL: the emitted formulas are the
   physical gradient / Hessian whenever the parametric jets are the composition of the physical
   jets with the geometry 2-jet.  The reason is the chain rule for 2-jets, which holds over any
   commutative ring, in any dimension and for any right inverse K of the Jacobian J
   ([grad_chain], [hess_chain]); the model's inv supplies such a K in dimensions 1-3. *)
From Coq Require Import List String Bool Arith Lia Field Ring.
From Verif.C06 Require Import Model Ops.
Import ListNotations.

Section Phys.
Variable F : Type.
Variables (f0 f1 : F) (fadd fmul fsub fdiv : F -> F -> F) (fopp finv : F -> F).
Hypothesis Fth : field_theory f0 f1 fadd fmul fsub fopp fdiv finv (@eq F).
Add Field Ffield3 : Fth.
Infix "+" := fadd. Infix "*" := fmul. Infix "-" := fsub. Infix "/" := fdiv.
Notation "- x" := (fopp x).
Notation eval := (eval F fadd fmul fsub fdiv fopp).
Notation eval_defs := (eval_defs F f0 fadd fmul fsub fdiv fopp).
Notation expr := (expr F).
Notation env := (env F).
Notation rpd_bf := (rpd_bf F f0).

(* the geometry 2-jet (J = dG/dxi, HG m = Hessian of G_m), the physical jets of the function
   (gu = gradient, Hu = Hessian, both indexed with sorted pairs) and its value *)
Variable J : nat -> nat -> F.
Variable HG : nat -> nat -> nat -> F.
Variable gu : nat -> F.
Variable Hu : nat -> nat -> F.
Variable u0 : F.

Definition fsum (n : nat) (f : nat -> F) : F := fold_right (fun k acc => f k + acc) f0 (seq 0 n).
Definition sHu (k l : nat) : F := Hu (Nat.min k l) (Nat.max k l).
Definition sHG (m a b : nat) : F := HG m (Nat.min a b) (Nat.max a b).

(* parametric jets DEFINED by composition of 2-jets: u = u~ o G *)
Definition par_jet (d : nat) (D : list nat) : F :=
  match D_to_indices D with
  | [] => u0
  | [a] => fsum d (fun k => J k a * gu k)
  | [a; b] => fsum d (fun k => fsum d (fun l => J k a * sHu k l * J l b)) + fsum d (fun m => gu m * sHG m a b)
  | _ => f0
  end.

Definition Jm (d : nat) : list (list expr) :=
  map (fun a => map (fun b => Const (J a b)) (seq 0 d)) (seq 0 d).

Definition dummy : env := mkEnv (fun _ _ _ _ => f0) (fun _ _ _ _ => f0) (fun _ => f0) f0 f0 (fun _ x => x).

Definition detJ (d : nat) : F :=
  match e_det F f1 fopp (S d) (Jm d) with Some e => eval dummy e | None => f0 end.

(* the environment: basis function jets by composition, JacInv = the model's inv of J,
   derivatives of the geometry = J and HG *)
Definition phys_env (d : nat) : env :=
  mkEnv (fun _ _ D _ => par_jet d D)
        (fun n Ix D _ =>
           if String.eqb n "JacInv" then eval dummy (inv_entry F f0 f1 fopp (Jm d) (nth 0 Ix 0) (nth 1 Ix 0))
           else if String.eqb n "geo_a" then
             match D_to_indices D with
             | [a] => J (nth 0 Ix 0) a
             | [a; b] => sHG (nth 0 Ix 0) a b
             | _ => f0 end
           else f0)
        (fun _ => f0) f0 f0 (fun _ x => x).

Definition grad_ok (d k : nat) : Prop :=
  match rpd_bf false d "u" None (unitD d k) true with
  | RNew e ds => eval (eval_defs (phys_env d) ds) e = gu k
  | _ => False
  end.

Definition hess_ok (d i j : nat) : Prop :=
  match rpd_bf false d "u" None (bump (unitD d i) j 1) true with
  | RNew e ds => eval (eval_defs (phys_env d) ds) e = sHu i j
  | _ => False
  end.

(* the same environment with an arbitrary matrix K in the place of the model's inverse of J *)
Definition jenv (K : nat -> nat -> F) (d : nat) : env :=
  mkEnv (fun _ _ D _ => par_jet d D)
        (fun n Ix D _ =>
           if String.eqb n "JacInv" then K (nth 0 Ix 0) (nth 1 Ix 0)
           else if String.eqb n "geo_a" then
             match D_to_indices D with
             | [a] => J (nth 0 Ix 0) a
             | [a; b] => sHG (nth 0 Ix 0) a b
             | _ => f0 end
           else f0)
        (fun _ => f0) f0 f0 (fun _ x => x).

Definition right_inverse (d : nat) (K : nat -> nat -> F) : Prop :=
  forall k i, In k (seq 0 d) -> In i (seq 0 d) ->
  sumL F f0 fadd (seq 0 d) (fun a => J k a * K a i) = delta F f0 f1 k i.

(* the parametric jets of orders 1 and 2 in the form the chain rule wants them (the second-order jets are
   indexed by sorted pairs) *)
Lemma par_jet_1 d : d <= 3 -> forall k, In k (seq 0 d) ->
  par_jet d (unitD d k) = fsum d (fun m => gu m * J m k).
Proof.
  intros Hd k Hk. apply in_seq in Hk.
  destruct d as [|[|[|[|d]]]]; try lia; small k; cbv; ring.
Qed.

Lemma par_jet_2 d : d <= 3 -> forall a b, In a (seq 0 d) -> In b (seq 0 d) ->
  par_jet d (bump (unitD d a) b 1) =
  fsum d (fun k => J k a * fsum d (fun m => sHu k m * J m b)) + fsum d (fun m => gu m * sHG m a b).
Proof.
  intros Hd a b Ha Hb. apply in_seq in Ha, Hb.
  destruct d as [|[|[|[|d]]]]; try lia; small a; small b; cbv; ring.
Qed.

(* For d <= 3 and concrete indices the value of the emitted expression, computed with K and the jets as
   atoms, IS the left-hand side of grad_emit / hess_emit. *)
Lemma grad_jenv d K : 1 <= d <= 3 -> right_inverse d K -> forall name comp k, k < d ->
  match rpd_bf false d name comp (unitD d k) true with
  | RNew e ds => eval (eval_defs (jenv K d) ds) e = gu k
  | _ => False
  end.
Proof.
  intros Hd JK name comp k Hk.
  assert (X := grad_emit F f0 f1 fadd fmul fsub fdiv fopp finv Fth (seq 0 d) (seq_NoDup d 0) J K JK gu _
                 (par_jet_1 d (proj2 Hd)) k ltac:(apply in_seq; lia)).
  destruct d as [|[|[|[|d]]]]; try lia; small k; cbv in X |- *; exact X.
Qed.

Lemma hess_jenv d K : 1 <= d <= 3 -> right_inverse d K -> forall name comp i j, i < d -> j < d ->
  match rpd_bf false d name comp (bump (unitD d i) j 1) true with
  | RNew e ds => eval (eval_defs (jenv K d) ds) e = sHu i j
  | _ => False
  end.
Proof.
  intros Hd JK name comp i j Hi Hj.
  assert (X := hess_emit F f0 f1 fadd fmul fsub fdiv fopp finv Fth (seq 0 d) (seq_NoDup d 0) J K JK gu sHu sHG _ _
                 (par_jet_2 d (proj2 Hd)) (par_jet_1 d (proj2 Hd)) (Nat.min i j) (Nat.max i j)
                 ltac:(apply in_seq; lia) ltac:(apply in_seq; lia)).
  destruct d as [|[|[|[|d]]]]; try lia; small i; small j; cbv in X |- *; exact X.
Qed.

Lemma Jm_right_inverse d : 1 <= d <= 3 -> detJ d <> f0 ->
  right_inverse d (fun a b => eval dummy (inv_entry F f0 f1 fopp (Jm d) a b)).
Proof.
  intros Hd Hn k i Hk Hi. apply in_seq in Hk, Hi.
  refine (proj2 (inv_spec F f0 f1 fadd fmul fsub fdiv fopp finv Fth d (fun a b => Const (J a b)) dummy Hd _ k i _ _));
    [|lia|lia].
  destruct d as [|[|[|[|d]]]]; try lia; exact Hn.
Qed.

Lemma physical_grad d : 1 <= d <= 3 -> detJ d <> f0 -> forall k, k < d -> grad_ok d k.
Proof. intros Hd Hn. exact (grad_jenv d _ Hd (Jm_right_inverse d Hd Hn) "u"%string None). Qed.

Lemma physical_hess d : 1 <= d <= 3 -> detJ d <> f0 -> forall i j, i < d -> j < d -> hess_ok d i j.
Proof. intros Hd Hn. exact (hess_jenv d _ Hd (Jm_right_inverse d Hd Hn) "u"%string None). Qed.

End Phys.
