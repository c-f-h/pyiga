(* C06 -- the space-time split of replace_physical_derivs (vform.py:574-586) in the model:
   on a cylinder G(x,t) = (G~(x), t) the emitted expression for one space derivative and ANY
   number n of time derivatives is the physical derivative d_x_k d_t^n u~. *)
From Coq Require Import List String Bool Arith Lia Field Ring.
From Verif.C06 Require Import Model Ops.
Import ListNotations.

Section ST.
Variable F : Type.
Variables (f0 f1 : F) (fadd fmul fsub fdiv : F -> F -> F) (fopp finv : F -> F).
Hypothesis Fth : field_theory f0 f1 fadd fmul fsub fopp fdiv finv (@eq F).
Add Field Ffield5 : Fth.
Infix "+" := fadd. Infix "*" := fmul. Infix "-" := fsub. Infix "/" := fdiv.
Notation "- x" := (fopp x).
Notation eval := (eval F fadd fmul fsub fdiv fopp).
Notation expr := (expr F).
Notation env := (env F).
Notation rpd_bf := (rpd_bf F f0).

Variable Js : nat -> nat -> F.       (* Jacobian of the space part G~ *)
Variable P : nat -> F.               (* physical jets d_x_k d_t^n u~, k a space axis *)

(* the Jacobian of the cylinder: block diag (Js, 1) *)
Definition Jc (d a b : nat) : F :=
  if (a =? d - 1) || (b =? d - 1) then (if a =? b then f1 else f0) else Js a b.
Definition Jcm (d : nat) : list (list expr) :=
  map (fun a => map (fun b => Const (Jc d a b)) (seq 0 d)) (seq 0 d).
Definition dummy : env := mkEnv (fun _ _ _ _ => f0) (fun _ _ _ _ => f0) (fun _ => f0) f0 f0 (fun _ x => x).
Definition detJc (d : nat) : F :=
  match e_det F f1 fopp (S d) (Jcm d) with Some e => eval dummy e | None => f0 end.

(* one space derivative along axis i and n time derivatives *)
Definition Dst (d i n : nat) : list nat := bump (unitD d i) (d - 1) n.

Lemma fold_bump : forall n k D, fold_left (fun D i => bump D i 1) (repeat k n) D = bump D k n.
Proof.
  assert (B : forall D k a b, bump (bump D k a) k b = bump D k (a + b)).
  { induction D as [|x D IH]; intros [|k] a b; simpl; [reflexivity|reflexivity|f_equal; lia|f_equal; apply IH]. }
  assert (Z : forall D k, bump D k 0 = D).
  { induction D as [|x D IH]; intros [|k]; simpl; [reflexivity|reflexivity|f_equal; lia|f_equal; apply IH]. }
  induction n; intros k D; simpl; [symmetry; apply Z|]. rewrite IHn, B. reflexivity.
Qed.

Definition newdefs (d : nat) (name : string) (comp : option nat) (n : nat) : list (def F) :=
  map (fun i => (pdname name (Dst d i n), TS (PD name comp (Dst d i n) false))) (seq 0 (d - 1)).

(* hypotheses on the environment: JacInv is the model's inverse of the cylinder Jacobian, the
   helper variables have the values of their definitions, and the parametric jets are the
   composition of the physical ones with the space Jacobian *)
Definition st_env_ok (d : nat) (name : string) (comp : option nat) (n : nat) (en : env) : Prop :=
  (forall a b, e_vr en "JacInv" [a; b] (zerosD d) false = eval dummy (inv_entry F f0 f1 fopp (Jcm d) a b)) /\
  (forall i, i < d - 1 -> e_vr en (pdname name (Dst d i n)) [] (zerosD d) false = e_pd en name comp (Dst d i n) false) /\
  (forall i, i < d - 1 ->
     e_pd en name comp (Dst d i n) false = fold_right (fun k acc => Js k i * P k + acc) f0 (seq 0 (d - 1))).

Definition st_ok (d : nat) (name : string) (comp : option nat) (n k : nat) (en : env) : Prop :=
  match rpd_bf true d name comp (Dst d k n) true with
  | RNew e ds => eval en e = P k /\ ds = newdefs d name comp n
  | _ => False
  end.

Lemma Jc_space d a b : a < d - 1 -> b < d - 1 -> Jc d a b = Js a b.
Proof. intros Ha Hb. unfold Jc. rewrite (proj2 (Nat.eqb_neq a _)), (proj2 (Nat.eqb_neq b _)) by lia. reflexivity. Qed.

Lemma Jc_time d a : a < d - 1 -> Jc d a (d - 1) = f0.
Proof. intros Ha. unfold Jc. rewrite Nat.eqb_refl, orb_true_r, (proj2 (Nat.eqb_neq a _)) by lia. reflexivity. Qed.

(* the inverse of the cylinder Jacobian; its space block is a right inverse of Js, because the time column
   of the cylinder Jacobian vanishes on space rows *)
Definition Kc (d a b : nat) : F := eval dummy (inv_entry F f0 f1 fopp (Jcm d) a b).

Lemma Kc_space_right_inverse d : 2 <= d <= 3 -> detJc d <> f0 ->
  forall k i, In k (seq 0 (d - 1)) -> In i (seq 0 (d - 1)) ->
  sumL F f0 fadd (seq 0 (d - 1)) (fun a => Js k a * Kc d a i) = delta F f0 f1 k i.
Proof.
  intros Hd Hn k i Hk Hi. apply in_seq in Hk, Hi.
  assert (E : sumL F f0 fadd (seq 0 d) (fun a => Jc d k a * Kc d a i) = delta F f0 f1 k i).
  { refine (proj2 (inv_spec F f0 f1 fadd fmul fsub fdiv fopp finv Fth d (fun a b => Const (Jc d a b)) dummy
                     _ _ k i _ _)); try lia.
    destruct d as [|[|[|[|d]]]]; try lia; exact Hn. }
  rewrite <- E. replace (seq 0 d) with (seq 0 (d - 1) ++ [(d - 1)%nat])
    by (replace d with (S (d - 1)) at 3 by lia; symmetry; apply seq_S).
  rewrite (sumL_app F f0 f1 fadd fmul fsub fdiv fopp finv Fth). simpl. rewrite Jc_time by lia.
  rewrite (sumL_ext F f0 fadd _ _ _ (fun a => Jc d k a * Kc d a i)); [ring|].
  intros a Ha. apply in_seq in Ha. rewrite Jc_space by lia. reflexivity.
Qed.

(* what the split emits: the inner product of column k of JacInv with the helper variables *)
Lemma rpd_bf_st d name comp n k : 2 <= d <= 3 -> k < d - 1 ->
  rpd_bf true d name comp (Dst d k n) true =
  osome F (e_inner F (map (fun i => jacinv F d i k) (seq 0 (d - 1)))
                     (map (fun i => VR (pdname name (Dst d i n)) [] (zerosD d) false) (seq 0 (d - 1))))
        (newdefs d name comp n).
Proof.
  intros Hd Hk. unfold rpd_bf, newdefs, Dst, indices_to_D.
  destruct d as [|[|[|[|d]]]]; try lia; small k; simpl; rewrite ?fold_bump; reflexivity.
Qed.

(* ... which is the gradient formula of the chain rule ([grad_emit]) on the space block *)
Lemma spacetime_split d : 2 <= d <= 3 -> detJc d <> f0 ->
  forall name comp n en, st_env_ok d name comp n en -> forall k, k < d - 1 -> st_ok d name comp n k en.
Proof.
  intros Hd Hn name comp n en [HJ [Hv Hp]] k Hk.
  assert (X := grad_emit F f0 f1 fadd fmul fsub fdiv fopp finv Fth (seq 0 (d - 1)) (seq_NoDup _ 0) Js (Kc d)
                 (Kc_space_right_inverse d Hd Hn) P
                 (fun i => sumL F f0 fadd (seq 0 (d - 1)) (fun m => Js m i * P m))
                 ltac:(intros; apply sumL_ext; intros; ring) k ltac:(apply in_seq; lia)).
  unfold st_ok. rewrite rpd_bf_st by assumption.
  destruct d as [|[|[|[|d]]]]; try lia; small k;
    cbn [Nat.sub seq map e_inner combine reduce_add fold_left fst snd osome Model.eval Model.opf jacinv];
    (split; [|reflexivity]); rewrite ?HJ, ?Hv, ?Hp by lia; exact X.
Qed.

End ST.
