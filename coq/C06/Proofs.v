(* C06 -- constant folding rule by rule, differentiation as arithmetic of dual numbers, the CSE
   replacement and the structural key.  Over an arbitrary field F, every environment, every tree. *)
From Coq Require Import List String Bool Arith Field Ring.
From Verif.C06 Require Import Model.
Import ListNotations.

Section Proofs.
Variable F : Type.
Variables (f0 f1 : F) (fadd fmul fsub fdiv : F -> F -> F) (fopp finv : F -> F).
Hypothesis Fth : field_theory f0 f1 fadd fmul fsub fopp fdiv finv (@eq F).
Add Field Ffield : Fth.

Infix "+" := fadd. Infix "*" := fmul. Infix "-" := fsub. Infix "/" := fdiv.
Notation "- x" := (fopp x).

Notation eval := (eval F fadd fmul fsub fdiv fopp).
Notation opf := (opf F fadd fmul fsub fdiv).
Notation expr := (expr F).
Notation env := (env F).

Lemma one_neq_zero : f1 <> f0.
Proof. exact (F_1_neq_0 Fth). Qed.

Lemma mone_neq_zero : - f1 <> f0.
Proof.
  intro H. apply one_neq_zero.
  assert (E : f1 = - (- f1)) by ring. rewrite E, H. ring.
Qed.

Section Fold.
Variable near : F -> F -> bool.
Variable fzerob : F -> bool.
(* the constants of the form are exact: a constant within the 1e-15 window of 0, 1 or -1
   IS that number (true for every form whose constants are not within (0,1e-15) of them) *)
Hypothesis near_exact : forall c v, near c v = true -> c = v.

Notation fold1 := (fold1 F f0 f1 fadd fmul fsub fdiv fopp near fzerob).
Notation fold_all := (fold_all F f0 f1 fadd fmul fsub fdiv fopp near fzerob).
Notation is_constant := (is_constant F near).
Notation is_zero := (is_zero F f0 near).
Notation fm1 := (fm1 F f1 fopp).

Lemma is_constant_inv : forall e v, is_constant e v = true -> e = Const v.
Proof.
  intros e v H. destruct e; simpl in H; try discriminate.
  apply near_exact in H. subst. reflexivity.
Qed.

(* the rule chain of fold1 for operands that are not both constants (vform.py:1175-1208) *)
Definition fold_rules (o : oper) (x y : expr) : option expr :=
  match o with
  | OAdd => if is_zero x then Some y
            else if is_zero y then Some x
            else match y with Neg y' => Some (Op OSub x y') | _ => Some (Op o x y) end
  | OSub => if is_zero x then Some (Neg y)
            else if is_zero y then Some x
            else match y with Neg y' => Some (Op OAdd x y') | _ => Some (Op o x y) end
  | OMul => if is_zero x || is_zero y then Some (Const f0)
            else if is_constant x f1 then Some y
            else if is_constant x fm1 then Some (Neg y)
            else if is_constant y f1 then Some x
            else if is_constant y fm1 then Some (Neg x)
            else Some (Op o x y)
  | ODiv => if is_zero x then Some (Const f0)
            else if is_constant y f1 then Some x
            else if is_constant y fm1 then Some (Neg x)
            else if is_zero y then None
            else Some (Op o x y)
  end.

Lemma fold1_cases : forall o x y,
  (exists a b, x = Const a /\ y = Const b) \/ fold1 (Op o x y) = fold_rules o x y.
Proof.
  intros o x y. destruct x; try (right; destruct o; reflexivity).
  destruct y; try (right; destruct o; reflexivity). left. eauto.
Qed.

(* a rule fired because operand [E : is_constant z v = true] is the constant v: put the constant in, read
   off the result from [H], and compute both values *)
Ltac fired H E := apply is_constant_inv in E; simpl in H; inversion H; subst; simpl.

(* every rule is an identity of fields; the rules in the order of the code *)
Lemma fold_rules_sound : forall en o x y e', fold_rules o x y = Some e' -> eval en e' = eval en (Op o x y).
Proof.
  intros en o x y e' H. unfold fold_rules, Model.is_zero, Model.fm1 in H. destruct o.
  1-2: (* sum and difference: 0 first, 0 second, negated second operand *)
    destruct (is_constant x f0) eqn:Zx; [fired H Zx; ring|];
    destruct (is_constant y f0) eqn:Zy; [fired H Zy; ring|];
    destruct y; inversion H; subst; simpl; try reflexivity; ring.
  - destruct (is_constant x f0) eqn:Zx; [fired H Zx; ring|].
    destruct (is_constant y f0) eqn:Zy; [fired H Zy; ring|]. simpl in H.
    destruct (is_constant x f1) eqn:Ox; [fired H Ox; ring|].
    destruct (is_constant x (- f1)) eqn:Mx; [fired H Mx; ring|].
    destruct (is_constant y f1) eqn:Oy; [fired H Oy; ring|].
    destruct (is_constant y (- f1)) eqn:My; [fired H My; ring|].
    inversion H. reflexivity.
  - destruct (is_constant x f0) eqn:Zx; [fired H Zx; rewrite (Fdiv_def Fth); ring|].
    destruct (is_constant y f1) eqn:Oy; [fired H Oy; field; exact one_neq_zero|].
    destruct (is_constant y (- f1)) eqn:My; [fired H My; field; exact mone_neq_zero|].
    destruct (is_constant y f0); inversion H. reflexivity.
Qed.

Lemma fold1_eval : forall en e e', fold1 e = Some e' -> eval en e' = eval en e.
Proof.
  intros en e e' H. destruct e as [c|n c D p|n Ix D p|k| | |x|f x|o x y]; try (inversion H; reflexivity).
  destruct (fold1_cases o x y) as [[a [b [-> ->]]]|E].
  - destruct o; simpl in H; try destruct (fzerob b); inversion H; reflexivity.
  - rewrite E in H. exact (fold_rules_sound en o x y e' H).
Qed.

Lemma fold_all_eval : forall en e e', fold_all e = Some e' -> eval en e' = eval en e.
Proof.
  intros en e. induction e as [c|n c D p|n Ix D p|k| | |x IHx|f x IHx|o x IHx y IHy];
    intros e' H; cbn [Model.fold_all] in H; try (inversion H; reflexivity).
  - destruct (fold_all x) as [x'|] eqn:E; inversion H; subst. simpl. rewrite (IHx x' eq_refl). reflexivity.
  - destruct (fold_all x) as [x'|] eqn:E; inversion H; subst. simpl. rewrite (IHx x' eq_refl). reflexivity.
  - destruct (fold_all x) as [x'|] eqn:Ex; [|discriminate].
    destruct (fold_all y) as [y'|] eqn:Ey; [|discriminate].
    apply (fold1_eval en) in H. rewrite H. simpl.
    rewrite (IHx x' eq_refl), (IHy y' eq_refl). reflexivity.
Qed.
End Fold.

(* symbolic differentiation = arithmetic of dual numbers F[eps]/(eps^2) *)
Section Dual.
Definition dual : Type := (F * F)%type.

(* the ring operations of F[eps]/(eps^2) and the inverse of multiplication *)
Definition dopf (o : oper) (a b : dual) : dual :=
  match o with
  | OAdd => (fst a + fst b, snd a + snd b)
  | OSub => (fst a - fst b, snd a - snd b)
  | OMul => (fst a * fst b, snd a * fst b + fst a * snd b)
  | ODiv => (fst a / fst b, (snd a * fst b - fst a * snd b) / (fst b * fst b))
  end.

Variable kind : string -> vkind.

(* value and k-th partial derivative: leaves carry (value, shifted jet), constants and
   parameters (value, 0), operators are dual arithmetic *)
Fixpoint deval (k : nat) (par : bool) (en : env) (e : expr) : dual :=
  match e with
  | Const c => (c, f0)
  | PD n c D ph => (e_pd en n c D ph, e_pd en n c (bump D k 1%nat) (negb par))
  | VR n Ix D p => (e_vr en n Ix D p,
                    match kind n with KInput => e_vr en n Ix (bump D k 1%nat) par | _ => f0 end)
  | Op o x y => dopf o (deval k par en x) (deval k par en y)
  | _ => (eval en e, f0)
  end.

Lemma deval_fst_l : forall k par en e, fst (deval k par en e) = eval en e.
Proof.
  intros k par en e. induction e; simpl; try reflexivity.
  destruct o; simpl; rewrite IHe1, IHe2; reflexivity.
Qed.
End Dual.

Section CSE.
Variable same : expr -> bool.
Variable v : expr.

Lemma cse_subst_unfold : forall e,
  cse_subst F same v e =
  if same e then v else
  match e with
  | Neg x => Neg (cse_subst F same v x)
  | Fn f x => Fn f (cse_subst F same v x)
  | Op o x y => Op o (cse_subst F same v x) (cse_subst F same v y)
  | _ => e
  end.
Proof. destruct e; reflexivity. Qed.

Lemma cse_subst_eval : forall en,
  (forall e, same e = true -> eval en e = eval en v) ->
  forall e, eval en (cse_subst F same v e) = eval en e.
Proof.
  intros en Hs e. induction e; rewrite cse_subst_unfold;
    destruct (same _) eqn:E; try (symmetry; apply Hs; assumption); simpl; try reflexivity;
    congruence.
Qed.

End CSE.

Section StructKey.
Variable feqb : F -> F -> bool.
Hypothesis feqb_eq : forall a b, feqb a b = true -> a = b.
Notation expr_eqb := (expr_eqb F feqb).

Lemma list_eqb_eq : forall a b, list_eqb a b = true -> a = b.
Proof.
  induction a; destruct b; simpl; intros H; try discriminate; auto.
  apply andb_true_iff in H. destruct H as [H1 H2]. apply Nat.eqb_eq in H1. subst. f_equal. auto.
Qed.

Lemma onat_eqb_eq : forall a b, onat_eqb a b = true -> a = b.
Proof.
  intros [x|] [y|] H; simpl in H; try discriminate; [|reflexivity].
  apply Nat.eqb_eq in H. subst. reflexivity.
Qed.

Lemma oper_eqb_eq : forall a b, oper_eqb a b = true -> a = b.
Proof. intros [] [] H; simpl in H; try discriminate; reflexivity. Qed.

Lemma expr_eqb_eq : forall a b, expr_eqb a b = true -> a = b.
Proof.
  induction a; destruct b; simpl; intros H; try discriminate; try reflexivity.
  - f_equal. auto.
  - apply andb_true_iff in H as [H Hp]. apply andb_true_iff in H as [H HD]. apply andb_true_iff in H as [Hn Hc].
    f_equal; [apply String.eqb_eq, Hn | apply onat_eqb_eq, Hc | apply list_eqb_eq, HD | apply eqb_prop, Hp].
  - apply andb_true_iff in H as [H Hp]. apply andb_true_iff in H as [H HD]. apply andb_true_iff in H as [Hn HI].
    f_equal; [apply String.eqb_eq, Hn | apply list_eqb_eq, HI | apply list_eqb_eq, HD | apply eqb_prop, Hp].
  - f_equal. apply Nat.eqb_eq, H.
  - f_equal. auto.
  - apply andb_true_iff in H as [Hf Hx]. f_equal; [apply String.eqb_eq, Hf | auto].
  - apply andb_true_iff in H as [H Hy]. apply andb_true_iff in H as [Ho Hx].
    f_equal; [apply oper_eqb_eq, Ho | auto | auto].
Qed.

End StructKey.

(* replace_trivial_vars (vform.py:699-703): an environment respects a definition when the
   variable's entries have the values of the defining expressions *)
Definition respects (en : env) (name : string) (t : texpr F) : Prop :=
  forall Ix e, tat F t Ix = Some e -> forall D p, e_vr en name Ix D p = eval en e.

End Proofs.
