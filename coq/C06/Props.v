(* C06 -- property theorems only, Print Assumptions of each at the end (outside the section); the lemmas
   they rest on are in the other files.  All are stated for an arbitrary field (F with a field_theory),
   every environment (geometry jets, field values, parameters, basis function jets, uninterpreted
   builtin functions) and every expression tree. *)
From Coq Require Import List String Bool Arith Lia Field.
From Verif.C06 Require Import Model Proofs Sched Ops Phys PhysST Compose.
Import ListNotations.

Section Statements.
Variable F : Type.
Variables (f0 f1 : F) (fadd fmul fsub fdiv : F -> F -> F) (fopp finv : F -> F).
Hypothesis Fth : field_theory f0 f1 fadd fmul fsub fopp fdiv finv (@eq F).
Add Field Ffield8 : Fth.
Notation eval := (eval F fadd fmul fsub fdiv fopp).

(* constant folding, one node: whenever the rule chain of ScalarOperExpr.fold_constants
   returns (does not raise ZeroDivisionError) the value is unchanged, provided the
   constants are exact (near c v -> c = v: no constant lies strictly inside the 1e-15 window
   of 0, 1, -1). *)
Theorem fold1_sound : forall (near : F -> F -> bool) (fzerob : F -> bool),
  (forall c v, near c v = true -> c = v) ->
  forall en e e',
  fold1 F f0 f1 fadd fmul fsub fdiv fopp near fzerob e = Some e' -> eval en e' = eval en e.
Proof. exact (fold1_eval F f0 f1 fadd fmul fsub fdiv fopp finv Fth). Qed.

(* ... and the whole depth-first pass. *)
Theorem fold_constants_sound : forall (near : F -> F -> bool) (fzerob : F -> bool),
  (forall c v, near c v = true -> c = v) ->
  forall en e e',
  fold_all F f0 f1 fadd fmul fsub fdiv fopp near fzerob e = Some e' -> eval en e' = eval en e.
Proof. exact (fold_all_eval F f0 f1 fadd fmul fsub fdiv fopp finv Fth). Qed.

(* symbolic differentiation: whenever Dx returns an expression, (value, value of the
   result) is the evaluation of the tree in the dual numbers F[eps]/(eps^2), where the
   leaves carry (jet, shifted jet), constants and parameters (c, 0). *)
Theorem dx_sound : forall kind k par en e e',
  dx F f0 kind k 1 par e = Ok e' ->
  deval F f0 fadd fmul fsub fdiv fopp kind k par en e = (eval en e, eval en e').
Proof.
  intros kind k par en e. induction e as [c|n c D p|n Ix D p|a| | |x IHx|f x IHx|o x IHx y IHy];
    intros e' H; simpl in H; try discriminate.
  - inversion H; subst. reflexivity.
  - destruct (negb (Bool.eqb par (negb p)) && negb (sumD D =? 0))%bool; inversion H; subst. reflexivity.
  - destruct (negb (Bool.eqb par p || (sumD D =? 0)))%bool; [discriminate|].
    simpl. destruct (kind n); inversion H; subst; reflexivity.
  - destruct o; simpl in H;
      destruct (dx F f0 kind k 1 par x) as [x'| |] eqn:Ex; simpl in H; try discriminate;
      destruct (dx F f0 kind k 1 par y) as [y'| |] eqn:Ey; simpl in H; try discriminate;
      inversion H; subst; simpl;
      rewrite (IHx x' eq_refl), (IHy y' eq_refl); reflexivity.
Qed.

(* the dual-number operations used above are the ring F[eps]/(eps^2): product rule =
   multiplication, and the quotient rule is its inverse wherever the divisor is non-zero *)
Theorem quotient_rule_is_inverse_of_product_rule : forall a b : dual F,
  fst b <> f0 ->
  dopf F fadd fmul fsub fdiv OMul (dopf F fadd fmul fsub fdiv ODiv a b) b = a.
Proof. intros [a a'] [b b'] Hb. simpl in *. f_equal; field; auto. Qed.

Theorem product_rule_ring_laws : forall a b c : dual F,
  dopf F fadd fmul fsub fdiv OMul a b = dopf F fadd fmul fsub fdiv OMul b a /\
  dopf F fadd fmul fsub fdiv OMul (dopf F fadd fmul fsub fdiv OMul a b) c =
    dopf F fadd fmul fsub fdiv OMul a (dopf F fadd fmul fsub fdiv OMul b c) /\
  dopf F fadd fmul fsub fdiv OMul a (dopf F fadd fmul fsub fdiv OAdd b c) =
    dopf F fadd fmul fsub fdiv OAdd (dopf F fadd fmul fsub fdiv OMul a b) (dopf F fadd fmul fsub fdiv OMul a c).
Proof. intros [a a'] [b b'] [c c']. simpl. repeat split; f_equal; ring. Qed.

(* common-subexpression extraction: IF equal keys imply equal values (C13's
   same_key_same_code), replacing every node whose key equals the chosen one by the new
   variable (defined as the representative) preserves every value. *)
Theorem cse_sound : forall (same : expr F -> bool) (v : expr F) (K : Type) (key : expr F -> K) (rep : expr F) en,
  (forall a b, key a = key b -> eval en a = eval en b) ->
  (forall e, same e = true -> key e = key rep) ->
  eval en v = eval en rep ->
  forall e, eval en (cse_subst F same v e) = eval en e.
Proof.
  intros same v K key rep en Hk Hs Hv. apply cse_subst_eval.
  intros e0 H0. rewrite Hv. apply Hk, Hs, H0.
Qed.

(* with a key that contains every attribute (the repaired hash_key: the key determines the
   tree) only identical expressions are merged, and the extraction is sound unconditionally *)
Theorem cse_merges_only_identical : forall (feqb : F -> F -> bool),
  (forall a b, feqb a b = true -> a = b) ->
  forall rep e, expr_eqb F feqb e rep = true -> e = rep.
Proof. intros feqb Hf rep e. exact (expr_eqb_eq F feqb Hf e rep). Qed.

Theorem cse_structural_key_sound : forall (feqb : F -> F -> bool),
  (forall a b, feqb a b = true -> a = b) ->
  forall rep v en, eval en v = eval en rep ->
  forall e, eval en (cse_subst F (fun x => expr_eqb F feqb x rep) v e) = eval en e.
Proof.
  intros feqb Hf rep v en Hv. apply cse_subst_eval.
  intros e0 H0. apply (expr_eqb_eq F feqb Hf) in H0. subst. auto.
Qed.

(* nodes not selected by the key test are left alone *)
Theorem cse_touches_only_selected : forall (same : expr F -> bool) v,
  (forall e, same e = false) -> forall e, cse_subst F same v e = e.
Proof. intros same v Hn e. induction e; rewrite cse_subst_unfold, Hn; simpl; congruence. Qed.

(* The key of the code WITHOUT fixes/C13-builtinfunc-hash-key.patch does not contain the
   function name (BuiltinFuncExpr had no hash_key): the hypothesis of cse_sound is false
   for it -- sin(0) and cos(0) have the same key and different values. *)
Theorem cse_funcname_blind_key_refuted :
  exists (a b : expr F) (en : env F), erase_fn F a = erase_fn F b /\ eval en a <> eval en b.
Proof.
  exists (Fn "sin" (Const f0)), (Fn "cos" (Const f0)),
         (mkEnv (fun _ _ _ _ => f0) (fun _ _ _ _ => f0) (fun _ => f0) f0 f0
                (fun f _ => if String.eqb f "sin" then f0 else f1)).
  split; [reflexivity|]. simpl. intro H. exact (F_1_neq_0 Fth (eq_sym H)).
Qed.

(* replace_trivial_vars: a reference to a variable whose defining entry is itself a
   reference has the value of that entry, in every environment that respects the definition *)
Theorem trivial_var_elim_sound : forall en name t Ix D p inner,
  respects F fadd fmul fsub fdiv fopp en name t -> tat F t Ix = Some inner ->
  eval en inner = eval en (VR name Ix D p).
Proof. intros en name t Ix D p inner H Ht. symmetry. exact (H Ix inner Ht D p). Qed.

(* the value of an expression depends only on the variables it mentions *)
Theorem eval_depends_only_on_mentioned_vars : forall (en1 en2 : env F) e,
  e_pd en1 = e_pd en2 -> e_gw en1 = e_gw en2 -> e_dx en1 = e_dx en2 -> e_ds en1 = e_ds en2 ->
  e_fn en1 = e_fn en2 ->
  (forall n, In n (vrefs F e) -> e_vr en1 n = e_vr en2 n) ->
  eval en1 e = eval en2 e.
Proof.
  intros en1 en2 e Hpd Hgw Hdx Hds Hfn Hv. apply eval_ext_pw; auto.
  intros n Hn Ix D p. rewrite (Hv n Hn). reflexivity.
Qed.

(* one step of the emitted order (the full statement is schedule_wf_sound below) *)
Theorem schedule_wf_partial : forall (en : env F) name e D p,
  mem name (vrefs F e) = false ->
  let en' := bind F f0 en name [] [eval en e] in
  e_vr en' name [] D p = eval en' e.
Proof.
  intros en name e D p Hm.
  exact (bind_defines F f0 fadd fmul fsub fdiv fopp en name [] [e] [] e eq_refl (mem_false_notin _ _ Hm) D p).
Qed.

Theorem schedule_later_bindings_do_not_interfere : forall (en : env F) name name' shape vals Ix D p,
  String.eqb name name' = false ->
  e_vr (bind F f0 en name' shape vals) name Ix D p = e_vr en name Ix D p.
Proof. intros. simpl. rewrite H. reflexivity. Qed.

(* A schedule accepted by the checker evaluates every variable after its dependencies: in the
   environment obtained by evaluating the definitions in that order, every variable has -- at
   every index inside its shape -- the value of its defining entry. *)
Theorem schedule_wf_sound : forall ds known (en : env F),
  wf_sched F known ds = true ->
  forall name t, In (name, t) ds ->
  forall Ix, in_shape (tshape F t) Ix ->
  exists e, tat F t Ix = Some e /\
            forall D p, e_vr (eval_defs F f0 fadd fmul fsub fdiv fopp en ds) name Ix D p =
                        eval (eval_defs F f0 fadd fmul fsub fdiv fopp en ds) e.
Proof. exact (wf_sched_defines F f0 fadd fmul fsub fdiv fopp). Qed.

(* ... and that environment is THE denotation: every environment that agrees on the sourced
   variables and satisfies the binding equations agrees with it on every variable. *)
Theorem schedule_computes_the_denotation : forall ds known (en en' : env F),
  wf_sched F known ds = true ->
  e_pd en' = e_pd en -> e_gw en' = e_gw en -> e_dx en' = e_dx en -> e_ds en' = e_ds en -> e_fn en' = e_fn en ->
  (forall n, In n known -> forall Ix D p, e_vr en' n Ix D p = e_vr en n Ix D p) ->
  solves F f0 fadd fmul fsub fdiv fopp en' ds ->
  forall n, In n (known ++ map fst ds) ->
  forall Ix D p, e_vr en' n Ix D p = e_vr (eval_defs F f0 fadd fmul fsub fdiv fopp en ds) n Ix D p.
Proof. exact (wf_sched_unique F f0 fadd fmul fsub fdiv fopp). Qed.

(* reduce(operator.add, terms), as the .at methods, inner and det build their sums: the left-nested sum *)
Theorem reduce_add_sound : forall (en : env F) l e,
  reduce_add F l = Some e ->
  exists x r, l = x :: r /\ eval en e = fold_left fadd (map (eval en) r) (eval en x).
Proof.
  intros en l e H. destruct l as [|x r]; simpl in H; [discriminate|].
  inversion H; subst. exists x, r. split; [reflexivity|]. apply fold_add_eval.
Qed.

(* det by Laplace expansion = the Leibniz formula, n = 2, 3 *)
Theorem det_spec_2 : forall (en : env F) a00 a01 a10 a11,
  exists d, e_det F f1 fopp 3 [[a00; a01]; [a10; a11]] = Some d /\
  eval en d = fsub (fmul (eval en a00) (eval en a11)) (fmul (eval en a01) (eval en a10)).
Proof. intros. eexists. split; [reflexivity|]. simpl. ring. Qed.

Theorem det_spec_3 : forall (en : env F) a00 a01 a02 a10 a11 a12 a20 a21 a22,
  exists d, e_det F f1 fopp 4 [[a00; a01; a02]; [a10; a11; a12]; [a20; a21; a22]] = Some d /\
  eval en d =
    fsub (fsub (fsub (fadd (fadd (fmul (fmul (eval en a00) (eval en a11)) (eval en a22))
                                 (fmul (fmul (eval en a01) (eval en a12)) (eval en a20)))
                           (fmul (fmul (eval en a02) (eval en a10)) (eval en a21)))
                     (fmul (fmul (eval en a02) (eval en a11)) (eval en a20)))
               (fmul (fmul (eval en a01) (eval en a10)) (eval en a22)))
         (fmul (fmul (eval en a00) (eval en a12)) (eval en a21)).
Proof. intros. eexists. split; [reflexivity|]. simpl. ring. Qed.

(* inv: inv(A) A = A inv(A) = I wherever det A <> 0, n = 1, 2, 3 *)
Theorem inv_spec_1 : forall (en : env F) a, let A := [[a]] in
  detv F f0 f1 fadd fmul fsub fdiv fopp en A <> f0 ->
  forall i j, i < 1 -> j < 1 ->
  fsum F f0 fadd 1 (fun k => fmul (ientry F f0 f1 fadd fmul fsub fdiv fopp en A i k) (entry F f0 fadd fmul fsub fdiv fopp en A k j)) = delta F f0 f1 i j /\
  fsum F f0 fadd 1 (fun k => fmul (entry F f0 fadd fmul fsub fdiv fopp en A i k) (ientry F f0 f1 fadd fmul fsub fdiv fopp en A k j)) = delta F f0 f1 i j.
Proof.
  intros en a A.
  exact (inv_spec F f0 f1 fadd fmul fsub fdiv fopp finv Fth 1 (fun i j => nth j (nth i A []) (Const f0)) en ltac:(lia)).
Qed.

Theorem inv_spec_2 : forall (en : env F) a00 a01 a10 a11, let A := [[a00; a01]; [a10; a11]] in
  detv F f0 f1 fadd fmul fsub fdiv fopp en A <> f0 ->
  forall i j, i < 2 -> j < 2 ->
  fsum F f0 fadd 2 (fun k => fmul (ientry F f0 f1 fadd fmul fsub fdiv fopp en A i k) (entry F f0 fadd fmul fsub fdiv fopp en A k j)) = delta F f0 f1 i j /\
  fsum F f0 fadd 2 (fun k => fmul (entry F f0 fadd fmul fsub fdiv fopp en A i k) (ientry F f0 f1 fadd fmul fsub fdiv fopp en A k j)) = delta F f0 f1 i j.
Proof.
  intros en a00 a01 a10 a11 A.
  exact (inv_spec F f0 f1 fadd fmul fsub fdiv fopp finv Fth 2 (fun i j => nth j (nth i A []) (Const f0)) en ltac:(lia)).
Qed.

Theorem inv_spec_3 : forall (en : env F) a00 a01 a02 a10 a11 a12 a20 a21 a22,
  let A := [[a00; a01; a02]; [a10; a11; a12]; [a20; a21; a22]] in
  detv F f0 f1 fadd fmul fsub fdiv fopp en A <> f0 ->
  forall i j, i < 3 -> j < 3 ->
  fsum F f0 fadd 3 (fun k => fmul (ientry F f0 f1 fadd fmul fsub fdiv fopp en A i k) (entry F f0 fadd fmul fsub fdiv fopp en A k j)) = delta F f0 f1 i j /\
  fsum F f0 fadd 3 (fun k => fmul (entry F f0 fadd fmul fsub fdiv fopp en A i k) (ientry F f0 f1 fadd fmul fsub fdiv fopp en A k j)) = delta F f0 f1 i j.
Proof.
  intros en a00 a01 a02 a10 a11 a12 a20 a21 a22 A.
  exact (inv_spec F f0 f1 fadd fmul fsub fdiv fopp finv Fth 3 (fun i j => nth j (nth i A []) (Const f0)) en ltac:(lia)).
Qed.

Theorem cross_spec : forall (en : env F) x0 x1 x2 y0 y1 y2,
  let t := TCross (TLV [x0; x1; x2]) (TLV [y0; y1; y2]) in
  exists c0 c1 c2, tat F t [0] = Some c0 /\ tat F t [1] = Some c1 /\ tat F t [2] = Some c2 /\
  eval en c0 = fsub (fmul (eval en x1) (eval en y2)) (fmul (eval en x2) (eval en y1)) /\
  eval en c1 = fsub (fmul (eval en x2) (eval en y0)) (fmul (eval en x0) (eval en y2)) /\
  eval en c2 = fsub (fmul (eval en x0) (eval en y1)) (fmul (eval en x1) (eval en y0)).
Proof. intros. do 3 eexists. repeat split; reflexivity. Qed.

(* substitute_vec_components: substituting one vector basis function is evaluating with u = phi e_keep; entry (i, j) of the component
   matrix is the form with u = phi e_j, v = psi e_i *)
Theorem vec_component_subst_sound_arity1 : forall (en : env F) name keep e,
  eval en (subst_bf F f0 name keep e) = eval (env_unit F f0 en name keep) e.
Proof.
  intros en name keep e. induction e; simpl; try reflexivity.
  - destruct comp as [c|]; [|reflexivity].
    destruct (String.eqb name0 name); [|reflexivity].
    destruct (c =? keep); reflexivity.
  - rewrite IHe. reflexivity.
  - rewrite IHe. reflexivity.
  - rewrite IHe1, IHe2. reflexivity.
Qed.

Theorem vec_component_subst_sound : forall (en : env F) bu bv i j e,
  eval en (subst_vec2 F f0 bu bv i j e) =
  eval (env_unit F f0 (env_unit F f0 en bu j) bv i) e.
Proof. intros. unfold subst_vec2. rewrite !vec_component_subst_sound_arity1. reflexivity. Qed.

(* replace_physical_derivs + _geo_hess_trf of the model.  For every geometry 2-jet (J, HG) with
   det J <> 0 and all physical jets (gu, Hu) of the function: in the environment where the parametric jets are the composition of the physical
   jets with the geometry 2-jet, JacInv is the model's inv of J and the derivatives of the
   geometry are J and HG, the expression emitted for the physical derivative (with its helper
   variables evaluated) is the physical jet entry.  Dimensions 1, 2, 3. *)
Theorem physical_grad_sound_1 : forall J HG gu Hu u0,
  detJ F f0 f1 fadd fmul fsub fdiv fopp J 1 <> f0 -> forall k, k < 1 -> grad_ok F f0 f1 fadd fmul fsub fdiv fopp J HG gu Hu u0 1 k.
Proof. intros J HG gu Hu u0. apply (physical_grad F f0 f1 fadd fmul fsub fdiv fopp finv Fth); lia. Qed.
Theorem physical_grad_sound_2 : forall J HG gu Hu u0,
  detJ F f0 f1 fadd fmul fsub fdiv fopp J 2 <> f0 -> forall k, k < 2 -> grad_ok F f0 f1 fadd fmul fsub fdiv fopp J HG gu Hu u0 2 k.
Proof. intros J HG gu Hu u0. apply (physical_grad F f0 f1 fadd fmul fsub fdiv fopp finv Fth); lia. Qed.
Theorem physical_grad_sound_3 : forall J HG gu Hu u0,
  detJ F f0 f1 fadd fmul fsub fdiv fopp J 3 <> f0 -> forall k, k < 3 -> grad_ok F f0 f1 fadd fmul fsub fdiv fopp J HG gu Hu u0 3 k.
Proof. intros J HG gu Hu u0. apply (physical_grad F f0 f1 fadd fmul fsub fdiv fopp finv Fth); lia. Qed.
Theorem physical_hess_sound_1 : forall J HG gu Hu u0,
  detJ F f0 f1 fadd fmul fsub fdiv fopp J 1 <> f0 -> forall i j, i < 1 -> j < 1 -> hess_ok F f0 f1 fadd fmul fsub fdiv fopp J HG gu Hu u0 1 i j.
Proof. intros J HG gu Hu u0. apply (physical_hess F f0 f1 fadd fmul fsub fdiv fopp finv Fth); lia. Qed.
Theorem physical_hess_sound_2 : forall J HG gu Hu u0,
  detJ F f0 f1 fadd fmul fsub fdiv fopp J 2 <> f0 -> forall i j, i < 2 -> j < 2 -> hess_ok F f0 f1 fadd fmul fsub fdiv fopp J HG gu Hu u0 2 i j.
Proof. intros J HG gu Hu u0. apply (physical_hess F f0 f1 fadd fmul fsub fdiv fopp finv Fth); lia. Qed.
Theorem physical_hess_sound_3 : forall J HG gu Hu u0,
  detJ F f0 f1 fadd fmul fsub fdiv fopp J 3 <> f0 -> forall i j, i < 3 -> j < 3 -> hess_ok F f0 f1 fadd fmul fsub fdiv fopp J HG gu Hu u0 3 i j.
Proof. intros J HG gu Hu u0. apply (physical_hess F f0 f1 fadd fmul fsub fdiv fopp finv Fth); lia. Qed.

(* The space-time split: on a cylinder G(x,t) = (G~(x), t) (Jacobian block diag (Js, 1)), for one
   space derivative along axis k and ANY number n of time derivatives, the emitted expression has
   the value of the physical derivative d_x_k d_t^n u~, and the helper variables are exactly the
   parametric jets with n time derivatives (dims 2 and 3 = 1 and 2 space dimensions). *)
Theorem spacetime_split_sound_2 : forall Js P name comp n en,
  detJc F f0 f1 fadd fmul fsub fdiv fopp Js 2 <> f0 ->
  st_env_ok F f0 f1 fadd fmul fsub fdiv fopp Js P 2 name comp n en ->
  st_ok F f0 fadd fmul fsub fdiv fopp P 2 name comp n 0 en.
Proof.
  intros Js P name comp n en Hd He.
  apply (spacetime_split F f0 f1 fadd fmul fsub fdiv fopp finv Fth Js P 2); auto.
Qed.
Theorem spacetime_split_sound_3 : forall Js P name comp n en,
  detJc F f0 f1 fadd fmul fsub fdiv fopp Js 3 <> f0 ->
  st_env_ok F f0 f1 fadd fmul fsub fdiv fopp Js P 3 name comp n en ->
  forall k, k < 2 -> st_ok F f0 fadd fmul fsub fdiv fopp P 3 name comp n k en.
Proof.
  intros Js P name comp n en Hd He.
  apply (spacetime_split F f0 f1 fadd fmul fsub fdiv fopp finv Fth Js P 3); auto.
Qed.

(* VForm.transform (mapexprs on a tree): a node function that preserves the value of every node preserves the
   value of the tree; fold_constants is that traversal of its one-node rule chain; passes compose *)
Theorem transform_sound : forall en f,
  sound_in F fadd fmul fsub fdiv fopp en f -> sound_in F fadd fmul fsub fdiv fopp en (transform F f).
Proof. exact (transform_sound_in F fadd fmul fsub fdiv fopp). Qed.

Theorem fold_constants_is_a_transform : forall near fzerob e,
  fold_all F f0 f1 fadd fmul fsub fdiv fopp near fzerob e =
  transform F (fold1 F f0 f1 fadd fmul fsub fdiv fopp near fzerob) e.
Proof.
  intros near fzerob e. induction e; try reflexivity; cbn [Model.fold_all Model.transform].
  - rewrite <- IHe. destruct (fold_all _ _ _ _ _ _ _ _ _ _ e); reflexivity.
  - rewrite <- IHe. destruct (fold_all _ _ _ _ _ _ _ _ _ _ e); reflexivity.
  - rewrite <- IHe1, <- IHe2. reflexivity.
Qed.

Theorem passes_compose : forall en fs, Forall (sound_in F fadd fmul fsub fdiv fopp en) fs ->
  forall e e', run_passes F fs e = Some e' -> eval en e' = eval en e.
Proof.
  intros en fs Hfs. induction Hfs as [|f r Hf Hr IH]; intros e e' H; simpl in H.
  - inversion H. reflexivity.
  - destruct (transform F f e) as [e1|] eqn:E; [|discriminate].
    rewrite (IH e1 e' H). exact (transform_sound en f Hf e e1 E).
Qed.

(* finalize on an integrand tree: replace_physical_derivs, then constant folding, then any further
   value-preserving node functions (CSE replacement: cse_sound; trivial variables:
   trivial_var_elim_sound), in every environment with exact constants in which each emitted
   replacement has the value of the physical jet it replaces (physical_*_sound, spacetime_split_sound). *)
Theorem finalize_sound_partial : forall near fzerob st d en rest,
  (forall c v, near c v = true -> c = v) ->
  (forall n c D p e' ds, rpd_bf F f0 st d n c D p = RNew e' ds -> eval en e' = e_pd en n c D p) ->
  Forall (sound_in F fadd fmul fsub fdiv fopp en) rest ->
  forall e e',
  run_passes F (rpd_node F f0 st d :: fold1 F f0 f1 fadd fmul fsub fdiv fopp near fzerob :: rest) e = Some e' ->
  eval en e' = eval en e.
Proof.
  intros near fzerob st d en rest Hn Hj Hrest. apply passes_compose.
  constructor; [apply rpd_node_sound_in; assumption|].
  constructor; [exact (fold1_sound near fzerob Hn en)|]. assumption.
Qed.

(* NOT PROVED: finalize_sound in full -- "for every form, VForm.finalize leaves the value of every integrand
   of VForm.exprs unchanged" as ONE theorem about a model of the whole of finalize.
   Proved pieces (Props.v and Props2.v):
   - trees: every pass as a value-preserving node function + the traversal (transform_sound, passes_compose,
     finalize_sound_partial);
   - forests (variable references = shared nodes): transform_forest_sound, finalize_forest_sound_partial (the
     environment computed by the emitted order is unchanged when every definition is rewritten once),
     add_helper_defs_sound (helper definitions with fresh names), schedule_wf_sound / schedule_computes_the_denotation;
   - node functions: fold_constants (fold1_sound), replace_physical_derivs on basis functions (physical_grad/hess_sound_d,
     spacetime_split_sound_2/3) and on input fields (field_physical_grad/hess_sound_d), insert_input_field_derivs
     (insert_input_field_derivs_sound), CSE replacement (cse_sound), trivial variables, vector components
     (vec_component_subst_sound), operator expansions (det_spec_n, inv_spec_n, cross_spec, reduce_add_sound),
     measure and normal (volume_weight_spec_2, normal_21/32_spec, surface_weight_spec_32, surface_normal_21/32_spec).
   Still missing for the single end-to-end theorem:
   - the instantiation of finalize_forest_sound_partial with the CONCRETE list of passes of VForm.finalize: the
     predicate P (jets-consistent environments, stable under binding) has to be shown for rpd_node / rpd_vr /
     iifd simultaneously, and the passes that ADD definitions (measure expansion, replace_physical_derivs,
     para_derivs_to_vars, CSE) have to be modelled as forest -> forest functions, not only as node functions
     plus add_helper_defs_sound;
   - mapexprs rewrites a variable's ROOT once per reference (the model rewrites each definition once): equal for
     idempotent node functions only; not proved;
   - the selection part of extract_common_expressions (hash counting, complexity, choice of the biggest) -- only the
     replacement step is modelled;
   - physical Hessian of input fields in dimension 3 as a property theorem (InputField.field_hess covers the
     dimension), physical derivatives of input fields in space-time forms (the code raises
     AttributeError there), dimension > 3, order > 2 (the code raises);
   - _to_literal_vec_mat / tensor operators for sizes > 3; sym_index_to_seq bijectivity for n > 3;
   - |det J| and sqrt themselves (uninterpreted): that abs(det J) is the volume element and sqrt(x)^2 = x.
   All of these remain covered by the exact oracle on every pass of every generated form, by the rule-level ties
   (fold / dx / lit / rpd / rpdv / iifd / vec / opsm) and by the regenerated obligations (coq/gen/.../C06_ops_NAME.v). *)

End Statements.

Print Assumptions fold1_sound.
Print Assumptions fold_constants_sound.
Print Assumptions dx_sound.
Print Assumptions quotient_rule_is_inverse_of_product_rule.
Print Assumptions product_rule_ring_laws.
Print Assumptions cse_sound.
Print Assumptions cse_merges_only_identical.
Print Assumptions cse_structural_key_sound.
Print Assumptions cse_touches_only_selected.
Print Assumptions cse_funcname_blind_key_refuted.
Print Assumptions trivial_var_elim_sound.
Print Assumptions eval_depends_only_on_mentioned_vars.
Print Assumptions schedule_wf_partial.
Print Assumptions schedule_later_bindings_do_not_interfere.
Print Assumptions schedule_wf_sound.
Print Assumptions schedule_computes_the_denotation.
Print Assumptions reduce_add_sound.
Print Assumptions det_spec_2.
Print Assumptions det_spec_3.
Print Assumptions inv_spec_1.
Print Assumptions inv_spec_2.
Print Assumptions inv_spec_3.
Print Assumptions cross_spec.
Print Assumptions vec_component_subst_sound.
Print Assumptions vec_component_subst_sound_arity1.
Print Assumptions physical_grad_sound_1.
Print Assumptions physical_grad_sound_2.
Print Assumptions physical_grad_sound_3.
Print Assumptions physical_hess_sound_1.
Print Assumptions physical_hess_sound_2.
Print Assumptions physical_hess_sound_3.
Print Assumptions spacetime_split_sound_2.
Print Assumptions spacetime_split_sound_3.
Print Assumptions transform_sound.
Print Assumptions fold_constants_is_a_transform.
Print Assumptions passes_compose.
Print Assumptions finalize_sound_partial.
