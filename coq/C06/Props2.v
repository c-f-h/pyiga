(* C06 -- property theorems, part 2 (forests, input fields, measure and normal).  Same conventions as
   Props.v; all are stated for an arbitrary field, every environment, every expression tree / forest. *)
From Coq Require Import List String Bool Arith Lia Field.
From Verif.C06 Require Import Model Sched Ops Phys Forest InputField Measure.
Import ListNotations.

Section Statements2.
Variable F : Type.
Variables (f0 f1 : F) (fadd fmul fsub fdiv : F -> F -> F) (fopp finv : F -> F).
Hypothesis Fth : field_theory f0 f1 fadd fmul fsub fopp fdiv finv (@eq F).
Notation eval := (eval F fadd fmul fsub fdiv fopp).
Notation eval_defs := (eval_defs F f0 fadd fmul fsub fdiv fopp).
Notation sound_in := (Forest.sound_in F fadd fmul fsub fdiv fopp).
Infix "+" := fadd. Infix "*" := fmul. Infix "-" := fsub.
Add Field Ffield9 : Fth.

(* Forests are expressions with variable references (a DAG through names).
   Applying a node function to every definition (each definition once, as mapexprs does with its `seen`
   set) leaves the environment computed by the emitted order UNCHANGED -- hence the value of every
   variable and of every integrand -- provided the node function preserves values in every environment
   satisfying P and P is stable under binding a variable. *)
Theorem transform_forest_sound : forall (P : env F -> Prop) f,
  (forall en name shape vals, P en -> P (bind F f0 en name shape vals)) ->
  (forall en, P en -> sound_in en f) ->
  forall ds ds' en, P en -> transform_forest F f ds = Some ds' ->
  eval_defs en ds' = eval_defs en ds.
Proof. exact (transform_forest_eval_defs F f0 fadd fmul fsub fdiv fopp). Qed.

(* ... and so does any sequence of such passes: finalize on a forest *)
Theorem finalize_forest_sound_partial : forall (P : env F -> Prop) fs,
  (forall en name shape vals, P en -> P (bind F f0 en name shape vals)) ->
  Forall (fun f => forall en, P en -> sound_in en f) fs ->
  forall ds ds' en, P en -> run_forest F fs ds = Some ds' ->
  eval_defs en ds' = eval_defs en ds.
Proof.
  intros P fs Hbind Hfs. induction Hfs as [|f r Hf Hr IH]; intros ds ds' en HP H; simpl in H.
  - inversion H. reflexivity.
  - destruct (transform_forest F f ds) as [d1|] eqn:E; [|discriminate].
    rewrite (IH d1 ds' en HP H). exact (transform_forest_sound P f Hbind Hf ds d1 en HP E).
Qed.

(* Adding the definitions of helper variables with fresh names (the _geo_hess_trf_* and _d<u>_<D>
   variables returned by rpd_bf) in front of a forest does not change the value of any other variable. *)
Theorem add_helper_defs_sound : forall (extra ds : list (def F)) (en : env F),
  mentions_none F (map fst extra) ds ->
  forall n, ~ In n (map fst extra) ->
  forall Ix D p, e_vr (eval_defs en (extra ++ ds)) n Ix D p = e_vr (eval_defs en ds) n Ix D p.
Proof.
  intros extra ds en Hm n Hn Ix D p. rewrite eval_defs_app.
  destruct (eval_defs_agree F f0 fadd fmul fsub fdiv fopp (map fst extra) ds _ _
              (eval_defs_frame F f0 fadd fmul fsub fdiv fopp extra en) Hm) as [_ [_ [_ [_ [_ H6]]]]].
  apply H6. assumption.
Qed.

(* replace_physical_derivs on a reference to a parametric input field (rpd_vr: the formulas of the
   basis-function case with VarRefExpr leaves): in the environment where the parametric derivatives of the
   field are the composition of its physical jets (gu, Hu) with the geometry 2-jet, the emitted
   expression is the physical jet entry.  Gradient dims 1-3, Hessian dims 1-2. *)
Theorem field_physical_grad_sound_1 : forall J HG gu Hu u0,
  detJ F f0 f1 fadd fmul fsub fdiv fopp J 1 <> f0 -> forall k, k < 1 -> fgrad_ok F f0 f1 fadd fmul fsub fdiv fopp J HG gu Hu u0 1 k.
Proof. intros J HG gu Hu u0. apply (field_grad F f0 f1 fadd fmul fsub fdiv fopp finv Fth); lia. Qed.
Theorem field_physical_grad_sound_2 : forall J HG gu Hu u0,
  detJ F f0 f1 fadd fmul fsub fdiv fopp J 2 <> f0 -> forall k, k < 2 -> fgrad_ok F f0 f1 fadd fmul fsub fdiv fopp J HG gu Hu u0 2 k.
Proof. intros J HG gu Hu u0. apply (field_grad F f0 f1 fadd fmul fsub fdiv fopp finv Fth); lia. Qed.
Theorem field_physical_grad_sound_3 : forall J HG gu Hu u0,
  detJ F f0 f1 fadd fmul fsub fdiv fopp J 3 <> f0 -> forall k, k < 3 -> fgrad_ok F f0 f1 fadd fmul fsub fdiv fopp J HG gu Hu u0 3 k.
Proof. intros J HG gu Hu u0. apply (field_grad F f0 f1 fadd fmul fsub fdiv fopp finv Fth); lia. Qed.
Theorem field_physical_hess_sound_1 : forall J HG gu Hu u0,
  detJ F f0 f1 fadd fmul fsub fdiv fopp J 1 <> f0 -> forall i j, i < 1 -> j < 1 -> fhess_ok F f0 f1 fadd fmul fsub fdiv fopp J HG gu Hu u0 1 i j.
Proof. intros J HG gu Hu u0. apply (field_hess F f0 f1 fadd fmul fsub fdiv fopp finv Fth); lia. Qed.
Theorem field_physical_hess_sound_2 : forall J HG gu Hu u0,
  detJ F f0 f1 fadd fmul fsub fdiv fopp J 2 <> f0 -> forall i j, i < 2 -> j < 2 -> fhess_ok F f0 f1 fadd fmul fsub fdiv fopp J HG gu Hu u0 2 i j.
Proof. intros J HG gu Hu u0. apply (field_hess F f0 f1 fadd fmul fsub fdiv fopp finv Fth); lia. Qed.

(* insert_input_field_derivs: if the arrays <f>_grad_a / <f>_hess_a hold the jets of the field (the
   Hessian in symmetric storage), the array entry that replaces a first / second derivative has the value
   of that derivative (dims 1-3). *)
Theorem insert_input_field_derivs_sound : forall d, 1 <= d <= 3 -> forall base Ix par (en : env F),
  arrays_hold_jets F d base Ix par en ->
  (forall k, k < d -> iifd_ok F fadd fmul fsub fdiv fopp d base Ix (unitD d k) par en) /\
  (forall i j, i <= j -> j < d -> iifd_ok F fadd fmul fsub fdiv fopp d base Ix (bump (unitD d i) j 1) par en).
Proof.
  intros d Hd base Ix par en [Hg Hh].
  destruct d as [|[|[|[|d]]]]; try lia; split.
  all: try (intros k Hk; small k; unfold iifd_ok, iifd; simpl; apply Hg; lia).
  all: intros i j Hij Hj; small i; small j; unfold iifd_ok, iifd; simpl; apply (Hh _ _ Hij Hj).
Qed.

(* the symmetric storage index: symmetric for every n; inside range(n(n+1)/2) and injective on i <= j
   for n <= 3 (bounded: the dimensions the code is used with) *)
Theorem sym_index_symmetric : forall n i j, sym_index_to_seq n i j = sym_index_to_seq n j i.
Proof. intros. unfold sym_index_to_seq. rewrite (Nat.min_comm i j), (Nat.max_comm i j). reflexivity. Qed.
Theorem sym_index_bijection_bounded_3 : forall n, n <= 3 ->
  forall i j, i <= j -> j < n ->
  sym_index_to_seq n i j < n * (n + 1) / 2 /\
  forall i' j', i' <= j' -> j' < n -> sym_index_to_seq n i j = sym_index_to_seq n i' j' -> i = i' /\ j = j'.
Proof.
  intros n Hn i j Hij Hj.
  destruct n as [|[|[|[|n]]]]; try lia;
    small i; small j; (split; [cbv; lia|]);
    intros i' j' Hij' Hj' H; small i'; small j'; cbv in H; try discriminate H; split; reflexivity.
Qed.

(* _volume_weight: dx = GaussWeight * abs(det J), det by the Leibniz formula (dims 2, 3) *)
Theorem volume_weight_spec_2 : forall (en : env F) a00 a01 a10 a11,
  exists e, e_volume_weight F f1 fopp 2 [[a00; a01]; [a10; a11]] = Some e /\
  eval en e = e_vr en "GaussWeight" [] [0; 0] false *
              e_fn en "abs" (eval en a00 * eval en a11 - eval en a01 * eval en a10).
Proof. intros. eexists. split; [reflexivity|]. simpl. f_equal. f_equal. ring. Qed.

(* the unscaled normal of a line in the plane / a surface in space: orthogonal to the tangents, and
   |n|^2 = det(J^T J) (|t|^2 resp. the Gram determinant |x|^2 |y|^2 - (x.y)^2, Lagrange's identity) *)
Theorem normal_21_spec : forall (en : env F) x0 x1,
  let n := map (eval en) (e_unscaled_normal_21 F x0 x1) in
  nth 0 n f0 * eval en x0 + nth 1 n f0 * eval en x1 = f0 /\
  nth 0 n f0 * nth 0 n f0 + nth 1 n f0 * nth 1 n f0 = eval en x0 * eval en x0 + eval en x1 * eval en x1.
Proof. cbv zeta. intros. simpl. split; ring. Qed.

Theorem normal_32_spec : forall (en : env F) x0 x1 x2 y0 y1 y2,
  let n := map (eval en) (e_unscaled_normal_32 F x0 x1 x2 y0 y1 y2) in
  let X i := eval en (nth i [x0; x1; x2] (Const f0)) in
  let Y i := eval en (nth i [y0; y1; y2] (Const f0)) in
  let N i := nth i n f0 in
  N 0 * X 0 + N 1 * X 1 + N 2 * X 2 = f0 /\
  N 0 * Y 0 + N 1 * Y 1 + N 2 * Y 2 = f0 /\
  N 0 * N 0 + N 1 * N 1 + N 2 * N 2 =
    (X 0 * X 0 + X 1 * X 1 + X 2 * X 2) * (Y 0 * Y 0 + Y 1 * Y 1 + Y 2 * Y 2)
    - (X 0 * Y 0 + X 1 * Y 1 + X 2 * Y 2) * (X 0 * Y 0 + X 1 * Y 1 + X 2 * Y 2).
Proof. cbv zeta. intros. simpl. repeat split; ring. Qed.

(* ds = GaussWeight * sqrt(|n|^2) *)
Theorem surface_weight_spec_32 : forall (en : env F) x0 x1 x2 y0 y1 y2,
  let un := e_unscaled_normal_32 F x0 x1 x2 y0 y1 y2 in
  let n := map (eval en) un in
  exists e, e_surface_weight F 2 un = Some e /\
  eval en e = e_vr en "GaussWeight" [] [0; 0] false *
              e_fn en "sqrt" (nth 0 n f0 * nth 0 n f0 + nth 1 n f0 * nth 1 n f0 + nth 2 n f0 * nth 2 n f0).
Proof. cbv zeta. intros. eexists. split; reflexivity. Qed.

(* the normalised normal un / norm(un) is orthogonal to the tangents, and |n|^2 * s^2 = |un|^2 for the
   value s of the norm (a unit vector exactly when sqrt(x)^2 = x) *)
Theorem surface_normal_32_spec : forall (en : env F) x0 x1 x2 y0 y1 y2,
  let un := e_unscaled_normal_32 F x0 x1 x2 y0 y1 y2 in
  exists nn, e_surface_normal F un = Some nn /\
  let N i := eval en (nth i nn (Const f0)) in
  let U i := eval en (nth i un (Const f0)) in
  let X i := eval en (nth i [x0; x1; x2] (Const f0)) in
  let Y i := eval en (nth i [y0; y1; y2] (Const f0)) in
  let s := e_fn en "sqrt" (U 0 * U 0 + U 1 * U 1 + U 2 * U 2) in
  N 0 * X 0 + N 1 * X 1 + N 2 * X 2 = f0 /\
  N 0 * Y 0 + N 1 * Y 1 + N 2 * Y 2 = f0 /\
  (s <> f0 -> (N 0 * N 0 + N 1 * N 1 + N 2 * N 2) * (s * s) = U 0 * U 0 + U 1 * U 1 + U 2 * U 2).
Proof.
  cbv zeta. intros. eexists. split; [reflexivity|]. simpl.
  set (s := e_fn en "sqrt" _).
  repeat split; try (rewrite !(Fdiv_def Fth); ring). intro Hs. field. exact Hs.
Qed.

Theorem surface_normal_21_spec : forall (en : env F) x0 x1,
  let un := e_unscaled_normal_21 F x0 x1 in
  exists nn, e_surface_normal F un = Some nn /\
  let N i := eval en (nth i nn (Const f0)) in
  let U i := eval en (nth i un (Const f0)) in
  let s := e_fn en "sqrt" (U 0 * U 0 + U 1 * U 1) in
  N 0 * eval en x0 + N 1 * eval en x1 = f0 /\
  (s <> f0 -> (N 0 * N 0 + N 1 * N 1) * (s * s) = U 0 * U 0 + U 1 * U 1).
Proof.
  cbv zeta. intros. eexists. split; [reflexivity|]. simpl.
  set (s := e_fn en "sqrt" _).
  split; [rewrite !(Fdiv_def Fth); ring|]. intro Hs. field. exact Hs.
Qed.

End Statements2.

Print Assumptions transform_forest_sound.
Print Assumptions finalize_forest_sound_partial.
Print Assumptions add_helper_defs_sound.
Print Assumptions field_physical_grad_sound_1.
Print Assumptions field_physical_grad_sound_2.
Print Assumptions field_physical_grad_sound_3.
Print Assumptions field_physical_hess_sound_1.
Print Assumptions field_physical_hess_sound_2.
Print Assumptions insert_input_field_derivs_sound.
Print Assumptions sym_index_symmetric.
Print Assumptions sym_index_bijection_bounded_3.
Print Assumptions volume_weight_spec_2.
Print Assumptions normal_21_spec.
Print Assumptions normal_32_spec.
Print Assumptions surface_weight_spec_32.
Print Assumptions surface_normal_32_spec.
Print Assumptions surface_normal_21_spec.
