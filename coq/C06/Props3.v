(* C06 -- property theorems, part 3: constant folding with the tolerance window of
   ConstExpr.is_constant as a parameter (FoldTol.v).  Same conventions as Props.v. *)
From Coq Require Import List String Bool Arith ZArith QArith Qcanon Field.
From Verif.C06 Require Import Model Proofs FoldTol.
Import ListNotations. Import QcInst. Import QcTol.

(* For ANY predicate near (any tolerance) and any sound equality test: if folding with the window and
   folding with the exact-guarded predicate (near c v && c =? v) return the same tree -- the window made no
   difference -- then the depth-first folding pass preserves the value in every environment.  Nothing is
   assumed about near itself (fold_constants_sound assumes near c v -> c = v for ALL c, v, which the
   window predicate does not satisfy). *)
Theorem fold_constants_sound_window_free :
  forall (F : Type) (f0 f1 : F) (fadd fmul fsub fdiv : F -> F -> F) (fopp finv : F -> F),
  field_theory f0 f1 fadd fmul fsub fopp fdiv finv (@eq F) ->
  forall (near feqb : F -> F -> bool) (fzerob : F -> bool),
  (forall a b, feqb a b = true -> a = b) ->
  forall en e e',
  window_free F f0 f1 fadd fmul fsub fdiv fopp near feqb fzerob e = true ->
  fold_all F f0 f1 fadd fmul fsub fdiv fopp near fzerob e = Some e' ->
  eval F fadd fmul fsub fdiv fopp en e' = eval F fadd fmul fsub fdiv fopp en e.
Proof.
  intros F f0 f1 fadd fmul fsub fdiv fopp finv Fth near feqb fzerob Hf en e e' W H.
  unfold window_free in W. rewrite H in W. apply (oexpr_eqb_some F feqb Hf) in W.
  exact (fold_all_eval F f0 f1 fadd fmul fsub fdiv fopp finv Fth _ fzerob
           (near_guarded_exact F near feqb Hf) en e e' W).
Qed.

Theorem fold1_sound_window_free :
  forall (F : Type) (f0 f1 : F) (fadd fmul fsub fdiv : F -> F -> F) (fopp finv : F -> F),
  field_theory f0 f1 fadd fmul fsub fopp fdiv finv (@eq F) ->
  forall (near feqb : F -> F -> bool) (fzerob : F -> bool),
  (forall a b, feqb a b = true -> a = b) ->
  forall en e e',
  window_free1 F f0 f1 fadd fmul fsub fdiv fopp near feqb fzerob e = true ->
  fold1 F f0 f1 fadd fmul fsub fdiv fopp near fzerob e = Some e' ->
  eval F fadd fmul fsub fdiv fopp en e' = eval F fadd fmul fsub fdiv fopp en e.
Proof.
  intros F f0 f1 fadd fmul fsub fdiv fopp finv Fth near feqb fzerob Hf en e e' W H.
  unfold window_free1 in W. rewrite H in W. apply (oexpr_eqb_some F feqb Hf) in W.
  exact (fold1_eval F f0 f1 fadd fmul fsub fdiv fopp finv Fth _ fzerob
           (near_guarded_exact F near feqb Hf) en e e' W).
Qed.

(* the rational instance with the tolerance as a parameter (the check passes the literal translated from
   pyiga/vform.py) *)
Theorem fold_constants_sound_tol : forall tol en e e',
  qwindow_free tol e = true -> qfold_all_t tol e = Some e' -> qeval en e' = qeval en e.
Proof.
  intro tol.
  exact (fold_constants_sound_window_free Qc 0 1 Qcplus Qcmult Qcminus Qcdiv Qcopp Qcinv Qcft
           (qnear_t tol) qeqb qzerob qeqb_sound).
Qed.

(* INSIDE the window the code folds by design and the value is NOT preserved: 1e-16 * w -> 0 *)
Theorem fold_inside_window_changes_value_refuted :
  exists e e' en, qfold_all e = Some e' /\ qeval en e' <> qeval en e.
Proof.
  exists ex_inside, (Const 0%Qc), en_one. split.
  - vm_compute. reflexivity.
  - vm_compute. intro H. discriminate H.
Qed.

(* NOT PROVED: finalize_sound in full (see Props.v); the bound |value change| <= tol * |other operand| for
   constants inside the window (needs an ordered field; only the refuting instance above is proved). *)

Print Assumptions fold_constants_sound_window_free.
Print Assumptions fold1_sound_window_free.
Print Assumptions fold_constants_sound_tol.
Print Assumptions fold_inside_window_changes_value_refuted.
