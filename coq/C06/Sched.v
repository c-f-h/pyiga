(* C06 -- the emitted order: a schedule accepted by [wf_sched] evaluates every variable after
   its dependencies, the resulting environment satisfies every defining equation, and it is
   the only one that does. *)
From Coq Require Import List String Bool Arith Lia.
From Verif.C06 Require Import Model.
Import ListNotations.

Section Sched.
Variable F : Type.
Variables (f0 : F) (fadd fmul fsub fdiv : F -> F -> F) (fopp : F -> F).
Notation eval := (eval F fadd fmul fsub fdiv fopp).
Notation expr := (expr F).
Notation texpr := (texpr F).
Notation env := (env F).
Notation eval_defs := (eval_defs F f0 fadd fmul fsub fdiv fopp).
Notation bind := (bind F f0).

Lemma eval_ext_pw : forall (en1 en2 : env) e,
  e_pd en1 = e_pd en2 -> e_gw en1 = e_gw en2 -> e_dx en1 = e_dx en2 -> e_ds en1 = e_ds en2 ->
  e_fn en1 = e_fn en2 ->
  (forall n, In n (vrefs F e) -> forall Ix D p, e_vr en1 n Ix D p = e_vr en2 n Ix D p) ->
  eval en1 e = eval en2 e.
Proof.
  intros en1 en2 e Hpd Hgw Hdx Hds Hfn. induction e; simpl; intros Hv;
    try (rewrite ?Hpd, ?Hgw, ?Hdx, ?Hds; reflexivity).
  - apply Hv. left. reflexivity.
  - rewrite IHe; auto.
  - rewrite Hfn, IHe; auto.
  - rewrite IHe1, IHe2; auto; intros n Hn; apply Hv; apply in_or_app; auto.
Qed.

Lemma mem_true_in : forall s l, mem s l = true -> In s l.
Proof.
  intros s l H. unfold mem in H. apply existsb_exists in H. destruct H as [x [Hx He]].
  apply String.eqb_eq in He. subst. assumption.
Qed.

Lemma mem_false_notin : forall s l, mem s l = false -> ~ In s l.
Proof.
  intros s l H Hin. unfold mem in H.
  assert (existsb (String.eqb s) l = true).
  { apply existsb_exists. exists s. split; auto. apply String.eqb_refl. }
  congruence.
Qed.

Lemma omap_nth_error : forall (A B : Type) (f : A -> option B) l ys k x,
  omap f l = Some ys -> nth_error l k = Some x ->
  exists y, f x = Some y /\ nth_error ys k = Some y.
Proof.
  intros A B f l. induction l as [|a l IH]; intros ys k x Ho Hn.
  - destruct k; discriminate.
  - simpl in Ho. destruct (f a) as [b|] eqn:Ea; [|discriminate].
    destruct (omap f l) as [bs|] eqn:Eo; [|discriminate]. inversion Ho; subst.
    destruct k; simpl in *.
    + inversion Hn; subst. exists b. auto.
    + apply (IH bs k x eq_refl Hn).
Qed.

Lemma nth_error_seq : forall n s k, k < n -> nth_error (seq s n) k = Some (s + k).
Proof.
  induction n; intros s k H; [lia|]. destruct k; simpl.
  - f_equal. lia.
  - rewrite IHn by lia. f_equal. lia.
Qed.

Lemma nth_error_pairs : forall c r s i j, i < r -> j < c ->
  nth_error (flat_map (fun a => map (fun b => (a, b)) (seq 0 c)) (seq s r)) (i * c + j) = Some (s + i, j).
Proof.
  intros c. induction r; intros s i j Hi Hj; [lia|]. simpl.
  destruct i.
  - simpl. rewrite nth_error_app1 by (rewrite map_length, seq_length; lia).
    rewrite (map_nth_error _ _ _ (nth_error_seq c 0 j Hj)). f_equal. f_equal; lia.
  - rewrite nth_error_app2 by (rewrite map_length, seq_length; simpl; lia).
    rewrite map_length, seq_length.
    replace (S i * c + j - c) with (i * c + j) by (simpl; lia).
    rewrite IHr by lia. f_equal. f_equal. lia.
Qed.

Definition in_shape (shape Ix : list nat) : Prop := Forall2 lt Ix shape.

Lemma tentries_index : forall (t : texpr) es Ix,
  tentries F t = Some es -> in_shape (tshape F t) Ix ->
  exists e, tat F t Ix = Some e /\ nth_error es (flat_index (tshape F t) Ix) = Some e.
Proof.
  intros t es Ix He Hs. unfold tentries in He. unfold in_shape in Hs.
  destruct (tshape F t) as [|n [|c [|x sh]]] eqn:Esh.
  - inversion Hs; subst. destruct (tat F t []) as [e|] eqn:Et; [|discriminate].
    inversion He; subst. exists e. split; auto.
  - inversion Hs as [|i n' Ix' sh' Hi Hr]; subst. inversion Hr; subst.
    destruct (omap_nth_error _ _ _ _ _ i i He) as [e [H1 H2]].
    { rewrite nth_error_seq by assumption. reflexivity. }
    exists e. split; [exact H1 | exact H2].
  - inversion Hs as [|i n' Ix' sh' Hi Hr]; subst. inversion Hr as [|j c' Ix'' sh'' Hj Hr']; subst.
    inversion Hr'; subst.
    destruct (omap_nth_error _ _ _ _ _ (i * c + j) (i, j) He) as [e [H1 H2]].
    { rewrite (nth_error_pairs c n 0 i j Hi Hj). reflexivity. }
    exists e. simpl in H1. split; [exact H1 | exact H2].
  - discriminate.
Qed.

Definition agree_outside (X : list string) (en1 en2 : env) : Prop :=
  e_pd en1 = e_pd en2 /\ e_gw en1 = e_gw en2 /\ e_dx en1 = e_dx en2 /\ e_ds en1 = e_ds en2 /\ e_fn en1 = e_fn en2 /\
  forall n, ~ In n X -> forall Ix D p, e_vr en1 n Ix D p = e_vr en2 n Ix D p.

Lemma eval_agree : forall X (en1 en2 : env) e,
  agree_outside X en1 en2 -> (forall v, In v (vrefs F e) -> ~ In v X) -> eval en1 e = eval en2 e.
Proof. intros X en1 en2 e [H1 [H2 [H3 [H4 [H5 H6]]]]] Hv. apply eval_ext_pw; auto. Qed.

Lemma eval_defs_frame : forall ds (en : env), agree_outside (map fst ds) (eval_defs en ds) en.
Proof.
  induction ds as [|[name t] r IH]; intros en; simpl.
  - repeat split; auto.
  - destruct (tentries F t) as [es|].
    + destruct (IH (bind en name (tshape F t) (map (eval en) es))) as [H1 [H2 [H3 [H4 [H5 H6]]]]].
      repeat split; try assumption.
      intros n Hn Ix D p. simpl in Hn. rewrite H6 by tauto. simpl.
      destruct (String.eqb_spec n name) as [->|]; [tauto|reflexivity].
    + destruct (IH en) as [H1 [H2 [H3 [H4 [H5 H6]]]]].
      repeat split; try assumption. intros n Hn. simpl in Hn. apply H6. tauto.
Qed.

(* a binding defines its variable: where no entry mentions the variable itself, the variable has the value
   of its entry in the NEW environment *)
Lemma bind_defines : forall (en : env) name shape es Ix e,
  nth_error es (flat_index shape Ix) = Some e -> ~ In name (vrefs F e) ->
  forall D p, let en1 := bind en name shape (map (eval en) es) in e_vr en1 name Ix D p = eval en1 e.
Proof.
  intros en name shape es Ix e Hnth Hf D p. simpl. rewrite String.eqb_refl.
  rewrite (nth_error_nth _ _ f0 (map_nth_error (eval en) _ _ Hnth)).
  apply eval_ext_pw; try reflexivity.
  intros n Hn Ix' D' p'. simpl. destruct (String.eqb_spec n name) as [->|]; [contradiction|reflexivity].
Qed.

Lemma wf_sched_cons : forall known name t r, wf_sched F known ((name, t) :: r) = true ->
  exists es, tentries F t = Some es /\
    (forall e, In e es -> forall v, In v (vrefs F e) -> In v known) /\
    ~ In name known /\ wf_sched F (name :: known) r = true.
Proof.
  intros known name t r H. simpl in H. destruct (tentries F t) as [es|]; [|discriminate].
  apply andb_true_iff in H. destruct H as [H Hr]. apply andb_true_iff in H. destruct H as [Hrefs Hf].
  exists es. split; [reflexivity|]. split; [|split; [|exact Hr]].
  - intros e He v Hv. rewrite forallb_forall in Hrefs. specialize (Hrefs e He).
    rewrite forallb_forall in Hrefs. apply mem_true_in. auto.
  - apply mem_false_notin, negb_true_iff, Hf.
Qed.

Lemma wf_sched_known_fresh : forall ds known,
  wf_sched F known ds = true -> forall n, In n known -> ~ In n (map fst ds).
Proof.
  induction ds as [|[name t] r IH]; intros known H n Hn; simpl; [tauto|].
  destruct (wf_sched_cons _ _ _ _ H) as [es [_ [_ [Hf Hr]]]].
  intros [E|Hin]; [subst; contradiction|].
  apply (IH (name :: known) Hr n); [right; assumption | assumption].
Qed.

Lemma eval_defs_stable : forall ds known (en : env) e,
  wf_sched F known ds = true ->
  (forall v, In v (vrefs F e) -> In v known) ->
  eval (eval_defs en ds) e = eval en e.
Proof.
  intros ds known en e Hw Hv. apply (eval_agree (map fst ds)); [apply eval_defs_frame|].
  intros v Hin. apply (wf_sched_known_fresh ds known Hw). auto.
Qed.

Theorem wf_sched_defines : forall ds known (en : env),
  wf_sched F known ds = true ->
  forall name t, In (name, t) ds ->
  forall Ix, in_shape (tshape F t) Ix ->
  exists e, tat F t Ix = Some e /\
            forall D p, e_vr (eval_defs en ds) name Ix D p = eval (eval_defs en ds) e.
Proof.
  induction ds as [|[name0 t0] r IH]; intros known en Hw name t Hin Ix Hs; [destruct Hin|].
  destruct (wf_sched_cons _ _ _ _ Hw) as [es [Ees [Hrefs [Hfresh Hr]]]].
  simpl. rewrite Ees.
  destruct Hin as [E|Hin]; [|exact (IH (name0 :: known) _ Hr name t Hin Ix Hs)].
  inversion E; subst. clear E.
  destruct (tentries_index t es Ix Ees Hs) as [e [Hat Hnth]].
  exists e. split; [assumption|]. intros D p.
  assert (Hk : forall v, In v (vrefs F e) -> In v known) by exact (Hrefs e (nth_error_In _ _ Hnth)).
  (* neither the variable nor its entry changes while the rest of the schedule runs *)
  set (en1 := bind en name (tshape F t) (map (eval en) es)).
  destruct (eval_defs_frame r en1) as [_ [_ [_ [_ [_ H6]]]]].
  rewrite H6 by (apply (wf_sched_known_fresh r (name :: known) Hr); left; reflexivity).
  rewrite (eval_defs_stable r (name :: known) en1 e Hr) by (intros v Hv; right; auto).
  apply bind_defines; [assumption|]. intro Hv. apply Hfresh. auto.
Qed.

(* en' satisfies the binding equation of every definition *)
Definition solves (en' : env) (ds : list (string * texpr)) : Prop :=
  forall name t es, In (name, t) ds -> tentries F t = Some es ->
  forall Ix D p, e_vr en' name Ix D p = nth (flat_index (tshape F t) Ix) (map (eval en') es) f0.

Theorem wf_sched_unique : forall ds known (en en' : env),
  wf_sched F known ds = true ->
  e_pd en' = e_pd en -> e_gw en' = e_gw en -> e_dx en' = e_dx en -> e_ds en' = e_ds en -> e_fn en' = e_fn en ->
  (forall n, In n known -> forall Ix D p, e_vr en' n Ix D p = e_vr en n Ix D p) ->
  solves en' ds ->
  forall n, In n (known ++ map fst ds) ->
  forall Ix D p, e_vr en' n Ix D p = e_vr (eval_defs en ds) n Ix D p.
Proof.
  induction ds as [|[name t] r IH]; intros known en en' Hw Hpd Hgw Hdx Hds Hfn Hk Hsol n Hn Ix D p.
  - simpl in *. rewrite app_nil_r in Hn. auto.
  - destruct (wf_sched_cons _ _ _ _ Hw) as [es [Ees [Hrefs [Hfresh Hr]]]].
    simpl. rewrite Ees.
    set (en1 := bind en name (tshape F t) (map (eval en) es)).
    apply (IH (name :: known) en1 en' Hr); auto.
    + (* en' agrees with en1 on the new variable too: both satisfy its binding equation *)
      intros m [E|Hm] Ix' D' p'; unfold en1; simpl.
      * subst m. rewrite (Hsol name t es (or_introl eq_refl) Ees), String.eqb_refl.
        f_equal. apply map_ext_in. intros e He.
        apply eval_ext_pw; auto. intros v Hv. apply Hk. exact (Hrefs e He v Hv).
      * destruct (String.eqb_spec m name) as [->|]; [contradiction|auto].
    + intros name' t' es' Hin'. apply Hsol. right. assumption.
    + rewrite in_app_iff in *. simpl in *. tauto.
Qed.

End Sched.
