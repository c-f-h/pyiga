(* C07 -- rational-function identities behind the circular-arc constructors of
   geometry.py, over an arbitrary field (no decidable equality, no order):
   cos/sin of the (half-)angles enter as field elements c, s constrained by
   c^2 + s^2 = 1; multiples of the angle are formed by the addition formulas.

   geometry.py:641-669  circular_arc_3pt/5pt/7pt:  control points r (cos a_k, sin a_k),
       a_k = k alpha/(n-1), weights (1, w, 1, w, ...), w = cos(alpha/(n-1)), premultiplied=True,
       quadratic knot vector with double interior knots  =>  every knot span is one
       rational quadratic Bezier segment with control points 2j, 2j+1, 2j+2.
   geometry.py:479-502  quarter_annulus. *)
From Coq Require Import Field Ring.

Section Arcs.
Variable F : Type.
Variables (f0 f1 : F) (fadd fmul fsub : F -> F -> F) (fopp : F -> F) (fdiv : F -> F -> F) (finv : F -> F).
Hypothesis Fth : field_theory f0 f1 fadd fmul fsub fopp fdiv finv (@eq F).
Add Field Ffield : Fth.
Notation "0" := f0.
Notation "1" := f1.
Infix "+" := fadd.
Infix "*" := fmul.
Infix "-" := fsub.
Infix "/" := fdiv.
Notation "- x" := (fopp x).
Definition two : F := 1 + 1.

(* Bernstein polynomials of degree 2 = the B-splines of one span of an open quadratic
   knot vector with double interior knots, in the local parameter *)
Definition B0 (t : F) := (1 - t) * (1 - t).
Definition B1 (t : F) := two * t * (1 - t).
Definition B2 (t : F) := t * t.

(* one segment: start direction (C0, S0), half-angle (c, s); control directions by the
   angle-addition formulas, weights (1, c, 1); radius r *)
Definition seg_w (c t : F) : F := B0 t + B1 t * c + B2 t.
Definition seg_x (C0 S0 c s r t : F) : F :=
  r * (B0 t * C0 + B1 t * (C0 * c - S0 * s) + B2 t * (C0 * (c * c - s * s) - S0 * (two * s * c))).
Definition seg_y (C0 S0 c s r t : F) : F :=
  r * (B0 t * S0 + B1 t * (S0 * c + C0 * s) + B2 t * (S0 * (c * c - s * s) + C0 * (two * s * c))).

Lemma arc3_norm : forall c s r t, c * c + s * s = 1 ->
  seg_x 1 0 c s r t * seg_x 1 0 c s r t + seg_y 1 0 c s r t * seg_y 1 0 c s r t
  = (r * seg_w c t) * (r * seg_w c t).
Proof.
  intros c s r t H. unfold seg_x, seg_y, seg_w, B0, B1, B2.
  assert (Hs : s * s = 1 - c * c) by (rewrite <- H; ring).
  set (a := 1 - t). set (b := t).
  transitivity (r * r * ((a * a + two * a * b * c + b * b * (c * c - (s * s))) * (a * a + two * a * b * c + b * b * (c * c - (s * s)))
                         + two * two * b * b * (s * s) * (a + b * c) * (a + b * c))).
  - unfold two, a, b; ring.
  - rewrite Hs. unfold two, a, b; ring.
Qed.

(* every point of a segment has squared norm (r w)^2, i.e. N/w lies on the circle of radius r *)
Lemma segment_norm : forall C0 S0 c s r t, C0 * C0 + S0 * S0 = 1 -> c * c + s * s = 1 ->
  seg_x C0 S0 c s r t * seg_x C0 S0 c s r t + seg_y C0 S0 c s r t * seg_y C0 S0 c s r t
  = (r * seg_w c t) * (r * seg_w c t).
Proof.
  intros C0 S0 c s r t H0 H. rewrite <- (arc3_norm c s r t H).
  transitivity ((C0 * C0 + S0 * S0) *
                (seg_x 1 0 c s r t * seg_x 1 0 c s r t + seg_y 1 0 c s r t * seg_y 1 0 c s r t)).
  - unfold seg_x, seg_y. ring.
  - rewrite H0. ring.
Qed.

(* end points: the segment starts in direction (C0, S0) and ends in that direction turned by
   twice the half-angle; the weight there is 1 *)
Lemma segment_start : forall C0 S0 c s r,
  seg_x C0 S0 c s r 0 = r * C0 /\ seg_y C0 S0 c s r 0 = r * S0 /\ seg_w c 0 = 1.
Proof. intros. unfold seg_x, seg_y, seg_w, B0, B1, B2, two. repeat split; ring. Qed.

Lemma segment_end : forall C0 S0 c s r,
  seg_x C0 S0 c s r 1 = r * (C0 * (c * c - s * s) - S0 * (two * s * c))
  /\ seg_y C0 S0 c s r 1 = r * (S0 * (c * c - s * s) + C0 * (two * s * c)) /\ seg_w c 1 = 1.
Proof. intros. unfold seg_x, seg_y, seg_w, B0, B1, B2, two. repeat split; ring. Qed.

(* the end direction of a segment is again a unit direction: segments chain (5pt: 2, 7pt: 3) *)
Lemma segment_end_unit : forall C0 S0 c s, C0 * C0 + S0 * S0 = 1 -> c * c + s * s = 1 ->
  let C1 := C0 * (c * c - s * s) - S0 * (two * s * c) in
  let S1 := S0 * (c * c - s * s) + C0 * (two * s * c) in
  C1 * C1 + S1 * S1 = 1.
Proof.
  intros C0 S0 c s H0 H. cbv zeta.
  transitivity ((C0 * C0 + S0 * S0) * ((c * c + s * s) * (c * c + s * s))).
  - unfold two. ring.
  - rewrite H0, H. ring.
Qed.

(* quarter_annulus: radial direction linear in x between r1 and r2, angular direction the
   quarter arc with middle weight q = 1/sqrt 2 (q^2 = 1/2), control points (rho,0), (rho,rho), (0,rho) *)
Definition qa_w (q y : F) : F := B0 y + B1 y * q + B2 y.
Definition qa_x (q r1 r2 x y : F) : F := ((1 - x) * r1 + x * r2) * (B0 y + B1 y * q).
Definition qa_y (q r1 r2 x y : F) : F := ((1 - x) * r1 + x * r2) * (B1 y * q + B2 y).

Lemma quarter_annulus_norm : forall q r1 r2 x y, two * (q * q) = 1 ->
  qa_x q r1 r2 x y * qa_x q r1 r2 x y + qa_y q r1 r2 x y * qa_y q r1 r2 x y
  = (((1 - x) * r1 + x * r2) * qa_w q y) * (((1 - x) * r1 + x * r2) * qa_w q y).
Proof.
  intros q r1 r2 x y H. unfold qa_x, qa_y, qa_w, B0, B1, B2. unfold two in *.
  set (rho := (1 - x) * r1 + x * r2). set (a := 1 - y).
  (* difference of the two sides = rho^2 (b^2 q^2 - 2 a d) with b = 2 y a, d = y^2 *)
  assert (E : rho * rho * ((1+1) * (1+1) * y * y * a * a * (q * q)) = rho * rho * ((1+1) * a * a * y * y * ((1+1) * (q * q)))) by ring.
  transitivity (rho * rho * ((a * a + (1+1) * y * a * q + y * y) * (a * a + (1+1) * y * a * q + y * y))
                + (rho * rho * ((1+1) * (1+1) * y * y * a * a * (q * q)) - rho * rho * ((1+1) * a * a * y * y))).
  - ring.
  - rewrite E, H. ring.
Qed.

Lemma quarter_annulus_sides : forall q r1 r2 y,
  qa_x q r1 r2 0 y = r1 * (B0 y + B1 y * q) /\ qa_x q r1 r2 1 y = r2 * (B0 y + B1 y * q)
  /\ forall x, qa_y q r1 r2 x 0 = 0 /\ qa_x q r1 r2 x 1 = 0.
Proof. intros. unfold qa_x, qa_y, B0, B1, B2, two. repeat split; ring. Qed.

End Arcs.

