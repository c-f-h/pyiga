(* C07 -- the circular-arc constructors as NURBS functions of the model.  circular_arc_3pt / _5pt / _7pt
   (geometry.py:641-677) use make_knots(2, 0, 1, n, mult=2): every interior knot is double, so on each non-empty
   span the three active quadratic B-splines are the Bernstein polynomials of the local parameter (bezier_span),
   and the curve is there the rational Bezier segment of Algebra.v (segment_norm).  One theorem covers any number
   of such segments (bezier_arcs_on_circle); the three constructors are its instances with 1, 2, 3 segments. *)
From Coq Require Import QArith Qcanon List Lia Lqa.
From Verif.lib Require Import Bsp.
From Verif.C02 Require Import Proofs Proofs_ref.
From Verif.C07 Require Import Model Proofs Discharge Ends Algebra.
Import ListNotations.
Open Scope Qc_scope.

(* degree 0: which span contains u *)
Lemma in_span_empty : forall kv i u, kn kv (S i) <= kn kv i -> in_span kv i u = false.
Proof.
  intros kv i u E. unfold in_span.
  destruct (qltb (kn kv i) (kn kv (S i))) eqn:L.
  - apply qltb_iff in L. exfalso. exact (Qclt_not_le _ _ L E).
  - rewrite andb_false_r, orb_false_r. apply andb_false_iff.
    destruct (qleb (kn kv i) u) eqn:A; [right|left; reflexivity].
    apply qleb_iff in A. apply qltb_false_iff. exact (Qcle_trans _ _ _ E A).
Qed.

Lemma in_span_false : forall kv i u,
  (u < kn kv i \/ (kn kv (S i) <= u /\ kn kv (S i) <> lastk kv)) -> in_span kv i u = false.
Proof.
  intros kv i u H. unfold in_span. fold (lastk kv). destruct H as [H|[H Hne]].
  - assert (A : qleb (kn kv i) u = false) by (apply qleb_false_iff; exact H). rewrite A. cbn [andb orb].
    destruct (qeqb u (lastk kv)) eqn:E1; [|reflexivity]. cbn [andb].
    destruct (qltb (kn kv i) (kn kv (S i))) eqn:E2; [|reflexivity]. cbn [andb].
    destruct (qeqb (kn kv (S i)) (lastk kv)) eqn:E3; [|reflexivity].
    apply qeqb_iff in E1. apply qeqb_iff in E3. apply qltb_iff in E2. exfalso.
    rewrite E3, <- E1 in E2. qc2q. lra.
  - assert (A : qltb u (kn kv (S i)) = false) by (apply qltb_false_iff; exact H). rewrite A, andb_false_r. cbn [orb].
    assert (B : qeqb (kn kv (S i)) (lastk kv) = false).
    { destruct (qeqb (kn kv (S i)) (lastk kv)) eqn:E; [|reflexivity]. apply qeqb_iff in E. contradiction. }
    rewrite B, andb_false_r. reflexivity.
Qed.

Lemma Nref_step kv q i u :
  Nref kv (S q) i u
  = (u - kn kv i) / (kn kv (S (q + i)) - kn kv i) * Nref kv q i u
    + (kn kv (S (S (q + i))) - u) / (kn kv (S (S (q + i))) - kn kv (S i)) * Nref kv q (S i) u.
Proof.
  cbn [Nref]. replace (i + S q)%nat with (S (q + i)) by lia. rewrite !Nat.add_1_r. reflexivity.
Qed.

(* knots i+1 = i+2 = a < b = i+3 = i+4 and u in [a, b) (or u = b at the right end of the knot vector): the quadratic
   B-splines i, i+1, i+2 are the Bernstein polynomials in v = (u - a) / (b - a) *)
Lemma bezier_span : forall kv i u a b, sorted kv -> (i + 5 < length kv)%nat ->
  kn kv (S i) = a -> kn kv (S (S i)) = a -> kn kv (S (S (S i))) = b -> kn kv (S (S (S (S i)))) = b -> a < b ->
  a <= u -> (u < b \/ (u = lastk kv /\ b = lastk kv)) ->
  let v := (u - a) / (b - a) in
  Nref kv 2 i u = (1 - v) * (1 - v) /\ Nref kv 2 (S i) u = (1 + 1) * v * (1 - v) /\ Nref kv 2 (S (S i)) u = v * v.
Proof.
  intros kv i u a b Hs Hl K1 K2 K3 K4 Hab Ha Hb v.
  assert (Hbl : b <= lastk kv) by (rewrite <- K4; apply Hs; lia).
  assert (E0 : Nref kv 0 i u = 0).
  { cbn [Nref]. rewrite in_span_false; [reflexivity|]. right. rewrite K1.
    split; [exact Ha|]. intro E. rewrite E in Hab. exact (Qclt_not_le _ _ Hab Hbl). }
  assert (E1 : Nref kv 0 (S i) u = 0).
  { cbn [Nref]. rewrite in_span_empty; [reflexivity|]. rewrite K1, K2. apply Qcle_refl. }
  assert (E2 : Nref kv 0 (S (S i)) u = 1).
  { cbn [Nref]. rewrite in_span_intro; [reflexivity|]. rewrite K2, K3.
    destruct Hb as [Hb|[Hu Hb]]; [left; split; assumption|right; repeat split; assumption]. }
  assert (E3 : Nref kv 0 (S (S (S i))) u = 0).
  { cbn [Nref]. rewrite in_span_empty; [reflexivity|]. rewrite K3, K4. apply Qcle_refl. }
  assert (E4 : Nref kv 0 (S (S (S (S i)))) u = 0).
  { cbn [Nref]. destruct Hb as [Hb|[Hu Hb]].
    - rewrite in_span_false; [reflexivity|]. left. rewrite K4. exact Hb.
    - rewrite in_span_empty; [reflexivity|]. rewrite K4, Hb. apply Hs; lia. }
  assert (Hw : (b - u) / (b - a) = 1 - v) by (unfold v; field; intro E; qc2q; lra).
  assert (F0 : Nref kv 1 i u = 0) by (rewrite Nref_step, E0, E1; ring).
  assert (F1 : Nref kv 1 (S i) u = 1 - v).
  { rewrite Nref_step. cbn [Nat.add]. rewrite E1, E2, K2, K3, Hw. ring. }
  assert (F2 : Nref kv 1 (S (S i)) u = v).
  { rewrite Nref_step. cbn [Nat.add]. rewrite E2, E3, K2, K3. fold v. ring. }
  assert (F3 : Nref kv 1 (S (S (S i))) u = 0) by (rewrite Nref_step, E3, E4; ring).
  rewrite !(Nref_step kv 1). cbn [Nat.add]. rewrite F0, F1, F2, F3, K1, K2, K3, K4, Hw. fold v.
  repeat split; ring.
Qed.

(* the p+1 active reference functions at the span findspan reports, applied to the control points *)
Lemma curve_value : forall f kv u c, kvs f = [kv] -> in_dom kv u ->
  let fa := (findspan (fst kv) (snd kv) u - snd kv)%nat in
  g_val f [u] c = rdot fa (map (fun r => Nref (fst kv) (snd kv) (fa + r) u) (seq 0 (S (snd kv)))) (fun i => co f [i] c).
Proof.
  intros f kv u c E Hd fa. fold (first_active_at (fst kv) (snd kv) u) in fa. unfold fa.
  rewrite <- (act_row_ref kv 0 u Hd). unfold g_val, sdim. rewrite E.
  exact (eq_sym (dense_equiv_win kv 0 0 u Hd (Nat.le_refl 0) (fun i => co f [i] c))).
Qed.

(* an open knot vector interpolates the end control points: boundary() of a curve is a point *)
Lemma curve_ends : forall f kv c, kvs f = [kv] -> open_ends kv ->
  g_val f [kn (fst kv) 0] c = co f [0%nat] c /\ g_val f [lastk (fst kv)] c = co f [(kv_n kv - 1)%nat] c.
Proof.
  intros [k co0 m] kv c E H. cbn [kvs] in E. subst k. split; symmetry.
  - exact (boundary_trace [] kv [] co0 m [] [] 0 c eq_refl H).
  - exact (boundary_trace [] kv [] co0 m [] [] 1 c eq_refl H).
Qed.

(* a direction turned by the angle with (cos, sin) = (c, s) *)
Definition turn (c s : Qc) (d : Qc * Qc) : Qc * Qc := (fst d * c - snd d * s, snd d * c + fst d * s).

Definition unit_dir (d : Qc * Qc) : Prop := fst d * fst d + snd d * snd d = 1.

Lemma turn_unit : forall c s d, c * c + s * s = 1 -> unit_dir d -> unit_dir (turn c s d).
Proof.
  intros c s [x y] H Hd. unfold unit_dir in *. cbn [turn fst snd] in *.
  transitivity ((c * c + s * s) * (x * x + y * y)); [ring|]. rewrite H, Hd. ring.
Qed.

(* control point i of a premultiplied planar net: r d with weight w *)
Definition ctrl (f : bsp) (i : nat) (r : Qc) (d : Qc * Qc) (w : Qc) : Prop :=
  co f [i] 0 = r * fst d /\ co f [i] 1 = r * snd d /\ co f [i] 2 = w.

(* control points i, i+1, i+2 span a circular segment: directions d, d turned once and twice by the
   half-angle (c, s), weights (1, c, 1), between double knots *)
Definition arc_span (f : bsp) (kv : list Qc) (c s r : Qc) (i : nat) : Prop :=
  kn kv (S i) = kn kv (S (S i)) /\ kn kv (S (S (S i))) = kn kv (S (S (S (S i))))
  /\ exists d, unit_dir d /\ ctrl f i r d 1 /\ ctrl f (S i) r (turn c s d) c
               /\ ctrl f (S (S i)) r (turn c s (turn c s d)) 1.

Theorem bezier_arcs_on_circle : forall f kv c s r, kvs f = [(kv, 2%nat)] -> kv_ok kv 2 -> c * c + s * s = 1 ->
  (forall i, (i + 5 < length kv)%nat -> kn kv (S (S i)) < kn kv (S (S (S i))) -> arc_span f kv c s r i) ->
  forall t, kn kv 0 <= t -> t <= lastk kv ->
  let X := g_val f [t] 0 in let Y := g_val f [t] 1 in let W := g_val f [t] 2 in
  X * X + Y * Y = (r * W) * (r * W).
Proof.
  intros f kv c s r E Hok H Hseg t H0 H1. cbv zeta.
  rewrite !(curve_value f (kv, 2%nat) t _ E) by (split; [exact Hok|split; assumption]). cbn [fst snd].
  destruct (findspan_spec_l kv 2 t Hok H0 H1) as [A [B [C [D D']]]]. cbv zeta in *.
  remember (findspan kv 2 t - 2)%nat as i eqn:Ei.
  replace (findspan kv 2 t) with (S (S i)) in * by lia.
  destruct (Hseg i ltac:(lia) C) as [K1 [K3 [[x y] [Ud [[Px [Py Pw]] [[Qx [Qy Qw]] [Rx [Ry Rw]]]]]]]].
  destruct (bezier_span kv i t (kn kv (S (S i))) (kn kv (S (S (S i)))) (ok_sorted _ _ Hok) ltac:(lia)
              K1 eq_refl eq_refl (eq_sym K3) C D) as [N0 [N1 N2]].
  { destruct D' as [D'|[D1 D2]]; [left; exact D'|right; split; assumption]. }
  cbv zeta in N0, N1, N2. cbn [seq map rdot]. rewrite !Nat.add_0_r, !Nat.add_1_r, (Nat.add_comm i 2). cbn [Nat.add].
  rewrite N0, N1, N2, Px, Py, Pw, Qx, Qy, Qw, Rx, Ry, Rw. cbn [turn fst snd].
  set (v := (t - kn kv (S (S i))) / (kn kv (S (S (S i))) - kn kv (S (S i)))).
  (* the segment of Algebra.v with start direction (x, y) *)
  pose proof (segment_norm Qc 0 1 Qcplus Qcmult Qcminus Qcopp Qcdiv Qcinv Qcft x y c s r v Ud H) as T.
  unfold seg_x, seg_y, seg_w, B0, B1, B2, two in T.
  etransitivity; [|etransitivity; [exact T|]]; ring.
Qed.

(* ... and where the weight does not vanish the curve (X/W, Y/W) itself *)
Lemma on_circle_quotient : forall X Y W r, X * X + Y * Y = (r * W) * (r * W) -> W <> 0 ->
  X / W * (X / W) + Y / W * (Y / W) = r * r.
Proof.
  intros X Y W r E HW. transitivity ((X * X + Y * Y) / (W * W)); [field; exact HW|]. rewrite E. field. exact HW.
Qed.

Lemma unit_x : unit_dir (1, 0).
Proof. unfold unit_dir. cbn [fst snd]. ring. Qed.

(* circular_arc_3pt: one segment on [0,0,0,1,1,1] *)
Definition bez_kv : KV := ([0; 0; 0; 1; 1; 1], 2%nat).

Lemma bez_ok : kv_ok (fst bez_kv) 2.
Proof. apply open_kv_ok_l. vm_compute. reflexivity. Qed.

(* the quadratic B-splines of the Bezier knot vector are the Bernstein polynomials *)
Lemma bez_N2 : forall t, 0 <= t -> t <= 1 ->
  Nref (fst bez_kv) 2 0 t = (1 - t) * (1 - t) /\ Nref (fst bez_kv) 2 1 t = (1 + 1) * t * (1 - t)
  /\ Nref (fst bez_kv) 2 2 t = t * t.
Proof.
  intros t H0 H1.
  assert (Hb : t < 1 \/ (t = lastk (fst bez_kv) /\ 1 = lastk (fst bez_kv))).
  { destruct (Qc_eq_dec t 1) as [->|Hne]; [right; split; reflexivity|left; qc2q; lra]. }
  pose proof (bezier_span (fst bez_kv) 0 t 0 1 (ok_sorted _ _ bez_ok) ltac:(cbn; lia)
                eq_refl eq_refl eq_refl eq_refl ltac:(qc2q; lra) H0 Hb) as A.
  cbv zeta in A. replace ((t - 0) / (1 - 0)) with t in A by (field; intro E; discriminate E). exact A.
Qed.

(* circular_arc_3pt(alpha, r) (geometry.py:641-653) with (c, s) = (cos, sin)(alpha/2): rows (x, y, w) *)
Definition arc3_fn (c s r : Qc) : bsp :=
  mk_bsp [bez_kv]
         (arr [3]%nat 3 [r * 1; r * 0; 1;   r * c; r * s; c;   r * (c * c - s * s); r * ((1 + 1) * s * c); 1]) 3.

Lemma arc3_spans : forall c s r i, (i + 5 < length (fst bez_kv))%nat -> arc_span (arc3_fn c s r) (fst bez_kv) c s r i.
Proof.
  intros c s r i Hi. assert (i = 0%nat) as -> by (cbn [bez_kv fst length] in Hi; lia).
  split; [reflexivity|]. split; [reflexivity|]. exists (1, 0). split; [exact unit_x|].
  unfold ctrl. cbv [co arc3_fn arr ravel app nth Nat.mul Nat.add turn fst snd]. repeat split; ring.
Qed.

(* circular_arc_5pt (semicircle): two segments on [0,0,0,1/2,1/2,1,1,1] *)
Definition hf : Qc := Q2Qc (1 # 2).
Definition arc5_kv : KV := ([0; 0; 0; hf; hf; 1; 1; 1], 2%nat).

Lemma arc5_ok : kv_ok (fst arc5_kv) 2.
Proof. apply open_kv_ok_l. vm_compute. reflexivity. Qed.

(* circular_arc_5pt(alpha, r) (geometry.py:655-661) with (c, s) = (cos, sin)(alpha/4): control directions
   d_k at the angles k alpha/4 by the addition formulas, weights (1, c, 1, c, 1), rows (x, y, w) *)
Definition arc5_fn (c s r : Qc) : bsp :=
  let C2 := c * c - s * s in let S2 := (1 + 1) * s * c in
  mk_bsp [arc5_kv]
         (arr [5]%nat 3 [r * 1; r * 0; 1;
                         r * c; r * s; c;
                         r * C2; r * S2; 1;
                         r * (C2 * c - S2 * s); r * (S2 * c + C2 * s); c;
                         r * (C2 * (c * c - s * s) - S2 * ((1 + 1) * s * c)); r * (S2 * (c * c - s * s) + C2 * ((1 + 1) * s * c)); 1]) 3.

Lemma arc5_spans : forall c s r i, c * c + s * s = 1 -> (i + 5 < length (fst arc5_kv))%nat ->
  kn (fst arc5_kv) (S (S i)) < kn (fst arc5_kv) (S (S (S i))) -> arc_span (arc5_fn c s r) (fst arc5_kv) c s r i.
Proof.
  intros c s r i H Hi Hlt.
  destruct i as [|[|[|i]]]; [|exfalso; exact (Qclt_not_le _ _ Hlt (Qcle_refl _))| |cbn [arc5_kv fst length] in Hi; lia].
  - split; [reflexivity|]. split; [reflexivity|]. exists (1, 0). split; [exact unit_x|].
    unfold ctrl. cbv [co arc5_fn arr ravel app nth Nat.mul Nat.add turn fst snd]. repeat split; ring.
  - split; [reflexivity|]. split; [reflexivity|]. exists (c * c - s * s, (1 + 1) * s * c). split.
    + unfold unit_dir. cbn [fst snd]. transitivity ((c * c + s * s) * (c * c + s * s)); [ring|]. rewrite H. ring.
    + unfold ctrl. cbv [co arc5_fn arr ravel app nth Nat.mul Nat.add turn fst snd]. repeat split; ring.
Qed.

Lemma arc5_open : open_ends arc5_kv.
Proof. split; [exact arc5_ok|]. cbn [arc5_kv fst snd kn nth]. unfold hf. qc2q. lra. Qed.

(* circular_arc_7pt (circle): three segments on [0,0,0,1/3,1/3,2/3,2/3,1,1,1] *)
Definition t1 : Qc := Q2Qc (1 # 3).
Definition t2 : Qc := Q2Qc (2 # 3).
Definition arc7_kv : KV := ([0; 0; 0; t1; t1; t2; t2; 1; 1; 1], 2%nat).

Lemma arc7_ok : kv_ok (fst arc7_kv) 2.
Proof. apply open_kv_ok_l. vm_compute. reflexivity. Qed.

(* circular_arc_7pt(alpha, r) / circle(r) (geometry.py:663-677) with (c, s) = (cos, sin)(alpha/6):
   d_0 = (1, 0), d_{k+1} = d_k turned by alpha/6; rows r d_k with weights (1, c, 1, c, 1, c, 1) *)
Definition arc7_fn (c s r : Qc) : bsp :=
  let d0 := (1, 0) in let d1 := turn c s d0 in let d2 := turn c s d1 in let d3 := turn c s d2 in
  let d4 := turn c s d3 in let d5 := turn c s d4 in let d6 := turn c s d5 in
  mk_bsp [arc7_kv]
         (arr [7]%nat 3 [r * fst d0; r * snd d0; 1;  r * fst d1; r * snd d1; c;  r * fst d2; r * snd d2; 1;
                         r * fst d3; r * snd d3; c;  r * fst d4; r * snd d4; 1;  r * fst d5; r * snd d5; c;
                         r * fst d6; r * snd d6; 1]) 3.

(* segment j starts in the direction (1, 0) turned 2j times *)
Lemma arc7_spans : forall c s r i, c * c + s * s = 1 -> (i + 5 < length (fst arc7_kv))%nat ->
  kn (fst arc7_kv) (S (S i)) < kn (fst arc7_kv) (S (S (S i))) -> arc_span (arc7_fn c s r) (fst arc7_kv) c s r i.
Proof.
  intros c s r i H Hi Hlt.
  assert (U : forall n, unit_dir (Nat.iter n (turn c s) (1, 0))).
  { induction n; [exact unit_x|apply turn_unit; assumption]. }
  destruct i as [|[|[|[|[|i]]]]]; try (exfalso; exact (Qclt_not_le _ _ Hlt (Qcle_refl _)));
    [| | |cbn [arc7_kv fst length] in Hi; lia]; (split; [reflexivity|]); (split; [reflexivity|]).
  - exists (1, 0). split; [exact (U 0%nat)|]. repeat split.
  - exists (Nat.iter 2 (turn c s) (1, 0)). split; [exact (U 2%nat)|]. repeat split.
  - exists (Nat.iter 4 (turn c s) (1, 0)). split; [exact (U 4%nat)|]. repeat split.
Qed.
