(* C07 -- documented argument forms of the geometry operations: apply_matrix with
   "an array of matrices, one for each control point" (bspline.py:1082-1091 BSplineFunc.apply_matrix,
   geometry.py:258-269 NurbsFunc.apply_matrix:  C = np.matmul(A, coeffs[..., None]) with numpy broadcasting
   of the leading axes of A against the control net).  The single matrix is the constant family. *)
From Coq Require Import Qcanon List Arith.
From Verif.C07 Require Import Model Proofs NurbsOps.
Import ListNotations.
Open Scope Qc_scope.

(* control point idx is mapped by its own matrix A idx (rows x nc f) *)
Definition b_matrix_pc (f : bsp) (A : list nat -> nat -> nat -> Qc) (rows : nat) : bsp :=
  mk_bsp (kvs f) (fun idx c => rdot 0 (map (A idx c) (seq 0 (nc f))) (co f idx)) rows.
(* NurbsFunc: the matrices act on the non-premultiplied control points, the weights are unchanged *)
Definition n_matrix_pc (f : bsp) (A : list nat -> nat -> nat -> Qc) (rows : nat) : bsp :=
  mk_nurbs (kvs f) (fun idx c => rdot 0 (map (A idx c) (seq 0 (wcomp f))) (n_C f idx)) (n_W f) rows.

(* numpy broadcasting of the leading shape ash of A (A.shape = ash ++ [rows; cols]) against the control
   net index idx: the axes are aligned at the right, missing leading axes are dropped, axes of size 1
   are read at position 0 *)
Definition bc_idx (ash idx : list nat) : list nat :=
  map (fun p => if Nat.eqb (fst p) 1 then 0%nat else snd p) (combine ash (skipn (length idx - length ash) idx)).
Definition arrA (ash : list nat) (rows cols : nat) (flat : list Qc) : list nat -> nat -> nat -> Qc :=
  fun idx r c => nth (ravel (ash ++ [rows; cols]) (bc_idx ash idx ++ [r; c]) 0) flat 0.
