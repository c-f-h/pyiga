(* C07 -- the chain rule of ComposedFunction.grid_jacobian as a matrix identity (over any commutative ring). *)
From Coq Require Import Ring.

Section Chain.
Variable F : Type.
Variables (f0 f1 : F) (fadd fmul fsub : F -> F -> F) (fopp : F -> F).
Hypothesis Rth : ring_theory f0 f1 fadd fmul fsub fopp (@eq F).
Add Ring Fring3 : Rth.
Notation "0" := f0.
Infix "+" := fadd.
Infix "*" := fmul.

Fixpoint sumn (n : nat) (f : nat -> F) : F := match n with O => 0 | S k => sumn k f + f k end.
(* np.matmul(jac2, jac1): (dim2 x m) . (m x s) *)
Definition matmul (m : nat) (A B : nat -> nat -> F) : nat -> nat -> F := fun i j => sumn m (fun a => A i a * B a j).
(* np.matmul(jac2[..., None, :], jac1)[..., 0, :] for a scalar geo2 whose Jacobian is the gradient g *)
Definition vecmat (m : nat) (g : nat -> F) (B : nat -> nat -> F) : nat -> F := fun j => sumn m (fun a => g a * B a j).
(* the first-order part of a map with Jacobian A in direction h *)
Definition mv (m : nat) (A : nat -> nat -> F) (h : nat -> F) : nat -> F := fun i => sumn m (fun a => A i a * h a).
Definition dot (m : nat) (g h : nat -> F) : F := sumn m (fun a => g a * h a).

Lemma sumn_ext : forall n f g, (forall k, f k = g k) -> sumn n f = sumn n g.
Proof. induction n; intros; simpl; [reflexivity|]. rewrite (IHn f g), H; auto. Qed.
Lemma sumn_add : forall n f g, sumn n (fun k => f k + g k) = sumn n f + sumn n g.
Proof. induction n; intros; simpl; [ring|]. rewrite IHn. ring. Qed.
Lemma sumn_scal_r : forall n c f, sumn n (fun k => f k * c) = sumn n f * c.
Proof. induction n; intros; simpl; [ring|]. rewrite IHn. ring. Qed.
Lemma sumn_scal_l : forall n c f, sumn n (fun k => c * f k) = c * sumn n f.
Proof. induction n; intros; simpl; [ring|]. rewrite IHn. ring. Qed.
Lemma sumn_swap : forall n m (f : nat -> nat -> F),
  sumn n (fun i => sumn m (fun j => f i j)) = sumn m (fun j => sumn n (fun i => f i j)).
Proof.
  induction n; intros; simpl.
  - induction m; simpl; [reflexivity|]. rewrite <- IHm. ring.
  - rewrite IHn, <- sumn_add. reflexivity.
Qed.

(* sum_a (sum_b g_b J1_ba) h_a = sum_b g_b (sum_a J1_ba h_a): a row g of J2 (or the gradient of a scalar geo2)
   applied after J1 is that row of matmul(J2, J1) *)
Lemma dot_vecmat : forall s m (g : nat -> F) (J1 : nat -> nat -> F) (h : nat -> F),
  dot s (vecmat m g J1) h = dot m g (mv s J1 h).
Proof.
  intros. unfold dot, vecmat, mv.
  rewrite (sumn_ext s _ (fun a => sumn m (fun a0 => g a0 * J1 a0 a * h a))) by (intros; symmetry; apply sumn_scal_r).
  rewrite sumn_swap. apply sumn_ext. intros a.
  rewrite <- sumn_scal_l. apply sumn_ext. intros. ring.
Qed.
End Chain.
