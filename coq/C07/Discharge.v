(* C07 -- discharging the C02 hypotheses of Proofs.v from the theorems C02 has proved
   (coq/C02/Proofs_ref.v: partition of unity, locality; Proofs_ndu.v / Proofs_deriv.v:
   active_deriv = reference (derivative) values), and the reference meaning of the
   Jacobian / Hessian entries. *)
From Coq Require Import Qcanon List Arith Lia.
From Verif.lib Require Import Bsp ListFacts.
From Verif.C02 Require Import Proofs_ref Proofs_ndu Proofs_deriv.
From Verif.C07 Require Import Model Proofs.
Import ListNotations.
Open Scope Qc_scope.

Lemma rsum_map_seq : forall (F : nat -> Qc) n a, rsum (map F (seq a n)) = sumf F a n.
Proof. induction n; intros; simpl; [reflexivity|]. rewrite IHn. reflexivity. Qed.

Lemma rsum_shift : forall (F : nat -> Qc) n a, rsum (map (fun r => F (a + r)%nat) (seq 0 n)) = sumf F a n.
Proof.
  intros. rewrite <- rsum_map_seq. f_equal. rewrite (seq_add_map n a), map_map. reflexivity.
Qed.

(* the value row of active_deriv holds the p+1 reference functions from first_active_at on *)
Lemma act_row_ref : forall kv nd u, in_dom kv u ->
  act_row kv nd 0 u
  = map (fun r => Nref (fst kv) (snd kv) (first_active_at (fst kv) (snd kv) u + r) u) (seq 0 (S (snd kv))).
Proof. intros kv nd u [Hok [H0 H1]]. apply active_values_eq_spec_l; assumption. Qed.

Lemma pou_row : forall kv u, in_dom kv u -> rsum (snd (dense_row kv 0 0 u)) = 1.
Proof.
  intros kv u H. pose proof (dense_equiv_win kv 0 0 u H (Nat.le_refl 0) (fun _ => 1)) as E.
  rewrite !rdot_const in E. rewrite !Qcmult_1_r in E. rewrite <- E.
  unfold win_row. cbn [snd]. rewrite (act_row_ref kv 0 u H).
  rewrite (rsum_shift (fun i => Nref (fst kv) (snd kv) i u)).
  destruct H as [Hok [H0 H1]]. apply N_partition_of_unity_l; assumption.
Qed.

(* every dense collocation row is the vector of reference values / derivatives *)
Lemma dense_row_ref : forall kv nd k u, in_dom kv u -> (k <= nd)%nat ->
  snd (dense_row kv nd k u) = map (fun j => dNref (fst kv) k (snd kv) j u) (seq 0 (kv_n kv)).
Proof.
  intros [kv p] nd k u [Hok [H0 H1]] Hk. unfold dense_row, act_row, kv_n. cbn [fst snd] in *.
  apply map_ext_in. intros j Hj. apply in_seq in Hj.
  destruct (findspan_span_ok kv p u Hok H0 H1) as [Hsp [Hp Hq]].
  unfold first_active_at, numdofs in *.
  destruct (Nat.leb_spec (findspan kv p u - p) j) as [A|A];
  destruct (Nat.leb_spec j (findspan kv p u - p + p)) as [B|B]; cbn [andb].
  - rewrite active_derivs_eq_spec_l by (assumption || lia). f_equal. lia.
  - symmetry. apply dN_local_l; try assumption; lia.
  - symmetry. apply dN_local_l; try assumption; lia.
  - lia.
Qed.

(* reference rows: derivative order D_k of every basis function of axis k *)
Definition ref_rows (ks : list KV) (us : list Qc) (D : list nat) : list orow :=
  map (fun t => let '(kv, u, k) := t in
                (0%nat, map (fun j => dNref (fst kv) k (snd kv) j u) (seq 0 (kv_n kv)))) (zip3 ks us D).

Lemma grid_rows_ref : forall ks us D nd,
  Forall2 in_dom ks us -> (forall k, In k D -> (k <= nd)%nat) -> grid_rows ks us nd D = ref_rows ks us D.
Proof.
  intros ks us D nd H. revert D. induction H as [|kv u ks us Hd H IH]; intros D HD; [reflexivity|].
  destruct D as [|k D]; [reflexivity|]. unfold grid_rows, ref_rows. cbn [zip3 map]. f_equal.
  - unfold dense_row at 1. rewrite <- (dense_row_ref kv nd k u Hd) by (apply HD; left; reflexivity).
    reflexivity.
  - apply IH. intros k' Hk'. apply HD. right. exact Hk'.
Qed.

(* values, Jacobian columns and Hessian slots of a B-spline function are the sums
   sum_I co[I] prod_k N^(D_k)_{I_k}(u_k) over the Cox-de Boor reference functions *)
Lemma g_val_ref : forall f us c, Forall2 in_dom (kvs f) us ->
  g_val f us c = tp_eval (ref_rows (kvs f) us (zerov (sdim f))) (fun idx => co f idx c).
Proof.
  intros. unfold g_val. rewrite (grid_rows_ref _ _ _ 0%nat); [reflexivity|assumption|].
  intros k Hk. apply in_zerov in Hk. lia.
Qed.
