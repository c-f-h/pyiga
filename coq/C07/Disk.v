(* C07 -- the four boundary curves of geometry.disk (geometry.py:513-538) lie on the circle (over any field). *)
From Coq Require Import Field Ring.
From Verif.C07 Require Import Algebra.

Section Disk.
Variable F : Type.
Variables (f0 f1 : F) (fadd fmul fsub : F -> F -> F) (fopp : F -> F) (fdiv : F -> F -> F) (finv : F -> F).
Hypothesis Fth : field_theory f0 f1 fadd fmul fsub fopp fdiv finv (@eq F).
Add Field Ffield2 : Fth.
Notation "0" := f0.
Notation "1" := f1.
Infix "+" := fadd.
Infix "*" := fmul.
Infix "-" := fsub.
Notation "- x" := (fopp x).
Local Notation tw := (two F f1 fadd).
Local Notation b0 := (B0 F f1 fmul fsub).
Local Notation b1 := (B1 F f1 fadd fmul fsub).
Local Notation b2 := (B2 F fmul).

(* a control net: three rows (x, y, w) of premultiplied coefficients; the curve is bez x / bez w, bez y / bez w *)
Definition row3 := (F * F * F)%type.
Definition net := (row3 * row3 * row3)%type.
Definition bez (p0 p1 p2 t : F) : F := b0 t * p0 + b1 t * p1 + b2 t * p2.
Definition nx (n : net) t := let '((x0, _, _), (x1, _, _), (x2, _, _)) := n in bez x0 x1 x2 t.
Definition ny (n : net) t := let '((_, y0, _), (_, y1, _), (_, y2, _)) := n in bez y0 y1 y2 t.
Definition nw (n : net) t := let '((_, _, w0), (_, _, w1), (_, _, w2)) := n in bez w0 w1 w2 t.

(* gR = circular_arc(pi/2): rows (cos a_k, sin a_k, w_k), half-angle (c, s) *)
Definition net_R (c s : F) : net := ((1, 0, 1), (c, s, c), (c * c - s * s, tw * s * c, 1)).
(* gL.coeffs = flipud(gL.coeffs): control points in reverse order *)
Definition flipud (n : net) : net := let '(r0, r1, r2) := n in (r2, r1, r0).
(* scale(-1): divide by the weights, negate, premultiply again = negate the x, y columns *)
Definition neg (n : net) : net :=
  let f := fun r : row3 => let '(x, y, w) := r in (- x, - y, w) in let '(r0, r1, r2) := n in (f r0, f r1, f r2).
(* rotate_2d(angle) with (cr, sr) = (cos angle, sin angle): R = [[cr, -sr], [sr, cr]] on the control points *)
Definition rot (cr sr : F) (n : net) : net :=
  let f := fun r : row3 => let '(x, y, w) := r in (cr * x - sr * y, sr * x + cr * y, w) in
  let '(r0, r1, r2) := n in (f r0, f r1, f r2).
(* coeffs[:, :, :2] *= r *)
Definition scl (r : F) (n : net) : net :=
  let f := fun q : row3 => let '(x, y, w) := q in (r * x, r * y, w) in let '(r0, r1, r2) := n in (f r0, f r1, f r2).

Definition on_circle (r : F) (n : net) : Prop :=
  forall t, nx n t * nx n t + ny n t * ny n t = (r * nw n t) * (r * nw n t).

Lemma net_R_on_circle : forall c s, c * c + s * s = 1 -> on_circle 1 (net_R c s).
Proof.
  intros c s H t. pose proof (arc3_norm F f0 f1 fadd fmul fsub fopp fdiv finv Fth c s 1 t H) as A.
  unfold seg_x, seg_y, seg_w in A. unfold net_R, nx, ny, nw, bez.
  etransitivity; [|etransitivity; [exact A|]]; ring.
Qed.

Lemma bez_flip : forall p0 p1 p2 t, bez p2 p1 p0 t = bez p0 p1 p2 (1 - t).
Proof. intros. unfold bez, B0, B1, B2, two. ring. Qed.

Lemma flipud_on_circle : forall r n, on_circle r n -> on_circle r (flipud n).
Proof.
  intros r [[[[x0 y0] w0] [[x1 y1] w1]] [[x2 y2] w2]] H t. specialize (H (1 - t)).
  unfold flipud, nx, ny, nw in *.
  rewrite (bez_flip x0 x1 x2 t), (bez_flip y0 y1 y2 t), (bez_flip w0 w1 w2 t). exact H.
Qed.

Lemma neg_on_circle : forall r n, on_circle r n -> on_circle r (neg n).
Proof.
  intros r [[[[x0 y0] w0] [[x1 y1] w1]] [[x2 y2] w2]] H t. specialize (H t).
  unfold neg, nx, ny, nw, bez in *. rewrite <- H. ring.
Qed.

Lemma rot_on_circle : forall cr sr r n, cr * cr + sr * sr = 1 -> on_circle r n -> on_circle r (rot cr sr n).
Proof.
  intros cr sr r [[[[x0 y0] w0] [[x1 y1] w1]] [[x2 y2] w2]] Hr H t. specialize (H t).
  unfold rot, nx, ny, nw, bez in *.
  transitivity ((cr * cr + sr * sr) *
    ((b0 t * x0 + b1 t * x1 + b2 t * x2) * (b0 t * x0 + b1 t * x1 + b2 t * x2) +
     (b0 t * y0 + b1 t * y1 + b2 t * y2) * (b0 t * y0 + b1 t * y1 + b2 t * y2))).
  - ring.
  - rewrite Hr, H. ring.
Qed.

Lemma scl_on_circle : forall r n, on_circle 1 n -> on_circle r (scl r n).
Proof.
  intros r [[[[x0 y0] w0] [[x1 y1] w1]] [[x2 y2] w2]] H t. specialize (H t).
  unfold scl, nx, ny, nw, bez in *.
  transitivity (r * r * ((b0 t * x0 + b1 t * x1 + b2 t * x2) * (b0 t * x0 + b1 t * x1 + b2 t * x2) +
                         (b0 t * y0 + b1 t * y1 + b2 t * y2) * (b0 t * y0 + b1 t * y1 + b2 t * y2))).
  - ring.
  - rewrite H. ring.
Qed.

(* disk(r): gR; gL = scale(-1) of the flipped gR; gB = gR.rotate_2d(-pi/2); gT = gL.rotate_2d(-pi/2); all times r.
   (cr, sr) stands for (cos(-pi/2), sin(-pi/2)), (c, s) for (cos pi/4, sin pi/4); only the unit constraints are used *)
Definition disk_R (c s r : F) := scl r (net_R c s).
Definition disk_L (c s r : F) := scl r (neg (flipud (net_R c s))).
Definition disk_B (c s cr sr r : F) := scl r (rot cr sr (net_R c s)).
Definition disk_T (c s cr sr r : F) := scl r (rot cr sr (neg (flipud (net_R c s)))).

Lemma disk_sides_on_circle : forall c s cr sr r, c * c + s * s = 1 -> cr * cr + sr * sr = 1 ->
  on_circle r (disk_R c s r) /\ on_circle r (disk_L c s r)
  /\ on_circle r (disk_B c s cr sr r) /\ on_circle r (disk_T c s cr sr r).
Proof.
  intros c s cr sr r H Hr. pose proof (net_R_on_circle c s H) as A.
  repeat split; apply scl_on_circle; repeat (first [exact A | apply rot_on_circle; [exact Hr|] | apply neg_on_circle | apply flipud_on_circle]).
Qed.
End Disk.

