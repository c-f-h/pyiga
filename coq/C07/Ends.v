(* C07 -- the B-spline basis of an open knot vector is interpolatory at both ends:
   N_0(a) = 1, N_{n-1}(b) = 1, all other basis functions vanish there, so the collocation row at an
   end acts as a unit row: the hypothesis of boundary_trace_of_unit_row (Proofs.v).  From the end-point
   values of the Cox-de Boor reference (C02/Proofs_single.v), non-negativity and the partition of unity. *)
From Coq Require Import QArith Qcanon List Lia Lqa.
From Verif.lib Require Import Bsp.
From Verif.C02 Require Import Proofs Proofs_ref Proofs_single.
From Verif.C07 Require Import Model Proofs Discharge.
Import ListNotations.
Open Scope Qc_scope.

(* non-negative terms that sum to the value of one of them: the others vanish *)
Lemma sumf_nonneg : forall f n a, (forall i, (a <= i < a + n)%nat -> 0 <= f i) -> 0 <= sumf f a n.
Proof.
  induction n; intros a H; cbn [sumf]; [apply Qcle_refl|].
  assert (A : 0 <= f a) by (apply H; lia).
  assert (B : 0 <= sumf f (S a) n) by (apply IHn; intros; apply H; lia).
  qc2q. lra.
Qed.

Lemma sumf_nonneg_zero : forall f n a, (forall i, (a <= i < a + n)%nat -> 0 <= f i) ->
  sumf f a n = 0 -> forall i, (a <= i < a + n)%nat -> f i = 0.
Proof.
  induction n; intros a H E i Hi; [lia|]. cbn [sumf] in E.
  assert (A : 0 <= f a) by (apply H; lia).
  assert (B : 0 <= sumf f (S a) n) by (apply sumf_nonneg; intros; apply H; lia).
  assert (Ea : f a = 0) by (qc2q; lra).
  assert (Eb : sumf f (S a) n = 0) by (qc2q; lra).
  destruct (Nat.eq_dec i a) as [->|Hne]; [exact Ea|].
  apply (IHn (S a)); [intros; apply H; lia|exact Eb|lia].
Qed.

Lemma unit_of_sum : forall f n j, (j < n)%nat -> (forall i, (i < n)%nat -> 0 <= f i) ->
  sumf f 0 n = 1 -> f j = 1 -> forall i, (i < n)%nat -> i <> j -> f i = 0.
Proof.
  intros f n j Hj Hpos Hsum Hone i Hi Hne.
  replace n with (j + (1 + (n - j - 1)))%nat in Hsum by lia.
  rewrite !sumf_app in Hsum. cbn [sumf Nat.add] in Hsum. rewrite Hone in Hsum.
  assert (A : 0 <= sumf f 0 j) by (apply sumf_nonneg; intros; apply Hpos; lia).
  assert (B : 0 <= sumf f (j + 1) (n - j - 1)) by (apply sumf_nonneg; intros; apply Hpos; lia).
  assert (Ea : sumf f 0 j = 0) by (qc2q; lra).
  assert (Eb : sumf f (j + 1) (n - j - 1) = 0) by (qc2q; lra).
  destruct (Nat.lt_ge_cases i j).
  - apply (sumf_nonneg_zero f j 0); [intros; apply Hpos; lia|exact Ea|lia].
  - apply (sumf_nonneg_zero f (n - j - 1) (j + 1)); [intros; apply Hpos; lia|exact Eb|lia].
Qed.

(* the knots of an open knot vector: the first p+1 and the last p+1 coincide *)
Lemma first_knots : forall kv p m, kv_ok kv p -> (m <= p)%nat -> kn kv m = kn kv 0.
Proof.
  intros kv p m H Hm. pose proof (ok_sorted _ _ H) as Hs. pose proof (ok_len _ _ H) as Hl.
  apply Qcle_antisym.
  - rewrite <- (ok_first _ _ H). apply Hs; lia.
  - apply Hs; lia.
Qed.

Lemma last_knots : forall kv p m, kv_ok kv p -> (length kv - p - 1 <= m < length kv)%nat -> kn kv m = lastk kv.
Proof.
  intros kv p m H Hm. pose proof (ok_sorted _ _ H) as Hs. pose proof (ok_len _ _ H) as Hl.
  unfold lastk. apply Qcle_antisym.
  - apply Hs; lia.
  - rewrite <- (ok_last _ _ H). apply Hs; lia.
Qed.

Lemma N_at_left_end : forall kv p j, kv_ok kv p -> kn kv p < kn kv (S p) -> (j < numdofs kv p)%nat ->
  Nref kv p j (kn kv 0) = if Nat.eqb j 0 then 1 else 0.
Proof.
  intros kv p j H Hlt Hj. pose proof (ok_sorted _ _ H) as Hs. pose proof (ok_len _ _ H) as Hl.
  unfold numdofs in Hj.
  assert (H0 : Nref kv p 0 (kn kv 0) = 1).
  { apply N_left_end.
    - intros m Hm. simpl. apply (first_knots kv p m H Hm).
    - simpl. rewrite <- (first_knots kv p p H (Nat.le_refl p)). replace (p + 1)%nat with (S p) by lia. exact Hlt. }
  destruct (Nat.eqb_spec j 0) as [->|Hne]; [exact H0|].
  apply (unit_of_sum (fun i => Nref kv p i (kn kv 0)) (numdofs kv p) 0); unfold numdofs; try lia.
  - intros i Hi. apply N_nonneg_l; [exact Hs|lia].
  - apply N_partition_of_unity_all_l; [exact H|apply Qcle_refl|apply Hs; lia].
  - exact H0.
Qed.

Lemma N_at_right_end : forall kv p j, kv_ok kv p -> (j < numdofs kv p)%nat ->
  Nref kv p j (lastk kv) = if Nat.eqb j (numdofs kv p - 1) then 1 else 0.
Proof.
  intros kv p j H Hj. pose proof (ok_sorted _ _ H) as Hs. pose proof (ok_len _ _ H) as Hl.
  unfold numdofs in *.
  assert (H1 : Nref kv p (length kv - p - 1 - 1) (lastk kv) = 1).
  { apply N_right_end.
    - replace (length kv - p - 1 - 1)%nat with (length kv - p - 2)%nat by lia.
      rewrite <- (last_knots kv p (length kv - p - 1) H) by lia. apply (ok_last_span _ _ H).
    - intros m Hm. apply (last_knots kv p _ H). lia. }
  destruct (Nat.eqb_spec j (length kv - p - 1 - 1)) as [->|Hne]; [exact H1|].
  apply (unit_of_sum (fun i => Nref kv p i (lastk kv)) (length kv - p - 1) (length kv - p - 1 - 1)); try lia.
  - intros i Hi. apply N_nonneg_l; [exact Hs|lia].
  - apply (N_partition_of_unity_all_l kv p (lastk kv)); [exact H| |apply Qcle_refl].
    unfold lastk. apply Hs; lia.
  - exact H1.
Qed.

(* an open knot vector whose first knot has multiplicity exactly p+1 (open_kv checks both) *)
Definition open_ends (kv : KV) : Prop :=
  kv_ok (fst kv) (snd kv) /\ kn (fst kv) (snd kv) < kn (fst kv) (S (snd kv)).

Definition end_coord (kv : KV) (side : nat) : Qc :=
  if Nat.eqb side 0 then kn (fst kv) 0 else lastk (fst kv).

Lemma end_in_dom : forall kv side, open_ends kv -> in_dom kv (end_coord kv side).
Proof.
  intros [kv p] side [H _]. pose proof (ok_sorted _ _ H) as Hs. pose proof (ok_len _ _ H) as Hl.
  unfold in_dom, end_coord, lastk. cbn [fst snd] in *. split; [exact H|].
  destruct (Nat.eqb side 0); split; try apply Qcle_refl; apply Hs; lia.
Qed.

Lemma end_row_is_unit : forall kv side, open_ends kv ->
  row_equiv (dense_row kv 0 0 (end_coord kv side)) ((if Nat.eqb side 0 then 0 else kv_n kv - 1)%nat, [1]).
Proof.
  intros kv side Ho g. pose proof (end_in_dom kv side Ho) as Hd.
  change (fst (dense_row kv 0 0 (end_coord kv side))) with 0%nat.
  rewrite (dense_row_ref kv 0 0 _ Hd (Nat.le_refl 0)).
  destruct kv as [kv p]. destruct Ho as [H Hlt]. cbn [fst snd dNref] in *. unfold kv_n. cbn [fst snd].
  pose proof (ok_len _ _ H) as Hl.
  set (j0 := (if Nat.eqb side 0 then 0 else numdofs kv p - 1)%nat).
  assert (Hj0 : (j0 < numdofs kv p)%nat) by (unfold j0, numdofs; destruct (Nat.eqb side 0); lia).
  assert (E : forall j, (j < numdofs kv p)%nat ->
                Nref kv p j (end_coord (kv, p) side) = if Nat.eqb j j0 then 1 else 0).
  { intros j Hj. unfold end_coord, j0. cbn [fst]. destruct (Nat.eqb side 0).
    - apply N_at_left_end; assumption.
    - apply N_at_right_end; assumption. }
  apply window_row; cbn [length].
  - lia.
  - intros i Hi. replace (j0 + i)%nat with j0 by lia. rewrite E, Nat.eqb_refl by exact Hj0. destruct i; [reflexivity|lia].
  - intros j Hj Hne. rewrite E by exact Hj. destruct (Nat.eqb_spec j j0); [lia|reflexivity].
Qed.

(* boundary(): coefficient slicing is the trace at either end of an open knot vector *)
Lemma boundary_trace : forall k1 kv k2 co0 m u1 u2 side c,
  length u1 = length k1 -> open_ends kv ->
  let f := mk_bsp (k1 ++ kv :: k2) co0 m in
  g_val (boundary f (length k1) side) (u1 ++ u2) c = g_val f (u1 ++ end_coord kv side :: u2) c.
Proof.
  intros k1 kv k2 co0 m u1 u2 side c L1 Ho f.
  exact (boundary_trace_of_unit_row k1 kv k2 co0 m u1 u2 (end_coord kv side) side c L1 (end_row_is_unit kv side Ho)).
Qed.

(* line_segment(z0, z1, support=(s0, s1)) = Model.b_line: the affine map of [s0, s1] onto [z0, z1] *)
Lemma line_kv_ok : forall s0 s1, s0 < s1 -> kv_ok (fst (line_kv s0 s1)) (snd (line_kv s0 s1)).
Proof.
  intros s0 s1 H. assert (Hle : s0 <= s1) by (apply Qclt_le_weak; exact H).
  constructor; cbn [line_kv fst snd length]; try lia; try reflexivity.
  - intros i j Hij Hj. cbn [length] in Hj.
    destruct i as [|[|[|[|i]]]]; destruct j as [|[|[|[|j]]]]; try lia; cbn [kn nth];
      try apply Qcle_refl; exact Hle.
  - cbn [kn nth Nat.sub]. exact H.
Qed.

Lemma line_in_dom : forall s0 s1 t, s0 < s1 -> s0 <= t -> t <= s1 -> in_dom (line_kv s0 s1) t.
Proof. intros. split; [apply line_kv_ok; assumption|]. split; assumption. Qed.

Lemma line_N1 : forall s0 s1 t, s0 < s1 -> s0 <= t -> t <= s1 ->
  Nref [s0; s0; s1; s1] 1 1 t = (t - s0) / (s1 - s0) /\ Nref [s0; s0; s1; s1] 1 0 t = (s1 - t) / (s1 - s0).
Proof.
  intros s0 s1 t H H0 H1.
  assert (E : Nref [s0; s0; s1; s1] 0 1 t = 1).
  { cbn [Nref]. rewrite in_span_intro; [reflexivity|]. unfold lastk. cbn [kn nth length Nat.sub].
    destruct (Qc_eq_dec t s1) as [->|Hne].
    - right. repeat split; auto.
    - left. split; [exact H0|]. qc2q. lra. }
  rewrite !Nref_S. cbn [kn nth Nat.add]. rewrite E.
  replace (s0 - s0) with 0 by ring. replace (s1 - s1) with 0 by ring. rewrite !Qcdiv_0_r.
  split; ring.
Qed.

Lemma line_segment_value : forall z0 z1 s0 s1 t, s0 < s1 -> s0 <= t -> t <= s1 ->
  call_val (b_line z0 z1 s0 s1) [t] 0 = z0 + (z1 - z0) * ((t - s0) / (s1 - s0)).
Proof.
  intros z0 z1 s0 s1 t H H0 H1. unfold call_val. cbn [rev app].
  rewrite g_val_ref by (constructor; [apply line_in_dom; assumption|constructor]).
  unfold ref_rows, b_line, sdim, zerov, kv_n, numdofs. cbn [kvs co nc length repeat zip3 map line_kv fst snd seq Nat.sub tp_eval rdot dNref nth Nat.eqb].
  destruct (line_N1 s0 s1 t H H0 H1) as [E1 E0]. rewrite E1, E0.
  field. qc2q. lra.
Qed.
