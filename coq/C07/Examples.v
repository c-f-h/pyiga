(* C07 -- non-vacuity: concrete non-trivial inputs meet the hypotheses of the theorems of
   Props.v, and the theorems' conclusions are observed on them by computation (tests, not proofs
   of anything general). *)
From Coq Require Import QArith Qcanon List Lia.
From Verif.lib Require Import Bsp.
From Verif.C02 Require Import Proofs Proofs_ref.
From Verif.C07 Require Import Model Proofs Ends Algebra Disk NurbsOps ArcModel Props.
Import ListNotations.
Open Scope Qc_scope.

Definition qq (n : Z) (d : positive) : Qc := Q2Qc (n # d).
Definition ix_none_or (o : option nat) : option nat := o.

(* a biquadratic-by-linear vector function on [0,1]^2 with an interior knot *)
Definition ex_kv2 : KV := ([0; 0; 0; qq 1 2; 1; 1; 1], 2%nat).
Definition ex_kv1 : KV := ([0; 0; 1; 1], 1%nat).
Definition ex_f : bsp :=
  mk_bsp [ex_kv2; ex_kv1]
         (arr [4; 2]%nat 2 [0; 1; qq 3 1; qq (-1) 2; qq 2 1; qq 5 4; 1; 1;
                            qq 7 2; 0; qq (-2) 1; qq 1 8; qq 4 1; qq 4 1; qq 1 4; qq 3 1]) 2.
Definition ex_xs : list Qc := [qq 1 4; qq 3 4].     (* x = 1/4 (linear axis), y = 3/4 *)

Example ex_open : open_kv (fst ex_kv2) (snd ex_kv2) = true /\ open_kv (fst ex_kv1) (snd ex_kv1) = true.
Proof. split; vm_compute; reflexivity. Qed.

Lemma in_dom_of_bool : forall kv u, open_kv (fst kv) (snd kv) = true ->
  qleb (kn (fst kv) 0) u = true -> qleb u (kn (fst kv) (length (fst kv) - 1)) = true -> in_dom kv u.
Proof.
  intros kv u H A B. split; [apply open_kv_ok_l; exact H|]. split; apply qleb_iff; assumption.
Qed.

(* hypothesis of routes_agree_*, translate_spec, ..., jacobian_is_derivative *)
Example ex_dom : Forall2 in_dom (kvs ex_f) (rev ex_xs).
Proof. constructor; [|constructor; [|constructor]]; apply in_dom_of_bool; vm_compute; reflexivity. Qed.

(* the conclusions, observed: a non-zero value, all three routes equal *)
Example ex_routes :
  pw_val sel_fixed ex_f ex_xs 0 = Some (call_val ex_f ex_xs 0)
  /\ qeqb (call_val ex_f ex_xs 0) (qq 37 16) = true
  /\ pw_jac sel_fixed ex_f ex_xs 1 = Some (g_jac ex_f (rev ex_xs) 1).
Proof.
  split; [exact (routes_agree_val ex_f ex_xs 0 ex_dom)|]. split; [vm_compute; reflexivity|].
  exact (routes_agree_jac ex_f ex_xs 1 ex_dom).
Qed.

Example ex_pou : pou_at (kvs ex_f) (rev ex_xs).
Proof. exact (rows_partition_of_unity _ _ ex_dom). Qed.

(* the hypothesis of boundary_trace_of_unit_row (Proofs.v), observed: the collocation row at the left end is the unit row *)
Example ex_hend : row_equiv (dense_row ex_kv2 0 0 0) (0%nat, [1]).
Proof.
  assert (E : snd (dense_row ex_kv2 0 0 0) = [1; 0; 0; 0]).
  { vm_compute. repeat (apply f_equal2; [apply Qc_is_canon; reflexivity|]). reflexivity. }
  intros g. change (fst (dense_row ex_kv2 0 0 0)) with 0%nat. rewrite E. cbn [fst snd rdot]. ring.
Qed.

Example ex_hend_right : row_equiv (dense_row ex_kv2 0 0 1) ((kv_n ex_kv2 - 1)%nat, [1]).
Proof.
  assert (E : snd (dense_row ex_kv2 0 0 1) = [0; 0; 0; 1]).
  { vm_compute. repeat (apply f_equal2; [apply Qc_is_canon; reflexivity|]). reflexivity. }
  intros g. change (fst (dense_row ex_kv2 0 0 1)) with 0%nat. rewrite E.
  change (kv_n ex_kv2 - 1)%nat with 3%nat. cbn [fst snd rdot]. ring.
Qed.

(* open_ends: hypothesis of boundary_is_trace / nurbs_boundary_is_trace / support_restriction_spec *)
Example ex_open_ends : open_ends ex_kv2 /\ open_ends ex_kv1.
Proof.
  split; (split; [apply open_kv_ok_l; vm_compute; reflexivity|apply qltb_iff; vm_compute; reflexivity]).
Qed.

(* boundary_is_trace applied: the 'bottom' (axis 0, side 0) and 'right' (axis 1, side 1) sides of ex_f *)
Example ex_boundary : forall u c,
  g_val (boundary ex_f 0 0) [u] c = g_val ex_f [0; u] c
  /\ g_val (boundary ex_f 1 1) [u] c = g_val ex_f [u; 1] c.
Proof.
  intros u c. split.
  - exact (boundary_is_trace [] ex_kv2 [ex_kv1] (co ex_f) 2%nat [] [u] 0%nat c eq_refl eq_refl (proj1 ex_open_ends)).
  - exact (boundary_is_trace [ex_kv2] ex_kv1 [] (co ex_f) 2%nat [u] [] 1%nat c eq_refl eq_refl (proj2 ex_open_ends)).
Qed.

(* support restricted to [1/4, 3/4] x [1/4, 1/2]: boundary('top') (axis 0, side 1) is f at y = 3/4 *)
Example ex_restricted : forall u c,
  let ov := Some [(qq 1 4, qq 3 4); (qq 1 4, qq 1 2)] in
  r_boundary_val ov ex_f 0 1 [u] c = g_val ex_f [qq 3 4; u] c.
Proof.
  intros u c ov.
  exact (proj2 (support_restriction_spec ov [] ex_kv2 [ex_kv1] (co ex_f) 2%nat [] [u] 1%nat c eq_refl eq_refl
                 (fun E => match E in (_ = o) return match o with Some _ => True | None => open_ends ex_kv2 end with eq_refl => I end))).
Qed.

(* cylinderize: hypotheses met, the new component is the affine map of the new coordinate *)
Example ex_cylinderize :
  qeqb (call_val (b_cylinderize ex_f (qq 1 1) (qq 3 1) (qq 1 2) (qq 3 2)) (ex_xs ++ [qq 1 1]) 2) (qq 2 1) = true
  /\ call_val (b_cylinderize ex_f (qq 1 1) (qq 3 1) (qq 1 2) (qq 3 2)) (ex_xs ++ [qq 1 1]) 0 = call_val ex_f ex_xs 0.
Proof.
  split; [vm_compute; reflexivity|].
  rewrite (cylinderize_spec ex_f (qq 1 1) (qq 3 1) (qq 1 2) (qq 3 2) ex_xs (qq 1 1) 0); [reflexivity| | | |exact ex_dom];
    apply qleb_iff || apply qltb_iff; vm_compute; reflexivity.
Qed.

(* ComposedFunction: geo2 = a bilinear scalar function on [0,4]^2 (contains the image of ex_f), geo1 = ex_f *)
Definition ex_kv04 : KV := ([0; 0; qq 4 1; qq 4 1], 1%nat).
Definition ex_g2 : bsp := mk_bsp [ex_kv04; ex_kv04] (arr [2; 2]%nat 1 [0; 1; qq 2 1; qq 5 1]) 1.
Example ex_composed_dom : Forall2 in_dom (kvs ex_g2) (rev (comp_point ex_f (rev ex_xs))).
Proof. constructor; [|constructor; [|constructor]]; apply in_dom_of_bool; vm_compute; reflexivity. Qed.
Example ex_composed : comp_val ex_g2 ex_f (rev ex_xs) 0 = Some (call_val ex_g2 (comp_point ex_f (rev ex_xs)) 0).
Proof. exact (proj1 (composed_routes ex_g2 ex_f (rev ex_xs) 0 ex_composed_dom)). Qed.

(* a NURBS function with positive weights: hypotheses of nurbs_translate_spec / nurbs_is_quotient *)
Definition ex_n : bsp :=
  mk_nurbs [ex_kv1; ex_kv1] (arr [2; 2]%nat 2 [0; 1; qq 3 1; 1; qq 1 2; qq 2 1; qq 5 2; qq 7 2])
           (arr0 [2; 2]%nat [1; qq 1 2; qq 2 1; qq 3 2]) 2.
Example ex_weight_nonzero : g_val ex_n [qq 1 3; qq 1 5] (wcomp ex_n) <> 0.
Proof. intro E. apply Qc_eq_Qeq in E. vm_compute in E. discriminate E. Qed.
Example ex_quotient_rule :
  let V := g_val ex_n [qq 1 3; qq 1 5] 0 in let W := g_val ex_n [qq 1 3; qq 1 5] 2 in
  qeqb (nth 0 (n_jac ex_n [qq 1 3; qq 1 5] 0) 0 * W + (V / W) * nth 0 (g_jac ex_n [qq 1 3; qq 1 5] 2) 0)
       (nth 0 (g_jac ex_n [qq 1 3; qq 1 5] 0) 0) = true.
Proof. vm_compute. reflexivity. Qed.

(* the indexing XY[1-d] (sel_asis): sdim 3 gives another value, sdim 1 raises *)
Example ex_asis : pw_val sel_asis f_wit xs_wit 0 <> pw_val sel_fixed f_wit xs_wit 0
                  /\ pw_val sel_asis (mk_bsp [ex_kv1] (arr [2]%nat 1 [0; 1]) 1) [qq 1 2] 0 = None.
Proof. split; [|reflexivity]. vm_compute. intro E. discriminate E. Qed.

(* Hessian slots for sdim = 2, 3 *)
Example ex_hess_order :
  map (fun ij => (2 - 1 - fst ij, 2 - 1 - snd ij)%nat) (hess_pairs 2) = [(0, 0); (0, 1); (1, 1)]%nat
  /\ map (fun ij => (3 - 1 - fst ij, 3 - 1 - snd ij)%nat) (hess_pairs 3)
     = [(0, 0); (0, 1); (0, 2); (1, 1); (1, 2); (2, 2)]%nat.
Proof. split; reflexivity. Qed.

(* circular arcs: the field hypotheses are met by Qc with the rational angle (4/5, 3/5), and
   the Bezier-segment form of Algebra.v is what the B-spline basis of circular_arc_7pt's knot
   vector yields: control directions by angle addition, weights (1,c,1,c,1,c,1), radius 2 *)
Definition cc : Qc := qq 4 5.
Definition ss : Qc := qq 3 5.
Example ex_unit : cc * cc + ss * ss = 1.
Proof. apply Qc_is_canon. vm_compute. reflexivity. Qed.

Example ex_arc3_Qc : forall r t,
  seg_x Qc 1 Qcplus Qcmult Qcminus 1 0 cc ss r t * seg_x Qc 1 Qcplus Qcmult Qcminus 1 0 cc ss r t
  + seg_y Qc 1 Qcplus Qcmult Qcminus 1 0 cc ss r t * seg_y Qc 1 Qcplus Qcmult Qcminus 1 0 cc ss r t
  = (r * seg_w Qc 1 Qcplus Qcmult Qcminus cc t) * (r * seg_w Qc 1 Qcplus Qcmult Qcminus cc t).
Proof. intros. exact (arc3_on_circle Qc 0 1 Qcplus Qcmult Qcminus Qcopp Qcdiv Qcinv Qcft cc ss r t ex_unit). Qed.

Fixpoint dirs (n : nat) (Cd Sd : Qc) : list (Qc * Qc) :=
  match n with O => [] | S n' => (Cd, Sd) :: dirs n' (Cd * cc - Sd * ss) (Sd * cc + Cd * ss) end.
Definition arc7_kv : KV := ([0; 0; 0; qq 1 3; qq 1 3; qq 2 3; qq 2 3; 1; 1; 1], 2%nat).
Definition arc7 : bsp :=
  let r := qq 2 1 in
  let flat := flat_map (fun kd => let '(k, (Cd, Sd)) := kd in [r * Cd; r * Sd; if Nat.even k then 1 else cc])
                       (combine (seq 0 7) (dirs 7 1 0)) in
  mk_bsp [arc7_kv] (arr [7]%nat 3 flat) 3.
Example ex_arc7_on_circle :
  forallb (fun t => qeqb (n_val arc7 [t] 0 * n_val arc7 [t] 0 + n_val arc7 [t] 1 * n_val arc7 [t] 1) (qq 4 1))
          [0; qq 1 5; qq 1 3; qq 1 2; qq 7 10; qq 9 10; 1] = true.
Proof. vm_compute. reflexivity. Qed.

(* Python index semantics of __getitem__ on an axis of length 3 / 4 *)
Example ex_py_index :
  py_wrap 3 (-1) = Some 2%nat /\ py_wrap 3 (-3) = Some 0%nat /\ py_wrap 3 3 = None /\ py_wrap 3 (-4) = None
  /\ py_slice 3 (Some 1%Z) None 1 = [1; 2]%nat /\ py_slice 3 None None (-1) = [2; 1; 0]%nat
  /\ py_slice 4 (Some (-3)%Z) (Some (-1)%Z) 1 = [1; 2]%nat /\ py_slice 4 None (Some 0%Z) (-2) = [3; 1]%nat
  /\ py_slice 4 (Some 10%Z) (Some (-10)%Z) (-3) = [3; 0]%nat /\ py_slice 3 (Some 2%Z) (Some 1%Z) 1 = []
  /\ py_list 3 [2; -3; -1]%Z = Some [2; 0; 2]%nat /\ sel_comps 2 3 [2; 0]%nat = [2; 0; 5; 3]%nat.
Proof. repeat split; reflexivity. Qed.
(* G[-1] of the NURBS example is its last numerator component, not the weight *)
Example ex_nurbs_getitem_last :
  match ix_none_or (py_wrap 2 (-1)) with
  | Some k => qeqb (n_val (n_select ex_n [k]) [qq 1 3; qq 1 5] 0) (n_val ex_n [qq 1 3; qq 1 5] 1)
  | None => false end = true.
Proof. vm_compute. reflexivity. Qed.

(* nurbs_hessian_is_derivative: hypotheses met by ex_n (sdim 2, slot 1 = xy), conclusion observed *)
Example ex_nurbs_hess_slot : nth 1 (triu (sdim ex_n)) (0, 0)%nat = (0, 1)%nat /\ (1 < length (triu (sdim ex_n)))%nat.
Proof. split; [reflexivity|vm_compute; repeat constructor]. Qed.
Example ex_triu3 : triu 3 = [(0, 0); (0, 1); (0, 2); (1, 1); (1, 2); (2, 2)]%nat.
Proof. reflexivity. Qed.

(* disk: the unit constraints are met in Qc by (4/5, 3/5) and by the exact rotation (0, -1) *)
Example ex_disk_Qc : forall r,
  on_circle Qc 1 Qcplus Qcmult Qcminus r (disk_T Qc 0 1 Qcplus Qcmult Qcminus Qcopp cc ss 0 (- (1)) r).
Proof.
  intros r.
  refine (proj2 (proj2 (proj2 (disk_boundary_on_circle Qc 0 1 Qcplus Qcmult Qcminus Qcopp Qcdiv Qcinv Qcft cc ss 0 (- (1)) r ex_unit _)))).
  ring.
Qed.

(* basis_interpolatory_at_ends observed on ex_kv2 *)
Example ex_ends : map (fun j => Nref (fst ex_kv2) 2 j 0) (seq 0 4) = map (fun j => if Nat.eqb j 0 then 1 else 0) (seq 0 4).
Proof.
  apply map_ext_in. intros j Hj. apply in_seq in Hj.
  apply (proj1 (basis_interpolatory_at_ends (fst ex_kv2) 2 j (proj1 (proj1 ex_open_ends)) ltac:(unfold numdofs; simpl; lia))).
  exact (proj2 (proj1 ex_open_ends)).
Qed.

(* NURBS branches of the operations: a NURBS function whose weights are non-zero for EVERY index
   (constant weight 2, numerator of ex_f), the hypotheses of nurbs_apply_matrix_spec / nurbs_outer_*_spec *)
Definition ex_nw : bsp :=
  mk_bsp (kvs ex_f) (fun idx c => if Nat.eqb c 2 then qq 2 1 else co ex_f idx c) 3.
Example ex_nw_weights : (forall idx, co ex_nw idx (wcomp ex_nw) <> 0)
                        /\ g_val ex_nw (rev ex_xs) (wcomp ex_nw) <> 0 /\ wcomp ex_nw = 2%nat.
Proof.
  split; [|split; [|reflexivity]].
  - intros idx E. apply Qc_eq_Qeq in E. vm_compute in E. discriminate E.
  - intro E. apply Qc_eq_Qeq in E. vm_compute in E. discriminate E.
Qed.
Example ex_nurbs_rotate :
  n_val (n_rotate ex_nw cc ss) (rev ex_xs) 0 = cc * n_val ex_nw (rev ex_xs) 0 - ss * n_val ex_nw (rev ex_xs) 1.
Proof.
  exact (proj1 (nurbs_rotate_spec ex_nw cc ss (rev ex_xs) (proj2 (proj2 ex_nw_weights))
                 (proj1 ex_nw_weights) (proj1 (proj2 ex_nw_weights)))).
Qed.
Example ex_nurbs_outer_sum :
  n_val (n_outer_sum ex_nw ex_nw) (rev ex_xs ++ rev ex_xs) 1 = n_val ex_nw (rev ex_xs) 1 + n_val ex_nw (rev ex_xs) 1.
Proof.
  exact (nurbs_outer_sum_spec ex_nw ex_nw (rev ex_xs) (rev ex_xs) eq_refl (proj1 ex_nw_weights) (proj1 ex_nw_weights)
           (proj1 (proj2 ex_nw_weights)) (proj1 (proj2 ex_nw_weights)) 1%nat ltac:(vm_compute; repeat constructor)).
Qed.
Example ex_rotate_isometry :
  g_val (b_rotate ex_f cc ss) (rev ex_xs) 0 * g_val (b_rotate ex_f cc ss) (rev ex_xs) 0
  + g_val (b_rotate ex_f cc ss) (rev ex_xs) 1 * g_val (b_rotate ex_f cc ss) (rev ex_xs) 1
  = g_val ex_f (rev ex_xs) 0 * g_val ex_f (rev ex_xs) 0 + g_val ex_f (rev ex_xs) 1 * g_val ex_f (rev ex_xs) 1.
Proof. exact (rotate_isometry ex_f cc ss (rev ex_xs) eq_refl ex_unit). Qed.

(* the arc constructors on the model with the rational angle (4/5, 3/5): hypotheses met, the weight is non-zero
   and the quotient lies on the circle (observed by computation at a point of every span) *)
Example ex_arc_models : forall t, 0 <= t -> t <= 1 ->
  (let X := g_val (arc5_fn cc ss (qq 3 1)) [t] 0 in let Y := g_val (arc5_fn cc ss (qq 3 1)) [t] 1 in
   let W := g_val (arc5_fn cc ss (qq 3 1)) [t] 2 in X * X + Y * Y = (qq 3 1 * W) * (qq 3 1 * W))
  /\ (let X := g_val (arc7_fn cc ss (qq 3 1)) [t] 0 in let Y := g_val (arc7_fn cc ss (qq 3 1)) [t] 1 in
      let W := g_val (arc7_fn cc ss (qq 3 1)) [t] 2 in X * X + Y * Y = (qq 3 1 * W) * (qq 3 1 * W)).
Proof.
  intros t H0 H1. split.
  - exact (arc5_model_on_circle cc ss (qq 3 1) t ex_unit H0 H1).
  - exact (arc7_model_on_circle cc ss (qq 3 1) t ex_unit H0 H1).
Qed.
Example ex_arc_models_observed :
  forallb (fun t => qeqb (n_val (arc7_fn cc ss (qq 3 1)) [t] 0 * n_val (arc7_fn cc ss (qq 3 1)) [t] 0
                          + n_val (arc7_fn cc ss (qq 3 1)) [t] 1 * n_val (arc7_fn cc ss (qq 3 1)) [t] 1) (qq 9 1)
                    && qeqb (n_val (arc5_fn cc ss (qq 3 1)) [t] 0 * n_val (arc5_fn cc ss (qq 3 1)) [t] 0
                             + n_val (arc5_fn cc ss (qq 3 1)) [t] 1 * n_val (arc5_fn cc ss (qq 3 1)) [t] 1) (qq 9 1)
                    && qeqb (n_val (arc3_fn cc ss (qq 3 1)) [t] 0 * n_val (arc3_fn cc ss (qq 3 1)) [t] 0
                             + n_val (arc3_fn cc ss (qq 3 1)) [t] 1 * n_val (arc3_fn cc ss (qq 3 1)) [t] 1) (qq 9 1))
          [0; qq 1 7; qq 1 3; qq 1 2; qq 3 5; qq 2 3; qq 9 10; 1] = true.
Proof. vm_compute. reflexivity. Qed.
