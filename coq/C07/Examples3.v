(* C07 -- non-vacuity for Props3.v: a per-control-point family that is NOT constant gives a different
   function than any of its members applied as a single matrix. *)
From Coq Require Import QArith Qcanon List.
From Verif.C07 Require Import Model Check ArgForms.
Import ListNotations.
Open Scope Qc_scope.

Definition f_ex : bsp := mk_bsp [([q 0 1; q 0 1; q 1 1; q 1 1], 1%nat)] (arr [2%nat] 2%nat [q 1 1; q 2 1; q 3 1; q 5 1]) 2%nat.
(* A[0] = [[1,0],[0,1]], A[1] = [[0,2],[1,1]] *)
Definition A_ex := arrA [2%nat] 2%nat 2%nat [q 1 1; q 0 1; q 0 1; q 1 1; q 0 1; q 2 1; q 1 1; q 1 1].

Example pc_coeffs : flatten (b_matrix_pc f_ex A_ex 2%nat) = [q 1 1; q 2 1; q 10 1; q 8 1].
Proof. vm_compute. reflexivity. Qed.
Example pc_differs_from_single :
  flatten (b_matrix_pc f_ex (fun _ => A_ex [1%nat]) 2%nat) = [q 4 1; q 3 1; q 10 1; q 8 1].
Proof. vm_compute. reflexivity. Qed.
(* broadcast over a size-1 axis and a single matrix *)
Example bc_one : bc_idx [1%nat; 3%nat] [4%nat; 2%nat] = [0%nat; 2%nat]. Proof. reflexivity. Qed.
Example bc_drop : bc_idx [3%nat] [4%nat; 2%nat] = [2%nat]. Proof. reflexivity. Qed.
Example n_pc_coeffs :
  flatten (n_matrix_pc (mk_nurbs (kvs f_ex) (co f_ex) (arr0 [2%nat] [q 2 1; q 4 1]) 2%nat) A_ex 2%nat)
  = [q 2 1; q 4 1; q 2 1; q 40 1; q 32 1; q 4 1].
Proof. vm_compute. reflexivity. Qed.
