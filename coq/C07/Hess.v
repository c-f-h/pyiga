(* C07 -- NurbsFunc.grid_hessian, slot by slot: slot k of the result belongs to the pair
   (a, b) = triu_indices(sdim)[k] of xyz directions, it is built from slot k of the B-spline
   Hessians (which is the (a, b) second derivative, hessian_order) and from columns a, b of the
   Jacobians (which are the a / b first derivatives, jacobian_slot_order), and it satisfies the
   second-order Leibniz rule of  V = N W  in exactly these directions. *)
From Coq Require Import Qcanon List Lia.
From Verif.lib Require Import ListFacts.
From Verif.C07 Require Import Model Proofs.
Import ListNotations.
Open Scope Qc_scope.

Lemma g_jac_length : forall f us c, length (g_jac f us c) = sdim f.
Proof. intros. unfold g_jac. rewrite map_length, rev_length, seq_length. reflexivity. Qed.

Lemma g_hess_length : forall f us c, length (g_hess f us c) = length (hess_pairs (sdim f)).
Proof. intros. unfold g_hess. apply map_length. Qed.

Lemma triu_length : forall d, length (triu d) = length (hess_pairs d).
Proof. intros. rewrite <- hess_pairs_triu, map_length. reflexivity. Qed.

Lemma nth_nurbs_jac : forall V W Vj Wj a, (a < length Vj)%nat -> length Vj = length Wj ->
  nth a (nurbs_jac V W Vj Wj) 0 = nurbs_jac_entry V W (nth a Vj 0) (nth a Wj 0).
Proof.
  intros V W Vj Wj a Ha Hl. unfold nurbs_jac.
  rewrite (nth_map_lt _ _ _ 0 (0, 0)) by (rewrite combine_length; lia).
  rewrite combine_nth by exact Hl. reflexivity.
Qed.

Lemma in_hess_pairs : forall d i j, In (i, j) (hess_pairs d) -> (i < d)%nat /\ (j <= i)%nat.
Proof.
  intros d i j H. unfold hess_pairs in H. apply in_flat_map in H. destruct H as [i' [Hi H]].
  apply in_map_iff in H. destruct H as [j' [E Hj]]. inversion E; subst.
  apply in_rev in Hi. apply in_rev in Hj. apply in_seq in Hi. apply in_seq in Hj. lia.
Qed.

Lemma in_triu : forall d a b, In (a, b) (triu d) -> (a <= b)%nat /\ (b < d)%nat.
Proof.
  intros d a b H. unfold triu in H. apply in_flat_map in H. destruct H as [a' [Ha H]].
  apply in_map_iff in H. destruct H as [b' [E Hb]]. inversion E; subst.
  apply in_seq in Ha. apply in_seq in Hb. lia.
Qed.

(* slot k: pair (a, b) of triu in xyz directions = pair (d-1-a, d-1-b) of knot-vector axes in hess_pairs *)
Lemma slot_pairs : forall d k a b, (k < length (triu d))%nat -> nth k (triu d) (0, 0)%nat = (a, b) ->
  (a <= b)%nat /\ (b < d)%nat /\ nth k (hess_pairs d) (0, 0)%nat = ((d - 1 - a)%nat, (d - 1 - b)%nat).
Proof.
  intros d k a b Hk E. rewrite triu_length in Hk.
  rewrite <- hess_pairs_triu, (nth_map_lt _ _ _ _ (0, 0)%nat) in E by exact Hk.
  destruct (nth k (hess_pairs d) (0, 0)%nat) as [i j] eqn:Eij.
  destruct (in_hess_pairs d i j) as [Hi Hj]; [rewrite <- Eij; apply nth_In; exact Hk|].
  cbn [fst snd] in E. injection E as <- <-. repeat split; try lia. f_equal; lia.
Qed.

Lemma nth_n_hess : forall f us c k, (k < length (triu (sdim f)))%nat ->
  nth k (n_hess f us c) 0 =
  let ab := nth k (triu (sdim f)) (0, 0)%nat in
  let V := g_val f us c in let W := g_val f us (wcomp f) in
  let Wj := g_jac f us (wcomp f) in let Nj := nurbs_jac V W (g_jac f us c) Wj in
  nurbs_hess_entry V W (nth k (g_hess f us c) 0) (nth k (g_hess f us (wcomp f)) 0)
                   (nth (fst ab) Nj 0) (nth (snd ab) Nj 0) (nth (fst ab) Wj 0) (nth (snd ab) Wj 0).
Proof.
  intros f us c k Hk. unfold n_hess. cbv zeta.
  set (G := fun t : nat * (nat * nat) => let '(k0, (a, b)) := t in _).
  rewrite (nth_map_lt G _ _ 0 (0, (0, 0))%nat) by (rewrite combine_length, seq_length; lia).
  rewrite combine_nth by (rewrite seq_length; reflexivity).
  rewrite seq_nth by exact Hk. cbn [Nat.add]. unfold G.
  destruct (nth k (triu (sdim f)) (0, 0)%nat) as [a b]. reflexivity.
Qed.

Lemma nth_g_hess : forall f us c k, (k < length (hess_pairs (sdim f)))%nat ->
  nth k (g_hess f us c) 0 =
  let ij := nth k (hess_pairs (sdim f)) (0, 0)%nat in
  g_dir f 2 us (bump (bump (zerov (sdim f)) (fst ij)) (snd ij)) c.
Proof.
  intros f us c k Hk. unfold g_hess. cbv zeta.
  rewrite (nth_map_lt _ _ _ 0 (0, 0)%nat) by exact Hk. reflexivity.
Qed.

