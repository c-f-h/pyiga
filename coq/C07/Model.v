(* C07 -- executable model (exact rationals, Qc) of pyiga's geometry maps:
   tensor-product spline / NURBS functions, their evaluation routes
   (tensor grid, single point, scattered points), Jacobians, Hessians,
   boundary extraction and the coefficient-level geometry operations.
   Definitions only (no proofs).  The 1D kernels come from coq/lib/Bsp.v.

   Source (cited per definition):  pyiga/bspline.py, pyiga/geometry.py, pyiga/utils.py.

   Conventions.  A coefficient array of shape N_0 x ... x N_{d-1} x (trailing) is a
   function  co : list nat -> nat -> Qc  (multi-index over the d spline axes,
   flattened trailing index).  Knot vectors / grid axes are in the code's
   axis order (kvs[0] is the slowest = "z-most" axis, kvs[d-1] is x);
   point coordinates handed to __call__ / pointwise_* are in xyz order. *)
From Coq Require Import QArith Qcanon Qcabs ZArith List Arith Bool Lia.
From Verif.lib Require Import Bsp.
Import ListNotations.
Open Scope Qc_scope.

(* ------------------------------------------------------------------ *)
(* weighted sums                                                       *)

(* sum_r row[r] * f (off + r): one row of a collocation matrix applied along one axis;
   off = 0 for a dense row, off = index of the first active function for the
   (index, p+1 values) form of collocation_info *)
Fixpoint rdot (off : nat) (row : list Qc) (f : nat -> Qc) : Qc :=
  match row with
  | [] => 0
  | a :: r => a * f off + rdot (S off) r f
  end.

Definition orow := (nat * list Qc)%type.

(* Y = sum_J prod_k A_k[j_k] X[J]  (tensor.py:106-137 apply_tprod, documented contract;
   np.einsum('i,j,k,ijk...') of bspline.py:488) *)
Fixpoint tp_eval (rows : list orow) (C : list nat -> Qc) : Qc :=
  match rows with
  | [] => C []
  | (off, r) :: rs => rdot off r (fun i => tp_eval rs (fun idx => C (i :: idx)))
  end.

(* ------------------------------------------------------------------ *)
(* collocation rows                                                    *)

Definition KV := (list Qc * nat)%type.           (* knots, degree *)
Definition kv_n (kv : KV) : nat := numdofs (fst kv) (snd kv).

(* row k of active_deriv(kv, u, nd): the p+1 active (derivative) values *)
Definition act_row (kv : KV) (nd k : nat) (u : Qc) : list Qc :=
  nth k (active_deriv (fst kv) (snd kv) u nd) [].

(* collocation_info / collocation_derivs_info (bspline.py:626-639, 661-672) *)
Definition win_row (kv : KV) (nd k : nat) (u : Qc) : orow :=
  (first_active_at (fst kv) (snd kv) u, act_row kv nd k u).

(* row of collocation / collocation_derivs (bspline.py:603-624, 641-659): the same
   values scattered into a row of length numdofs at columns first..first+p *)
Definition dense_row (kv : KV) (nd k : nat) (u : Qc) : orow :=
  let fa := first_active_at (fst kv) (snd kv) u in
  let vals := act_row kv nd k u in
  (0%nat, map (fun j => if ((fa <=? j) && (j <=? fa + snd kv))%nat then nth (j - fa) vals 0 else 0)
              (seq 0 (kv_n kv))).

Definition zerov (n : nat) : list nat := repeat 0%nat n.
Definition bump (D : list nat) (i : nat) : list nat :=
  map (fun jk => if Nat.eqb (fst jk) i then S (snd jk) else snd jk) (combine (seq 0 (length D)) D).
Definition unitv (n i : nat) : list nat := bump (zerov n) i.

Fixpoint zip3 {A B C} (a : list A) (b : list B) (c : list C) : list (A * B * C) :=
  match a, b, c with
  | x :: a', y :: b', z :: c' => (x, y, z) :: zip3 a' b' c'
  | _, _, _ => []
  end.

(* rows for a grid point us (code axis order), derivative orders D per axis *)
Definition grid_rows (kvs : list KV) (us : list Qc) (nd : nat) (D : list nat) : list orow :=
  map (fun t => let '(kv, u, k) := t in dense_row kv nd k u) (zip3 kvs us D).
Definition win_rows (kvs : list KV) (us : list Qc) (nd : nat) (D : list nat) : list orow :=
  map (fun t => let '(kv, u, k) := t in win_row kv nd k u) (zip3 kvs us D).

(* ------------------------------------------------------------------ *)
(* BSplineFunc                                                         *)

Record bsp := mk_bsp { kvs : list KV; co : list nat -> nat -> Qc; nc : nat }.
Definition sdim (f : bsp) : nat := length (kvs f).

(* grid_eval at one grid point (bspline.py:886-907) *)
Definition g_val (f : bsp) (us : list Qc) (c : nat) : Qc :=
  tp_eval (grid_rows (kvs f) us 0 (zerov (sdim f))) (fun idx => co f idx c).

(* grid_jacobian (bspline.py:925-934): for i in reversed(range(sdim)) ... stack(axis=-1) *)
Definition g_dir (f : bsp) (nd : nat) (us : list Qc) (D : list nat) (c : nat) : Qc :=
  tp_eval (grid_rows (kvs f) us nd D) (fun idx => co f idx c).
Definition g_jac (f : bsp) (us : list Qc) (c : nat) : list Qc :=
  map (fun i => g_dir f 1 us (unitv (sdim f) i) c) (rev (seq 0 (sdim f))).

(* grid_hessian (bspline.py:962-992): for i in reversed(range(sdim)): for j in reversed(range(i+1)) *)
Definition hess_pairs (d : nat) : list (nat * nat) :=
  flat_map (fun i => map (fun j => (i, j)) (rev (seq 0 (S i)))) (rev (seq 0 d)).
Definition g_hess (f : bsp) (us : list Qc) (c : nat) : list Qc :=
  map (fun ij => g_dir f 2 us (bump (bump (zerov (sdim f)) (fst ij)) (snd ij)) c) (hess_pairs (sdim f)).

(* _BaseSplineFunc.eval (bspline.py:813-830): coords = reversed(x); grid_eval on the
   one-point grid; squeeze of the singleton axes (shape only) *)
Definition call_val (f : bsp) (xs : list Qc) (c : nat) : Qc := g_val f (rev xs) c.

(* ---- scattered points (bspline.py:448-599) ------------------------- *)

(* Python tuple indexing with negative wrap-around; None = IndexError *)
Definition py_nth {A} (l : list A) (i : Z) : option A :=
  let n := Z.of_nat (length l) in
  if ((0 <=? i) && (i <? n))%Z then nth_error l (Z.to_nat i)
  else if ((- n <=? i) && (i <? 0))%Z then nth_error l (Z.to_nat (n + i)) else None.

(* the coordinate handed to kvs[d]:
   sel_fixed:  XY[sdim-1-d]   (bspline.py:469,515,564)
   sel_asis:   XY[1-d], what pyiga had there before fixes/C07-pointwise-axis-order.patch (d4028bf) *)
Definition sel_asis (xs : list Qc) (d : nat) : option Qc := py_nth xs (1 - Z.of_nat d)%Z.
Definition sel_fixed (xs : list Qc) (d : nat) : option Qc := nth_error xs (length xs - 1 - d).

Fixpoint opt_all {A} (l : list (option A)) : option (list A) :=
  match l with
  | [] => Some []
  | None :: _ => None
  | Some a :: t => match opt_all t with Some r => Some (a :: r) | None => None end
  end.

Definition pw_coords (sel : list Qc -> nat -> option Qc) (xs : list Qc) : option (list Qc) :=
  opt_all (map (sel xs) (seq 0 (length xs))).

(* tp_bsp_eval_pointwise (bspline.py:465-491): coefficient window coeffs[Is:Is+p+1] contracted
   with the p+1 active values per axis *)
Definition pw_val_at (f : bsp) (us : list Qc) (nd : nat) (c : nat) : Qc :=
  tp_eval (win_rows (kvs f) us nd (zerov (sdim f))) (fun idx => co f idx c).
Definition pw_val (sel : list Qc -> nat -> option Qc) (f : bsp) (xs : list Qc) (c : nat) : option Qc :=
  match pw_coords sel xs with Some us => Some (pw_val_at f us 0 c) | None => None end.

(* tp_bsp_jac_pointwise (bspline.py:527-540): result[k, ..., sdim-i-1] = vals for i in range(sdim)
   (slot written with an Ellipsis in the repaired code, fixes/C07-pointwise-jacobian-slot.patch) *)
Definition pw_jac_at (f : bsp) (us : list Qc) (c : nat) : list Qc :=
  let d := sdim f in
  fold_left (fun acc i => upd acc (d - i - 1)
                (tp_eval (win_rows (kvs f) us 1 (unitv d i)) (fun idx => co f idx c)))
            (seq 0 d) (repeat 0 d).
Definition pw_jac (sel : list Qc -> nat -> option Qc) (f : bsp) (xs : list Qc) (c : nat) : option (list Qc) :=
  match pw_coords sel xs with Some us => Some (pw_jac_at f us c) | None => None end.

(* ------------------------------------------------------------------ *)
(* NurbsFunc (geometry.py:27-294): a bsp with nc = m+1 components, the last one the weight *)

(* constructor with separate weights, premultiplied=False (geometry.py:77-90) *)
Definition mk_nurbs (kv : list KV) (C : list nat -> nat -> Qc) (W : list nat -> Qc) (m : nat) : bsp :=
  mk_bsp kv (fun idx c => if (c <? m)%nat then C idx c * W idx else W idx) (S m).
Definition wcomp (f : bsp) : nat := (nc f - 1)%nat.

(* grid_eval (geometry.py:102-114), pointwise_eval (:163-167) *)
Definition n_val (f : bsp) (us : list Qc) (c : nat) : Qc := g_val f us c / g_val f us (wcomp f).
Definition n_call (f : bsp) (xs : list Qc) (c : nat) : Qc := n_val f (rev xs) c.
Definition n_pw_val (sel : list Qc -> nat -> option Qc) (f : bsp) (xs : list Qc) (c : nat) : option Qc :=
  match pw_coords sel xs with
  | Some us => Some (pw_val_at f us 0 c / pw_val_at f us 0 (wcomp f))
  | None => None end.

(* _nurbs_jacobian (geometry.py:17-25): (Vjac * W - V * Wjac) / W**2 per entry *)
Definition nurbs_jac_entry (V W Vj Wj : Qc) : Qc := (Vj * W - V * Wj) / (W * W).
Definition nurbs_jac (V W : Qc) (Vj Wj : list Qc) : list Qc :=
  map (fun vw => nurbs_jac_entry V W (fst vw) (snd vw)) (combine Vj Wj).
Definition n_jac (f : bsp) (us : list Qc) (c : nat) : list Qc :=
  nurbs_jac (g_val f us c) (g_val f us (wcomp f)) (g_jac f us c) (g_jac f us (wcomp f)).
(* pointwise_jacobian (geometry.py:182-186) through tp_bsp_eval_with_jac_pointwise (derivs=1 rows) *)
Definition n_pw_jac (sel : list Qc -> nat -> option Qc) (f : bsp) (xs : list Qc) (c : nat) : option (list Qc) :=
  match pw_coords sel xs with
  | Some us => Some (nurbs_jac (pw_val_at f us 1 c) (pw_val_at f us 1 (wcomp f))
                               (pw_jac_at f us c) (pw_jac_at f us (wcomp f)))
  | None => None end.

(* np.triu_indices(d) *)
Definition triu (d : nat) : list (nat * nat) :=
  flat_map (fun a => map (fun b => (a, b)) (seq a (d - a))) (seq 0 d).

(* grid_hessian (geometry.py:125-150), entry for the index pair (a, b) = (I[k], J[k]):
   Nhess1 = Vhess / W - (V * Whess) / W**2;  mat[a][b] = Njac[b] * Wjac[a] / W;  mat += mat^T;
   H = Nhess1 - mat[I, J] *)
Definition nurbs_hess_entry (V W Vh Wh Nja Njb Wja Wjb : Qc) : Qc :=
  Vh / W - (V * Wh) / (W * W) - (Njb * Wja / W + Nja * Wjb / W).
Definition n_hess (f : bsp) (us : list Qc) (c : nat) : list Qc :=
  let V := g_val f us c in
  let W := g_val f us (wcomp f) in
  let Wj := g_jac f us (wcomp f) in
  let Nj := nurbs_jac V W (g_jac f us c) Wj in
  let Vh := g_hess f us c in
  let Wh := g_hess f us (wcomp f) in
  map (fun t => let '(k, (a, b)) := t in
                nurbs_hess_entry V W (nth k Vh 0) (nth k Wh 0) (nth a Nj 0) (nth b Nj 0) (nth a Wj 0) (nth b Wj 0))
      (combine (seq 0 (length (triu (sdim f)))) (triu (sdim f))).

(* coeffs_weights (geometry.py:238-244) *)
Definition n_C (f : bsp) (idx : list nat) (c : nat) : Qc := co f idx c / co f idx (wcomp f).
Definition n_W (f : bsp) (idx : list nat) : Qc := co f idx (wcomp f).

(* ------------------------------------------------------------------ *)
(* boundaries                                                          *)

Inductive bdname := Left | Right | Bottom | Top | Front | Back.

(* _parse_bdspec (bspline.py:13-33); None = ValueError *)
Definition parse_bdname (b : bdname) (dim : nat) : option (nat * nat) :=
  let '(off, side) := match b with
                      | Left => (1, 0) | Right => (1, 1) | Bottom => (2, 0)
                      | Top => (2, 1) | Front => (3, 0) | Back => (3, 1) end%nat in
  let ax := (Z.of_nat dim - Z.of_nat off)%Z in
  if ((ax <? 0) || (Z.of_nat dim <=? ax))%Z then None else Some (Z.to_nat ax, side).
Definition parse_bdpair (ax : Z) (side : Z) (dim : nat) : option (nat * nat) :=
  if negb ((side =? 0) || (side =? 1))%Z then None
  else if ((ax <? 0) || (Z.of_nat dim <=? ax))%Z then None else Some (Z.to_nat ax, Z.to_nat side).

Definition insert_at {A} (k : nat) (v : A) (l : list A) : list A := firstn k l ++ v :: skipn k l.
Definition remove_at {A} (k : nat) (l : list A) : list A := firstn k l ++ skipn (S k) l.

(* BSplineFunc.boundary / NurbsFunc.boundary (bspline.py:1041-1048, geometry.py:203-211):
   slices[axis] = 0 if side==0 else -1; del kvs[axis] *)
Definition boundary (f : bsp) (axis side : nat) : bsp :=
  let n := kv_n (nth axis (kvs f) ([], 0%nat)) in
  mk_bsp (remove_at axis (kvs f))
         (fun idx c => co f (insert_at axis (if Nat.eqb side 0 then 0%nat else (n - 1)%nat) idx) c)
         (nc f).

(* _BoundaryFunction (geometry.py:391-431) *)
Definition kv_support (kv : KV) : Qc * Qc := (kn (fst kv) 0, kn (fst kv) (length (fst kv) - 1)).
Definition bf_fixed (f : bsp) (axis side : nat) : Qc :=
  let s := kv_support (nth axis (kvs f) ([], 0%nat)) in if Nat.eqb side 0 then fst s else snd s.
(* eval: x.insert(len(x) - axis, fixed); f( *x ) *)
Definition bf_call {A B} (val : list A -> B) (axis : nat) (fixed : A) (xs : list A) : B :=
  val (insert_at (length xs - axis) fixed xs).
(* grid_eval: gridaxes.insert(axis, [fixed]) *)
Definition bf_grid {A B} (val : list A -> B) (axis : nat) (fixed : A) (us : list A) : B :=
  val (insert_at axis fixed us).
(* grid_jacobian: drop column jacs.shape[-1] - axis - 1 *)
Definition bf_jac {A B} (jac : list A -> list B) (axis : nat) (fixed : A) (us : list A) : list B :=
  let J := jac (insert_at axis fixed us) in remove_at (length J - axis - 1) J.

(* support property / setter (bspline.py:1050-1064, geometry.py:212-223): the override if one was
   set, else the supports of the knot vectors *)
Definition support_of (ov : option (list (Qc * Qc))) (f : bsp) : list (Qc * Qc) :=
  match ov with Some s => s | None => map kv_support (kvs f) end.
Definition r_fixed (ov : option (list (Qc * Qc))) (f : bsp) (axis side : nat) : Qc :=
  let s := nth axis (support_of ov f) (0, 0) in if Nat.eqb side 0 then fst s else snd s.
(* boundary() (bspline.py:1036-1048, geometry.py:198-211): with a support override the generic
   _BoundaryFunction at support[axis][side], else the function of the sliced coefficients *)
Definition r_boundary_val (ov : option (list (Qc * Qc))) (f : bsp) (axis side : nat) (us : list Qc) (c : nat) : Qc :=
  match ov with
  | Some _ => bf_grid (fun u => g_val f u c) axis (r_fixed ov f axis side) us
  | None => g_val (boundary f axis side) us c
  end.

(* the support of that boundary: _BoundaryFunction.support = f.support[:axis] + f.support[axis+1:]
   (geometry.py:401), resp. the supports of the remaining knot vectors of the sliced function *)
Definition r_boundary_support (ov : option (list (Qc * Qc))) (f : bsp) (axis side : nat) : list (Qc * Qc) :=
  match ov with
  | Some _ => firstn axis (support_of ov f) ++ skipn (S axis) (support_of ov f)
  | None => map kv_support (kvs (boundary f axis side))
  end.

(* UserFunction (geometry.py:297-347) of a callable `fn` taking the coordinates in xyz order:
   eval = fn; pointwise_eval(points) = eval of the unpacked points;
   grid_eval = utils.grid_eval (utils.py:33-41): meshgrid of the grid axes (indexing='ij'), mesh.reverse(), fn of the mesh,
   i.e. fn at the reversed (xyz) coordinates of every grid point *)
Definition u_call {A B} (fn : list A -> B) (xs : list A) : B := fn xs.
Definition u_pw {A B} (fn : list A -> B) (xs : list A) : B := u_call fn xs.
Definition u_grid {A B} (fn : list A -> B) (us : list A) : B := fn (rev us).

(* ComposedFunction (geometry.py:349-389), geo = geo2 o geo1 with B-spline operands:
   XY = geo1.grid_eval(grd); np.rollaxis(XY, -1): component i of geo1 is coordinate i (xyz) of geo2 *)
Definition comp_point (f1 : bsp) (us : list Qc) : list Qc := map (g_val f1 us) (seq 0 (nc f1)).
(* grid_eval: geo2.pointwise_eval(...) *)
Definition comp_val (f2 f1 : bsp) (us : list Qc) (c : nat) : option Qc :=
  pw_val sel_fixed f2 (comp_point f1 us) c.
(* grid_jacobian: np.matmul(jac2, jac1), row c; for a scalar geo2 (gradient array, repaired in f32eb60)
   matmul(jac2[..., None, :], jac1)[..., 0, :] is the same row for c = 0 *)
Definition comp_jac (f2 f1 : bsp) (us : list Qc) (c : nat) : option (list Qc) :=
  match pw_jac sel_fixed f2 (comp_point f1 us) c with
  | Some J2c => Some (map (fun j => rdot 0 J2c (fun a => nth j (g_jac f1 us a) 0)) (seq 0 (sdim f1)))
  | None => None
  end.

(* ------------------------------------------------------------------ *)
(* operations on coefficients                                          *)

(* BSplineFunc.translate/scale/apply_matrix/__getitem__/as_nurbs (bspline.py:1072-1134) *)
Definition b_translate (f : bsp) (off : nat -> Qc) : bsp := mk_bsp (kvs f) (fun idx c => co f idx c + off c) (nc f).
Definition b_scale (f : bsp) (fac : nat -> Qc) : bsp := mk_bsp (kvs f) (fun idx c => co f idx c * fac c) (nc f).
Definition b_matrix (f : bsp) (A : nat -> nat -> Qc) (rows : nat) : bsp :=
  mk_bsp (kvs f) (fun idx c => rdot 0 (map (A c) (seq 0 (nc f))) (co f idx)) rows.
(* __getitem__ (bspline.py:1133-1134, geometry.py:292-294): coeffs[..., I] with I any Python/numpy
   index of the LAST trailing axis (length n, lead = product of the other trailing axes):
   an int (negative wraps, out of range = IndexError), a slice (slice.indices semantics), a list or
   tuple of ints (fancy index; numpy treats a tuple nested in the index tuple like a list).
   The selection is a list ks of positions on the last axis. *)
Definition py_wrap (n : nat) (i : Z) : option nat :=
  let z := Z.of_nat n in
  if ((0 <=? i) && (i <? z))%Z then Some (Z.to_nat i)
  else if ((- z <=? i) && (i <? 0))%Z then Some (Z.to_nat (z + i)) else None.
(* slice(start, stop, step).indices(n) unrolled (CPython PySlice_AdjustIndices); step <> 0 *)
Definition py_slice (n : nat) (start stop : option Z) (step : Z) : list nat :=
  let z := Z.of_nat n in
  if (step =? 0)%Z then []
  else if (0 <? step)%Z then
    let norm v := if (v <? 0)%Z then Z.max 0 (v + z) else Z.min v z in
    let a := match start with None => 0%Z | Some v => norm v end in
    let b := match stop with None => z | Some v => norm v end in
    map (fun k => Z.to_nat (a + Z.of_nat k * step)) (seq 0 (Z.to_nat ((b - a + step - 1) / step)))
  else
    let norm v := if (v <? 0)%Z then Z.max (-1) (v + z) else Z.min v (z - 1) in
    let a := match start with None => (z - 1)%Z | Some v => norm v end in
    let b := match stop with None => (-1)%Z | Some v => norm v end in
    map (fun k => Z.to_nat (a + Z.of_nat k * step)) (seq 0 (Z.to_nat ((a - b - step - 1) / (- step)))).
Definition py_list (n : nat) (l : list Z) : option (list nat) := opt_all (map (py_wrap n) l).
(* flattened trailing components selected by positions ks of the last axis *)
Definition sel_comps (lead n : nat) (ks : list nat) : list nat :=
  flat_map (fun r => map (fun k => (r * n + k)%nat) ks) (seq 0 lead).
Definition b_select (f : bsp) (cs : list nat) : bsp :=
  mk_bsp (kvs f) (fun idx c => co f idx (nth c cs 0%nat)) (length cs).
Definition b_getitem (f : bsp) (I : nat) : bsp := b_select f [I].
Definition b_as_nurbs (f : bsp) : bsp := mk_nurbs (kvs f) (co f) (fun _ => 1) (nc f).
(* copy (bspline.py:1066-1070; geometry.py:225-236 with premultiplied=True: no second premultiplication) *)
Definition b_copy (f : bsp) : bsp := mk_bsp (kvs f) (fun idx c => co f idx c) (nc f).
(* line_segment(z0, z1, support=(s0, s1)) with one interval (geometry.py:606-626) and
   cylinderize = tensor_product(line_segment(z0, z1, support), self) (bspline.py:1109-1118) *)
Definition line_kv (s0 s1 : Qc) : KV := ([s0; s0; s1; s1], 1%nat).
Definition b_line (z0 z1 s0 s1 : Qc) : bsp :=
  mk_bsp [line_kv s0 s1] (fun idx _ => if Nat.eqb (nth 0 idx 0%nat) 0 then z0 else z1) 1.

(* NurbsFunc.translate/scale/apply_matrix/__getitem__ (geometry.py:246-294) *)
Definition n_translate (f : bsp) (off : nat -> Qc) : bsp :=
  mk_nurbs (kvs f) (fun idx c => n_C f idx c + off c) (n_W f) (wcomp f).
Definition n_scale (f : bsp) (fac : nat -> Qc) : bsp :=
  mk_nurbs (kvs f) (fun idx c => n_C f idx c * fac c) (n_W f) (wcomp f).
Definition n_matrix (f : bsp) (A : nat -> nat -> Qc) (rows : nat) : bsp :=
  mk_nurbs (kvs f) (fun idx c => rdot 0 (map (A c) (seq 0 (wcomp f))) (n_C f idx)) (n_W f) rows.
(* C = self.coeffs[..., :-1]; NurbsFunc(kvs, C[..., I], self.coeffs[..., -1], premultiplied=True):
   the selected numerator components followed by the weight *)
Definition n_select (f : bsp) (cs : list nat) : bsp :=
  mk_bsp (kvs f) (fun idx c => if (c <? length cs)%nat then co f idx (nth c cs 0%nat) else co f idx (wcomp f))
         (S (length cs)).
Definition n_getitem (f : bsp) (I : nat) : bsp := n_select f [I].

(* outer_sum / outer_product / tensor_product of two BSplineFuncs (geometry.py:683-820);
   _prepare_for_outer reshapes C1 to SD1 x 1.. x VD1 and C2 to 1.. x SD2 x VD2 *)
Definition split1 (f1 : bsp) (idx : list nat) := firstn (sdim f1) idx.
Definition split2 (f1 : bsp) (idx : list nat) := skipn (sdim f1) idx.
Definition b_outer_sum (f1 f2 : bsp) : bsp :=
  mk_bsp (kvs f1 ++ kvs f2) (fun idx c => co f1 (split1 f1 idx) c + co f2 (split2 f1 idx) c) (nc f1).
Definition b_outer_product (f1 f2 : bsp) : bsp :=
  mk_bsp (kvs f1 ++ kvs f2) (fun idx c => co f1 (split1 f1 idx) c * co f2 (split2 f1 idx) c) (nc f1).
(* C = concatenate((C2, C1), axis=-1) *)
Definition b_tensor_product (f1 f2 : bsp) : bsp :=
  mk_bsp (kvs f1 ++ kvs f2)
         (fun idx c => if (c <? nc f2)%nat then co f2 (split2 f1 idx) c else co f1 (split1 f1 idx) (c - nc f2))
         (nc f2 + nc f1).
(* the NURBS branches: coefficients C1 + C2 (resp. product), weights W1 W2 multiplied *)
Definition n_outer_sum (f1 f2 : bsp) : bsp :=
  mk_nurbs (kvs f1 ++ kvs f2) (fun idx c => n_C f1 (split1 f1 idx) c + n_C f2 (split2 f1 idx) c)
           (fun idx => n_W f1 (split1 f1 idx) * n_W f2 (split2 f1 idx)) (wcomp f1).
Definition n_outer_product (f1 f2 : bsp) : bsp :=
  mk_nurbs (kvs f1 ++ kvs f2) (fun idx c => n_C f1 (split1 f1 idx) c * n_C f2 (split2 f1 idx) c)
           (fun idx => n_W f1 (split1 f1 idx) * n_W f2 (split2 f1 idx)) (wcomp f1).
Definition n_tensor_product (f1 f2 : bsp) : bsp :=
  mk_nurbs (kvs f1 ++ kvs f2)
           (fun idx c => if (c <? wcomp f2)%nat then n_C f2 (split2 f1 idx) c else n_C f1 (split1 f1 idx) (c - wcomp f2))
           (fun idx => n_W f1 (split1 f1 idx) * n_W f2 (split2 f1 idx)) (wcomp f2 + wcomp f1).

Definition b_cylinderize (f : bsp) (z0 z1 s0 s1 : Qc) : bsp := b_tensor_product (b_line z0 z1 s0 s1) f.
(* the documented defaults: cylinderize(self, z0=0.0, z1=1.0, support=(0.0, 1.0)) *)
Definition b_cylinderize_default_support (f : bsp) (z0 z1 : Qc) : bsp := b_cylinderize f z0 z1 0 1.
Definition b_cylinderize_defaults (f : bsp) : bsp := b_cylinderize f 0 1 0 1.

(* ------------------------------------------------------------------ *)
(* arrays from flat data (C order), used by the correspondence run     *)

Fixpoint ravel (shape idx : list nat) (acc : nat) : nat :=
  match shape, idx with
  | n :: s', i :: i' => ravel s' i' (acc * n + i)
  | _, _ => acc
  end.
(* coefficient function of an array of shape N ++ [m] stored flat *)
Definition arr (N : list nat) (m : nat) (flat : list Qc) : list nat -> nat -> Qc :=
  fun idx c => nth (ravel (N ++ [m]) (idx ++ [c]) 0) flat 0.
Definition arr0 (N : list nat) (flat : list Qc) : list nat -> Qc :=
  fun idx => nth (ravel N idx 0) flat 0.

(* all multi-indices of a shape in C order *)
Fixpoint all_idx (shape : list nat) : list (list nat) :=
  match shape with
  | [] => [[]]
  | n :: s' => flat_map (fun i => map (cons i) (all_idx s')) (seq 0 n)
  end.
Definition flatten (f : bsp) : list Qc :=
  flat_map (fun idx => map (co f idx) (seq 0 (nc f))) (all_idx (map kv_n (kvs f))).
