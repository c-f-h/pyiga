(* C07 -- the NURBS branches of the geometry operations: NurbsFunc.apply_matrix / rotate_2d
   (geometry.py:258-279), rotate_2d of BSplineFunc (bspline.py:1093-1101) and as_nurbs().
   No partition of unity is needed for apply_matrix: the weight functions cancel; only non-zero weights. *)
From Coq Require Import QArith Qcanon List.
From Verif.C07 Require Import Model Proofs.
Import ListNotations.
Open Scope Qc_scope.

Lemma n_val_matrix : forall f A rows us c,
  (c < rows)%nat -> (forall idx, co f idx (wcomp f) <> 0) -> g_val f us (wcomp f) <> 0 ->
  n_val (n_matrix f A rows) us c = rdot 0 (map (A c) (seq 0 (wcomp f))) (fun k => n_val f us k).
Proof.
  intros f A rows us c Hc Hw HW. unfold n_matrix. rewrite n_val_mk_nurbs by exact Hc. unfold n_C, n_W.
  rewrite (tp_eval_ext _ _ (fun idx => rdot 0 (map (A c) (seq 0 (wcomp f))) (co f idx))).
  2:{ intros idx. rewrite rdot_div. field. apply Hw. }
  rewrite tp_eval_rdot. unfold n_val. rewrite rdot_div. reflexivity.
Qed.

(* rotate_2d(angle): R = [[c, -s], [s, c]] with (c, s) = (cos, sin)(angle), applied by apply_matrix *)
Definition rot_mat (c s : Qc) : nat -> nat -> Qc :=
  fun i j => match i, j with
             | O, O => c | O, S O => - s
             | S O, O => s | S O, S O => c
             | _, _ => 0 end.
Definition b_rotate (f : bsp) (c s : Qc) : bsp := b_matrix f (rot_mat c s) 2.
Definition n_rotate (f : bsp) (c s : Qc) : bsp := n_matrix f (rot_mat c s) 2.

(* as_nurbs(): weights 1, so the weight function is 1 wherever the rows sum to one *)
Lemma wcomp_as_nurbs : forall f, wcomp (b_as_nurbs f) = nc f.
Proof. intros. apply wcomp_mk_nurbs. Qed.

Lemma as_nurbs_weights : forall f idx, co (b_as_nurbs f) idx (wcomp (b_as_nurbs f)) = 1.
Proof. intros. rewrite wcomp_as_nurbs. unfold b_as_nurbs, mk_nurbs. cbn [co]. rewrite Nat.ltb_irrefl. reflexivity. Qed.

Lemma as_nurbs_weight_fn : forall f us, pou_at (kvs f) us -> g_val (b_as_nurbs f) us (wcomp (b_as_nurbs f)) = 1.
Proof.
  intros f us H. rewrite wcomp_as_nurbs. unfold b_as_nurbs. rewrite g_val_mk_nurbs_w. exact (tp_eval_const _ 1 H).
Qed.
