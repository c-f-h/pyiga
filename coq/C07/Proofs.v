(* C07 -- the contraction tp_eval: linearity, splitting over two groups of axes, window rows against
   dense rows; from these the coefficient operations, the scattered-point routes and boundary slicing. *)
From Coq Require Import QArith Qcanon List Lia.
From Verif.lib Require Import Bsp ListFacts.
From Verif.C02 Require Import Proofs.
From Verif.C07 Require Import Model.
Import ListNotations.
Open Scope Qc_scope.

Lemma firstn_app_len {A} (a b : list A) n : length a = n -> firstn n (a ++ b) = a.
Proof. intros <-. rewrite firstn_app, Nat.sub_diag, firstn_all. simpl. apply app_nil_r. Qed.
Lemma skipn_app_len {A} (a b : list A) n : length a = n -> skipn n (a ++ b) = b.
Proof. intros <-. rewrite skipn_app, Nat.sub_diag, skipn_all. reflexivity. Qed.

Lemma map_seq_nth {A} (h : nat -> A) l a d :
  (forall i, (i < length l)%nat -> h (a + i)%nat = nth i l d) -> map h (seq a (length l)) = l.
Proof.
  intros H. apply (nth_ext _ _ d d).
  - rewrite map_length, seq_length. reflexivity.
  - intros i Hi. rewrite map_length, seq_length in Hi.
    rewrite nth_map_seq by exact Hi. apply H. exact Hi.
Qed.

Lemma rev_seq0 : forall n, rev (seq 0 n) = map (fun a => (n - 1 - a)%nat) (seq 0 n).
Proof.
  induction n; [reflexivity|].
  rewrite seq_S at 1. rewrite rev_app_distr. simpl rev. simpl app. rewrite IHn.
  cbn [seq map]. f_equal; [lia|].
  rewrite <- seq_shift, map_map. apply map_ext. intros. lia.
Qed.

Lemma rdot_ext : forall r off f g, (forall i, f i = g i) -> rdot off r f = rdot off r g.
Proof. induction r; intros; simpl; [reflexivity|]. rewrite H, (IHr (S off) f g H). reflexivity. Qed.

Lemma rdot_add : forall r off f g, rdot off r (fun i => f i + g i) = rdot off r f + rdot off r g.
Proof. induction r; intros; simpl; [ring|]. rewrite IHr. ring. Qed.

Lemma rdot_scal : forall r off a f, rdot off r (fun i => a * f i) = a * rdot off r f.
Proof. induction r; intros; simpl; [ring|]. rewrite IHr. ring. Qed.

Lemma rdot_scal_r : forall r off a f, rdot off r (fun i => f i * a) = rdot off r f * a.
Proof. induction r; intros; simpl; [ring|]. rewrite IHr. ring. Qed.

Lemma rdot_div : forall r off a f, rdot off r (fun i => f i / a) = rdot off r f / a.
Proof. intros. unfold Qcdiv. apply rdot_scal_r. Qed.

Definition rsum (r : list Qc) : Qc := fold_right Qcplus 0 r.

Lemma rdot_const : forall r off a, rdot off r (fun _ => a) = rsum r * a.
Proof. induction r; intros; simpl; [ring|]. rewrite IHr. ring. Qed.

Lemma rdot_swap : forall r off s off' (F : nat -> nat -> Qc),
  rdot off r (fun i => rdot off' s (fun k => F i k)) = rdot off' s (fun k => rdot off r (fun i => F i k)).
Proof.
  induction r; intros; simpl.
  - revert off'. induction s; intros; simpl; [reflexivity|]. rewrite <- IHs. ring.
  - rewrite IHr. rewrite <- rdot_scal, <- rdot_add. reflexivity.
Qed.

Lemma tp_eval_ext_len : forall rows C D,
  (forall idx, length idx = length rows -> C idx = D idx) -> tp_eval rows C = tp_eval rows D.
Proof.
  induction rows as [|[off r] rs IH]; intros C D H; simpl.
  - apply H. reflexivity.
  - apply rdot_ext. intros i. apply IH. intros idx Hl. apply H. simpl. lia.
Qed.

Lemma tp_eval_ext : forall rows C D, (forall idx, C idx = D idx) -> tp_eval rows C = tp_eval rows D.
Proof. intros. apply tp_eval_ext_len. auto. Qed.

Lemma tp_eval_add : forall rows C D,
  tp_eval rows (fun i => C i + D i) = tp_eval rows C + tp_eval rows D.
Proof.
  induction rows as [|[off r] rs IH]; intros; simpl; [reflexivity|].
  rewrite <- rdot_add. apply rdot_ext. intros. apply IH.
Qed.

Lemma tp_eval_scal : forall rows a C, tp_eval rows (fun i => a * C i) = a * tp_eval rows C.
Proof.
  induction rows as [|[off r] rs IH]; intros; simpl; [reflexivity|].
  rewrite <- rdot_scal. apply rdot_ext. intros. apply IH.
Qed.

Lemma tp_eval_scal_r : forall rows a C, tp_eval rows (fun i => C i * a) = tp_eval rows C * a.
Proof.
  intros. rewrite Qcmult_comm, <- tp_eval_scal. apply tp_eval_ext. intros. ring.
Qed.

(* partition of unity of a list of rows: every row sums to one *)
Definition pou (rows : list orow) : Prop := Forall (fun r => rsum (snd r) = 1) rows.

Lemma tp_eval_const : forall rows a, pou rows -> tp_eval rows (fun _ => a) = a.
Proof.
  induction rows as [|[off r] rs IH]; intros a H; simpl; [reflexivity|].
  inversion H; subst. simpl in *.
  rewrite (rdot_ext r off _ (fun _ => a)) by (intros; apply IH; assumption).
  rewrite rdot_const, H2. ring.
Qed.

Lemma tp_eval_rdot : forall rows s off (F : list nat -> nat -> Qc),
  tp_eval rows (fun idx => rdot off s (F idx)) = rdot off s (fun k => tp_eval rows (fun idx => F idx k)).
Proof.
  induction rows as [|[o r] rs IH]; intros; simpl; [reflexivity|].
  rewrite <- rdot_swap. apply rdot_ext. intros i. apply IH.
Qed.

(* currying over two groups of axes *)
Lemma tp_eval_app : forall r1 r2 C,
  tp_eval (r1 ++ r2) C = tp_eval r1 (fun i1 => tp_eval r2 (fun i2 => C (i1 ++ i2))).
Proof.
  induction r1 as [|[off r] rs IH]; intros; simpl; [reflexivity|].
  apply rdot_ext. intros i. rewrite IH. reflexivity.
Qed.

Lemma tp_eval_app_fst : forall r1 r2 C1, pou r2 ->
  tp_eval (r1 ++ r2) (fun idx => C1 (firstn (length r1) idx)) = tp_eval r1 C1.
Proof.
  intros. rewrite tp_eval_app. apply tp_eval_ext_len. intros i1 Hl.
  rewrite (tp_eval_ext r2 _ (fun _ => C1 i1)).
  - apply tp_eval_const. assumption.
  - intros. rewrite firstn_app_len; auto.
Qed.

Lemma tp_eval_app_snd : forall r1 r2 C2, pou r1 ->
  tp_eval (r1 ++ r2) (fun idx => C2 (skipn (length r1) idx)) = tp_eval r2 C2.
Proof.
  intros. rewrite tp_eval_app.
  rewrite (tp_eval_ext_len r1 _ (fun _ => tp_eval r2 C2)).
  - apply tp_eval_const. assumption.
  - intros i1 Hl. apply tp_eval_ext. intros. rewrite skipn_app_len; auto.
Qed.

Lemma tp_eval_app_mul : forall r1 r2 C1 C2,
  tp_eval (r1 ++ r2) (fun idx => C1 (firstn (length r1) idx) * C2 (skipn (length r1) idx))
  = tp_eval r1 C1 * tp_eval r2 C2.
Proof.
  intros. rewrite tp_eval_app.
  rewrite (tp_eval_ext_len r1 _ (fun i1 => C1 i1 * tp_eval r2 C2)).
  - apply tp_eval_scal_r.
  - intros i1 Hl. rewrite <- tp_eval_scal. apply tp_eval_ext. intros.
    rewrite firstn_app_len, skipn_app_len; auto.
Qed.

Lemma zip3_app {A B C} : forall (a1 : list A) (b1 : list B) (c1 : list C) a2 b2 c2,
  length a1 = length b1 -> length a1 = length c1 ->
  zip3 (a1 ++ a2) (b1 ++ b2) (c1 ++ c2) = zip3 a1 b1 c1 ++ zip3 a2 b2 c2.
Proof.
  induction a1; intros [|y b1] [|z c1]; intros; simpl in *; try discriminate; [reflexivity|].
  f_equal. apply IHa1; lia.
Qed.

Lemma zip3_length {A B C} : forall (a : list A) (b : list B) (c : list C),
  length a = length b -> length a = length c -> length (zip3 a b c) = length a.
Proof.
  induction a; intros [|y b] [|z c]; intros; simpl in *; try discriminate; [reflexivity|].
  f_equal. apply IHa; lia.
Qed.

Lemma in_zip3_r {A B C} : forall (a : list A) (b : list B) (c : list C) x y z,
  In (x, y, z) (zip3 a b c) -> In z c.
Proof.
  induction a; intros [|y' b] [|z' c] x y z; simpl; try tauto.
  intros [E|H]; [left; congruence|right; eauto].
Qed.

Lemma zerov_app n1 n2 : zerov (n1 + n2) = zerov n1 ++ zerov n2.
Proof. unfold zerov. apply repeat_app. Qed.

Lemma grid_rows_app : forall k1 k2 u1 u2 nd,
  length u1 = length k1 ->
  grid_rows (k1 ++ k2) (u1 ++ u2) nd (zerov (length (k1 ++ k2)))
  = grid_rows k1 u1 nd (zerov (length k1)) ++ grid_rows k2 u2 nd (zerov (length k2)).
Proof.
  intros. unfold grid_rows. rewrite app_length, zerov_app, zip3_app, map_app; auto.
  unfold zerov. rewrite repeat_length. reflexivity.
Qed.

Lemma grid_rows_length : forall k u nd, length u = length k ->
  length (grid_rows k u nd (zerov (length k))) = length k.
Proof.
  intros. unfold grid_rows. rewrite map_length, zip3_length; auto.
  unfold zerov. rewrite repeat_length. reflexivity.
Qed.

(* partition of unity of the collocation rows of a function at a grid point
   (C02: the B-splines of an open knot vector sum to one on its support) *)
Definition pou_at (k : list KV) (us : list Qc) : Prop := pou (grid_rows k us 0 (zerov (length k))).

Lemma g_val_translate : forall f off us c,
  pou_at (kvs f) us -> g_val (b_translate f off) us c = g_val f us c + off c.
Proof.
  intros f off us c H. unfold g_val, b_translate, sdim. simpl.
  rewrite tp_eval_add. f_equal. apply tp_eval_const. exact H.
Qed.

Lemma g_val_matrix : forall f A rows us c,
  g_val (b_matrix f A rows) us c = rdot 0 (map (A c) (seq 0 (nc f))) (fun k => g_val f us k).
Proof. intros. unfold g_val, b_matrix, sdim. simpl. apply tp_eval_rdot. Qed.

Lemma wcomp_mk_nurbs : forall kv C W m, wcomp (mk_nurbs kv C W m) = m.
Proof. intros. unfold wcomp, mk_nurbs. simpl. lia. Qed.

Lemma g_val_mk_nurbs_num : forall kv C W m us c, (c < m)%nat ->
  g_val (mk_nurbs kv C W m) us c = tp_eval (grid_rows kv us 0 (zerov (length kv))) (fun idx => C idx c * W idx).
Proof.
  intros. unfold g_val, mk_nurbs, sdim. simpl.
  assert (E : (c <? m)%nat = true) by (apply Nat.ltb_lt; assumption). rewrite E. reflexivity.
Qed.

Lemma g_val_mk_nurbs_w : forall kv C W m us,
  g_val (mk_nurbs kv C W m) us m = tp_eval (grid_rows kv us 0 (zerov (length kv))) W.
Proof.
  intros. unfold g_val, mk_nurbs, sdim. simpl. rewrite Nat.ltb_irrefl. reflexivity.
Qed.

Lemma n_val_mk_nurbs : forall kv C W m us c, (c < m)%nat ->
  n_val (mk_nurbs kv C W m) us c
  = tp_eval (grid_rows kv us 0 (zerov (length kv))) (fun idx => C idx c * W idx)
    / tp_eval (grid_rows kv us 0 (zerov (length kv))) W.
Proof.
  intros. unfold n_val. rewrite wcomp_mk_nurbs, g_val_mk_nurbs_num, g_val_mk_nurbs_w by assumption. reflexivity.
Qed.

Lemma n_val_as_nurbs : forall f us c, (c < nc f)%nat -> pou_at (kvs f) us ->
  n_val (b_as_nurbs f) us c = g_val f us c.
Proof.
  intros f us c Hc H. unfold b_as_nurbs. rewrite n_val_mk_nurbs by exact Hc.
  rewrite (tp_eval_const _ 1 H), (tp_eval_ext _ _ (fun idx => co f idx c)) by (intros; ring).
  unfold g_val, sdim. field. intro E; discriminate E.
Qed.

Section Outer.
Variables (f1 f2 : bsp) (u1 u2 : list Qc).
Hypothesis L1 : length u1 = sdim f1.

Let R1 := grid_rows (kvs f1) u1 0 (zerov (sdim f1)).
Let R2 := grid_rows (kvs f2) u2 0 (zerov (sdim f2)).
Let R := grid_rows (kvs f1 ++ kvs f2) (u1 ++ u2) 0 (zerov (length (kvs f1 ++ kvs f2))).

Lemma outer_rows : R = R1 ++ R2.
Proof. apply grid_rows_app. exact L1. Qed.

Lemma R1_len : length R1 = sdim f1.
Proof. apply grid_rows_length. exact L1. Qed.

(* contraction over the product grid of coefficients that depend on the axes of f1 only, of f2 only,
   or are a product of the two *)
Lemma outer_fst : forall c, pou_at (kvs f2) u2 ->
  tp_eval R (fun idx => co f1 (split1 f1 idx) c) = g_val f1 u1 c.
Proof.
  intros c P2. rewrite outer_rows. unfold split1. rewrite <- R1_len.
  exact (tp_eval_app_fst R1 R2 (fun idx => co f1 idx c) P2).
Qed.

Lemma outer_snd : forall c, pou_at (kvs f1) u1 ->
  tp_eval R (fun idx => co f2 (split2 f1 idx) c) = g_val f2 u2 c.
Proof.
  intros c P1. rewrite outer_rows. unfold split2. rewrite <- R1_len.
  exact (tp_eval_app_snd R1 R2 (fun idx => co f2 idx c) P1).
Qed.

Lemma outer_mul : forall c1 c2,
  tp_eval R (fun idx => co f1 (split1 f1 idx) c1 * co f2 (split2 f1 idx) c2) = g_val f1 u1 c1 * g_val f2 u2 c2.
Proof.
  intros c1 c2. rewrite outer_rows. unfold split1, split2. rewrite <- R1_len.
  exact (tp_eval_app_mul R1 R2 (fun idx => co f1 idx c1) (fun idx => co f2 idx c2)).
Qed.

Lemma g_val_outer_sum : forall c, pou_at (kvs f1) u1 -> pou_at (kvs f2) u2 ->
  g_val (b_outer_sum f1 f2) (u1 ++ u2) c = g_val f1 u1 c + g_val f2 u2 c.
Proof.
  intros c P1 P2. unfold g_val at 1. unfold sdim at 1. unfold b_outer_sum. cbn [kvs co nc].
  fold R. rewrite tp_eval_add, outer_fst, outer_snd by assumption. reflexivity.
Qed.

Lemma g_val_outer_product : forall c,
  g_val (b_outer_product f1 f2) (u1 ++ u2) c = g_val f1 u1 c * g_val f2 u2 c.
Proof. intros c. apply outer_mul. Qed.

Lemma g_val_tensor_product : forall c, pou_at (kvs f1) u1 -> pou_at (kvs f2) u2 ->
  g_val (b_tensor_product f1 f2) (u1 ++ u2) c
  = if (c <? nc f2)%nat then g_val f2 u2 c else g_val f1 u1 (c - nc f2).
Proof.
  intros c P1 P2. unfold g_val at 1. unfold sdim at 1. unfold b_tensor_product. cbn [kvs co nc]. fold R.
  destruct (c <? nc f2)%nat; [apply outer_snd|apply outer_fst]; assumption.
Qed.
End Outer.

(* the dense collocation row and the (first index, p+1 values) form are the same functional *)

Definition row_equiv (a b : orow) : Prop := forall g, rdot (fst a) (snd a) g = rdot (fst b) (snd b) g.

Lemma tp_eval_equiv : forall R1 R2, Forall2 row_equiv R1 R2 -> forall C, tp_eval R1 C = tp_eval R2 C.
Proof.
  induction 1 as [|[o1 r1] [o2 r2] R1 R2 H H2 IH]; intros C; simpl; [reflexivity|].
  rewrite (H _). simpl. apply rdot_ext. intros i. apply IH.
Qed.

Lemma rdot_app : forall a b off g, rdot off (a ++ b) g = rdot off a g + rdot (off + length a) b g.
Proof.
  induction a; intros; simpl.
  - rewrite Nat.add_0_r. ring.
  - rewrite IHa. replace (S off + length a0)%nat with (off + S (length a0))%nat by lia. ring.
Qed.

Lemma rdot_map_zero : forall (h : nat -> Qc) k a off g,
  (forall j, (a <= j < a + k)%nat -> h j = 0) -> rdot off (map h (seq a k)) g = 0.
Proof.
  induction k; intros a off g H; cbn [seq map rdot]; [reflexivity|].
  rewrite (H a) by lia. rewrite IHk by (intros; apply H; lia). ring.
Qed.

(* a dense row that carries vals in the columns fa, fa+1, ... and zeros elsewhere acts as (fa, vals) *)
Lemma window_row : forall (h : nat -> Qc) vals fa n g, (fa + length vals <= n)%nat ->
  (forall i, (i < length vals)%nat -> h (fa + i)%nat = nth i vals 0) ->
  (forall j, (j < n)%nat -> (j < fa \/ fa + length vals <= j)%nat -> h j = 0) ->
  rdot 0 (map h (seq 0 n)) g = rdot fa vals g.
Proof.
  intros h vals fa n g Hn Hin Hout.
  replace n with (fa + (length vals + (n - fa - length vals)))%nat by lia.
  rewrite !seq_app, !map_app, !rdot_app, !map_length, !seq_length. cbn [Nat.add].
  rewrite (map_seq_nth h vals fa 0 Hin).
  rewrite !rdot_map_zero by (intros; apply Hout; lia). ring.
Qed.

Lemma act_row_length : forall kv nd k u, (k <= nd)%nat -> length (act_row kv nd k u) = S (snd kv).
Proof.
  intros [kv p] nd k u Hk. unfold act_row, active_deriv. cbv zeta. simpl fst. simpl snd.
  destruct k as [|k].
  - simpl. rewrite map_length, seq_length. reflexivity.
  - cbn [nth].
    rewrite nth_map_seq by lia. rewrite !map_length, seq_length. reflexivity.
Qed.

(* a point of the domain of an open knot vector *)
Definition in_dom (kv : KV) (u : Qc) : Prop :=
  kv_ok (fst kv) (snd kv) /\ kn (fst kv) 0 <= u /\ u <= kn (fst kv) (length (fst kv) - 1).

Lemma dense_equiv_win : forall kv nd k u, in_dom kv u -> (k <= nd)%nat ->
  row_equiv (win_row kv nd k u) (dense_row kv nd k u).
Proof.
  intros kv nd k u [Hok [H0 H1]] Hk g. unfold win_row, dense_row. cbn [fst snd].
  set (fa := first_active_at (fst kv) (snd kv) u).
  assert (Hfa : (fa + S (snd kv) <= kv_n kv)%nat).
  { destruct (findspan_spec_l (fst kv) (snd kv) u Hok H0 H1) as [A [B _]].
    unfold fa, first_active_at, kv_n, numdofs. lia. }
  symmetry. apply window_row; rewrite (act_row_length kv nd k u Hk).
  - exact Hfa.
  - intros i Hi. replace (fa + i - fa)%nat with i by lia.
    destruct (Nat.leb_spec fa (fa + i)); [|lia]. destruct (Nat.leb_spec (fa + i) (fa + snd kv)); [|lia].
    reflexivity.
  - intros j _ Hj. destruct (Nat.leb_spec fa j); destruct (Nat.leb_spec j (fa + snd kv)); try reflexivity; lia.
Qed.

Lemma rows_equiv : forall ks us D nd,
  Forall2 in_dom ks us -> (forall k, In k D -> (k <= nd)%nat) ->
  Forall2 row_equiv (win_rows ks us nd D) (grid_rows ks us nd D).
Proof.
  intros ks us D nd H. revert D. induction H as [|kv u ks us Hd H IH]; intros D HD.
  - constructor.
  - destruct D as [|k D]; [constructor|]. unfold win_rows, grid_rows. cbn [zip3 map].
    constructor.
    + apply dense_equiv_win; [exact Hd|apply HD; left; reflexivity].
    + apply IH. intros k' Hk'. apply HD. right. exact Hk'.
Qed.

Lemma in_zerov : forall n k, In k (zerov n) -> k = 0%nat.
Proof. intros n k H. apply repeat_spec in H. exact H. Qed.

Lemma in_bump : forall D i k nd, (forall k, In k D -> (S k <= nd)%nat) -> In k (bump D i) -> (k <= nd)%nat.
Proof.
  intros D i k nd H Hk. unfold bump in Hk. apply in_map_iff in Hk. destruct Hk as [[j x] [E Hin]].
  apply in_combine_r in Hin. specialize (H _ Hin). simpl in E. destruct (Nat.eqb j i); lia.
Qed.

Lemma in_unitv : forall n i k, In k (unitv n i) -> (k <= 1)%nat.
Proof.
  intros n i k H. unfold unitv in H. eapply in_bump; [|exact H].
  intros k' Hk'. apply in_zerov in Hk'. lia.
Qed.

Lemma in_bump2 : forall n i j k, In k (bump (bump (zerov n) i) j) -> (k <= 2)%nat.
Proof.
  intros n i j k H. eapply in_bump; [|exact H].
  intros k' Hk'. apply in_unitv in Hk'. lia.
Qed.

(* coordinates of scattered points: XY[sdim-1-d] hands kvs[d] the coordinate sdim-1-d,
   i.e. the reversed (zyx) list that __call__ builds *)

Lemma opt_all_some {A} : forall l : list A, opt_all (map Some l) = Some l.
Proof. induction l; simpl; [reflexivity|]. rewrite IHl. reflexivity. Qed.

Lemma pw_coords_fixed : forall xs, pw_coords sel_fixed xs = Some (rev xs).
Proof.
  intros xs. unfold pw_coords. rewrite <- opt_all_some. f_equal.
  induction xs as [|a ys IH] using rev_ind; [reflexivity|].
  rewrite app_length, rev_app_distr. simpl length. rewrite Nat.add_1_r.
  cbn [seq map rev app].
  f_equal.
  - unfold sel_fixed. rewrite app_length. simpl. 
    replace (length ys + 1 - 1 - 0)%nat with (length ys) by lia.
    rewrite nth_error_app2 by lia. rewrite Nat.sub_diag. reflexivity.
  - rewrite <- IH. rewrite <- seq_shift, map_map. apply map_ext_in. intros d Hd. apply in_seq in Hd.
    unfold sel_fixed. rewrite app_length. simpl.
    replace (length ys + 1 - 1 - S d)%nat with (length ys - 1 - d)%nat by lia.
    apply nth_error_app1. lia.
Qed.

(* at the coordinates us (knot-vector order) the window contraction is the dense one *)
Lemma pw_val_at_grid : forall f us c, Forall2 in_dom (kvs f) us -> pw_val_at f us 0 c = g_val f us c.
Proof.
  intros f us c H. unfold pw_val_at, g_val. apply tp_eval_equiv. apply rows_equiv; [exact H|].
  intros k Hk. apply in_zerov in Hk. lia.
Qed.

Lemma upd_app_exact {A} : forall (a b : list A) x v, upd (a ++ x :: b) (length a) v = a ++ v :: b.
Proof.
  intros. unfold upd. rewrite firstn_app_len by reflexivity. f_equal. f_equal.
  rewrite skipn_app. rewrite skipn_all2 by lia.
  replace (S (length a) - length a)%nat with 1%nat by lia. reflexivity.
Qed.

Lemma jac_slots : forall (v : nat -> Qc) d k, (k <= d)%nat ->
  fold_left (fun acc i => upd acc (d - i - 1) (v i)) (seq 0 k) (repeat 0 d)
  = repeat 0 (d - k) ++ map v (rev (seq 0 k)).
Proof.
  intros v d. induction k; intros Hk.
  - simpl. rewrite Nat.sub_0_r, app_nil_r. reflexivity.
  - rewrite seq_S, fold_left_app, IHk by lia. simpl fold_left. simpl (0 + k)%nat.
    rewrite rev_app_distr. simpl rev. simpl map. simpl app.
    replace (d - k)%nat with (S (d - S k)) by lia.
    replace (repeat 0 (S (d - S k))) with (repeat 0 (d - S k) ++ [0]).
    2:{ symmetry. cbn [repeat]. apply repeat_cons. }
    rewrite <- app_assoc. simpl app.
    replace (S (d - S k) - 1)%nat with (length (repeat (0:Qc) (d - S k))) by (rewrite repeat_length; lia).
    apply upd_app_exact.
Qed.

Lemma pw_jac_at_grid : forall f us c, Forall2 in_dom (kvs f) us -> pw_jac_at f us c = g_jac f us c.
Proof.
  intros f us c H. unfold pw_jac_at, g_jac. rewrite jac_slots by lia. rewrite Nat.sub_diag. simpl app.
  apply map_ext. intros i. unfold g_dir. apply tp_eval_equiv. apply rows_equiv; [exact H|].
  apply in_unitv.
Qed.

(* the value row of active_deriv does not depend on how many derivatives are asked for
   (NurbsFunc.pointwise_jacobian takes its values from the derivs=1 rows) *)
Lemma pw_val_at_nd : forall f us nd c, pw_val_at f us nd c = pw_val_at f us 0 c.
Proof.
  intros. unfold pw_val_at. f_equal. unfold win_rows. apply map_ext_in. intros [[kv u] k] Hin.
  apply in_zip3_r in Hin. apply in_zerov in Hin. subst k. reflexivity.
Qed.

(* the linearised Hessian order of BSplineFunc.grid_hessian, written in xyz directions,
   is np.triu_indices: (xx, xy, xz, yy, yz, zz); NurbsFunc.grid_hessian combines the two *)
Lemma hess_pairs_triu : forall d,
  map (fun ij => (d - 1 - fst ij, d - 1 - snd ij)%nat) (hess_pairs d) = triu d.
Proof.
  intros d. unfold hess_pairs, triu.
  rewrite flat_map_concat_map, concat_map, map_map, <- flat_map_concat_map.
  rewrite rev_seq0. rewrite flat_map_concat_map, map_map, <- flat_map_concat_map.
  apply flat_map_ext_in. intros a Ha. apply in_seq in Ha.
  rewrite map_map. cbn [fst snd].
  replace (S (d - 1 - a)) with (d - a)%nat by lia.
  rewrite rev_seq0, map_map.
  transitivity (map (fun t => (a, a + t)%nat) (seq 0 (d - a))).
  - apply map_ext_in. intros t Ht. apply in_seq in Ht. f_equal; lia.
  - rewrite (seq_add_map (d - a) a), map_map. reflexivity.
Qed.

(* _BoundaryFunction: __call__ inserts the fixed coordinate at len(x)-axis of the xyz list,
   grid_eval inserts the axis at position axis of the zyx list: the same point *)
Lemma insert_rev {A} : forall (l : list A) v a,
  rev (insert_at (length l - a) v l) = insert_at a v (rev l).
Proof.
  intros l v a. unfold insert_at. rewrite rev_app_distr. simpl rev. rewrite <- app_assoc. simpl app.
  rewrite firstn_rev, skipn_rev. reflexivity.
Qed.

Lemma insert_at_app {A} (a b : list A) n x : length a = n -> insert_at n x (a ++ b) = a ++ x :: b.
Proof. intros H. unfold insert_at. rewrite firstn_app_len, skipn_app_len by exact H. reflexivity. Qed.

Lemma remove_at_app {A} (a b : list A) n x : length a = n -> remove_at n (a ++ x :: b) = a ++ b.
Proof.
  intros <-. unfold remove_at. rewrite firstn_app_len by reflexivity. f_equal.
  rewrite skipn_app, skipn_all2 by lia. replace (S (length a) - length a)%nat with 1%nat by lia. reflexivity.
Qed.

Lemma insert_facts {A} : forall (l : list A) k v d, (k <= length l)%nat ->
  nth k (insert_at k v l) d = v /\ remove_at k (insert_at k v l) = l.
Proof.
  intros l k v d Hk. unfold insert_at. split.
  - rewrite app_nth2 by (rewrite firstn_length_le; lia). rewrite firstn_length_le by lia.
    rewrite Nat.sub_diag. reflexivity.
  - rewrite remove_at_app by (apply firstn_length_le; lia). apply firstn_skipn.
Qed.

Lemma grid_rows_cons : forall kv k u us nd,
  grid_rows (kv :: k) (u :: us) nd (zerov (S (length k))) = dense_row kv nd 0 u :: grid_rows k us nd (zerov (length k)).
Proof. reflexivity. Qed.

Lemma tp_eval_insert : forall r1 R r2 j C,
  row_equiv R (j, [1]) ->
  tp_eval (r1 ++ R :: r2) C = tp_eval (r1 ++ r2) (fun idx => C (insert_at (length r1) j idx)).
Proof.
  intros r1 R r2 j C HR. rewrite !tp_eval_app. apply tp_eval_ext_len. intros i1 Hl.
  destruct R as [o r]. cbn [tp_eval]. rewrite (HR _). cbn [fst snd rdot].
  rewrite Qcmult_1_l, Qcplus_0_r. apply tp_eval_ext. intros i2.
  rewrite insert_at_app by exact Hl. reflexivity.
Qed.

(* boundary(): slicing the coefficients is the trace wherever the collocation row of the sliced axis
   acts as the unit row at the kept index; Ends.v shows that it does at both ends of an open knot vector *)
Lemma boundary_trace_of_unit_row : forall k1 kv k2 co0 m u1 u2 a side c,
  length u1 = length k1 ->
  let f := mk_bsp (k1 ++ kv :: k2) co0 m in
  row_equiv (dense_row kv 0 0 a) ((if Nat.eqb side 0 then 0 else kv_n kv - 1)%nat, [1]) ->
  g_val (boundary f (length k1) side) (u1 ++ u2) c = g_val f (u1 ++ a :: u2) c.
Proof.
  intros k1 kv k2 co0 m u1 u2 a side c L1 f Hend.
  unfold g_val, boundary, sdim. subst f. cbn [kvs co nc].
  rewrite (remove_at_app k1 k2 _ kv eq_refl), nth_middle.
  rewrite !grid_rows_app by exact L1. cbn [length]. rewrite grid_rows_cons.
  rewrite (tp_eval_insert _ _ _ _ _ Hend), grid_rows_length by exact L1. reflexivity.
Qed.

(* a trilinear function and a point at which the selection XY[1-d] (sel_asis) picks other coordinates *)
Definition kv_lin : KV := ([0; 0; 1; 1], 1%nat).
Definition f_wit : bsp :=
  mk_bsp [kv_lin; kv_lin; kv_lin]
         (arr [2;2;2]%nat 1 [0; 1; Q2Qc 2; Q2Qc 3; Q2Qc 4; Q2Qc 5; Q2Qc 6; Q2Qc 7]) 1.
Definition xs_wit : list Qc := [Q2Qc (1#4); Q2Qc (1#2); Q2Qc (3#4)].
