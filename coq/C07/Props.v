(* C07 -- property theorems only, each followed (after the sections) by Print Assumptions.

   [in_dom kv u]: kv is an open knot vector (kv_ok of C02/Proofs.v) and u lies in its support.
   The partition of unity and the reference meaning of active_deriv come from the C02 theorems
   (coq/C07/Discharge.v); the interpolation of the basis at both ends of an open knot vector is proved
   in coq/C07/Ends.v from the end-point values of the reference (C02/Proofs_single.v).
   [open_ends kv]: kv_ok and the first knot has multiplicity exactly p+1 (both checked by open_kv). *)
From Coq Require Import Qcanon ZArith List Bool Lia Lqa Field.
From Verif.lib Require Import Bsp ListFacts.
From Verif.C02 Require Import Proofs Proofs_ref.
From Verif.C07 Require Import Model Proofs Discharge Ends Hess Algebra Disk Chain NurbsOps ArcModel.
Import ListNotations.
Open Scope Qc_scope.

(* Scattered-point evaluation (coordinate selection XY[sdim-1-d], sel_fixed) returns what
   __call__ returns at every point, for every number of axes, degrees, knot vectors, coefficients
   and every flattened trailing component. *)
Theorem routes_agree_val : forall f xs c,
  Forall2 in_dom (kvs f) (rev xs) -> pw_val sel_fixed f xs c = Some (call_val f xs c).
Proof.
  intros f xs c H. unfold pw_val. rewrite pw_coords_fixed, (pw_val_at_grid _ _ _ H). reflexivity.
Qed.

(* ... and pointwise_jacobian returns the grid_jacobian of the one-point grid (slot order included). *)
Theorem routes_agree_jac : forall f xs c,
  Forall2 in_dom (kvs f) (rev xs) -> pw_jac sel_fixed f xs c = Some (g_jac f (rev xs) c).
Proof.
  intros f xs c H. unfold pw_jac. rewrite pw_coords_fixed, (pw_jac_at_grid _ _ _ H). reflexivity.
Qed.

Theorem nurbs_routes_agree_val : forall f xs c,
  Forall2 in_dom (kvs f) (rev xs) -> n_pw_val sel_fixed f xs c = Some (n_call f xs c).
Proof.
  intros f xs c H. unfold n_pw_val. rewrite pw_coords_fixed, !(pw_val_at_grid _ _ _ H). reflexivity.
Qed.

Theorem nurbs_routes_agree_jac : forall f xs c,
  Forall2 in_dom (kvs f) (rev xs) -> n_pw_jac sel_fixed f xs c = Some (n_jac f (rev xs) c).
Proof.
  intros f xs c H. unfold n_pw_jac.
  rewrite pw_coords_fixed, !(pw_val_at_nd f _ 1), !(pw_val_at_grid _ _ _ H), !(pw_jac_at_grid _ _ _ H). reflexivity.
Qed.

(* The coordinate selection XY[1-d] (sel_asis; pyiga before d4028bf, fixes/C07-pointwise-axis-order.patch):
   IndexError for every curve, a different value for a trilinear function in 3D, correct only for sdim = 2
   (known_findings.json: impl:pointwise-axis-order:sdim1 / sdim3). *)
Theorem routes_agree_asis_sdim1_refuted : forall f x c, pw_val sel_asis f [x] c = None.
Proof. reflexivity. Qed.

Theorem routes_agree_asis_sdim3_refuted : exists f xs c,
  Forall2 in_dom (kvs f) (rev xs) /\ pw_val sel_asis f xs c <> Some (call_val f xs c).
Proof.
  exists f_wit, xs_wit, 0%nat. split.
  - simpl. constructor; [|constructor; [|constructor; [|constructor]]];
      apply (line_in_dom 0 1); vm_compute; congruence.
  - vm_compute. intro E. discriminate E.
Qed.

Theorem routes_agree_asis_sdim2 : forall f x y c, pw_val sel_asis f [x; y] c = pw_val sel_fixed f [x; y] c.
Proof. reflexivity. Qed.

(* Column j of the Jacobian is the contraction with the derivative collocation row on the knot
   vector of the j-th xyz coordinate (kvs[sdim-1-j]) and value rows elsewhere. *)
Theorem jacobian_slot_order : forall f us c j, (j < sdim f)%nat ->
  nth j (g_jac f us c) 0 = g_dir f 1 us (unitv (sdim f) (sdim f - 1 - j)) c.
Proof.
  intros f us c j Hj. unfold g_jac. rewrite rev_seq0, map_map.
  rewrite nth_map_seq by exact Hj. reflexivity.
Qed.

(* Values, Jacobian columns and Hessian slots are the sums  sum_I co[I] prod_k N^(D_k)_{I_k}(u_k)
   over the Cox-de Boor reference functions and their derivative recursion (ref_rows), with the
   derivative placed on the knot vector of the xyz direction the slot is documented to hold. *)
Theorem value_is_reference : forall f us c, Forall2 in_dom (kvs f) us ->
  g_val f us c = tp_eval (ref_rows (kvs f) us (zerov (sdim f))) (fun idx => co f idx c).
Proof. exact g_val_ref. Qed.

Theorem jacobian_is_derivative : forall f us c j, Forall2 in_dom (kvs f) us -> (j < sdim f)%nat ->
  nth j (g_jac f us c) 0
  = tp_eval (ref_rows (kvs f) us (unitv (sdim f) (sdim f - 1 - j))) (fun idx => co f idx c).
Proof.
  intros f us c j H Hj. rewrite jacobian_slot_order by exact Hj. unfold g_dir.
  rewrite (grid_rows_ref _ _ _ 1%nat); [reflexivity|assumption|apply in_unitv].
Qed.

Theorem hessian_is_derivative : forall f us c s, Forall2 in_dom (kvs f) us -> (s < length (hess_pairs (sdim f)))%nat ->
  nth s (g_hess f us c) 0
  = let ij := nth s (hess_pairs (sdim f)) (0, 0)%nat in
    tp_eval (ref_rows (kvs f) us (bump (bump (zerov (sdim f)) (fst ij)) (snd ij))) (fun idx => co f idx c).
Proof.
  intros f us c s H Hs. rewrite nth_g_hess by exact Hs. cbv zeta. unfold g_dir.
  rewrite (grid_rows_ref _ _ _ 2%nat); [reflexivity|assumption|apply in_bump2].
Qed.

(* Every collocation row of a function sums to one at every point of the domain. *)
Theorem rows_partition_of_unity : forall ks us, Forall2 in_dom ks us -> pou_at ks us.
Proof.
  intros ks us H. unfold pou_at, pou.
  induction H as [|kv u ks us Hd H IH]; [constructor|].
  cbn [length]. change (zerov (S (length ks))) with (0%nat :: zerov (length ks)).
  unfold grid_rows. cbn [zip3 map]. constructor; [apply pou_row; exact Hd|exact IH].
Qed.

(* The linearised Hessian slots of BSplineFunc.grid_hessian, written in xyz directions, are
   np.triu_indices(sdim) = (xx, xy, xz, yy, yz, zz) -- for every sdim; NurbsFunc.grid_hessian
   subtracts mat[I, J] with exactly these indices. *)
Theorem hessian_order : forall d,
  map (fun ij => (d - 1 - fst ij, d - 1 - snd ij)%nat) (hess_pairs d) = triu d.
Proof. exact hess_pairs_triu. Qed.

Theorem nurbs_is_quotient : forall f us c, g_val f us (wcomp f) <> 0 ->
  n_val f us c * g_val f us (wcomp f) = g_val f us c.
Proof. intros. unfold n_val. field. assumption. Qed.

(* _nurbs_jacobian satisfies the product rule for V = N W, and is the only solution. *)
Theorem nurbs_jacobian_quotient_rule : forall V W Va Wa, W <> 0 ->
  nurbs_jac_entry V W Va Wa * W + (V / W) * Wa = Va
  /\ forall n na, n * W = V -> na * W + n * Wa = Va -> na = nurbs_jac_entry V W Va Wa.
Proof.
  intros V W Va Wa HW. unfold nurbs_jac_entry. split; [field; exact HW|].
  intros n na <- <-. field. exact HW.
Qed.

(* NurbsFunc.grid_hessian satisfies the second-order Leibniz rule for V = N W, and is the only solution. *)
Theorem nurbs_hessian_quotient_rule : forall V W Va Vb Wa Wb Vab Wab, W <> 0 ->
  let N := V / W in
  let Na := nurbs_jac_entry V W Va Wa in
  let Nb := nurbs_jac_entry V W Vb Wb in
  let Nab := nurbs_hess_entry V W Vab Wab Na Nb Wa Wb in
  Nab * W + Na * Wb + Nb * Wa + N * Wab = Vab
  /\ forall n na nb nab, n * W = V -> na * W + n * Wa = Va -> nb * W + n * Wb = Vb ->
       nab * W + na * Wb + nb * Wa + n * Wab = Vab -> nab = Nab.
Proof.
  intros V W Va Vb Wa Wb Vab Wab HW. cbv zeta. unfold nurbs_hess_entry, nurbs_jac_entry.
  split; [field; exact HW|].
  intros n na nb nab <- <- <- <-. field. exact HW.
Qed.

Theorem translate_spec : forall f off us c, Forall2 in_dom (kvs f) us ->
  g_val (b_translate f off) us c = g_val f us c + off c.
Proof. intros. apply g_val_translate. apply rows_partition_of_unity. assumption. Qed.

Theorem scale_spec : forall f fac us c, g_val (b_scale f fac) us c = g_val f us c * fac c.
Proof. intros. unfold g_val, b_scale, sdim. simpl. apply tp_eval_scal_r. Qed.

Theorem apply_matrix_spec : forall f A rows us c,
  g_val (b_matrix f A rows) us c = rdot 0 (map (A c) (seq 0 (nc f))) (fun k => g_val f us k).
Proof. exact g_val_matrix. Qed.

(* __getitem__: component c of f[I] is component cs[c] of f, for every selection list cs (the
   positions an int / slice / index list / tuple denotes, with Python's negative-index and
   slice semantics: py_wrap, py_slice, py_list, sel_comps of Model.v) *)
Theorem getitem_spec : forall f cs us c, g_val (b_select f cs) us c = g_val f us (nth c cs 0%nat).
Proof. intros. reflexivity. Qed.

(* NurbsFunc: the selection applies to the numerator components only, the weight stays last *)
Theorem nurbs_getitem_spec : forall f cs us c, (c < length cs)%nat ->
  n_val (n_select f cs) us c = n_val f us (nth c cs 0%nat).
Proof.
  intros f cs us c Hc. unfold n_val, g_val, n_select, wcomp, sdim. cbn [kvs co nc].
  replace (S (length cs) - 1)%nat with (length cs) by lia.
  assert (E1 : (c <? length cs)%nat = true) by (apply Nat.ltb_lt; exact Hc).
  rewrite E1, Nat.ltb_irrefl. reflexivity.
Qed.

Theorem py_index_semantics : forall n i,
  (forall k, (k < n)%nat -> py_wrap n (Z.of_nat k) = Some k)
  /\ ((1 <= i <= n)%nat -> py_wrap n (- Z.of_nat i) = Some (n - i)%nat)
  /\ py_wrap n (Z.of_nat n + Z.of_nat i) = None /\ py_wrap n (- Z.of_nat n - 1 - Z.of_nat i) = None.
Proof.
  intros n i. unfold py_wrap. repeat split.
  - intros k Hk.
    destruct (Z.leb_spec 0 (Z.of_nat k)); [|lia]. destruct (Z.ltb_spec (Z.of_nat k) (Z.of_nat n)); [|lia].
    simpl. rewrite Nat2Z.id. reflexivity.
  - intros Hi.
    destruct (Z.leb_spec 0 (- Z.of_nat i)); [lia|]. simpl.
    destruct (Z.leb_spec (- Z.of_nat n) (- Z.of_nat i)); [|lia].
    destruct (Z.ltb_spec (- Z.of_nat i) 0); [|lia]. simpl. f_equal. lia.
  - destruct (Z.ltb_spec (Z.of_nat n + Z.of_nat i) (Z.of_nat n)); [lia|]. rewrite andb_false_r.
    destruct (Z.ltb_spec (Z.of_nat n + Z.of_nat i) 0); [lia|]. rewrite andb_false_r. reflexivity.
  - destruct (Z.leb_spec 0 (- Z.of_nat n - 1 - Z.of_nat i)); [lia|]. simpl.
    destruct (Z.leb_spec (- Z.of_nat n) (- Z.of_nat n - 1 - Z.of_nat i)); [lia|]. reflexivity.
Qed.

Theorem full_slice_is_identity : forall n, py_slice n None None 1 = seq 0 n.
Proof.
  intros n. unfold py_slice. simpl Z.eqb. simpl Z.ltb. cbv iota.
  replace ((Z.of_nat n - 0 + 1 - 1) / 1)%Z with (Z.of_nat n) by (rewrite Z.div_1_r; lia).
  rewrite Nat2Z.id. rewrite <- (map_id (seq 0 n)) at 2. apply map_ext. intros k. lia.
Qed.

Theorem reverse_slice_is_reversal : forall n, py_slice n None None (-1) = rev (seq 0 n).
Proof.
  intros n. unfold py_slice. simpl Z.eqb. simpl Z.ltb. cbv iota.
  replace ((Z.of_nat n - 1 - -1 - -1 - 1) / - -1)%Z with (Z.of_nat n) by (simpl Z.opp; rewrite Z.div_1_r; lia).
  rewrite Nat2Z.id, rev_seq0. apply map_ext_in. intros k Hk. apply in_seq in Hk. lia.
Qed.

Theorem as_nurbs_spec : forall f us c, (c < nc f)%nat -> Forall2 in_dom (kvs f) us ->
  n_val (b_as_nurbs f) us c = g_val f us c.
Proof. intros. apply n_val_as_nurbs; [assumption|]. apply rows_partition_of_unity. assumption. Qed.

(* NurbsFunc.translate / scale (divide by the weights, operate, premultiply again): no partition
   of unity needed, only non-zero weights *)
Theorem nurbs_translate_spec : forall f off us c,
  (c < wcomp f)%nat -> (forall idx, co f idx (wcomp f) <> 0) -> g_val f us (wcomp f) <> 0 ->
  n_val (n_translate f off) us c = n_val f us c + off c.
Proof.
  intros f off us c Hc Hw HW.
  unfold n_translate. rewrite n_val_mk_nurbs by exact Hc. unfold n_C, n_W.
  rewrite (tp_eval_ext _ _ (fun idx => co f idx c + off c * co f idx (wcomp f))).
  2:{ intros idx. field. apply Hw. }
  rewrite tp_eval_add, tp_eval_scal.
  unfold n_val, g_val in *. unfold sdim in *. field. exact HW.
Qed.

Theorem nurbs_scale_spec : forall f fac us c,
  (c < wcomp f)%nat -> (forall idx, co f idx (wcomp f) <> 0) -> g_val f us (wcomp f) <> 0 ->
  n_val (n_scale f fac) us c = n_val f us c * fac c.
Proof.
  intros f fac us c Hc Hw HW.
  unfold n_scale. rewrite n_val_mk_nurbs by exact Hc. unfold n_C, n_W.
  rewrite (tp_eval_ext _ _ (fun idx => co f idx c * fac c)).
  2:{ intros idx. field. apply Hw. }
  rewrite tp_eval_scal_r.
  unfold n_val, g_val in *. unfold sdim in *. field. exact HW.
Qed.

(* G(x, y) = G1(y) + G2(x): the first (x-most) coordinates go to the second operand *)
Theorem outer_sum_spec : forall f1 f2 x1 x2 c,
  Forall2 in_dom (kvs f1) (rev x1) -> Forall2 in_dom (kvs f2) (rev x2) ->
  call_val (b_outer_sum f1 f2) (x2 ++ x1) c = call_val f1 x1 c + call_val f2 x2 c.
Proof.
  intros f1 f2 x1 x2 c H1 H2. unfold call_val. rewrite rev_app_distr.
  apply g_val_outer_sum; [symmetry; exact (Forall2_length _ _ _ H1)| |]; apply rows_partition_of_unity; assumption.
Qed.

Theorem outer_product_spec : forall f1 f2 x1 x2 c,
  length x1 = sdim f1 -> length x2 = sdim f2 ->
  call_val (b_outer_product f1 f2) (x2 ++ x1) c = call_val f1 x1 c * call_val f2 x2 c.
Proof.
  intros. unfold call_val. rewrite rev_app_distr.
  apply g_val_outer_product. rewrite rev_length. assumption.
Qed.

(* G(x, y) = G2(x) x G1(y): components of G2 first *)
Theorem tensor_product_spec : forall f1 f2 x1 x2 c,
  Forall2 in_dom (kvs f1) (rev x1) -> Forall2 in_dom (kvs f2) (rev x2) ->
  call_val (b_tensor_product f1 f2) (x2 ++ x1) c
  = if (c <? nc f2)%nat then call_val f2 x2 c else call_val f1 x1 (c - nc f2).
Proof.
  intros f1 f2 x1 x2 c H1 H2. unfold call_val. rewrite rev_app_distr.
  apply g_val_tensor_product; [symmetry; exact (Forall2_length _ _ _ H1)| |]; apply rows_partition_of_unity; assumption.
Qed.

(* left/right fix the last knot-vector axis (x), bottom/top the one before (y), front/back z;
   names that do not exist in the dimension are rejected *)
Theorem bdspec_names : forall dim : nat,
  ((1 <= dim)%nat -> parse_bdname Left dim = Some ((dim - 1)%nat, 0%nat)
                     /\ parse_bdname Right dim = Some ((dim - 1)%nat, 1%nat))
  /\ ((2 <= dim)%nat -> parse_bdname Bottom dim = Some ((dim - 2)%nat, 0%nat)
                        /\ parse_bdname Top dim = Some ((dim - 2)%nat, 1%nat))
  /\ ((3 <= dim)%nat -> parse_bdname Front dim = Some ((dim - 3)%nat, 0%nat)
                        /\ parse_bdname Back dim = Some ((dim - 3)%nat, 1%nat))
  /\ ((dim < 2)%nat -> parse_bdname Bottom dim = None /\ parse_bdname Top dim = None)
  /\ ((dim < 3)%nat -> parse_bdname Front dim = None /\ parse_bdname Back dim = None).
Proof.
  intros dim. unfold parse_bdname.
  repeat split;
    repeat match goal with
    | |- context [(?a <? ?b)%Z] => destruct (Z.ltb_spec a b)
    | |- context [(?a <=? ?b)%Z] => destruct (Z.leb_spec a b)
    end; cbn [orb]; try lia; try reflexivity; f_equal; f_equal; lia.
Qed.

(* The B-spline basis of an open knot vector is interpolatory at both ends: at the first knot only
   N_0 is non-zero (= 1), at the last knot only N_{n-1}. *)
Theorem basis_interpolatory_at_ends : forall kv p j, kv_ok kv p -> (j < numdofs kv p)%nat ->
  (kn kv p < kn kv (S p) -> Nref kv p j (kn kv 0) = if Nat.eqb j 0 then 1 else 0)
  /\ Nref kv p j (lastk kv) = if Nat.eqb j (numdofs kv p - 1) then 1 else 0.
Proof. exact (fun kv p j H Hj => conj (fun Hlt => N_at_left_end kv p j H Hlt Hj) (N_at_right_end kv p j H Hj)). Qed.

(* boundary(): the function built from the sliced coefficients is the trace of f on the side
   (coordinate of the sliced axis = end of its knot vector), for any position of the axis among any
   number of axes, for B-spline and NURBS functions; no hypothesis beyond open knot vectors. *)
Theorem boundary_is_trace : forall k1 kv k2 co0 m u1 u2 side c,
  length u1 = length k1 -> length u2 = length k2 -> open_ends kv ->
  let f := mk_bsp (k1 ++ kv :: k2) co0 m in
  g_val (boundary f (length k1) side) (u1 ++ u2) c = g_val f (u1 ++ end_coord kv side :: u2) c.
Proof. intros. apply boundary_trace; assumption. Qed.

Theorem nurbs_boundary_is_trace : forall k1 kv k2 co0 m u1 u2 side c,
  length u1 = length k1 -> length u2 = length k2 -> open_ends kv ->
  let f := mk_bsp (k1 ++ kv :: k2) co0 m in
  n_val (boundary f (length k1) side) (u1 ++ u2) c = n_val f (u1 ++ end_coord kv side :: u2) c.
Proof.
  intros k1 kv k2 co0 m u1 u2 side c L1 L2 Ho f. unfold n_val.
  change (wcomp (boundary f (length k1) side)) with (wcomp f).
  unfold f. rewrite !boundary_is_trace by assumption. reflexivity.
Qed.

(* the generic _BoundaryFunction route and the coefficient route agree on an unrestricted function *)
Theorem boundary_routes_coincide : forall k1 kv k2 co0 m u1 u2 side c,
  length u1 = length k1 -> length u2 = length k2 -> open_ends kv ->
  let f := mk_bsp (k1 ++ kv :: k2) co0 m in
  bf_grid (fun u => g_val f u c) (length k1) (bf_fixed f (length k1) side) (u1 ++ u2)
  = g_val (boundary f (length k1) side) (u1 ++ u2) c.
Proof.
  intros k1 kv k2 co0 m u1 u2 side c L1 L2 Ho f. unfold f. rewrite boundary_is_trace by assumption.
  unfold bf_grid, bf_fixed. cbn [kvs]. rewrite nth_middle, insert_at_app by exact L1.
  unfold end_coord, kv_support, lastk. destruct (Nat.eqb side 0); reflexivity.
Qed.

(* support restriction: evaluation does not look at the support; `support` returns the override;
   boundary(bdspec) becomes the generic _BoundaryFunction at the end of the RESTRICTED support, and in
   both cases it is f restricted to the coordinate support[axis][side] *)
Theorem support_restriction_spec : forall ov k1 kv k2 co0 m u1 u2 side c,
  length u1 = length k1 -> length u2 = length k2 -> (ov = None -> open_ends kv) ->
  let f := mk_bsp (k1 ++ kv :: k2) co0 m in
  support_of ov f = match ov with Some s => s | None => map kv_support (k1 ++ kv :: k2) end
  /\ r_boundary_val ov f (length k1) side (u1 ++ u2) c
     = g_val f (u1 ++ r_fixed ov f (length k1) side :: u2) c.
Proof.
  intros ov k1 kv k2 co0 m u1 u2 side c L1 L2 Ho f. split; [destruct ov; reflexivity|].
  destruct ov as [s|].
  - unfold r_boundary_val, bf_grid. rewrite insert_at_app by exact L1. reflexivity.
  - unfold r_boundary_val. unfold f. rewrite boundary_is_trace by auto.
    unfold r_fixed, support_of. cbn [kvs]. rewrite map_app. cbn [map].
    rewrite <- (map_length kv_support k1), nth_middle.
    unfold end_coord, kv_support, lastk. destruct (Nat.eqb side 0); reflexivity.
Qed.

(* ... and its support is the support of f with the entry of the boundary's own axis removed: a
   restriction along the remaining axes is kept, whichever route boundary() takes *)
Theorem boundary_support_spec : forall ov f axis side,
  r_boundary_support ov f axis side = remove_at axis (support_of ov f).
Proof.
  intros [s|] f axis side; unfold r_boundary_support, remove_at; [reflexivity|].
  unfold support_of, boundary. cbn [kvs]. unfold remove_at. rewrite map_app, firstn_map, skipn_map. reflexivity.
Qed.

(* _BoundaryFunction of ANY function of an xyz coordinate list (any coordinate and value types:
   splines, NURBS, callables, compositions): both routes evaluate val at the point whose coordinate number
   len(x)-axis is the fixed one and whose remaining coordinates are x in order *)
Theorem boundary_function_is_trace : forall (A B : Type) (val : list A -> B) axis (fixed d : A) xs,
  (axis <= length xs)%nat ->
  let k := (length xs - axis)%nat in
  let full := insert_at k fixed xs in
  bf_call val axis fixed xs = val full
  /\ bf_grid (fun u => val (rev u)) axis fixed (rev xs) = val full
  /\ nth k full d = fixed /\ remove_at k full = xs /\ length full = S (length xs).
Proof.
  intros A B val axis fixed d xs Ha k full. split; [reflexivity|]. split.
  - unfold bf_grid. rewrite <- (insert_rev xs fixed axis). rewrite rev_involutive. reflexivity.
  - destruct (insert_facts xs k fixed d ltac:(unfold k; lia)) as [E1 E2].
    split; [exact E1|]. split; [exact E2|].
    unfold full, insert_at. rewrite app_length. cbn [length].
    rewrite firstn_length, skipn_length. unfold k. lia.
Qed.

(* _BoundaryFunction: __call__ (fixed coordinate inserted at len(x)-axis of the xyz list) and
   grid_eval (axis inserted at position axis of the zyx list) evaluate f at the same point *)
Theorem boundary_function_routes : forall (val : list Qc -> Qc) axis fixed xs, (axis <= length xs)%nat ->
  bf_call (fun x => val (rev x)) axis fixed xs = bf_grid val axis fixed (rev xs).
Proof. intros. unfold bf_call, bf_grid. rewrite insert_rev. reflexivity. Qed.

(* _BoundaryFunction.grid_jacobian (keep_normal=False) removes exactly the derivative along kvs[axis] *)
Theorem boundary_function_drops_normal : forall f us c axis, (axis < sdim f)%nat ->
  length (g_jac f us c) = sdim f
  /\ nth (length (g_jac f us c) - axis - 1) (g_jac f us c) 0 = g_dir f 1 us (unitv (sdim f) axis) c.
Proof.
  intros f us c axis Ha.
  rewrite g_jac_length. split; [reflexivity|]. rewrite jacobian_slot_order by lia.
  replace (sdim f - 1 - (sdim f - axis - 1))%nat with axis by lia. reflexivity.
Qed.

(* copy(): same knot vectors, coefficients (no second premultiplication for NURBS), values, derivatives *)
Theorem copy_spec : forall f us c,
  kvs (b_copy f) = kvs f /\ nc (b_copy f) = nc f /\ (forall idx, co (b_copy f) idx c = co f idx c)
  /\ g_val (b_copy f) us c = g_val f us c /\ n_val (b_copy f) us c = n_val f us c
  /\ g_jac (b_copy f) us c = g_jac f us c /\ g_hess (b_copy f) us c = g_hess f us c.
Proof. intros. repeat split; reflexivity. Qed.

(* cylinderize(z0, z1, support=(s0, s1)): the components of f followed by the affine map of the new
   (z-most, last in xyz) coordinate t *)
Theorem cylinderize_spec : forall f z0 z1 s0 s1 xs t c,
  s0 < s1 -> s0 <= t -> t <= s1 -> Forall2 in_dom (kvs f) (rev xs) ->
  call_val (b_cylinderize f z0 z1 s0 s1) (xs ++ [t]) c
  = if (c <? nc f)%nat then call_val f xs c
    else if Nat.eqb c (nc f) then z0 + (z1 - z0) * ((t - s0) / (s1 - s0))
    else call_val (b_line z0 z1 s0 s1) [t] (c - nc f).
Proof.
  intros f z0 z1 s0 s1 xs t c H H0 H1 Hd. unfold b_cylinderize.
  rewrite (tensor_product_spec (b_line z0 z1 s0 s1) f [t] xs c).
  - destruct (c <? nc f)%nat; [reflexivity|]. destruct (Nat.eqb_spec c (nc f)) as [->|]; [|reflexivity].
    rewrite Nat.sub_diag. apply line_segment_value; assumption.
  - cbn [rev app b_line kvs]. constructor; [apply line_in_dom; assumption|constructor].
  - exact Hd.
Qed.

(* ... with the documented defaults (support=(0,1), z0=0, z1=1): z = z0 + t (z1 - z0) for t in [0,1] -- the new
   axis is NOT parametrised over (z0, z1) -- and z = t without any argument *)
Theorem cylinderize_defaults_spec : forall f z0 z1 xs t,
  0 <= t -> t <= 1 -> Forall2 in_dom (kvs f) (rev xs) ->
  call_val (b_cylinderize_default_support f z0 z1) (xs ++ [t]) (nc f) = z0 + t * (z1 - z0)
  /\ call_val (b_cylinderize_defaults f) (xs ++ [t]) (nc f) = t
  /\ forall c, (c < nc f)%nat ->
       call_val (b_cylinderize_default_support f z0 z1) (xs ++ [t]) c = call_val f xs c
       /\ call_val (b_cylinderize_defaults f) (xs ++ [t]) c = call_val f xs c.
Proof.
  intros f z0 z1 xs t H0 H1 Hd.
  assert (L : (0:Qc) < 1) by (qc2q; lra).
  pose proof (fun a b c => cylinderize_spec f a b 0 1 xs t c L H0 H1 Hd) as E.
  unfold b_cylinderize_default_support, b_cylinderize_defaults.
  repeat split; rewrite E.
  - rewrite Nat.ltb_irrefl, Nat.eqb_refl. field. qc2q. lra.
  - rewrite Nat.ltb_irrefl, Nat.eqb_refl. field. qc2q. lra.
  - apply Nat.ltb_lt in H. rewrite H. reflexivity.
  - apply Nat.ltb_lt in H. rewrite H. reflexivity.
Qed.

(* ComposedFunction(geo2, geo1): grid_eval is geo2 at the point geo1(x) (component i of geo1 = xyz
   coordinate i of geo2); row c of grid_jacobian is sum_a J2[c][a] J1[a][j] with J2 the Jacobian of geo2
   at geo1(x) and J1 that of geo1 at x -- i.e. matmul(J2, J1), also for a scalar geo2 (c = 0) *)
Theorem composed_routes : forall f2 f1 us c,
  Forall2 in_dom (kvs f2) (rev (comp_point f1 us)) ->
  comp_val f2 f1 us c = Some (call_val f2 (comp_point f1 us) c)
  /\ comp_jac f2 f1 us c
     = Some (map (fun j => rdot 0 (g_jac f2 (rev (comp_point f1 us)) c) (fun a => nth j (g_jac f1 us a) 0))
                 (seq 0 (sdim f1))).
Proof.
  intros f2 f1 us c H. split.
  - apply routes_agree_val. exact H.
  - unfold comp_jac. rewrite (routes_agree_jac f2 _ c H). reflexivity.
Qed.

(* Every slot k of NurbsFunc.grid_hessian is the second derivative of N = V/W in the xyz directions
   (a, b) = triu_indices(sdim)[k] (for sdim = 3: xx, xy, xz, yy, yz, zz): it solves the Leibniz
   equations in which every B-spline quantity is the derivative along the knot vectors of exactly these
   directions.  (With tril_indices the slots (a, b) of the second part would not match slot k of the
   B-spline Hessians for sdim = 3.) *)
Theorem nurbs_hessian_is_derivative : forall f us c k a b,
  (k < length (triu (sdim f)))%nat -> nth k (triu (sdim f)) (0, 0)%nat = (a, b) ->
  g_val f us (wcomp f) <> 0 ->
  let d := sdim f in let w := wcomp f in
  let D1 x := unitv d (d - 1 - x) in
  let D2 := bump (bump (zerov d) (d - 1 - a)) (d - 1 - b) in
  let W := g_val f us w in let N := n_val f us c in
  let Na := nth a (n_jac f us c) 0 in let Nb := nth b (n_jac f us c) 0 in
  let Nab := nth k (n_hess f us c) 0 in
  (a <= b)%nat /\ (b < d)%nat
  /\ Na * W + N * g_dir f 1 us (D1 a) w = g_dir f 1 us (D1 a) c
  /\ Nb * W + N * g_dir f 1 us (D1 b) w = g_dir f 1 us (D1 b) c
  /\ Nab * W + Na * g_dir f 1 us (D1 b) w + Nb * g_dir f 1 us (D1 a) w + N * g_dir f 2 us D2 w
     = g_dir f 2 us D2 c.
Proof.
  intros f us c k a b Hk E HW. cbv zeta.
  destruct (slot_pairs _ _ _ _ Hk E) as [Hab [Hb Ehp]].
  assert (Ha : (a < sdim f)%nat) by lia.
  split; [exact Hab|]. split; [exact Hb|].
  unfold n_jac. rewrite !nth_nurbs_jac by (rewrite !g_jac_length; lia).
  rewrite (nth_n_hess f us c k Hk). cbv zeta. rewrite E. cbn [fst snd].
  rewrite !nth_nurbs_jac by (rewrite !g_jac_length; lia).
  rewrite !(nth_g_hess f us _ k) by (rewrite <- triu_length; exact Hk). cbv zeta. rewrite Ehp. cbn [fst snd].
  rewrite !(jacobian_slot_order f us _ a Ha), !(jacobian_slot_order f us _ b Hb).
  unfold n_val, nurbs_hess_entry, nurbs_jac_entry.
  repeat split; field; exact HW.
Qed.

Section ArcProps.
Variable F : Type.
Variables (f0 f1 : F) (fadd fmul fsub : F -> F -> F) (fopp : F -> F) (fdiv : F -> F -> F) (finv : F -> F).
Hypothesis Fth : field_theory f0 f1 fadd fmul fsub fopp fdiv finv (@eq F).
Local Notation "x + y" := (fadd x y).
Local Notation "x * y" := (fmul x y).
Local Notation "x - y" := (fsub x y).
Local Notation X := (seg_x F f1 fadd fmul fsub).
Local Notation Y := (seg_y F f1 fadd fmul fsub).
Local Notation Wt := (seg_w F f1 fadd fmul fsub).
Local Notation tw := (two F f1 fadd).

(* circular_arc_3pt: numerator (X, Y) and weight Wt satisfy X^2 + Y^2 = (r Wt)^2 for every
   parameter value: the curve (X/Wt, Y/Wt) lies on the circle of radius r *)
Theorem arc3_on_circle : forall c s r t, c * c + s * s = f1 ->
  X f1 f0 c s r t * X f1 f0 c s r t + Y f1 f0 c s r t * Y f1 f0 c s r t = (r * Wt c t) * (r * Wt c t).
Proof. exact (arc3_norm F f0 f1 fadd fmul fsub fopp fdiv finv Fth). Qed.

(* every Bezier segment of circular_arc_5pt / _7pt (start direction (C0,S0), half-angle (c,s)) *)
Theorem arc_segment_on_circle : forall C0 S0 c s r t, C0 * C0 + S0 * S0 = f1 -> c * c + s * s = f1 ->
  X C0 S0 c s r t * X C0 S0 c s r t + Y C0 S0 c s r t * Y C0 S0 c s r t = (r * Wt c t) * (r * Wt c t).
Proof. exact (segment_norm F f0 f1 fadd fmul fsub fopp fdiv finv Fth). Qed.

(* a segment starts at r (C0, S0) and ends at r (C0, S0) turned by twice the half-angle, which is
   again a unit direction: the arc starts at angle 0 on the x axis and, after n segments, ends at
   the angle 2 n beta = alpha *)
Theorem arc_segment_endpoints : forall C0 S0 c s r,
  (X C0 S0 c s r f0 = r * C0 /\ Y C0 S0 c s r f0 = r * S0 /\ Wt c f0 = f1)
  /\ (X C0 S0 c s r f1 = r * (C0 * (c * c - s * s) - S0 * (tw * s * c))
      /\ Y C0 S0 c s r f1 = r * (S0 * (c * c - s * s) + C0 * (tw * s * c)) /\ Wt c f1 = f1).
Proof.
  exact (fun C0 S0 c s r => conj (segment_start F f0 f1 fadd fmul fsub fopp fdiv finv Fth C0 S0 c s r)
                                 (segment_end F f0 f1 fadd fmul fsub fopp fdiv finv Fth C0 S0 c s r)).
Qed.

Theorem arc_segments_chain : forall C0 S0 c s, C0 * C0 + S0 * S0 = f1 -> c * c + s * s = f1 ->
  let C1 := C0 * (c * c - s * s) - S0 * (tw * s * c) in
  let S1 := S0 * (c * c - s * s) + C0 * (tw * s * c) in
  C1 * C1 + S1 * S1 = f1.
Proof. exact (segment_end_unit F f0 f1 fadd fmul fsub fopp fdiv finv Fth). Qed.

(* quarter_annulus: |G(x,y)| = (1-x) r1 + x r2; x = 0 / 1 are the circles of radius r1 / r2,
   y = 0 lies on the x axis and y = 1 on the y axis *)
Theorem quarter_annulus_radii : forall q r1 r2 x y, tw * (q * q) = f1 ->
  qa_x F f1 fadd fmul fsub q r1 r2 x y * qa_x F f1 fadd fmul fsub q r1 r2 x y
  + qa_y F f1 fadd fmul fsub q r1 r2 x y * qa_y F f1 fadd fmul fsub q r1 r2 x y
  = (((f1 - x) * r1 + x * r2) * qa_w F f1 fadd fmul fsub q y) * (((f1 - x) * r1 + x * r2) * qa_w F f1 fadd fmul fsub q y).
Proof. exact (quarter_annulus_norm F f0 f1 fadd fmul fsub fopp fdiv finv Fth). Qed.

Theorem quarter_annulus_axes : forall q r1 r2 x,
  qa_y F f1 fadd fmul fsub q r1 r2 x f0 = f0 /\ qa_x F f1 fadd fmul fsub q r1 r2 x f1 = f0.
Proof.
  exact (fun q r1 r2 x => proj2 (proj2 (quarter_annulus_sides F f0 f1 fadd fmul fsub fopp fdiv finv Fth q r1 r2 f0)) x).
Qed.

(* geometry.disk(r): its four sides -- gR = circular_arc(pi/2), gL = flipped gR scaled by -1,
   gB / gT = gR / gL rotated by -pi/2, all times r -- lie on the circle of radius r: for every parameter
   value  x^2 + y^2 = (r w)^2  for numerator (x, y) and weight w of the control nets the code builds.
   (c, s) = (cos, sin)(pi/4), (cr, sr) = (cos, sin)(-pi/2); only the unit constraints are needed. *)
Theorem disk_boundary_on_circle : forall c s cr sr r, c * c + s * s = f1 -> cr * cr + sr * sr = f1 ->
  on_circle F f1 fadd fmul fsub r (disk_R F f0 f1 fadd fmul fsub c s r)
  /\ on_circle F f1 fadd fmul fsub r (disk_L F f0 f1 fadd fmul fsub fopp c s r)
  /\ on_circle F f1 fadd fmul fsub r (disk_B F f0 f1 fadd fmul fsub c s cr sr r)
  /\ on_circle F f1 fadd fmul fsub r (disk_T F f0 f1 fadd fmul fsub fopp c s cr sr r).
Proof. exact (disk_sides_on_circle F f0 f1 fadd fmul fsub fopp fdiv finv Fth). Qed.
End ArcProps.

Section ChainProps.
Variable F : Type.
Variables (f0 f1 : F) (fadd fmul fsub : F -> F -> F) (fopp : F -> F).
Hypothesis Rth : ring_theory f0 f1 fadd fmul fsub fopp (@eq F).

(* ComposedFunction.grid_jacobian = matmul(jac2, jac1): if geo1(x + e h) = y + e J1 h and
   geo2(y + e k) = z + e J2 k to first order, the composition has first-order part J2 (J1 h), and that
   is the action of matmul(J2, J1) on h -- for every shape (s = sdim geo1, m = dim geo1 = sdim geo2) *)
Theorem composed_chain_rule : forall s m (J2 J1 : nat -> nat -> F) (h : nat -> F) i,
  mv F f0 fadd fmul s (matmul F f0 fadd fmul m J2 J1) h i = mv F f0 fadd fmul m J2 (mv F f0 fadd fmul s J1 h) i.
Proof. intros. exact (dot_vecmat F f0 f1 fadd fmul fsub fopp Rth s m (J2 i) J1 h). Qed.

(* scalar geo2 (its Jacobian is the gradient g): matmul(g[None, :], jac1)[0, :] *)
Theorem composed_chain_rule_scalar : forall s m (g : nat -> F) (J1 : nat -> nat -> F) (h : nat -> F),
  dot F f0 fadd fmul s (vecmat F f0 fadd fmul m g J1) h = dot F f0 fadd fmul m g (mv F f0 fadd fmul s J1 h).
Proof. exact (dot_vecmat F f0 f1 fadd fmul fsub fopp Rth). Qed.
End ChainProps.

Print Assumptions routes_agree_val.
Print Assumptions routes_agree_jac.
Print Assumptions nurbs_routes_agree_val.
Print Assumptions nurbs_routes_agree_jac.
Print Assumptions routes_agree_asis_sdim1_refuted.
Print Assumptions routes_agree_asis_sdim3_refuted.
Print Assumptions routes_agree_asis_sdim2.
Print Assumptions jacobian_slot_order.
Print Assumptions value_is_reference.
Print Assumptions jacobian_is_derivative.
Print Assumptions hessian_is_derivative.
Print Assumptions rows_partition_of_unity.
Print Assumptions hessian_order.
Print Assumptions nurbs_is_quotient.
Print Assumptions nurbs_jacobian_quotient_rule.
Print Assumptions nurbs_hessian_quotient_rule.
Print Assumptions translate_spec.
Print Assumptions scale_spec.
Print Assumptions apply_matrix_spec.
Print Assumptions getitem_spec.
Print Assumptions nurbs_getitem_spec.
Print Assumptions py_index_semantics.
Print Assumptions full_slice_is_identity.
Print Assumptions reverse_slice_is_reversal.
Print Assumptions as_nurbs_spec.
Print Assumptions nurbs_translate_spec.
Print Assumptions nurbs_scale_spec.
Print Assumptions outer_sum_spec.
Print Assumptions outer_product_spec.
Print Assumptions tensor_product_spec.
Print Assumptions bdspec_names.
Print Assumptions basis_interpolatory_at_ends.
Print Assumptions boundary_is_trace.
Print Assumptions nurbs_boundary_is_trace.
Print Assumptions boundary_routes_coincide.
Print Assumptions support_restriction_spec.
Print Assumptions boundary_support_spec.
Print Assumptions boundary_function_is_trace.
Print Assumptions copy_spec.
Print Assumptions cylinderize_spec.
Print Assumptions cylinderize_defaults_spec.
Print Assumptions composed_routes.
Print Assumptions nurbs_hessian_is_derivative.
Print Assumptions disk_boundary_on_circle.
Print Assumptions composed_chain_rule.
Print Assumptions composed_chain_rule_scalar.
Print Assumptions boundary_function_routes.
Print Assumptions boundary_function_drops_normal.
Print Assumptions arc3_on_circle.
Print Assumptions arc_segment_on_circle.
Print Assumptions arc_segment_endpoints.
Print Assumptions arc_segments_chain.
Print Assumptions quarter_annulus_radii.
Print Assumptions quarter_annulus_axes.

(* The NURBS branches of the operations.  Hypotheses: non-zero weights (co f idx (wcomp f)) and a non-zero
   weight function at the point; no partition of unity is needed, the weight functions cancel. *)

(* NurbsFunc.apply_matrix: A applied to the values; the weights are unchanged *)
Theorem nurbs_apply_matrix_spec : forall f A rows us c,
  (c < rows)%nat -> (forall idx, co f idx (wcomp f) <> 0) -> g_val f us (wcomp f) <> 0 ->
  n_val (n_matrix f A rows) us c = rdot 0 (map (A c) (seq 0 (wcomp f))) (fun k => n_val f us k).
Proof. exact n_val_matrix. Qed.

(* rotate_2d(angle) with (c, s) = (cos, sin)(angle): (x, y) -> (c x - s y, s x + c y), B-spline and NURBS;
   with c^2 + s^2 = 1 it preserves the distance from the origin *)
Theorem rotate_spec : forall f c s us, nc f = 2%nat ->
  g_val (b_rotate f c s) us 0 = c * g_val f us 0 - s * g_val f us 1
  /\ g_val (b_rotate f c s) us 1 = s * g_val f us 0 + c * g_val f us 1.
Proof.
  intros f c s us H. unfold b_rotate. rewrite !apply_matrix_spec, H. cbn [seq map rdot rot_mat]. split; ring.
Qed.

Theorem nurbs_rotate_spec : forall f c s us, wcomp f = 2%nat ->
  (forall idx, co f idx (wcomp f) <> 0) -> g_val f us (wcomp f) <> 0 ->
  n_val (n_rotate f c s) us 0 = c * n_val f us 0 - s * n_val f us 1
  /\ n_val (n_rotate f c s) us 1 = s * n_val f us 0 + c * n_val f us 1.
Proof.
  intros f c s us H Hw HW. unfold n_rotate.
  rewrite !n_val_matrix by (assumption || lia). rewrite H. cbn [seq map rdot rot_mat]. split; ring.
Qed.

Theorem rotate_isometry : forall f c s us, nc f = 2%nat -> c * c + s * s = 1 ->
  g_val (b_rotate f c s) us 0 * g_val (b_rotate f c s) us 0 + g_val (b_rotate f c s) us 1 * g_val (b_rotate f c s) us 1
  = g_val f us 0 * g_val f us 0 + g_val f us 1 * g_val f us 1.
Proof.
  intros f c s us H Hcs. destruct (rotate_spec f c s us H) as [E0 E1]. rewrite E0, E1.
  set (x := g_val f us 0). set (y := g_val f us 1).
  transitivity ((c * c + s * s) * (x * x + y * y)); [ring|]. rewrite Hcs. ring.
Qed.

(* outer_sum / outer_product / tensor_product of two NurbsFuncs (coefficients C1 + C2 resp. C1 C2, weights W1 W2):
   G(x, y) = G1(y) + G2(x), G1(y) G2(x), G2(x) x G1(y); u1 / u2 are the coordinates of G1 / G2 in knot-vector order *)
Theorem nurbs_outer_sum_spec : forall f1 f2 u1 u2, length u1 = sdim f1 ->
  (forall idx, co f1 idx (wcomp f1) <> 0) -> (forall idx, co f2 idx (wcomp f2) <> 0) ->
  g_val f1 u1 (wcomp f1) <> 0 -> g_val f2 u2 (wcomp f2) <> 0 ->
  forall c, (c < wcomp f1)%nat ->
  n_val (n_outer_sum f1 f2) (u1 ++ u2) c = n_val f1 u1 c + n_val f2 u2 c.
Proof.
  intros f1 f2 u1 u2 L1 Hw1 Hw2 HW1 HW2 c Hc.
  unfold n_outer_sum. rewrite n_val_mk_nurbs by exact Hc. unfold n_C, n_W.
  rewrite (tp_eval_ext _ _ (fun idx => co f1 (split1 f1 idx) c * co f2 (split2 f1 idx) (wcomp f2)
                                       + co f1 (split1 f1 idx) (wcomp f1) * co f2 (split2 f1 idx) c)).
  2:{ intros idx. field. split; [apply Hw2|apply Hw1]. }
  rewrite tp_eval_add, !outer_mul by exact L1. unfold n_val. field. split; assumption.
Qed.

Theorem nurbs_outer_product_spec : forall f1 f2 u1 u2, length u1 = sdim f1 ->
  (forall idx, co f1 idx (wcomp f1) <> 0) -> (forall idx, co f2 idx (wcomp f2) <> 0) ->
  g_val f1 u1 (wcomp f1) <> 0 -> g_val f2 u2 (wcomp f2) <> 0 ->
  forall c, (c < wcomp f1)%nat ->
  n_val (n_outer_product f1 f2) (u1 ++ u2) c = n_val f1 u1 c * n_val f2 u2 c.
Proof.
  intros f1 f2 u1 u2 L1 Hw1 Hw2 HW1 HW2 c Hc.
  unfold n_outer_product. rewrite n_val_mk_nurbs by exact Hc. unfold n_C, n_W.
  rewrite (tp_eval_ext _ _ (fun idx => co f1 (split1 f1 idx) c * co f2 (split2 f1 idx) c)).
  2:{ intros idx. field. split; [apply Hw2|apply Hw1]. }
  rewrite !outer_mul by exact L1. unfold n_val. field. split; assumption.
Qed.

Theorem nurbs_tensor_product_spec : forall f1 f2 u1 u2, length u1 = sdim f1 ->
  (forall idx, co f1 idx (wcomp f1) <> 0) -> (forall idx, co f2 idx (wcomp f2) <> 0) ->
  g_val f1 u1 (wcomp f1) <> 0 -> g_val f2 u2 (wcomp f2) <> 0 ->
  forall c, (c < wcomp f2 + wcomp f1)%nat ->
  n_val (n_tensor_product f1 f2) (u1 ++ u2) c
  = if (c <? wcomp f2)%nat then n_val f2 u2 c else n_val f1 u1 (c - wcomp f2).
Proof.
  intros f1 f2 u1 u2 L1 Hw1 Hw2 HW1 HW2 c Hc.
  unfold n_tensor_product. rewrite n_val_mk_nurbs by exact Hc. unfold n_C, n_W.
  destruct (c <? wcomp f2)%nat.
  - rewrite (tp_eval_ext _ _ (fun idx => co f1 (split1 f1 idx) (wcomp f1) * co f2 (split2 f1 idx) c)).
    2:{ intros idx. field. apply Hw2. }
    rewrite !outer_mul by exact L1. unfold n_val. field. split; assumption.
  - rewrite (tp_eval_ext _ _ (fun idx => co f1 (split1 f1 idx) (c - wcomp f2) * co f2 (split2 f1 idx) (wcomp f2))).
    2:{ intros idx. field. apply Hw1. }
    rewrite !outer_mul by exact L1. unfold n_val. field. split; assumption.
Qed.

(* mixed operands: the BSplineFunc G1 is converted by as_nurbs() (weights 1) and the NURBS branch is taken *)
Theorem mixed_outer_spec : forall f1 f2 u1 u2 c,
  length u1 = sdim f1 -> length u2 = sdim f2 -> (c < nc f1)%nat -> pou_at (kvs f1) u1 ->
  (forall idx, co f2 idx (wcomp f2) <> 0) -> g_val f2 u2 (wcomp f2) <> 0 ->
  n_val (n_outer_sum (b_as_nurbs f1) f2) (u1 ++ u2) c = g_val f1 u1 c + n_val f2 u2 c
  /\ n_val (n_outer_product (b_as_nurbs f1) f2) (u1 ++ u2) c = g_val f1 u1 c * n_val f2 u2 c.
Proof.
  intros f1 f2 u1 u2 c L1 L2 Hc Hp Hw2 HW2.
  assert (One : (1:Qc) <> 0) by (intro E; discriminate E).
  assert (Hw1 : forall idx, co (b_as_nurbs f1) idx (wcomp (b_as_nurbs f1)) <> 0)
    by (intros idx; rewrite as_nurbs_weights; exact One).
  assert (HW1 : g_val (b_as_nurbs f1) u1 (wcomp (b_as_nurbs f1)) <> 0)
    by (rewrite (as_nurbs_weight_fn _ _ Hp); exact One).
  rewrite <- (n_val_as_nurbs f1 u1 c Hc Hp).
  split; [apply nurbs_outer_sum_spec|apply nurbs_outer_product_spec];
    assumption || (rewrite wcomp_as_nurbs; exact Hc).
Qed.

(* UserFunction: __call__, pointwise_eval and grid_eval (utils.grid_eval: reversed mesh) of ANY callable agree,
   and so do the routes of its boundary restriction *)
Theorem user_routes_agree : forall (A B : Type) (fn : list A -> B) xs axis fixed,
  u_pw fn xs = u_call fn xs /\ u_grid fn (rev xs) = u_call fn xs
  /\ ((axis <= length xs)%nat ->
      bf_call (u_call fn) axis fixed xs = bf_grid (u_grid fn) axis fixed (rev xs)).
Proof.
  intros A B fn xs axis fixed. split; [reflexivity|]. split.
  - unfold u_grid, u_call. rewrite rev_involutive. reflexivity.
  - intros Ha. unfold bf_call, bf_grid, u_grid, u_call. rewrite <- (insert_rev xs fixed axis).
    rewrite rev_involutive. reflexivity.
Qed.

(* The arc constructors as functions of the model (coq/C07/ArcModel.v).  The quadratic B-splines of make_knots(2, 0, 1, n, mult=2) are the Bernstein polynomials of each span (bezier_span,
   bez_N2: proved from the Cox-de Boor recursion for every t of the span); hence the values g_val that all
   evaluation routes of the model compute for circular_arc_3pt / _5pt (semicircle) / _7pt (circle) -- numerator
   (X, Y), weight W -- satisfy X^2 + Y^2 = (r W)^2 for EVERY parameter value t in [0,1], every radius r and every
   (c, s) with c^2 + s^2 = 1 ((cos, sin) of alpha/2, alpha/4, alpha/6): the curve lies on the circle of radius r
   (bezier_arcs_on_circle, for any number of segments). *)
Theorem arc3_model_on_circle : forall c s r t, c * c + s * s = 1 -> 0 <= t -> t <= 1 ->
  let X := g_val (arc3_fn c s r) [t] 0 in let Y := g_val (arc3_fn c s r) [t] 1 in
  let W := g_val (arc3_fn c s r) [t] 2 in
  X * X + Y * Y = (r * W) * (r * W)
  /\ (W <> 0 -> n_val (arc3_fn c s r) [t] 0 * n_val (arc3_fn c s r) [t] 0
               + n_val (arc3_fn c s r) [t] 1 * n_val (arc3_fn c s r) [t] 1 = r * r).
Proof.
  intros c s r t H H0 H1. cbv zeta.
  pose proof (bezier_arcs_on_circle (arc3_fn c s r) (fst bez_kv) c s r eq_refl bez_ok H
                (fun i Hi _ => arc3_spans c s r i Hi) t H0 H1) as E.
  split; [exact E|]. exact (on_circle_quotient _ _ _ r E).
Qed.

Theorem arc5_model_on_circle : forall c s r t, c * c + s * s = 1 -> 0 <= t -> t <= 1 ->
  let X := g_val (arc5_fn c s r) [t] 0 in let Y := g_val (arc5_fn c s r) [t] 1 in
  let W := g_val (arc5_fn c s r) [t] 2 in
  X * X + Y * Y = (r * W) * (r * W).
Proof.
  intros c s r t H.
  exact (bezier_arcs_on_circle (arc5_fn c s r) (fst arc5_kv) c s r eq_refl arc5_ok H (fun i => arc5_spans c s r i H) t).
Qed.

(* the 5-point arc starts at (r, 0) and ends at r d_4 = r (cos alpha, sin alpha), both with weight 1 *)
Theorem arc5_model_endpoints : forall c s r,
  g_val (arc5_fn c s r) [0] 0 = r /\ g_val (arc5_fn c s r) [0] 1 = 0 /\ g_val (arc5_fn c s r) [0] 2 = 1
  /\ g_val (arc5_fn c s r) [1] 0 = co (arc5_fn c s r) [4%nat] 0
  /\ g_val (arc5_fn c s r) [1] 1 = co (arc5_fn c s r) [4%nat] 1 /\ g_val (arc5_fn c s r) [1] 2 = 1.
Proof.
  intros c s r.
  pose proof (fun k => curve_ends (arc5_fn c s r) arc5_kv k eq_refl arc5_open) as E.
  change (kn (fst arc5_kv) 0) with (0:Qc) in E. change (lastk (fst arc5_kv)) with (1:Qc) in E.
  rewrite !(proj1 (E _)), !(proj2 (E _)). cbv [co arc5_fn arr ravel app nth Nat.mul Nat.add]. repeat split; ring.
Qed.

Theorem arc7_model_on_circle : forall c s r t, c * c + s * s = 1 -> 0 <= t -> t <= 1 ->
  let X := g_val (arc7_fn c s r) [t] 0 in let Y := g_val (arc7_fn c s r) [t] 1 in
  let W := g_val (arc7_fn c s r) [t] 2 in
  X * X + Y * Y = (r * W) * (r * W).
Proof.
  intros c s r t H.
  exact (bezier_arcs_on_circle (arc7_fn c s r) (fst arc7_kv) c s r eq_refl arc7_ok H (fun i => arc7_spans c s r i H) t).
Qed.

(* NOT PROVED -- clause by clause account of the property text (everything not listed has a theorem above):
   * routes agree / Jacobians / Hessians: proved for B-spline, NURBS, ComposedFunction with B-spline operands
     (composed_routes), any callable (user_routes_agree) and any boundary restriction (the boundary_function theorems).
     Without theorem: ComposedFunction with NURBS operands (same algebra, not stated); the Hessian of a
     ComposedFunction (pyiga has none); apply_tprod / np.einsum are modelled by their contract (tp_eval), their loops
     are C16/C09's subject.
   * "Jacobians and Hessians equal the derivatives": proved relative to the Cox-de Boor derivative recursion dNref
     (jacobian_is_derivative, hessian_is_derivative, nurbs_jacobian_quotient_rule, nurbs_hessian_quotient_rule, nurbs_hessian_is_derivative); that dNref
     is the analytic derivative of Nref as a real function is not stated in Coq (no calculus over Qc).
   * operations: translate, scale, rotate, matrix, outer sum/product, tensor product, extrusion, getitem, as_nurbs,
     boundary, support restriction, copy all have theorems for BSplineFunc and NurbsFunc operands, except:
     NurbsFunc.__getitem__/boundary/copy are stated on the premultiplied model (nurbs_getitem_spec,
     nurbs_boundary_is_trace, copy_spec) -- complete; tensor_product with more than two operands (a fold of the binary
     one), perturb (random) and find_inverse (scipy optimiser) have no theorem.
   * circular arcs / circles / disks / annuli: 3-, 5-, 7-point arcs proved on the model for every t (above), for
     rational (c, s); for arbitrary fields in Bezier form (arc_segment_on_circle). Without theorem on the model:
     the end point / angle of the 7-point arc (only arc_segment_endpoints + arc_segments_chain), the dispatch of
     circular_arc(alpha) on alpha < pi (real-number comparison), quarter_annulus and disk as model functions (their
     weight 1/sqrt 2 resp. cos(pi/4) is not rational: proved over an arbitrary field only, quarter_annulus_radii,
     disk_boundary_on_circle), the interior of the disk, np.cos / np.sin rounding (bounded by the tie).
   * "no operation alters the object": aliasing is not expressible in the functional model; monitored on the
     implementation by snapshots around every call (oracle only). *)

Print Assumptions nurbs_apply_matrix_spec.
Print Assumptions rotate_spec.
Print Assumptions nurbs_rotate_spec.
Print Assumptions rotate_isometry.
Print Assumptions nurbs_outer_sum_spec.
Print Assumptions nurbs_outer_product_spec.
Print Assumptions nurbs_tensor_product_spec.
Print Assumptions mixed_outer_spec.
Print Assumptions user_routes_agree.
Print Assumptions arc3_model_on_circle.
Print Assumptions arc5_model_on_circle.
Print Assumptions arc5_model_endpoints.
Print Assumptions arc7_model_on_circle.
