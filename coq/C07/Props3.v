(* C07 -- theorems, third file: documented argument forms of the operations.
   apply_matrix(A) with A "either a single matrix or an array of matrices, one for each control point.
   Standard numpy broadcasting rules apply" (bspline.py:1082-1091, geometry.py:258-269).
   Model: coq/C07/ArgForms.v (b_matrix_pc, n_matrix_pc, arrA / bc_idx for the broadcasting). *)
From Coq Require Import Qcanon List Arith Lia.
From Verif.C07 Require Import Model Proofs NurbsOps ArgForms.
Import ListNotations.
Open Scope Qc_scope.

(* the documented map: same knot vectors, `rows` components, control point idx mapped by ITS OWN matrix *)
Theorem apply_matrix_per_control_point_spec : forall f A rows idx c,
  kvs (b_matrix_pc f A rows) = kvs f /\ nc (b_matrix_pc f A rows) = rows
  /\ co (b_matrix_pc f A rows) idx c = rdot 0 (map (A idx c) (seq 0 (nc f))) (co f idx).
Proof. intros. repeat split. Qed.

(* its value: the spline whose control points are A[idx] . C[idx] *)
Theorem apply_matrix_per_control_point_value : forall f A rows us c,
  g_val (b_matrix_pc f A rows) us c
  = tp_eval (grid_rows (kvs f) us 0 (zerov (sdim f)))
            (fun idx => rdot 0 (map (A idx c) (seq 0 (nc f))) (co f idx)).
Proof. intros. reflexivity. Qed.

(* the single matrix is the constant family: apply_matrix_spec is the special case *)
Theorem apply_matrix_single_is_constant_family : forall f A rows us c,
  b_matrix_pc f (fun _ => A) rows = b_matrix f A rows
  /\ g_val (b_matrix_pc f (fun _ => A) rows) us c = rdot 0 (map (A c) (seq 0 (nc f))) (fun k => g_val f us k).
Proof. intros. split; [reflexivity|]. exact (g_val_matrix f A rows us c). Qed.

Theorem apply_matrix_depends_on_own_matrices_only : forall f A B rows us c,
  (forall idx k, A idx c k = B idx c k) ->
  g_val (b_matrix_pc f A rows) us c = g_val (b_matrix_pc f B rows) us c.
Proof.
  intros. rewrite !apply_matrix_per_control_point_value. apply tp_eval_ext. intros idx.
  f_equal. apply map_ext. intros k. apply H.
Qed.

(* NurbsFunc.apply_matrix: the matrices act on the non-premultiplied control points, weights unchanged *)
Theorem nurbs_apply_matrix_per_control_point_spec : forall f A rows idx c, (c < rows)%nat ->
  kvs (n_matrix_pc f A rows) = kvs f /\ wcomp (n_matrix_pc f A rows) = rows
  /\ co (n_matrix_pc f A rows) idx rows = co f idx (wcomp f)
  /\ co (n_matrix_pc f A rows) idx c
     = rdot 0 (map (A idx c) (seq 0 (wcomp f))) (n_C f idx) * co f idx (wcomp f).
Proof.
  intros f A rows idx c H. unfold n_matrix_pc, mk_nurbs, wcomp, n_W. simpl.
  rewrite Nat.sub_0_r, Nat.ltb_irrefl.
  destruct (Nat.ltb_spec c rows) as [_|?]; [|lia]. repeat split.
Qed.

Theorem nurbs_apply_matrix_single_is_constant_family : forall f A rows us c,
  (c < rows)%nat -> (forall idx, co f idx (wcomp f) <> 0) -> g_val f us (wcomp f) <> 0 ->
  n_matrix_pc f (fun _ => A) rows = n_matrix f A rows
  /\ n_val (n_matrix_pc f (fun _ => A) rows) us c = rdot 0 (map (A c) (seq 0 (wcomp f))) (fun k => n_val f us k).
Proof. intros. split; [reflexivity|]. exact (n_val_matrix f A rows us c H H0 H1). Qed.

Theorem nurbs_apply_matrix_keeps_weight_function : forall f A rows us,
  g_val (n_matrix_pc f A rows) us (wcomp (n_matrix_pc f A rows)) = g_val f us (wcomp f).
Proof.
  intros. unfold g_val, n_matrix_pc, mk_nurbs, wcomp, sdim, n_W. simpl. rewrite Nat.sub_0_r.
  apply tp_eval_ext. intros idx. rewrite Nat.ltb_irrefl. reflexivity.
Qed.

(* broadcasting: shape (rows, cols) = one matrix for all control points; full control-net shape = own matrix *)
Theorem matrix_array_single : forall rows cols flat idx r c,
  arrA [] rows cols flat idx r c = nth (r * cols + c) flat 0.
Proof. intros. unfold arrA, bc_idx. simpl. reflexivity. Qed.

Theorem matrix_array_full_shape_reads_own_index : forall ash idx, length idx = length ash ->
  Forall2 (fun n i => (i < n)%nat) ash idx -> bc_idx ash idx = idx.
Proof.
  intros ash idx Hl H. unfold bc_idx. rewrite Hl, Nat.sub_diag. simpl. clear Hl.
  induction H as [|n i ash idx Hi _ IH]; [reflexivity|]. simpl. rewrite IH.
  destruct (Nat.eqb_spec n 1) as [->|_]; [|reflexivity]. f_equal. lia.
Qed.

(* NOT PROVED (argument forms): per-control-point OFFSETS/FACTORS for translate/scale work through numpy
   broadcasting but are not documented (documented: an offset; a scalar factor or a vector) -- the model's
   off/fac : nat -> Qc covers scalar (constant) and per-component forms; tensor_product with more than two
   operands and outer_sum/outer_product of a scalar- with a vector-valued function are not modelled. *)

Print Assumptions apply_matrix_per_control_point_spec.
Print Assumptions apply_matrix_per_control_point_value.
Print Assumptions apply_matrix_single_is_constant_family.
Print Assumptions apply_matrix_depends_on_own_matrices_only.
Print Assumptions nurbs_apply_matrix_per_control_point_spec.
Print Assumptions nurbs_apply_matrix_single_is_constant_family.
Print Assumptions nurbs_apply_matrix_keeps_weight_function.
Print Assumptions matrix_array_single.
Print Assumptions matrix_array_full_shape_reads_own_index.
