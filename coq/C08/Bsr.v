(* C08 -- BSR: a block-sparse matrix with blocks of shape (b0, b1) denotes, at scalar
   coordinate (I*b0 + r, J*b1 + c), the (r,c) entry of the sum of its blocks stored at block
   coordinate (I,J) -- i.e. the COO list of its block entries (Model.expand_blocks, used for the
   packed/bsr path of assemble_entries_vec) and the block list denote the same matrix. *)
From Coq Require Import ZArith List Bool Arith Lia.
From Verif.lib Require Import ListFacts.
From Verif.C08 Require Import Model Proofs.
Import ListNotations.
Local Open Scope Z_scope.

Section Bsr.
  Variable V : Type.
  Variable vzero : V.
  Variable vadd : V -> V -> V.
  Variable d : V.
  Variable b0 b1 : nat.

  Notation den := (den vzero vadd).

  (* entry (r,c) of the sum of the blocks stored at block coordinate q *)
  Definition bden (BT : list ((Z * Z) * list V)) (q : Z * Z) (r c : nat) : V :=
    fold_right (fun t acc => if pair_eqb (fst t) q then vadd (nth (r * b1 + c)%nat (snd t) d) acc else acc) vzero BT.

  Definition cols (R Jb : Z) (r : nat) (blk : list V) : list ((Z * Z) * V) :=
    map (fun c => ((R, Jb * Z.of_nat b1 + Z.of_nat c), nth (r * b1 + c)%nat blk d)) (seq 0 b1).
  Definition rows (Ib Jb : Z) (blk : list V) (s n : nat) : list ((Z * Z) * V) :=
    flat_map (fun r => cols (Ib * Z.of_nat b0 + Z.of_nat r) Jb r blk) (seq s n).

  Lemma expand_cons : forall t T,
    expand_blocks d b0 b1 (t :: T) = rows (fst (fst t)) (snd (fst t)) (snd t) 0 b0 ++ expand_blocks d b0 b1 T.
  Proof. reflexivity. Qed.

  Lemma cols_hit : forall R Jb r blk c rest,
    (c < b1)%nat ->
    den (cols R Jb r blk ++ rest) (R, Jb * Z.of_nat b1 + Z.of_nat c)
      = vadd (nth (r * b1 + c)%nat blk d) (den rest (R, Jb * Z.of_nat b1 + Z.of_nat c)).
  Proof.
    intros R Jb r blk c rest Hc.
    apply (den_unique_app V vzero vadd nat (fun c => (R, Jb * Z.of_nat b1 + Z.of_nat c))); [|apply in_seq; lia].
    apply NoDup_map_inj; [intros x y E; injection E; lia | apply seq_NoDup].
  Qed.

  Lemma cols_miss : forall R Jb r blk rest q, R <> fst q -> den (cols R Jb r blk ++ rest) q = den rest q.
  Proof.
    intros R Jb r blk rest q H. apply den_app_notin_l, notin_map. intros c _ E. apply H. rewrite <- E. reflexivity.
  Qed.

  Lemma rows_miss : forall Ib Jb blk n s rest q,
    (forall r c, (s <= r < s + n)%nat -> (c < b1)%nat ->
       (Ib * Z.of_nat b0 + Z.of_nat r, Jb * Z.of_nat b1 + Z.of_nat c) <> q) ->
    den (rows Ib Jb blk s n ++ rest) q = den rest q.
  Proof.
    intros Ib Jb blk n s rest q H. apply den_app_notin_l. intros t Ht.
    apply in_flat_map in Ht. destruct Ht as [r [Hr Ht]]. apply in_seq in Hr. revert t Ht.
    apply notin_map. intros c Hc. apply in_seq in Hc. apply H; lia.
  Qed.

  Lemma rows_hit : forall Ib Jb blk n s r c rest,
    (s <= r < s + n)%nat -> (c < b1)%nat ->
    den (rows Ib Jb blk s n ++ rest) (Ib * Z.of_nat b0 + Z.of_nat r, Jb * Z.of_nat b1 + Z.of_nat c)
      = vadd (nth (r * b1 + c)%nat blk d) (den rest (Ib * Z.of_nat b0 + Z.of_nat r, Jb * Z.of_nat b1 + Z.of_nat c)).
  Proof.
    induction n as [|n IH]; intros s r c rest Hr Hc; [lia|].
    unfold rows. simpl. fold (rows Ib Jb blk (S s) n). rewrite <- app_assoc.
    destruct (Nat.eq_dec r s) as [->|Hne].
    - rewrite cols_hit by exact Hc. f_equal.
      apply rows_miss. intros r' c' Hr' Hc' E. injection E as E1 E2. lia.
    - rewrite cols_miss by (simpl; lia). apply IH; lia.
  Qed.

  (* a block stored at another block coordinate contributes nothing *)
  Lemma block_miss : forall Ib Jb blk I J r c rest,
    (r < b0)%nat -> (c < b1)%nat -> (Ib, Jb) <> (I, J) ->
    den (rows Ib Jb blk 0 b0 ++ rest) (I * Z.of_nat b0 + Z.of_nat r, J * Z.of_nat b1 + Z.of_nat c)
      = den rest (I * Z.of_nat b0 + Z.of_nat r, J * Z.of_nat b1 + Z.of_nat c).
  Proof.
    intros Ib Jb blk I J r c rest Hr Hc Hne. apply rows_miss. intros r' c' Hr' Hc' E.
    injection E as E1 E2. apply Hne.
    assert (Ib = I) by nia. assert (Jb = J) by nia. congruence.
  Qed.

  (* gathering a scalar matrix into blocks (tobsr): block (I,J) holds the b0 x b1 window *)
  Definition gather (T : list ((Z * Z) * V)) (keys : list (Z * Z)) : list ((Z * Z) * list V) :=
    map (fun k => (k, flat_map (fun r => map (fun c =>
           den T (fst k * Z.of_nat b0 + Z.of_nat r, snd k * Z.of_nat b1 + Z.of_nat c)) (seq 0 b1)) (seq 0 b0))) keys.

  Lemma nth_window : forall (g : nat -> nat -> V) r c, (r < b0)%nat -> (c < b1)%nat ->
    nth (r * b1 + c)%nat (flat_map (fun r' => map (fun c' => g r' c') (seq 0 b1)) (seq 0 b0)) d = g r c.
  Proof.
    intros g r c Hr Hc.
    rewrite (nth_flat_map_uniform _ b1 d 0%nat _ r c);
      [| intros; rewrite map_length; apply seq_length | rewrite seq_length; exact Hr | exact Hc].
    rewrite seq_nth by exact Hr. rewrite (nth_indep _ d (g r 0%nat)) by (rewrite map_length, seq_length; exact Hc).
    rewrite (map_nth (fun c' => g r c')), seq_nth by exact Hc. reflexivity.
  Qed.

  Hypothesis vadd_0_r : forall a, vadd a vzero = a.

  Lemma bden_notin : forall (G : Z * Z -> list V) keys q r c, ~ In q keys ->
    bden (map (fun k => (k, G k)) keys) q r c = vzero.
  Proof.
    induction keys as [|k keys IH]; intros q r c H; [reflexivity|]. simpl.
    rewrite pair_eqb_neq by (intro E; apply H; left; exact E).
    apply IH. intro H'. apply H. right; exact H'.
  Qed.

  Lemma bden_gather : forall T keys I J r c,
    NoDup keys -> In (I, J) keys -> (r < b0)%nat -> (c < b1)%nat ->
    bden (gather T keys) (I, J) r c = den T (I * Z.of_nat b0 + Z.of_nat r, J * Z.of_nat b1 + Z.of_nat c).
  Proof.
    intros T keys I J r c Hnd Hin Hr Hc. unfold gather.
    induction keys as [|k keys IH]; [destruct Hin|].
    inversion Hnd as [|? ? Hnin Hnd']; subst. simpl.
    destruct (pair_eqb k (I, J)) eqn:E.
    - apply pair_eqb_spec in E. subst k. simpl fst; simpl snd.
      rewrite (nth_window (fun r' c' => den T (I * Z.of_nat b0 + Z.of_nat r', J * Z.of_nat b1 + Z.of_nat c')) r c Hr Hc).
      rewrite bden_notin by exact Hnin. apply vadd_0_r.
    - destruct Hin as [->|Hin]; [rewrite (proj2 (pair_eqb_spec _ _) eq_refl) in E; discriminate|].
      apply IH; assumption.
  Qed.
End Bsr.
