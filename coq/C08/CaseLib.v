(* C08 -- helpers for the generated correspondence files: comparison of two lists of
   (coordinate, value-id) triples as finite maps, in O(n log n) by sorting. *)
From Coq Require Import ZArith List Bool Orders Mergesort Lia.
From Verif.C08 Require Import Model.
Import ListNotations.
Local Open Scope Z_scope.

Module TripOrder <: TotalLeBool.
  Definition t : Type := ((Z * Z) * Z)%type.
  Definition leb (a b : t) : bool :=
    (fst (fst a) <? fst (fst b)) || ((fst (fst a) =? fst (fst b)) && (snd (fst a) <=? snd (fst b))).
  Theorem leb_total : forall a b, leb a b = true \/ leb b a = true.
  Proof.
    intros [[i j] v] [[k l] w]. unfold leb. simpl.
    destruct (Z.ltb_spec i k); [left; reflexivity|].
    destruct (Z.ltb_spec k i); [right; reflexivity|].
    assert (i = k) by lia. subst. rewrite Z.eqb_refl. simpl.
    destruct (Z.leb_spec j l); [left; reflexivity | right; apply Z.leb_le; lia].
  Qed.
End TripOrder.
Module TripSort := Sort TripOrder.

Definition trip_eqb (a b : (Z * Z) * Z) : bool := pair_eqb (fst a) (fst b) && (snd a =? snd b).
Fixpoint tl_eqb (a b : list ((Z * Z) * Z)) : bool :=
  match a, b with
  | [], [] => true
  | x :: a', y :: b' => trip_eqb x y && tl_eqb a' b'
  | _, _ => false
  end.
Definition nonzeros (t : list ((Z * Z) * Z)) : list ((Z * Z) * Z) := filter (fun x => negb (snd x =? 0)) t.
(* equal as sorted lists of their non-zero triples (sufficient for equality as finite maps) *)
Definition same_sorted (a b : list ((Z * Z) * Z)) : bool :=
  tl_eqb (TripSort.sort (nonzeros a)) (TripSort.sort (nonzeros b)).

Lemma tl_eqb_eq : forall a b, tl_eqb a b = true -> a = b.
Proof.
  induction a as [|x a IH]; intros [|y b] H; simpl in H; try discriminate; [reflexivity|].
  apply andb_true_iff in H. destruct H as [H1 H2]. unfold trip_eqb in H1.
  apply andb_true_iff in H1. destruct H1 as [Hk Hv].
  destruct x as [[i j] v], y as [[k l] w]. unfold pair_eqb in Hk. simpl in *.
  apply andb_true_iff in Hk. destruct Hk as [Hi Hj].
  apply Z.eqb_eq in Hi, Hj, Hv. subst. f_equal. apply IH, H2.
Qed.

(* soundness of the fast path: lists with equal sorted non-zero parts have the same non-zero triples *)
Lemma same_sorted_sound : forall a b, same_sorted a b = true ->
  forall x, In x (nonzeros a) <-> In x (nonzeros b).
Proof.
  intros a b H x. unfold same_sorted in H. apply tl_eqb_eq in H.
  pose proof (TripSort.Permuted_sort (nonzeros a)) as Pa.
  pose proof (TripSort.Permuted_sort (nonzeros b)) as Pb.
  split; intro Hx.
  - apply (Permutation.Permutation_in x (Permutation.Permutation_sym Pb)). rewrite <- H.
    apply (Permutation.Permutation_in x Pa). exact Hx.
  - apply (Permutation.Permutation_in x (Permutation.Permutation_sym Pa)). rewrite H.
    apply (Permutation.Permutation_in x Pb). exact Hx.
Qed.
