(* C08 -- the generic vector core with symmetric=True computes the same array as the
   full run, for any number of levels: every store of the kernel's program (Proofs.kern_nf) writes
   the value of the full run, and every array element is stored to. *)
From Coq Require Import ZArith List Bool Arith Lia.
From Verif.lib Require Import ListFacts.
From Verif.C08 Require Import Model Proofs.
Import ListNotations.

(** * programs all of whose stores agree with a fixed function g *)

Section Consistent.
  Variable L V : Type.
  Variable L_eqb : L -> L -> bool.
  Hypothesis L_eqb_spec : forall a b, L_eqb a b = true <-> a = b.
  Variable g : L -> V.

  Definition dst (o : op L V) : L := match o with Wr l _ => l | Cp d _ => d end.

  (* W: locations already holding g; a store writes g of its destination, a copy reads a
     location already written and g agrees on source and destination *)
  Definition store_ok (W : list L) (o : op L V) : Prop :=
    match o with Wr l v => v = g l | Cp d s => In s W /\ g d = g s end.

  Fixpoint consistent (W : list L) (ops : list (op L V)) : Prop :=
    match ops with
    | [] => True
    | o :: r => store_ok W o /\ consistent (dst o :: W) r
    end.

  Lemma store_ok_mono : forall W W' o, incl W W' -> store_ok W o -> store_ok W' o.
  Proof. intros W W' [l v|d s] Hi; simpl; [auto|]. intros [Hs Hg]. split; [apply Hi, Hs | exact Hg]. Qed.

  Lemma consistent_mono : forall ops W W', incl W W' -> consistent W ops -> consistent W' ops.
  Proof.
    induction ops as [|o r IH]; intros W W' Hi H; [exact I|]. destruct H as [H1 H2].
    split; [exact (store_ok_mono _ _ _ Hi H1)|]. apply (IH (dst o :: W)); [auto with datatypes | exact H2].
  Qed.

  Lemma consistent_app : forall a b W, consistent W a -> consistent (map dst a ++ W) b -> consistent W (a ++ b).
  Proof.
    induction a as [|o a IH]; intros b W Ha Hb; [exact Hb|]. destruct Ha as [H1 Ha].
    split; [exact H1|]. apply IH; [exact Ha|]. apply (consistent_mono b (dst o :: map dst a ++ W)); [|exact Hb].
    apply incl_cons; [apply in_elt | auto with datatypes].
  Qed.

  Lemma consistent_flat_map : forall (A : Type) (f : A -> list (op L V)) xs,
    (forall x W, In x xs -> consistent W (f x)) -> forall W, consistent W (flat_map f xs).
  Proof.
    induction xs as [|x xs IH]; intros H W; [exact I|].
    apply consistent_app; [apply H; left; reflexivity | apply IH; intros y W' Hy; apply H; right; exact Hy].
  Qed.

  Lemma consistent_all : forall ops W, (forall o, In o ops -> store_ok W o) -> consistent W ops.
  Proof.
    induction ops as [|o r IH]; intros W H; [exact I|]. split; [apply H; left; reflexivity|].
    apply IH. intros o' Ho'. apply (store_ok_mono W); [auto with datatypes | apply H; right; exact Ho'].
  Qed.

  (* after a consistent program every location that was written holds g *)
  Lemma consistent_exec : forall ops W m,
    consistent W ops -> (forall l, In l W -> m l = g l) ->
    forall l, In l W \/ In l (map dst ops) -> exec L_eqb ops m l = g l.
  Proof.
    induction ops as [|o r IH]; intros W m Hc Hm l Hl; [destruct Hl as [Hl|[]]; apply Hm, Hl|].
    destruct Hc as [H1 Hc]. rewrite (exec_cons L V L_eqb).
    apply (IH (dst o :: W)); [exact Hc | | simpl in *; tauto].
    assert (Hv : forall x, step L_eqb m o x = if L_eqb (dst o) x then g (dst o) else m x).
    { destruct o as [l0 v|d s]; simpl in *; unfold upd; [rewrite H1; reflexivity|].
      destruct H1 as [Hs Hg]. rewrite (Hm s Hs), Hg. reflexivity. }
    intros x Hx. rewrite Hv.
    destruct Hx as [<-|Hx]; [rewrite (proj2 (L_eqb_spec _ _) eq_refl); reflexivity|].
    destruct (L_eqb (dst o) x) eqn:E; [apply L_eqb_spec in E; rewrite <- E; reflexivity | apply Hm, Hx].
  Qed.
End Consistent.
Arguments dst {L V}. Arguments consistent {L V}. Arguments store_ok {L V}.

(** * the kernel of generic_assemble_core_vec, square component blocks nc x nc *)

Definition in_shape (mu : list nat) (lv : list level) : Prop :=
  Forall2 (fun (m : nat) (l : level) => m < length (fst l)) mu lv.

Lemma prod_idx_in_shape : forall (lv : list level) mu,
  In mu (prod_idx (map (fun l : level => length (fst l)) lv)) <-> in_shape mu lv.
Proof.
  induction lv as [|l lv IH]; intro mu; simpl; split; intro H.
  - destruct H as [<-|[]]. constructor.
  - inversion H. left; reflexivity.
  - apply in_flat_map in H. destruct H as [x [Hx H]]. apply in_map_iff in H. destruct H as [mu' [<- Hmu']].
    apply in_seq in Hx. constructor; [lia | apply IH, Hmu'].
  - inversion H as [|m l' mu' lv' Hm Hmu']; subst. apply in_flat_map. exists m.
    split; [apply in_seq; lia | apply in_map, IH, Hmu'].
Qed.

Definition level_ok (l : level) : Prop := NoDup (fst l) /\ transp_ok l.

(* transposing a multi-index: stays in shape, is an involution, flips the lexicographic sign,
   selects the transposed pattern entries *)
Lemma tmu_facts : forall lv mu, Forall level_ok lv -> in_shape mu lv ->
  in_shape (tmu_of lv mu) lv /\ tmu_of lv (tmu_of lv mu) = mu /\
  lexd lv (tmu_of lv mu) = (- lexd lv mu)%Z /\ sels lv (tmu_of lv mu) = map swap (sels lv mu).
Proof.
  intros lv mu Hok Hs. induction Hs as [|m l mu lv Hm Hs IH]; [repeat split; constructor|].
  inversion Hok as [|? ? [Hnd Htr] Hok']; subst. destruct (IH Hok') as [I1 [I2 [I3 I4]]].
  rewrite !tmu_of_cons, !sels_cons. cbn [lexd]. cbv zeta.
  rewrite transp_invol, transp_diag0, (proj2 (Htr m Hm)), I2, I3, I4 by assumption. repeat split.
  - constructor; [apply Htr, Hm | exact I1].
  - destruct (Z.eqb_spec (diag0 (fst l) m) 0) as [->|Hne]; [reflexivity|].
    destruct (Z.eqb_spec (- diag0 (fst l) m) 0); [lia | reflexivity].
Qed.

Section CoreSym.
  Variable V : Type.
  Variable nc : nat.
  Variable B : list Z -> list Z -> nat -> V.
  Variable lvs : list level.

  (* the value the full run stores at (mu, c) *)
  Definition gfull (l : eloc) : V :=
    B (map fst (sels lvs (fst l))) (map snd (sels lvs (fst l))) (snd l).

  Hypothesis Bsym : forall i j row col, row < nc -> col < nc ->
    B j i (col * nc + row) = B i j (row * nc + col).

  Lemma dst_blk : forall mu i j, map dst (blk_ops nc nc B mu i j) = map (fun c => (mu, c)) (seq 0 (nc * nc)).
  Proof. intros. unfold blk_ops. rewrite map_map. reflexivity. Qed.

  Lemma dst_leaf : forall sym allz mu tmu i j,
    map dst (kern nc nc B sym [] allz mu tmu i j) =
    map (fun c => (mu, c)) (seq 0 (nc * nc)) ++ (if sym && negb allz then map dst (@mirror_ops V nc nc mu tmu) else []).
  Proof. intros. simpl. rewrite map_app, dst_blk. destruct (sym && negb allz); reflexivity. Qed.

  (* the mirror copies fill the whole transposed block: component c = (c / nc) * nc + c mod nc is
     the copy of component (c mod nc, c / nc) *)
  Lemma mirror_covers : forall mu tmu c, c < nc * nc -> In (tmu, c) (map dst (@mirror_ops V nc nc mu tmu)).
  Proof.
    intros mu tmu c Hc.
    assert (Hnc : 0 < nc) by (destruct nc; [simpl in Hc; lia | lia]).
    pose proof (Nat.div_mod c nc ltac:(lia)) as Hdm.
    pose proof (Nat.mod_upper_bound c nc ltac:(lia)) as Hmod.
    assert (Hdiv : c / nc < nc) by (apply Nat.div_lt_upper_bound; lia).
    apply (in_map dst _ (Cp (tmu, c) (mu, c mod nc * nc + c / nc))), in_mirror_ops.
    exists (c mod nc), (c / nc). repeat split; [exact Hmod | exact Hdiv | f_equal; f_equal; lia].
  Qed.

  (* every store of an innermost block writes the value of the full run: the block directly, the
     mirror copy by the symmetry of B *)
  Lemma leaf_consistent : forall sym allz s W,
    (sym = true -> sels lvs (tmu_of lvs s) = map swap (sels lvs s)) ->
    consistent gfull W (kern nc nc B sym [] allz s (tmu_of lvs s) (map fst (sels lvs s)) (map snd (sels lvs s))).
  Proof.
    intros sym allz s W Ht. simpl. apply consistent_app.
    - apply consistent_all. intros o Ho. apply in_map_iff in Ho. destruct Ho as [c [<- _]]. reflexivity.
    - destruct sym; [|exact I]. destruct allz; [exact I|]. simpl.
      apply consistent_all. intros o Ho. apply in_mirror_ops in Ho. destruct Ho as [row [col [Hrow [Hcol ->]]]]. split.
      + apply in_or_app. left. rewrite dst_blk. apply in_map, in_seq. nia.
      + unfold gfull. simpl. rewrite (Ht eq_refl), !map_map. simpl. apply Bsym; lia.
  Qed.

  Lemma core_tasks_concat : forall sym lv, lv <> [] ->
    concat (core_tasks nc nc B sym lv) = kern nc nc B sym lv true [] [] [] [].
  Proof.
    intros sym [|[b t] rest] H; [congruence|]. unfold core_tasks. rewrite <- flat_map_concat_map. simpl kern.
    apply flat_map_ext. intros m. unfold core_task. simpl fst; simpl snd.
    rewrite andb_true_r. reflexivity.
  Qed.

  (* all stores of the kernel's program to one location carry the same value, that of the full run *)
  Lemma kern_consistent : forall sym W, Forall level_ok lvs ->
    consistent gfull W (kern nc nc B sym lvs true [] [] [] []).
  Proof.
    intros sym W Hok. rewrite kern_nf. apply consistent_flat_map. intros s W' Hin. apply prod_idx_in_shape in Hin.
    destruct (sym && true && _); [exact I|]. apply leaf_consistent. intros _. apply (tmu_facts lvs s Hok Hin).
  Qed.

  (* every element of the array is stored to: an index tuple whose diagonal vector is not
     lexicographically positive by its own block, the others by the mirror copy of their transposed tuple *)
  Lemma kern_covers : forall sym mu c, Forall level_ok lvs -> in_shape mu lvs -> c < nc * nc ->
    In (mu, c) (map dst (kern nc nc B sym lvs true [] [] [] [])).
  Proof.
    intros sym mu c Hok Hs Hc. rewrite kern_nf, map_flat_map. apply in_flat_map. unfold leaf. simpl app.
    destruct (sym && (lexd lvs mu >? 0)%Z) eqn:E.
    - apply andb_true_iff in E. destruct E as [-> E]. apply Z.gtb_lt in E.
      destruct (tmu_facts lvs mu Hok Hs) as [T1 [T2 [T3 _]]].
      exists (tmu_of lvs mu). split; [apply prod_idx_in_shape, T1|]. rewrite T2, T3. simpl andb.
      replace (- lexd lvs mu >? 0)%Z with false by (symmetry; rewrite Z.gtb_ltb; apply Z.ltb_ge; lia).
      replace (- lexd lvs mu =? 0)%Z with false by (symmetry; apply Z.eqb_neq; lia).
      rewrite dst_leaf. apply in_or_app. right. apply mirror_covers, Hc.
    - exists mu. split; [apply prod_idx_in_shape, Hs|]. rewrite andb_true_r, E, dst_leaf.
      apply in_or_app. left. apply in_map, in_seq. lia.
  Qed.

  Lemma core_value : forall sym vzero mu c,
    lvs <> [] -> Forall level_ok lvs -> in_shape mu lvs -> c < nc * nc ->
    exec eloc_eqb (concat (core_tasks nc nc B sym lvs)) (fun _ => vzero) (mu, c) = gfull (mu, c).
  Proof.
    intros sym vzero mu c Hne Hok Hs Hc. rewrite (core_tasks_concat sym lvs Hne).
    apply (consistent_exec eloc V eloc_eqb eloc_eqb_spec gfull _ []).
    - apply kern_consistent, Hok.
    - intros l [].
    - right. apply kern_covers; assumption.
  Qed.
End CoreSym.
