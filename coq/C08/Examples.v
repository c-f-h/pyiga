(* C08 -- non-vacuity: concrete inputs meet the hypotheses of the theorems. *)
From Coq Require Import ZArith List Bool Arith Lia.
From Verif.C08 Require Import Model Proofs CoreSym Update Formats.
Import ListNotations.

(* chunk_tasks(range(10), 3) = [0..3], [4..7], [8,9]   (n = 10 // 3 + 1 = 4) *)
Example ex_chunks : chunk_tasks (seq 0 10) 3 = [[0;1;2;3];[4;5;6;7];[8;9]]%nat.
Proof. vm_compute. reflexivity. Qed.

(* more threads than tasks: one task per chunk, fewer chunks than threads *)
Example ex_chunks_small : chunk_tasks (seq 0 3) 8 = [[0];[1];[2]]%nat.
Proof. vm_compute. reflexivity. Qed.

(* a genuinely interleaved schedule of the pool's tasks for 5 indices, 2 threads
   (chunks [0,1,2] and [3,4]): thread 1 starts, thread 0 runs, thread 1 finishes *)
Definition ex_entry (i : nat) : Z := Z.of_nat (i * i + 1).
Definition ex_idx : list nat := [7; 3; 3; 0; 9]%nat.
Definition ex_sched : list (op nat Z) :=
  [Wr 3%nat (ex_entry 0); Wr 0%nat (ex_entry 7); Wr 1%nat (ex_entry 3); Wr 4%nat (ex_entry 9); Wr 2%nat (ex_entry 3)].

Example ex_pool_tasks : pool_tasks ex_entry ex_idx 2 =
  [[Wr 0%nat (ex_entry 7); Wr 1%nat (ex_entry 3); Wr 2%nat (ex_entry 3)]; [Wr 3%nat (ex_entry 0); Wr 4%nat (ex_entry 9)]].
Proof. vm_compute. reflexivity. Qed.

Example ex_interleave : interleave (pool_tasks ex_entry ex_idx 2) ex_sched.
Proof.
  rewrite ex_pool_tasks. unfold ex_sched.
  apply (il_step [[Wr 0%nat (ex_entry 7); Wr 1%nat (ex_entry 3); Wr 2%nat (ex_entry 3)]] _ [Wr 4%nat (ex_entry 9)] []).
  apply (il_step [] _ [Wr 1%nat (ex_entry 3); Wr 2%nat (ex_entry 3)] [[Wr 4%nat (ex_entry 9)]]).
  apply (il_step [] _ [Wr 2%nat (ex_entry 3)] [[Wr 4%nat (ex_entry 9)]]).
  apply (il_step [[Wr 2%nat (ex_entry 3)]] _ [] []).
  apply (il_step [] _ [] [[]]).
  constructor. repeat constructor.
Qed.

Example ex_pool_result :
  read_back 5 (exec Nat.eqb ex_sched (fun _ => 0%Z)) = map ex_entry ex_idx.
Proof. exact (pool_result nat Z ex_entry ex_idx 2 ex_sched (fun _ => 0%Z) ex_interleave). Qed.

(* symmetric pattern of a 3x3 tridiagonal matrix and a symmetric entry function *)
Open Scope Z_scope.
Definition ex_P : list (Z * Z) := [(0,0);(0,1);(1,0);(1,1);(1,2);(2,1);(2,2)].
Definition ex_e (p : Z * Z) : Z := 10 * (fst p + snd p) + fst p * snd p + 1.

Example ex_P_nodup : NoDup ex_P.
Proof. repeat (constructor; [simpl; intuition congruence|]). constructor. Qed.

Example ex_P_symmetric : forall p, In p ex_P -> In (swap p) ex_P.
Proof. intros p H. simpl in H. repeat (destruct H as [<-|H]; [simpl; tauto|]). destruct H. Qed.

Example ex_e_symmetric : forall p, In p ex_P -> ex_e (swap p) = ex_e p.
Proof. intros [a b] _. unfold ex_e, swap. cbn [fst snd]. ring. Qed.

Example ex_sym_triples :
  assemble_entries (fun v : Z => v) true ex_P ex_e =
  [((0,0),1); ((1,0),11); ((1,1),22); ((2,1),33); ((2,2),45); ((0,1),11); ((1,2),33)].
Proof. vm_compute. reflexivity. Qed.

Example ex_sym_upper : den 0 Z.add (assemble_entries (fun v : Z => v) true ex_P ex_e) (1,2) = 33.
Proof. vm_compute. reflexivity. Qed.

(* an unsymmetric entry function: the hypothesis of symmetric_equals_full is needed *)
Example ex_unsym_differs :
  den 0 Z.add (assemble_entries (fun v : Z => v) true ex_P (fun p => fst p)) (0,1) <>
  den 0 Z.add (assemble_entries (fun v : Z => v) false ex_P (fun p => fst p)) (0,1).
Proof. vm_compute. discriminate. Qed.

(* layouts: 2 levels of sizes (3,3) and (2,4), component block 3 x 2 (non-square) *)
Example ex_layout :
  key_packed [(3,3);(2,4)] (3,2) [(2,1);(1,3)] (2,1) = (17, 15) /\
  key_blocked [(3,3);(2,4)] (3,2) [(2,1);(1,3)] (2,1) = (17, 19) /\
  perm 6 3 17 = 17 /\ perm 12 2 15 = 19.
Proof. vm_compute. auto. Qed.

Example ex_layout_ranges :
  in_ranges (map fst [(2,1);(1,3)]) (map fst [(3,3);(2,4)]) /\ in_ranges (map snd [(2,1);(1,3)]) (map snd [(3,3);(2,4)]).
Proof. split; simpl; repeat (apply Forall2_cons; [lia|]); apply Forall2_nil. Qed.

(* generic core: one level with the dense 2x2 pattern, scalar "blocks"; B is NOT symmetric,
   so the result shows the skip rule (entry (0,1) never computed) and the mirrored store *)
Definition ex_b0 : list (Z * Z) := [(0,0);(0,1);(1,0);(1,1)].
Definition ex_t0 : list nat := [0;2;1;3]%nat.
Definition ex_B (i j : list Z) (c : nat) : Z := 10 * hd 0 i + hd 0 j + 1.

Example ex_transpose_idx : transpose_idx ex_b0 = Some ex_t0.
Proof. vm_compute. reflexivity. Qed.

Example ex_core_full : core_entries 0 1 1 ex_B false [(ex_b0, ex_t0)] = [1; 2; 11; 12].
Proof. vm_compute. reflexivity. Qed.

Example ex_core_sym : core_entries 0 1 1 ex_B true [(ex_b0, ex_t0)] = [1; 11; 11; 12].
Proof. vm_compute. reflexivity. Qed.

(* two levels, 2x2 component blocks: the tasks of the prange *)
Example ex_core_tasks_count :
  length (core_tasks 2 2 ex_B true [(ex_b0, ex_t0); (ex_b0, ex_t0)]) = 4%nat /\
  nth 1 (core_tasks 2 2 ex_B true [(ex_b0, ex_t0); (ex_b0, ex_t0)]) [] = [] /\
  length (nth 2 (core_tasks 2 2 ex_B true [(ex_b0, ex_t0); (ex_b0, ex_t0)]) []) = 32%nat.
Proof. vm_compute. auto. Qed.

Example ex_b0_nodup : NoDup (fst (ex_b0, ex_t0)).
Proof. simpl. repeat (constructor; [simpl; intuition congruence|]). constructor. Qed.

Example ex_transp_ok : transp_ok (ex_b0, ex_t0).
Proof.
  intros m Hm. simpl in Hm.
  destruct m as [|[|[|[|m]]]]; try (simpl in Hm; lia); vm_compute; split; try reflexivity; lia.
Qed.

(* symmetric_equals_full_core: two levels with the dense 2x2 pattern, 2x2 component blocks and a
   symmetric block function B(j,i)[col,row] = B(i,j)[row,col] *)
Definition ex_Bs (i j : list Z) (c : nat) : Z :=
  let r := Z.of_nat (c / 2) in let k := Z.of_nat (c mod 2) in
  (100 * (hd 0 i * hd 0 j) + 10 * (hd 0 (tl i) + hd 0 (tl j)) + (r + 1) * (k + 1) + (hd 0 i + r) * (hd 0 j + k))%Z.

Example ex_level_ok : Forall level_ok [(ex_b0, ex_t0); (ex_b0, ex_t0)].
Proof. repeat (apply Forall_cons; [split; [exact ex_b0_nodup | exact ex_transp_ok]|]). apply Forall_nil. Qed.

Example ex_core_sym_eq_full :
  core_entries 0%Z 2 2 ex_Bs true [(ex_b0, ex_t0); (ex_b0, ex_t0)] =
  core_entries 0%Z 2 2 ex_Bs false [(ex_b0, ex_t0); (ex_b0, ex_t0)]
  /\ nth 6 (core_entries 0%Z 2 2 ex_Bs true [(ex_b0, ex_t0); (ex_b0, ex_t0)]) 0%Z <> 0%Z.
Proof. vm_compute. split; [reflexivity | discriminate]. Qed.

(* update(): the layout of 'f*u*v*dx + inner(grad(f),grad(v))*u*dx' in 2D (input 2 = f):
   f_a at slot 0, f_grad_a at slots 1..2; a correct update() refreshes both *)
Close Scope Z_scope.
Definition ex_arrs : list arr := [(0, 2, 0, 1); (2, 2, 1, 2)].
Example ex_update_ok : update_okb ex_arrs [(2, ex_arrs)] [1] = true.
Proof. vm_compute. reflexivity. Qed.
(* the generated update() of seeded change C08-1 keeps only the last array per input: rejected *)
Example ex_update_seeded_rejected : update_okb ex_arrs [(2, [(2, 2, 1, 2)])] [1] = false.
Proof. vm_compute. reflexivity. Qed.
Example ex_update_stale :
  let D := fun (q : nat) (x : nat) (k : nat) => 100 * q + 10 * x + k in
  update D [(2, 2, 1, 2)] 7 (init D ex_arrs (fun _ => 3) (fun _ => 0)) 0 = 30 /\
  init D ex_arrs (override (fun _ => 3) 2 7) (fun _ => 0) 0 = 70.
Proof. vm_compute. auto. Qed.

(* formats: a COO list with a duplicate coordinate inside a 2 x 3 shape *)
Definition ex_T : list ((Z * Z) * Z) := [((1,0),5); ((0,1),2); ((1,0),7); ((1,2),1)]%Z.
Example ex_T_in_shape : forall t, In t ex_T ->
  (0 <= fst (fst t) < Z.of_nat 2)%Z /\ (0 <= snd (fst t) < Z.of_nat 3)%Z.
Proof. intros t H. simpl in H. repeat (destruct H as [<-|H]; [simpl; lia|]). destruct H. Qed.
Example ex_csr : coo_tocsr Z 2 ex_T = [[(1, 2)]; [(0, 5); (0, 7); (2, 1)]]%Z
  /\ den 0%Z Z.add (csr_triples Z (coo_tocsr Z 2 ex_T)) (1, 0)%Z = 12%Z
  /\ den 0%Z Z.add (csc_triples Z (coo_tocsc Z 3 ex_T)) (1, 0)%Z = 12%Z
  /\ canon_row Z Z.add [(2, 1); (0, 5); (0, 7)]%Z = [(0, 12); (2, 1)]%Z.
Proof. vm_compute. auto. Qed.
