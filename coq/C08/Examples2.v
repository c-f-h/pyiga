(* C08 -- non-vacuity: concrete inputs for the memoisation, BSR and MLB theorems. *)
From Coq Require Import ZArith List Bool Arith Lia.
From Verif.C15 Require Model.
From Verif.C08 Require Import Model Proofs Bsr MlbLink Memo.
Import ListNotations.

(* seeded change C08-4: degree 2, breakpoints 0,1,2,3,4 (scaled by 4), 7 dofs; the double knot at
   breakpoint 1 resp. at breakpoint 3: equal key (p, numdofs, mesh), different sparsity patterns *)
Definition ex_kvA : kvec := (2%nat, [0;0;0;1;1;2;3;4;4;4]%Z).
Definition ex_kvB : kvec := (2%nat, [0;0;0;1;2;3;3;4;4;4]%Z).

Example ex_c084_same_key : c084_key ex_kvA = c084_key ex_kvB.
Proof. vm_compute. reflexivity. Qed.

Example ex_c084_patterns_differ : kv_pattern ex_kvA <> kv_pattern ex_kvB.
Proof. vm_compute. discriminate. Qed.

Example ex_c084_key_does_not_determine : ~ key_determines _ _ _ c084_key kv_pattern.
Proof. intro H. apply ex_c084_patterns_differ. apply H. exact ex_c084_same_key. Qed.

(* the history "first A, then B" in one process returns A's pattern for B *)
Example ex_c084_history :
  run_calls c084_key_eqb c084_key kv_pattern [] [ex_kvA; ex_kvB] = [kv_pattern ex_kvA; kv_pattern ex_kvA]
  /\ run_calls c084_key_eqb c084_key kv_pattern [] [ex_kvA; ex_kvB] <> map kv_pattern [ex_kvA; ex_kvB].
Proof. vm_compute. split; [reflexivity | discriminate]. Qed.

(* a sufficient key (the knots themselves) satisfies the hypothesis *)
Example ex_full_key_determines : key_determines kvec kvec _ (fun kv => kv) kv_pattern.
Proof. intros x y H. rewrite H. reflexivity. Qed.

(* BSR: two 2x3 blocks, one of them stored twice at the same block coordinate *)
Definition ex_BT : list ((Z * Z) * list Z) :=
  [((1, 0), [1; 2; 3; 4; 5; 6]); ((0, 2), [7; 8; 9; 10; 11; 12]); ((1, 0), [10; 20; 30; 40; 50; 60])]%Z.
Example ex_bsr : den 0%Z Z.add (expand_blocks 0%Z 2 3 ex_BT) (1 * 2 + 1, 0 * 3 + 2)%Z = 66%Z
  /\ bden Z 0%Z Z.add 0%Z 3 ex_BT (1, 0)%Z 1 2 = 66%Z.
Proof. vm_compute. auto. Qed.

Example ex_gather :
  gather Z 0%Z Z.add 2 2 [((0, 1), 5); ((3, 2), 7); ((1, 1), 2)]%Z [(0, 0); (1, 1)]%Z
  = [((0, 0), [0; 5; 0; 2]); ((1, 1), [0; 0; 7; 0])]%Z.
Proof. vm_compute. reflexivity. Qed.

(* MLB: two levels (2x2 dense, 2x3 with three entries) and a 2x3 component level *)
Definition ex_bs : list (Z * Z) := [(2, 2); (2, 3)]%Z.
Definition ex_lv : list (list (Z * Z)) := [[(0,0);(0,1);(1,0);(1,1)]; [(0,0);(1,1);(1,2)]]%Z.
Example ex_mlb :
  C15.Model.nonzero (ex_bs ++ [(2, 3)%Z]) (ex_lv ++ [C15.Model.compute_dense_ij 2 3]) false
    = Some (packed_keys ex_bs (2, 3)%Z ex_lv)
  /\ length (packed_keys ex_bs (2, 3)%Z ex_lv) = 72
  /\ nth 71 (packed_keys ex_bs (2, 3)%Z ex_lv) (0, 0)%Z = (7, 17)%Z.
Proof. vm_compute. auto. Qed.
