(* C08 -- sparse formats denote the same entries: COO (duplicates summed), CSR (scipy's
   coo_tocsr: stable counting sort by row, then sum_duplicates inside each row), CSC (the same
   on the transposed coordinates).  A.asformat(fmt) / X.asmatrix(fmt) in assemble_entries and
   assemble_entries_vec (assemble.py:758, 790, 813) only move between these.
   Model (definitions) and lemmas. *)
From Coq Require Import ZArith List Bool Arith Lia.
From Verif.C08 Require Import Model Proofs.
Import ListNotations.
Local Open Scope Z_scope.

Definition zrange (M : nat) : list Z := map Z.of_nat (seq 0 M).

Section Formats.
  Variable V : Type.
  Variable vzero : V.
  Variable vadd : V -> V -> V.

  Notation coo := (list ((Z * Z) * V)).
  Notation den := (den vzero vadd).

  (* one compressed row: (column, value) in storage order *)
  Definition crow : Type := list (Z * V).
  Definition row_of (r : Z) (T : coo) : crow :=
    map (fun t => (snd (fst t), snd t)) (filter (fun t => fst (fst t) =? r) T).
  (* coo_tocsr: rows 0..M-1, inside a row the COO order is kept *)
  Definition coo_tocsr (M : nat) (T : coo) : list crow := map (fun r => row_of r T) (zrange M).
  (* the triples a CSR structure denotes *)
  Definition csr_triples (A : list crow) : coo :=
    flat_map (fun ra : Z * crow => map (fun cv => ((fst ra, fst cv), snd cv)) (snd ra))
             (combine (zrange (length A)) A).

  (* sum_duplicates of one row: sorted by column, equal columns added (earlier entry first) *)
  Fixpoint ins (j : Z) (v : V) (l : crow) : crow :=
    match l with
    | [] => [(j, v)]
    | (j0, v0) :: l' => if j <? j0 then (j, v) :: l
                        else if j =? j0 then (j0, vadd v v0) :: l'
                        else (j0, v0) :: ins j v l'
    end.
  Definition canon_row (l : crow) : crow := fold_right (fun cv acc => ins (fst cv) (snd cv) acc) [] l.
  Definition row_den (l : crow) (j : Z) : V :=
    fold_right (fun cv acc => if fst cv =? j then vadd (snd cv) acc else acc) vzero l.

  Definition swapT (t : (Z * Z) * V) : (Z * Z) * V := (swap (fst t), snd t).
  (* CSC = CSR of the transposed coordinates *)
  Definition coo_tocsc (N : nat) (T : coo) : list crow := coo_tocsr N (map swapT T).
  Definition csc_triples (A : list crow) : coo := map swapT (csr_triples A).

  Lemma den_filter : forall (f : (Z * Z) * V -> bool) (T : coo) q,
    (forall t, In t T -> fst t = q -> f t = true) -> den (filter f T) q = den T q.
  Proof.
    induction T as [|t T IH]; intros q H; [reflexivity|]. simpl.
    destruct (pair_eqb (fst t) q) eqn:E.
    - rewrite (H t (or_introl eq_refl)) by (apply pair_eqb_spec, E). simpl. rewrite E.
      f_equal. apply IH. intros t' Ht'. apply H. right; exact Ht'.
    - destruct (f t); simpl; [rewrite E|]; apply IH; intros t' Ht'; apply H; right; exact Ht'.
  Qed.

  (* COO -> CSR is a stable sort by row: the triples of the CSR structure are those of row 0 in
     their COO order, then those of row 1, ... *)
  Lemma row_triples : forall r (T : coo),
    map (fun cv : Z * V => ((r, fst cv), snd cv)) (row_of r T) = filter (fun t => fst (fst t) =? r) T.
  Proof.
    intros r T. unfold row_of. rewrite map_map. rewrite <- (map_id (filter _ T)) at 2.
    apply map_ext_in. intros [[a b] v] Ht. apply filter_In in Ht. destruct Ht as [_ Ht].
    apply Z.eqb_eq in Ht. simpl in *. subst a. reflexivity.
  Qed.

  Lemma csr_triples_tocsr : forall M (T : coo),
    csr_triples (coo_tocsr M T) = flat_map (fun r => filter (fun t => fst (fst t) =? r) T) (zrange M).
  Proof.
    intros M T. unfold csr_triples, coo_tocsr. rewrite map_length.
    assert (El : length (zrange M) = M) by (unfold zrange; rewrite map_length, seq_length; reflexivity).
    rewrite El. clear El. generalize (zrange M). intro rs.
    induction rs as [|r rs IH]; [reflexivity|]. simpl. rewrite IH, row_triples. reflexivity.
  Qed.

  (* sorting by row over a duplicate-free list of rows that contains the row of every triple at q
     keeps what is denoted at q *)
  Lemma den_rows : forall (rs : list Z) (T : coo) q, NoDup rs ->
    (forall t, In t T -> fst t = q -> In (fst q) rs) ->
    den (flat_map (fun r => filter (fun t => fst (fst t) =? r) T) rs) q = den T q.
  Proof.
    induction rs as [|r rs IH]; intros T q Hnd Hq.
    - symmetry. apply den_notin. intros t Ht E. exact (Hq t Ht E).
    - inversion Hnd as [|? ? Hnin Hnd']; subst. simpl. destruct (Z.eq_dec (fst q) r) as [<-|Hne].
      + rewrite den_app_notin_r.
        * apply den_filter. intros t _ <-. apply Z.eqb_refl.
        * intros t Ht <-. apply in_flat_map in Ht. destruct Ht as [r' [Hr' Ht]].
          apply filter_In in Ht. destruct Ht as [_ Ht]. apply Z.eqb_eq in Ht. rewrite Ht in Hnin. exact (Hnin Hr').
      + rewrite den_app_notin_l.
        * apply IH; [exact Hnd'|]. intros t Ht E. destruct (Hq t Ht E) as [Er|Hin]; [congruence | exact Hin].
        * intros t Ht <-. apply filter_In in Ht. destruct Ht as [_ Ht]. apply Z.eqb_eq in Ht. congruence.
  Qed.

  Lemma zrange_nodup : forall M, NoDup (zrange M).
  Proof.
    intro M. unfold zrange. apply NoDup_map_inj; [intros x y H; apply Nat2Z.inj, H | apply seq_NoDup].
  Qed.

  Lemma zrange_in : forall M z, 0 <= z < Z.of_nat M -> In z (zrange M).
  Proof.
    intros M z H. apply in_map_iff. exists (Z.to_nat z). split; [lia | apply in_seq; lia].
  Qed.

  (* COO -> CSR keeps the denoted matrix (rows inside the shape) *)
  Theorem coo_csr_same : forall M (T : coo) q,
    (forall t, In t T -> 0 <= fst (fst t) < Z.of_nat M) ->
    den (csr_triples (coo_tocsr M T)) q = den T q.
  Proof.
    intros M T q Hr. rewrite csr_triples_tocsr. apply den_rows; [apply zrange_nodup|].
    intros t Ht <-. apply zrange_in, Hr, Ht.
  Qed.

  Lemma den_swapT : forall (T : coo) q, den (map swapT T) (swap q) = den T q.
  Proof.
    induction T as [|t T IH]; intro q; [reflexivity|]. simpl. rewrite IH.
    replace (pair_eqb (swap (fst t)) (swap q)) with (pair_eqb (fst t) q); [reflexivity|].
    destruct t as [[a b] v], q as [c d]. unfold pair_eqb, swap. simpl. apply andb_comm.
  Qed.

  (* COO -> CSC keeps the denoted matrix (columns inside the shape) *)
  Theorem coo_csc_same : forall N (T : coo) q,
    (forall t, In t T -> 0 <= snd (fst t) < Z.of_nat N) ->
    den (csc_triples (coo_tocsc N T)) q = den T q.
  Proof.
    intros N T q Hc. unfold csc_triples, coo_tocsc. rewrite <- (swap_swap q) at 1.
    rewrite den_swapT, coo_csr_same; [apply den_swapT|].
    intros t Ht. apply in_map_iff in Ht. destruct Ht as [t' [<- Ht']]. simpl. apply Hc, Ht'.
  Qed.

  (* sum_duplicates: only associativity of the addition is used (no commutativity: the
     stored order of equal columns is kept) *)
  Hypothesis vadd_assoc : forall a b c, vadd (vadd a b) c = vadd a (vadd b c).

  Lemma row_den_ins : forall l j v j',
    row_den (ins j v l) j' = if j =? j' then vadd v (row_den l j') else row_den l j'.
  Proof.
    induction l as [|[j0 v0] l IH]; intros j v j'; simpl; [reflexivity|].
    destruct (j <? j0) eqn:E1; [reflexivity|].
    destruct (j =? j0) eqn:E2.
    - apply Z.eqb_eq in E2. subst j0. simpl. destruct (j =? j') eqn:E3; [apply vadd_assoc | reflexivity].
    - simpl. rewrite IH. destruct (j0 =? j') eqn:E4; [|reflexivity].
      destruct (j =? j') eqn:E3; [|reflexivity].
      apply Z.eqb_eq in E3, E4. subst. rewrite Z.eqb_refl in E2. discriminate.
  Qed.

  (* after sum_duplicates a row has strictly increasing columns: one stored entry per coordinate *)
  Fixpoint strictly_sorted (l : crow) : Prop :=
    match l with
    | [] => True
    | (j0, _) :: l' => (match l' with [] => True | (j1, _) :: _ => j0 < j1 end) /\ strictly_sorted l'
    end.

  Lemma ins_sorted : forall l j v, strictly_sorted l -> strictly_sorted (ins j v l).
  Proof.
    induction l as [|[j0 v0] l IH]; intros j v H; simpl; [auto|].
    destruct (j <? j0) eqn:E1.
    - apply Z.ltb_lt in E1. simpl. split; [exact E1 | exact H].
    - destruct (j =? j0) eqn:E2; [exact H|].
      apply Z.ltb_ge in E1. apply Z.eqb_neq in E2. destruct H as [H1 H2].
      split; [|apply IH, H2].
      destruct l as [|[j1 v1] l']; simpl; [lia|].
      destruct (j <? j1); [lia|]. destruct (j =? j1); [exact H1 | exact H1].
  Qed.
End Formats.
