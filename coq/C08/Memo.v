(* C08 -- memoisation: a cache in front of a pure function is transparent for every call
   history iff the cache key determines the result.  (The class of defect "cache keyed on too
   little": seeded change C08-4 memoised compute_sparsity_ij on (p, numdofs, mesh).) *)
From Coq Require Import ZArith List Bool Arith.
Import ListNotations.

Section Memo.
  Variable K X R : Type.
  Variable K_eqb : K -> K -> bool.
  Hypothesis K_eqb_spec : forall a b, K_eqb a b = true <-> a = b.
  Variable key : X -> K.
  Variable f : X -> R.

  Fixpoint lookup (k : K) (c : list (K * R)) : option R :=
    match c with
    | [] => None
    | (k', r) :: c' => if K_eqb k' k then Some r else lookup k c'
    end.

  (* one call of the memoised function: (new cache, result) *)
  Definition call (c : list (K * R)) (x : X) : list (K * R) * R :=
    match lookup (key x) c with
    | Some r => (c, r)
    | None => ((key x, f x) :: c, f x)
    end.

  (* a history of calls in one process, starting from cache c *)
  Fixpoint run_calls (c : list (K * R)) (xs : list X) : list R :=
    match xs with
    | [] => []
    | x :: xs' => let cr := call c x in snd cr :: run_calls (fst cr) xs'
    end.

  Definition key_determines : Prop := forall x y, key x = key y -> f x = f y.
  Definition cache_ok (c : list (K * R)) : Prop :=
    forall k r, lookup k c = Some r -> forall x, key x = k -> f x = r.

  Lemma call_ok : key_determines -> forall c x, cache_ok c ->
    snd (call c x) = f x /\ cache_ok (fst (call c x)).
  Proof.
    intros Hk c x Hc. unfold call. destruct (lookup (key x) c) as [r|] eqn:E; simpl.
    - split; [symmetry; apply (Hc (key x) r E x eq_refl) | exact Hc].
    - split; [reflexivity|]. intros k r H y Hy. simpl in H.
      destruct (K_eqb (key x) k) eqn:Ek.
      + injection H as <-. apply K_eqb_spec in Ek. apply Hk. congruence.
      + apply (Hc k r H y Hy).
  Qed.

  Lemma run_ok : key_determines -> forall xs c, cache_ok c -> run_calls c xs = map f xs.
  Proof.
    intros Hk. induction xs as [|x xs IH]; intros c Hc; [reflexivity|].
    simpl. destruct (call_ok Hk c x Hc) as [H1 H2]. rewrite H1, (IH _ H2). reflexivity.
  Qed.
End Memo.
Arguments run_calls {K X R}. Arguments call {K X R}. Arguments lookup {K R}.

(** * the per-direction sparsity pattern of a knot vector and the key of seeded change C08-4 *)

Local Open Scope Z_scope.

(* knot vectors as (degree, integer knots): B-spline i has support [t_i, t_{i+p+1}] *)
Definition kvec : Type := (nat * list Z)%type.
Definition kv_ndofs (kv : kvec) : nat := (length (snd kv) - fst kv - 1)%nat.
Definition kv_pattern (kv : kvec) : list (nat * nat) :=
  let p := fst kv in let t := snd kv in let n := kv_ndofs kv in
  flat_map (fun i => flat_map (fun j =>
     if Z.max (nth i t 0) (nth j t 0) <? Z.min (nth (i + p + 1) t 0) (nth (j + p + 1) t 0)
     then [(i, j)] else []) (seq 0 n)) (seq 0 n).

Fixpoint dedup (l : list Z) : list Z :=
  match l with
  | [] => []
  | x :: l' => match l' with y :: _ => if x =? y then dedup l' else x :: dedup l' | [] => [x] end
  end.
(* (kv.p, kv.numdofs, kv.mesh) *)
Definition c084_key (kv : kvec) : nat * nat * list Z := (fst kv, kv_ndofs kv, dedup (snd kv)).

Fixpoint zl_eqb (a b : list Z) : bool :=
  match a, b with [], [] => true | x :: a', y :: b' => (x =? y) && zl_eqb a' b' | _, _ => false end.
Definition c084_key_eqb (a b : nat * nat * list Z) : bool :=
  Nat.eqb (fst (fst a)) (fst (fst b)) && Nat.eqb (snd (fst a)) (snd (fst b)) && zl_eqb (snd a) (snd b).

Lemma zl_eqb_spec : forall a b, zl_eqb a b = true <-> a = b.
Proof.
  induction a as [|x a IH]; intros [|y b]; simpl; split; intro H; try reflexivity; try discriminate.
  - apply andb_true_iff in H. destruct H as [H1 H2]. apply Z.eqb_eq in H1. apply IH in H2. subst. reflexivity.
  - injection H as -> ->. rewrite Z.eqb_refl. simpl. apply IH. reflexivity.
Qed.

Lemma c084_key_eqb_spec : forall a b, c084_key_eqb a b = true <-> a = b.
Proof.
  intros [[a1 a2] a3] [[b1 b2] b3]. unfold c084_key_eqb. simpl.
  rewrite !andb_true_iff, !Nat.eqb_eq, zl_eqb_spec. split.
  - intros [[-> ->] ->]. reflexivity.
  - intro E. injection E. auto.
Qed.
