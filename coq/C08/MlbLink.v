(* C08 -- the multi-level banded (MLB) format: the coordinates C08's model assigns to the data
   array of the generic vector core (Model.core_triples, packed layout) are, in the same order,
   C15's kron_pattern of the structure S_base.join(dense(nc)); by C15's nonzero_spec this is the
   list MLStructure.nonzero() returns, i.e. what MLMatrix.asmatrix() zips with data.ravel(). *)
From Coq Require Import ZArith List Bool Arith Lia.
From Verif.lib Require Import ListFacts.
From Verif.C15 Require Model Spec Props.
From Verif.C08 Require Import Model Proofs.
Import ListNotations.

Lemma to_seq_acc_same : forall I dims acc, C15.Model.to_seq_acc acc I dims = to_seq_acc acc I dims.
Proof.
  induction I as [|i I IH]; intros [|m dims] acc; simpl; try reflexivity. apply IH.
Qed.

Lemma ml_key_entry_of : forall bs sel, ml_key bs sel = C15.Model.entry_of bs sel.
Proof.
  intros. unfold ml_key, C15.Model.entry_of, C15.Model.to_seq, to_seq, C15.Model.rowdims, C15.Model.coldims.
  rewrite !to_seq_acc_same. reflexivity.
Qed.

(* the Cartesian product of the level patterns = the per-level entries selected by the index
   tuples of the data array, in C order *)
Lemma product_sel_of : forall lv : list (list (Z * Z)),
  C15.Model.product lv = map (sel_of lv) (prod_idx (map (@length _) lv)).
Proof.
  induction lv as [|l lv IH]; [reflexivity|].
  simpl C15.Model.product. simpl map. simpl prod_idx.
  rewrite map_flat_map. rewrite <- (map_nth_seq (0%Z, 0%Z) l) at 1. rewrite flat_map_map.
  apply flat_map_ext. intro i. rewrite IH, !map_map. reflexivity.
Qed.

Lemma product_snoc : forall (lv : list (list (Z * Z))) (D : list (Z * Z)),
  C15.Model.product (lv ++ [D]) = flat_map (fun sel => map (fun rc => sel ++ [rc]) D) (C15.Model.product lv).
Proof.
  induction lv as [|l lv IH]; intro D.
  - simpl. rewrite app_nil_r. induction D as [|x D IHD]; [reflexivity|]. simpl. rewrite IHD. reflexivity.
  - simpl app. simpl C15.Model.product. rewrite flat_map_flat_map.
    apply flat_map_ext. intro x. rewrite IH, map_flat_map, flat_map_map.
    apply flat_map_ext. intro sel. rewrite map_map. reflexivity.
Qed.

(* the coordinates of the packed layout, in data order *)
Definition packed_keys (bs : list (Z * Z)) (nc : Z * Z) (lv : list (list (Z * Z))) : list (Z * Z) :=
  flat_map (fun mu => map (fun c => key_packed bs nc (sel_of lv mu) (dense_ij (snd nc) (Z.of_nat c)))
                          (seq 0 (Z.to_nat (fst nc * snd nc))))
           (prod_idx (map (@length _) lv)).
Definition dense_level (nc : Z * Z) : list (Z * Z) :=
  map (fun c => dense_ij (snd nc) (Z.of_nat c)) (seq 0 (Z.to_nat (fst nc * snd nc))).

Lemma core_triples_keys : forall (V : Type) bs nc lv (data : list V),
  core_triples false bs nc lv data = combine (packed_keys bs nc lv) data.
Proof. reflexivity. Qed.

Theorem packed_keys_kron : forall bs nc lv,
  packed_keys bs nc lv = C15.Spec.kron_pattern (bs ++ [nc]) (lv ++ [dense_level nc]).
Proof.
  intros bs nc lv. unfold C15.Spec.kron_pattern. rewrite product_snoc, product_sel_of.
  rewrite flat_map_map, map_flat_map. unfold packed_keys.
  apply flat_map_ext. intro mu. unfold dense_level. rewrite !map_map.
  apply map_ext. intro c. unfold key_packed. apply ml_key_entry_of.
Qed.

(* ... hence exactly what MLStructure.nonzero() enumerates (C15.nonzero_spec), in data order *)
Theorem mlb_keys_are_nonzero : forall bs nc lv, length bs = length lv ->
  C15.Model.nonzero (bs ++ [nc]) (lv ++ [dense_level nc]) false = Some (packed_keys bs nc lv).
Proof.
  intros bs nc lv H. rewrite C15.Props.nonzero_spec by (rewrite !app_length; simpl; lia).
  rewrite <- packed_keys_kron. f_equal. exact (nonzero_lt_false _).
Qed.

(* the component level: compute_dense_ij(nr, ncl) enumerates (t / ncl, t mod ncl), t = 0..nr*ncl-1 *)
Theorem dense_level_is_compute_dense_ij : forall nr ncl : Z, (0 <= nr)%Z -> (0 < ncl)%Z ->
  dense_level (nr, ncl) = C15.Model.compute_dense_ij nr ncl.
Proof.
  intros nr ncl Hr Hc. unfold dense_level, C15.Model.compute_dense_ij, C15.Model.range. simpl fst; simpl snd.
  replace (Z.to_nat (nr * ncl)) with (Z.to_nat nr * Z.to_nat ncl) by (rewrite Z2Nat.inj_mul; lia).
  pose proof (map_seq_blocks _ (fun c => dense_ij ncl (Z.of_nat c)) (Z.to_nat ncl) (Z.to_nat nr) 0) as H.
  simpl Nat.mul in H at 1. rewrite H. rewrite flat_map_map.
  apply flat_map_ext_in. intros i Hi. rewrite map_map. apply map_ext_in. intros j Hj.
  apply in_seq in Hj. unfold dense_ij.
  assert (E : Z.of_nat (i * Z.to_nat ncl + j) = (Z.of_nat i * ncl + Z.of_nat j)%Z) by lia.
  rewrite E. rewrite Z.add_comm, Z.div_add, Z.mod_add by lia.
  rewrite Z.div_small, Z.mod_small by lia. rewrite Z.add_0_l. reflexivity.
Qed.
