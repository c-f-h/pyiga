(* C08 -- lemmas about the model of the assembly drivers. *)
From Coq Require Import ZArith List Bool Arith Lia.
From Verif.lib Require Import ListFacts.
From Verif.C08 Require Import Model.
Import ListNotations.
Close Scope Z_scope.   (* left open by Model *)

(** * lists *)

Lemma map_combine_eq : forall (A B C : Type) (f : A -> C) (g : B -> C) (l1 : list A) (l2 : list B),
  length l1 = length l2 -> (forall a b, In (a, b) (combine l1 l2) -> f a = g b) -> map f l1 = map g l2.
Proof.
  induction l1 as [|a l1 IH]; intros [|b l2] Hl H; simpl in *; try reflexivity; try discriminate.
  f_equal; [apply H; left; reflexivity | apply IH; [lia | intros a' b' Hin; apply H; right; exact Hin]].
Qed.

Lemma nth_mid_other : forall (A : Type) (l : list A) x y l' i d,
  i <> length l -> nth i (l ++ x :: l') d = nth i (l ++ y :: l') d.
Proof.
  induction l as [|a l IH]; intros x y l' [|i] d H; simpl in *; try reflexivity; [congruence|].
  apply IH. lia.
Qed.

Lemma hd_app : forall (A : Type) (d : A) (l s : list A), l <> [] -> hd d (l ++ s) = hd d l.
Proof. intros A d [|x l] s H; [congruence | reflexivity]. Qed.

Lemma NoDup_map_inj : forall (A B : Type) (f : A -> B) (l : list A),
  (forall x y, f x = f y -> x = y) -> NoDup l -> NoDup (map f l).
Proof. intros A B f l Hinj. apply NoDup_map_inj_on. intros x y _ _. apply Hinj. Qed.

Lemma NoDup_app_disj : forall (A : Type) (a b : list A), NoDup (a ++ b) ->
  NoDup b /\ forall x, In x a -> ~ In x b.
Proof.
  induction a as [|x a IH]; intros b H; simpl in *.
  - split; [exact H | tauto].
  - inversion H as [|? ? Hnin Hnd]; subst. destruct (IH b Hnd) as [Hb Hdis].
    split; [exact Hb|]. intros y [<-|Hy] Hyb.
    + apply Hnin. apply in_or_app. right; exact Hyb.
    + apply (Hdis y Hy Hyb).
Qed.

Lemma flat_map_nil : forall (A B : Type) (f : A -> list B) l, (forall a, f a = []) -> flat_map f l = [].
Proof. intros A B f l H. induction l as [|a l IH]; simpl; [reflexivity | rewrite H, IH; reflexivity]. Qed.

Lemma flat_map_flat_map : forall (A B C : Type) (f : B -> list C) (g : A -> list B) l,
  flat_map f (flat_map g l) = flat_map (fun x => flat_map f (g x)) l.
Proof. induction l as [|a l IH]; simpl; [reflexivity | rewrite flat_map_app, IH; reflexivity]. Qed.

(* a row-major index range cut into M rows of length N *)
Lemma map_seq_blocks : forall (A : Type) (g : nat -> A) N M s,
  map g (seq (s * N) (M * N)) = flat_map (fun i => map (fun j => g (i * N + j)) (seq 0 N)) (seq s M).
Proof.
  intros A g N. induction M as [|M IH]; intro s; [reflexivity|].
  simpl. rewrite seq_app, map_app. f_equal.
  - rewrite (seq_add_map N (s * N)), map_map. reflexivity.
  - replace (s * N + N) with (S s * N) by lia. apply IH.
Qed.

(** * chunk_tasks *)

Lemma chunks_fuel_concat : forall (A : Type) fuel n (l : list A),
  1 <= n -> length l <= fuel -> concat (chunks_fuel fuel n l) = l.
Proof.
  induction fuel as [|f IH]; intros n l Hn Hl.
  - destruct l; simpl in *; [reflexivity | lia].
  - destruct l as [|a l']; [reflexivity|].
    cbn [chunks_fuel concat]. rewrite IH; [apply firstn_skipn | exact Hn |].
    rewrite skipn_length. lia.
Qed.

Lemma chunks_fuel_nonempty : forall (A : Type) fuel n (l : list A),
  1 <= n -> Forall (fun c => c <> [] /\ length c <= n) (chunks_fuel fuel n l).
Proof.
  induction fuel as [|f IH]; intros n l Hn; [constructor|].
  destruct l as [|a l']; [constructor|].
  cbn [chunks_fuel]. constructor; [|apply IH; exact Hn].
  split.
  - destruct n; [lia|]. simpl. discriminate.
  - rewrite firstn_length. lia.
Qed.

(* all chunks but possibly the last are full *)
Lemma chunks_fuel_count : forall (A : Type) fuel n (l : list A),
  1 <= n -> length l <= fuel -> length (chunks_fuel fuel n l) * n < length l + n.
Proof.
  induction fuel as [|f IH]; intros n l Hn Hl; [simpl; lia|].
  destruct l as [|a l']; [simpl; lia|].
  cbn [chunks_fuel length]. specialize (IH n (skipn n (a :: l')) Hn).
  rewrite skipn_length in IH. simpl length in *. specialize (IH ltac:(lia)).
  set (c := length (chunks_fuel f n _)) in *.
  destruct (le_lt_dec n (S (length l'))); [lia|]. assert (c = 0) by nia. lia.
Qed.

Lemma chunks_fuel_map : forall (A B : Type) (f : A -> B) fuel n (l : list A),
  chunks_fuel fuel n (map f l) = map (map f) (chunks_fuel fuel n l).
Proof.
  induction fuel as [|fu IH]; intros n l; [reflexivity|].
  destruct l as [|a l']; [reflexivity|].
  change (chunks_fuel (S fu) n (map f (a :: l')))
    with (firstn n (map f (a :: l')) :: chunks_fuel fu n (skipn n (map f (a :: l')))).
  rewrite firstn_map, skipn_map, IH. reflexivity.
Qed.

Lemma chunk_size_pos : forall len k, 1 <= chunk_size len k.
Proof. intros. unfold chunk_size. lia. Qed.

Lemma chunks_concat : forall (A : Type) (l : list A) k, concat (chunk_tasks l k) = l.
Proof. intros. unfold chunk_tasks. apply chunks_fuel_concat; [apply chunk_size_pos | lia]. Qed.

Lemma chunks_shape : forall (A : Type) (l : list A) k,
  Forall (fun c => c <> [] /\ length c <= chunk_size (length l) k) (chunk_tasks l k).
Proof. intros. unfold chunk_tasks. apply chunks_fuel_nonempty, chunk_size_pos. Qed.

(* k chunks of size len/k + 1 hold more than len elements *)
Lemma chunks_count : forall (A : Type) (l : list A) k, 1 <= k -> length (chunk_tasks l k) <= k.
Proof.
  intros A l k Hk. unfold chunk_tasks.
  pose proof (chunks_fuel_count A (length l) _ l (chunk_size_pos (length l) k) (le_n _)) as H.
  unfold chunk_size in *.
  pose proof (Nat.div_mod (length l) k ltac:(lia)). pose proof (Nat.mod_upper_bound (length l) k ltac:(lia)).
  nia.
Qed.

(* chunk_tasks looks at the length of its argument only *)
Lemma chunks_map : forall (A B : Type) (f : A -> B) (l : list A) k,
  chunk_tasks (map f l) k = map (map f) (chunk_tasks l k).
Proof. intros. unfold chunk_tasks. rewrite map_length. apply chunks_fuel_map. Qed.

(** * schedule independence *)

Lemma interleave_nil_tasks : forall (A : Type) (ts : list (list A)) s,
  interleave ts s -> interleave ([] :: ts) s.
Proof.
  intros A ts s H. induction H as [ts Hall | ts1 x t ts2 s H IH].
  - constructor. constructor; [reflexivity | exact Hall].
  - apply (il_step ([] :: ts1) x t ts2 s). exact IH.
Qed.

(* the sequential order (task 0, then task 1, ...) is one of the schedules *)
Lemma interleave_concat : forall (A : Type) (ts : list (list A)), interleave ts (concat ts).
Proof.
  induction ts as [|t ts IH]; [constructor; constructor|].
  induction t as [|x t IHt].
  - simpl. apply interleave_nil_tasks, IH.
  - simpl. apply (il_step [] x t ts). exact IHt.
Qed.

Section Sched.
  Variable L V : Type.
  Variable L_eqb : L -> L -> bool.
  Hypothesis L_eqb_spec : forall a b, L_eqb a b = true <-> a = b.

  Notation op := (op L V).
  Notation exec := (exec L_eqb).
  Notation step := (step L_eqb).
  Notation upd := (upd L_eqb).

  Lemma L_eqb_refl : forall a, L_eqb a a = true.
  Proof. intro a. apply L_eqb_spec. reflexivity. Qed.

  Lemma upd_same : forall (m : L -> V) l v, upd m l v l = v.
  Proof. intros. unfold Model.upd. rewrite L_eqb_refl. reflexivity. Qed.

  Lemma upd_other : forall (m : L -> V) l v l', l <> l' -> upd m l v l' = m l'.
  Proof.
    intros m l v l' H. unfold Model.upd. destruct (L_eqb l l') eqn:E; [|reflexivity].
    apply L_eqb_spec in E. contradiction.
  Qed.

  Lemma exec_cons : forall (o : op) (s : list op) (m : L -> V), exec (o :: s) m = exec s (step m o).
  Proof. reflexivity. Qed.

  Lemma exec_app : forall (s1 s2 : list op) (m : L -> V), exec (s1 ++ s2) m = exec s2 (exec s1 m).
  Proof. intros. unfold Model.exec. apply fold_left_app. Qed.

  Lemma step_untouched : forall (o : op) (m : L -> V) l, ~ In l (fp o) -> step m o l = m l.
  Proof. intros [l0 v|d s] m l H; simpl in *; apply upd_other; intro; subst; tauto. Qed.

  Lemma exec_untouched : forall (s : list op) (m : L -> V) l, (forall o, In o s -> ~ In l (fp o)) -> exec s m l = m l.
  Proof.
    induction s as [|o s IH]; intros m l H; [reflexivity|].
    rewrite exec_cons, IH.
    - apply step_untouched, H. left; reflexivity.
    - intros o' Ho'. apply H. right; exact Ho'.
  Qed.

  (* memories that agree on a set S closed under the footprints of the operations
     still agree on S afterwards *)
  Lemma step_agree : forall (S : L -> Prop) (o : op) (m1 m2 : L -> V),
    (forall l, In l (fp o) -> S l) -> (forall l, S l -> m1 l = m2 l) ->
    forall l, S l -> step m1 o l = step m2 o l.
  Proof.
    intros S [l0 v|d s] m1 m2 Hfp Hag l Hl; simpl; unfold Model.upd.
    - destruct (L_eqb l0 l); [reflexivity | apply Hag, Hl].
    - destruct (L_eqb d l); [apply Hag, Hfp; simpl; auto | apply Hag, Hl].
  Qed.

  Lemma exec_agree : forall (S : L -> Prop) (s : list op) (m1 m2 : L -> V),
    (forall o, In o s -> forall l, In l (fp o) -> S l) -> (forall l, S l -> m1 l = m2 l) ->
    forall l, S l -> exec s m1 l = exec s m2 l.
  Proof.
    induction s as [|o s IH]; intros m1 m2 Hfp Hag; [exact Hag|].
    rewrite !exec_cons. apply IH.
    - intros o' Ho'. apply Hfp. right; exact Ho'.
    - apply step_agree; [apply Hfp; left; reflexivity | exact Hag].
  Qed.

  (* ownership: every location touched (read or written) by task number i is owned by i *)
  Definition owned (own : L -> nat) (ts : list (list op)) : Prop :=
    forall i t, nth_error ts i = Some t -> forall o, In o t -> forall l, In l (fp o) -> own l = i.

  Lemma owned_nth : forall own ts, owned own ts ->
    forall i o, In o (nth i ts []) -> forall l, In l (fp o) -> own l = i.
  Proof.
    intros own ts H i o Ho. destruct (nth_error ts i) as [t|] eqn:E.
    - apply (H i t E). rewrite <- (nth_error_nth ts i [] E). exact Ho.
    - apply nth_error_None in E. rewrite nth_overflow in Ho by exact E. destruct Ho.
  Qed.

  Lemma owned_map_seq : forall own (f : nat -> list op) n,
    (forall i, i < n -> forall o, In o (f i) -> forall l, In l (fp o) -> own l = i) ->
    owned own (map f (seq 0 n)).
  Proof.
    intros own f n H i t Hi.
    assert (Hlt : i < n).
    { rewrite <- (seq_length n 0), <- (map_length f (seq 0 n)). apply nth_error_Some. congruence. }
    rewrite nth_error_map, (nth_error_nth' _ 0), seq_nth in Hi by (rewrite ?seq_length; exact Hlt).
    injection Hi as <-. apply H, Hlt.
  Qed.

  (* the memory at l after any schedule is what l's owner alone computes: the other tasks'
     operations neither write l nor anything the owner reads *)
  Lemma sched_owner : forall own (ts : list (list op)) s, interleave ts s ->
    (forall i o, In o (nth i ts []) -> forall l, In l (fp o) -> own l = i) ->
    forall m l, exec s m l = exec (nth (own l) ts []) m l.
  Proof.
    intros own ts s Hil. induction Hil as [ts Hall | ts1 x t ts2 s Hil IH]; intros Hown m l.
    - destruct (nth_in_or_default (own l) ts []) as [Hin| ->]; [|reflexivity].
      rewrite (proj1 (Forall_forall _ _) Hall _ Hin). reflexivity.
    - rewrite exec_cons, IH.
      + destruct (Nat.eq_dec (own l) (length ts1)) as [E|Hne].
        * rewrite E, !nth_middle. reflexivity.
        * rewrite (nth_mid_other _ ts1 t (x :: t) ts2 _ [] Hne).
          apply (exec_agree (fun l' => own l' = own l)); [| |reflexivity].
          -- intros o Ho. exact (Hown _ o Ho).
          -- intros l' Hl'. apply step_untouched. intro Hin. apply Hne. rewrite <- Hl'.
             apply (Hown _ x); [rewrite nth_middle; left; reflexivity | exact Hin].
      + intros i o Ho. apply Hown. destruct (Nat.eq_dec i (length ts1)) as [->|Hne].
        * rewrite nth_middle in *. right; exact Ho.
        * rewrite (nth_mid_other _ ts1 (x :: t) t ts2 _ [] Hne). exact Ho.
  Qed.

  Theorem sched_own_independent : forall own ts s1 s2,
    owned own ts -> interleave ts s1 -> interleave ts s2 ->
    forall m l, exec s1 m l = exec s2 m l.
  Proof.
    intros own ts s1 s2 Hown H1 H2 m l. pose proof (owned_nth own ts Hown) as Hn.
    rewrite (sched_owner own ts s1 H1 Hn), (sched_owner own ts s2 H2 Hn). reflexivity.
  Qed.

  (* pairwise disjoint footprints give an ownership function *)
  Definition locs (t : list op) : list L := flat_map (@fp L V) t.

  Fixpoint find_owner (Ls : list (list L)) (l : L) : nat :=
    match Ls with
    | [] => 0
    | t :: rest => if existsb (L_eqb l) t then 0 else S (find_owner rest l)
    end.

  Lemma existsb_In : forall l t, existsb (L_eqb l) t = true <-> In l t.
  Proof.
    intros l t. rewrite existsb_exists. split.
    - intros [x [Hx E]]. apply L_eqb_spec in E. subst. exact Hx.
    - intro H. exists l. split; [exact H | apply L_eqb_refl].
  Qed.

  Lemma find_owner_nodup : forall Ls, NoDup (concat Ls) ->
    forall i t l, nth_error Ls i = Some t -> In l t -> find_owner Ls l = i.
  Proof.
    induction Ls as [|t0 rest IH]; intros Hnd i t l Hi Hl; [destruct i; discriminate|].
    simpl in Hnd. destruct (NoDup_app_disj _ _ _ Hnd) as [Hrest Hdis].
    destruct i as [|i']; simpl in *.
    - injection Hi as ->. apply existsb_In in Hl. rewrite Hl. reflexivity.
    - destruct (existsb (L_eqb l) t0) eqn:E; [|f_equal; exact (IH Hrest i' t l Hi Hl)].
      apply existsb_In in E. destruct (Hdis l E).
      apply in_concat. exists t. split; [eapply nth_error_In; exact Hi | exact Hl].
  Qed.

  Theorem sched_nodup_independent : forall ts s1 s2,
    NoDup (concat (map locs ts)) -> interleave ts s1 -> interleave ts s2 ->
    forall m l, exec s1 m l = exec s2 m l.
  Proof.
    intros ts s1 s2 Hnd. apply (sched_own_independent (find_owner (map locs ts))).
    intros i t Hi o Ho l Hl.
    apply (find_owner_nodup _ Hnd i (locs t)).
    - rewrite nth_error_map, Hi. reflexivity.
    - unfold locs. apply in_flat_map. exists o. split; assumption.
  Qed.

  Lemma exec_writes_nodup : forall (X : Type) (k : X -> L) (f : X -> V) xs m x,
    NoDup (map k xs) -> In x xs -> exec (map (fun y => Wr (k y) (f y)) xs) m (k x) = f x.
  Proof.
    induction xs as [|x0 xs IH]; intros m x Hnd Hin; [destruct Hin|].
    simpl in Hnd. inversion Hnd as [|? ? Hnin Hnd']; subst.
    simpl map. rewrite exec_cons. destruct Hin as [->|Hin]; [|apply IH; assumption].
    rewrite exec_untouched; [apply upd_same|].
    intros o Ho. apply in_map_iff in Ho. destruct Ho as [y [<- Hy]]. intros [E|[]].
    apply Hnin. rewrite <- E. apply in_map, Hy.
  Qed.
End Sched.

(** * the thread pool of multi_entries / multi_blocks *)

Section PoolProofs.
  Variable I V : Type.
  Variable entry : I -> V.

  Let wr (pi : nat * I) : op nat V := Wr (fst pi) (entry (snd pi)).

  Lemma pool_concat : forall idx T, concat (pool_tasks entry idx T) = serial_task entry idx.
  Proof.
    intros. unfold pool_tasks, serial_task. rewrite <- concat_map, chunks_concat. reflexivity.
  Qed.

  Lemma locs_wr : forall ch : list (nat * I), locs nat V (map wr ch) = map fst ch.
  Proof.
    induction ch as [|c ch IH]; [reflexivity|]. unfold locs in *. simpl. rewrite IH. reflexivity.
  Qed.

  Lemma pool_locs : forall idx T,
    concat (map (locs nat V) (pool_tasks entry idx T)) = seq 0 (length idx).
  Proof.
    intros idx T. unfold pool_tasks. fold wr.
    rewrite map_map. rewrite (map_ext _ (map fst) locs_wr).
    rewrite <- chunks_map, chunks_concat.
    apply map_fst_combine, seq_length.
  Qed.

  (* every schedule of the pool's chunk tasks leaves map entry idx in the result array: the chunks
     write pairwise different positions, so the schedule may be replaced by the sequential one *)
  Lemma pool_result : forall idx T s m0,
    interleave (pool_tasks entry idx T) s ->
    read_back (length idx) (exec Nat.eqb s m0) = map entry idx.
  Proof.
    intros idx T s m0 Hil. apply map_combine_eq; [apply seq_length|]. intros p ix Hin.
    rewrite (sched_nodup_independent nat V Nat.eqb Nat.eqb_eq (pool_tasks entry idx T) s (concat (pool_tasks entry idx T))).
    - rewrite pool_concat.
      apply (exec_writes_nodup nat V Nat.eqb Nat.eqb_eq _ fst (fun pi => entry (snd pi)) _ m0 (p, ix)); [|exact Hin].
      rewrite map_fst_combine by apply seq_length. apply seq_NoDup.
    - rewrite pool_locs. apply seq_NoDup.
    - exact Hil.
    - apply interleave_concat.
  Qed.
End PoolProofs.

(** * symmetric assembly = full assembly (assemble_entries and the bsr path) *)

Lemma pair_eqb_spec : forall p q, pair_eqb p q = true <-> p = q.
Proof.
  intros [a b] [c d]. unfold pair_eqb. simpl. rewrite andb_true_iff, !Z.eqb_eq.
  split; [intros [-> ->]; reflexivity | intros E; injection E; auto].
Qed.

Lemma pair_eqb_neq : forall p q, p <> q -> pair_eqb p q = false.
Proof.
  intros p q H. destruct (pair_eqb p q) eqn:E; [|reflexivity].
  apply pair_eqb_spec in E. contradiction.
Qed.

Lemma swap_swap : forall p, swap (swap p) = p.
Proof. intros [a b]. reflexivity. Qed.

Lemma swap_inj : forall p q, swap p = swap q -> p = q.
Proof. intros p q H. rewrite <- (swap_swap p), <- (swap_swap q), H. reflexivity. Qed.

Lemma pair_eq_dec : forall p q : Z * Z, {p = q} + {p <> q}.
Proof. decide equality; apply Z.eq_dec. Qed.

Lemma lower_swap : forall p, lower p = true -> offdiag p = true -> lower (swap p) = false.
Proof.
  intros [a b]. unfold lower, offdiag, swap. simpl. intros Hl Ho.
  apply Z.leb_le in Hl. apply negb_true_iff, Z.eqb_neq in Ho. apply Z.leb_gt. lia.
Qed.

Lemma upper_swap : forall p, lower p = false -> lower (swap p) = true /\ offdiag (swap p) = true.
Proof.
  intros [a b]. unfold lower, offdiag, swap. simpl. intro Hl. apply Z.leb_gt in Hl.
  split; [apply Z.leb_le | apply negb_true_iff, Z.eqb_neq]; lia.
Qed.

Section EntriesProofs.
  Variable V : Type.
  Variable vzero : V.
  Variable vadd : V -> V -> V.
  Variable tr : V -> V.

  Notation den := (den vzero vadd).

  Lemma den_app_notin_l : forall (A B : list ((Z * Z) * V)) q,
    (forall t, In t A -> fst t <> q) -> den (A ++ B) q = den B q.
  Proof.
    induction A as [|t A IH]; intros B q H; [reflexivity|].
    simpl. rewrite pair_eqb_neq by (apply H; left; reflexivity).
    apply IH. intros t' Ht'. apply H. right; exact Ht'.
  Qed.

  Lemma den_notin : forall (A : list ((Z * Z) * V)) q,
    (forall t, In t A -> fst t <> q) -> den A q = vzero.
  Proof.
    intros A q H. rewrite <- (app_nil_r A). rewrite den_app_notin_l by exact H. reflexivity.
  Qed.

  Lemma den_app_notin_r : forall (A B : list ((Z * Z) * V)) q,
    (forall t, In t B -> fst t <> q) -> den (A ++ B) q = den A q.
  Proof.
    induction A as [|t A IH]; intros B q H.
    - simpl. apply den_notin, H.
    - simpl. rewrite IH by exact H. reflexivity.
  Qed.

  (* the hypothesis of the three lemmas above for a list given as the image of a list of keys *)
  Lemma notin_map : forall (X : Type) (k : X -> Z * Z) (f : X -> V) (xs : list X) q,
    (forall x, In x xs -> k x <> q) -> forall t, In t (map (fun x => (k x, f x)) xs) -> fst t <> q.
  Proof. intros X k f xs q H t Ht. apply in_map_iff in Ht. destruct Ht as [x [<- Hx]]. exact (H x Hx). Qed.

  (* a coordinate that occurs once in a list receives exactly one summand from it *)
  Lemma den_unique_app : forall (X : Type) (k : X -> Z * Z) (f : X -> V) (xs : list X) x rest,
    NoDup (map k xs) -> In x xs ->
    den (map (fun y => (k y, f y)) xs ++ rest) (k x) = vadd (f x) (den rest (k x)).
  Proof.
    induction xs as [|y xs IH]; intros x rest Hnd Hin; [destruct Hin|].
    simpl in Hnd. inversion Hnd as [|? ? Hnin Hnd']; subst.
    simpl. destruct Hin as [->|Hin].
    - rewrite (proj2 (pair_eqb_spec _ _) eq_refl). f_equal.
      apply den_app_notin_l, notin_map. intros z Hz E. apply Hnin. rewrite <- E. apply in_map, Hz.
    - rewrite pair_eqb_neq; [apply IH; assumption|].
      intro E. apply Hnin. rewrite E. apply in_map, Hin.
  Qed.

  Lemma den_unique : forall (X : Type) (k : X -> Z * Z) (f : X -> V) (xs : list X) x,
    NoDup (map k xs) -> In x xs -> den (map (fun y => (k y, f y)) xs) (k x) = vadd (f x) vzero.
  Proof. intros. rewrite <- (app_nil_r (map _ xs)). apply den_unique_app; assumption. Qed.

  Lemma nonzero_lt_false : forall P, nonzero_lt false P = P.
  Proof.
    intro P. unfold nonzero_lt. simpl. induction P as [|p P IH]; [reflexivity|]. simpl. rewrite IH. reflexivity.
  Qed.

  Lemma den_full_in : forall P (e : Z * Z -> V) q, NoDup P -> In q P ->
    den (assemble_entries tr false P e) q = vadd (e q) vzero.
  Proof.
    intros P e q Hnd Hq. unfold assemble_entries. rewrite nonzero_lt_false.
    apply (den_unique _ (fun p => p) e); [rewrite map_id; exact Hnd | exact Hq].
  Qed.

  Lemma den_full_out : forall P (e : Z * Z -> V) q, ~ In q P ->
    den (assemble_entries tr false P e) q = vzero.
  Proof.
    intros P e q H. unfold assemble_entries. rewrite nonzero_lt_false.
    apply den_notin, notin_map. intros p Hp E. subst p. contradiction.
  Qed.

  (* symmetric assembly, on or below the diagonal: computed directly, nothing is mirrored onto q *)
  Lemma den_sym_lower : forall P (e : Z * Z -> V) q, NoDup P -> In q P -> lower q = true ->
    den (assemble_entries tr true P e) q = vadd (e q) vzero.
  Proof.
    intros P e q Hnd Hq Hl. unfold assemble_entries, nonzero_lt. simpl. rewrite den_app_notin_r.
    - apply (den_unique _ (fun p => p) e); [rewrite map_id; apply NoDup_filter, Hnd | apply filter_In; auto].
    - apply notin_map. intros p Hp E. subst q.
      apply filter_In in Hp. destruct Hp as [Hp Ho]. apply filter_In in Hp. destruct Hp as [_ Hlp].
      rewrite (lower_swap p Hlp Ho) in Hl. discriminate.
  Qed.

  (* strictly above: q is the mirror image of swap q and nothing else is stored there *)
  Lemma den_sym_upper : forall P (e : Z * Z -> V) q, NoDup P -> In (swap q) P -> lower q = false ->
    den (assemble_entries tr true P e) q = vadd (tr (e (swap q))) vzero.
  Proof.
    intros P e q Hnd Hq Hl. unfold assemble_entries, nonzero_lt. simpl. rewrite den_app_notin_l.
    - rewrite <- (swap_swap q) at 1. apply (den_unique _ swap (fun p => tr (e p))).
      + apply NoDup_map_inj; [exact swap_inj | apply NoDup_filter, NoDup_filter, Hnd].
      + destruct (upper_swap q Hl). apply filter_In. split; [apply filter_In; split|]; assumption.
    - apply notin_map. intros p Hp E. subst p. apply filter_In in Hp. destruct Hp. congruence.
  Qed.

  Lemma den_sym_out : forall P (e : Z * Z -> V) q, (forall p, In p P -> In (swap p) P) -> ~ In q P ->
    den (assemble_entries tr true P e) q = vzero.
  Proof.
    intros P e q Hsym Hq. unfold assemble_entries, nonzero_lt. simpl.
    rewrite den_app_notin_l; [apply den_notin|]; apply notin_map; intros p Hp E; apply Hq.
    - rewrite <- E. apply Hsym. apply filter_In in Hp. destruct Hp as [Hp _]. apply filter_In in Hp. tauto.
    - subst p. apply filter_In in Hp. tauto.
  Qed.
End EntriesProofs.

(** * packed <-> blocked layout: the index permutation *)

Local Open Scope Z_scope.

Lemma to_seq_acc_shift : forall I ms acc, length I = length ms ->
  to_seq_acc acc I ms = acc * prodZ ms + to_seq_acc 0 I ms.
Proof.
  induction I as [|i I IH]; intros [|m ms] acc H; simpl in *; try discriminate; [lia|].
  rewrite (IH ms (acc * m + i)) by lia. rewrite (IH ms i) by lia. ring.
Qed.

Lemma to_seq_acc_snoc : forall I ms acc r k, length I = length ms ->
  to_seq_acc acc (I ++ [r]) (ms ++ [k]) = to_seq_acc acc I ms * k + r.
Proof.
  induction I as [|i I IH]; intros [|m ms] acc r k H; simpl in *; try discriminate; [reflexivity|].
  apply IH. lia.
Qed.

(* to_seq by its last and by its first level *)
Lemma to_seq_snoc : forall I ms r k, length I = length ms ->
  to_seq (I ++ [r]) (ms ++ [k]) = to_seq I ms * k + r.
Proof. intros. apply to_seq_acc_snoc. assumption. Qed.

Lemma to_seq_cons : forall I ms r k, length I = length ms ->
  to_seq (r :: I) (k :: ms) = r * prodZ ms + to_seq I ms.
Proof. intros. apply (to_seq_acc_shift I ms r). assumption. Qed.

Definition in_ranges (I ms : list Z) : Prop := Forall2 (fun i m => 0 <= i < m) I ms.

Lemma to_seq_range : forall I ms, in_ranges I ms -> 0 <= to_seq I ms < prodZ ms.
Proof.
  intros I ms H. induction H as [|i m I ms Him H IH]; [unfold to_seq; simpl; lia|].
  rewrite to_seq_cons by exact (Forall2_length _ _ _ H). simpl prodZ. nia.
Qed.

Lemma perm_of_packed : forall M k X r, 0 <= r < k -> perm M k (X * k + r) = r * M + X.
Proof.
  intros M k X r Hr. unfold perm.
  rewrite (Z.add_comm (X * k) r), Z.mod_add, Z.div_add by lia.
  rewrite Z.mod_small, Z.div_small by lia. ring.
Qed.

Local Close Scope Z_scope.

(** * the prange over mu0 of generic_assemble_core_vec (incl. mirrored writes) *)

Lemma list_nat_eqb_spec : forall a b, list_nat_eqb a b = true <-> a = b.
Proof.
  induction a as [|x a IH]; intros [|y b]; simpl; split; intro H; try reflexivity; try discriminate.
  - apply andb_true_iff in H. destruct H as [H1 H2]. apply Nat.eqb_eq in H1. apply IH in H2. subst. reflexivity.
  - injection H as -> ->. rewrite Nat.eqb_refl. simpl. apply IH. reflexivity.
Qed.

Lemma eloc_eqb_spec : forall a b, eloc_eqb a b = true <-> a = b.
Proof.
  intros [a1 a2] [b1 b2]. unfold eloc_eqb. simpl. rewrite andb_true_iff, list_nat_eqb_spec, Nat.eqb_eq.
  split; [intros [-> ->]; reflexivity | intro E; injection E; auto].
Qed.

Definition diag0 (b0 : list (Z * Z)) (m : nat) : Z := (snd (nth m b0 (0, 0)) - fst (nth m b0 (0, 0)))%Z.

(* per-level pattern entries selected by a multi-index, and the transposed multi-index *)
Definition sels (lv : list level) (mu : list nat) : list (Z * Z) := sel_of (map fst lv) mu.
Definition tmu_of (lv : list level) (mu : list nat) : list nat :=
  map (fun p : level * nat => nth (snd p) (snd (fst p)) 0) (combine lv mu).

Lemma sels_cons : forall l lv m mu, sels (l :: lv) (m :: mu) = nth m (fst l) (0%Z, 0%Z) :: sels lv mu.
Proof. reflexivity. Qed.

Lemma tmu_of_cons : forall l lv m mu, tmu_of (l :: lv) (m :: mu) = nth m (snd l) 0 :: tmu_of lv mu.
Proof. reflexivity. Qed.

(* the first non-zero diagonal offset j_k - i_k (0 if all vanish) *)
Fixpoint lexd (lv : list level) (mu : list nat) : Z :=
  match lv, mu with
  | l :: lv', m :: mu' => let d := diag0 (fst l) m in if (d =? 0)%Z then lexd lv' mu' else d
  | _, _ => 0%Z
  end.

Section CoreProofs.
  Variable V : Type.
  Variable nc0 nc1 : nat.
  Variable B : list Z -> list Z -> nat -> V.

  (* the innermost block of the kernel loops for the index tuple s of the remaining levels *)
  Definition leaf (sym : bool) (rest : list level) (allz : bool) (mu tmu : list nat) (i j : list Z)
      (s : list nat) : list (op eloc V) :=
    kern nc0 nc1 B sym [] (allz && (lexd rest s =? 0)%Z) (mu ++ s) (tmu ++ tmu_of rest s)
      (i ++ map fst (sels rest s)) (j ++ map snd (sels rest s)).

  (* the kernel's program is the sequence, in C order, of the innermost blocks of the index tuples
     whose diagonal vector is not lexicographically positive (all of them if not symmetric) *)
  Lemma kern_nf : forall sym rest allz mu tmu i j,
    kern nc0 nc1 B sym rest allz mu tmu i j =
    flat_map (fun s => if sym && allz && (lexd rest s >? 0)%Z then [] else leaf sym rest allz mu tmu i j s)
             (prod_idx (map (fun l : level => length (fst l)) rest)).
  Proof.
    intros sym rest. induction rest as [|[b t] rest IH]; intros allz mu tmu i j; unfold leaf.
    - cbn [map prod_idx flat_map lexd tmu_of sels sel_of combine]. simpl (0 >? 0)%Z. simpl (0 =? 0)%Z.
      rewrite andb_false_r, andb_true_r, !app_nil_r. reflexivity.
    - cbn [kern map prod_idx fst]. rewrite flat_map_flat_map. apply flat_map_ext. intro m.
      rewrite flat_map_map. fold (diag0 b m). set (d := diag0 b m).
      cbn [lexd tmu_of sels sel_of combine map fst snd]. fold d.
      destruct (sym && allz && (d >? 0)%Z) eqn:Eskip.
      + (* skipped at this level: d > 0 decides the sign for every continuation *)
        symmetry. apply flat_map_nil. intro s.
        apply andb_true_iff in Eskip. destruct Eskip as [Esa Ed]. apply Z.gtb_lt in Ed.
        replace (d =? 0)%Z with false by (symmetry; apply Z.eqb_neq; lia).
        rewrite Esa. replace (d >? 0)%Z with true by (symmetry; apply Z.gtb_lt; exact Ed). reflexivity.
      + rewrite IH. apply flat_map_ext. intro s. unfold leaf. rewrite <- !app_assoc. cbn [app].
        destruct (d =? 0)%Z eqn:Ez.
        * rewrite !andb_true_r. reflexivity.
        * rewrite Eskip, Ez, !andb_false_r. reflexivity.
  Qed.

  Lemma in_mirror_ops : forall mu tmu (o : op eloc V),
    In o (mirror_ops nc0 nc1 mu tmu) <->
    exists row col, row < nc1 /\ col < nc0 /\ o = Cp (tmu, col * nc0 + row) (mu, row * nc0 + col).
  Proof.
    intros mu tmu o. unfold mirror_ops. rewrite in_flat_map. split.
    - intros [row [Hr H]]. apply in_map_iff in H. destruct H as [col [<- Hc]]. apply in_seq in Hr, Hc.
      exists row, col. repeat split; lia.
    - intros [row [col [Hr [Hc ->]]]]. exists row. split; [apply in_seq; lia|].
      apply in_map_iff. exists col. split; [reflexivity | apply in_seq; lia].
  Qed.

  (* which rows of `entries` (first index) the operations of the kernel loops touch *)
  Definition heads_ok (sym : bool) (mu tmu : list nat) (o : op eloc V) : Prop :=
    match o with
    | Wr l _ => hd 0 (fst l) = hd 0 mu
    | Cp d s => sym = true /\ hd 0 (fst d) = hd 0 tmu /\ hd 0 (fst s) = hd 0 mu
    end.

  Lemma kern_heads : forall sym rest allz mu tmu i j o,
    mu <> [] -> tmu <> [] -> In o (kern nc0 nc1 B sym rest allz mu tmu i j) -> heads_ok sym mu tmu o.
  Proof.
    intros sym rest allz mu tmu i j o Hmu Htmu Hin. rewrite kern_nf in Hin.
    apply in_flat_map in Hin. destruct Hin as [s [_ Hin]].
    destruct (sym && allz && _); [destruct Hin|]. unfold leaf in Hin. simpl in Hin.
    apply in_app_or in Hin. destruct Hin as [Hin|Hin].
    - apply in_map_iff in Hin. destruct Hin as [c [<- _]]. simpl. apply hd_app, Hmu.
    - destruct sym; [|destruct Hin]. simpl in Hin. destruct (negb _); [|destruct Hin].
      apply in_mirror_ops in Hin. destruct Hin as [row [col [_ [_ ->]]]]. simpl. rewrite !hd_app by assumption. auto.
  Qed.

  (* the iteration mu0 that owns row r of `entries` *)
  Definition core_own (sym : bool) (lv0 : level) (l : eloc) : nat :=
    let r := hd 0 (fst l) in
    if sym && (diag0 (fst lv0) r >? 0)%Z then nth r (snd lv0) 0 else r.

  (* transp0 really is the index of the transposed pattern entry *)
  Definition transp_ok (lv0 : level) : Prop :=
    forall m, m < length (fst lv0) ->
      nth m (snd lv0) 0 < length (fst lv0) /\
      nth (nth m (snd lv0) 0) (fst lv0) (0%Z, 0%Z) = swap (nth m (fst lv0) (0%Z, 0%Z)).

  (* on a duplicate-free pattern transp is an involution that flips the diagonal offset and fixes
     the diagonal entries *)
  Lemma transp_diag0 : forall lv0 m, transp_ok lv0 -> m < length (fst lv0) ->
    diag0 (fst lv0) (nth m (snd lv0) 0) = (- diag0 (fst lv0) m)%Z.
  Proof.
    intros lv0 m H Hm. destruct (H m Hm) as [_ E]. unfold diag0. rewrite E. unfold swap. simpl. ring.
  Qed.

  Lemma transp_invol : forall lv0 m, NoDup (fst lv0) -> transp_ok lv0 -> m < length (fst lv0) ->
    nth (nth m (snd lv0) 0) (snd lv0) 0 = m.
  Proof.
    intros lv0 m Hnd H Hm. destruct (H m Hm) as [Hm' E]. destruct (H _ Hm') as [Hm'' E'].
    apply (proj1 (NoDup_nth (fst lv0) (0%Z, 0%Z)) Hnd); [exact Hm'' | exact Hm |].
    rewrite E', E. apply swap_swap.
  Qed.

  Lemma transp_fix : forall lv0 m, NoDup (fst lv0) -> transp_ok lv0 -> m < length (fst lv0) ->
    diag0 (fst lv0) m = 0%Z -> nth m (snd lv0) 0 = m.
  Proof.
    intros lv0 m Hnd H Hm Hd. destruct (H m Hm) as [Hm' E].
    apply (proj1 (NoDup_nth (fst lv0) (0%Z, 0%Z)) Hnd); [exact Hm' | exact Hm |].
    rewrite E. unfold diag0 in Hd. destruct (nth m (fst lv0) (0%Z, 0%Z)) as [a c].
    unfold swap. simpl in *. f_equal; lia.
  Qed.

  (* iteration i touches row i and, through the mirror copies, row transp0[i]; the latter is skipped
     by its own iteration (or is row i itself, on the diagonal) *)
  Lemma core_owned : forall sym lv0 rest,
    NoDup (fst lv0) -> transp_ok lv0 ->
    owned eloc V (core_own sym lv0) (core_tasks nc0 nc1 B sym (lv0 :: rest)).
  Proof.
    intros sym lv0 rest Hnd Htr. apply owned_map_seq. intros i Hlt o Ho l Hl.
    unfold core_task in Ho. cbv zeta in Ho. fold (diag0 (fst lv0) i) in Ho.
    destruct (sym && (diag0 (fst lv0) i >? 0)%Z) eqn:Eskip; [destruct Ho|].
    apply kern_heads in Ho; [|discriminate|discriminate].
    assert (Hrow : forall l' : eloc, hd 0 (fst l') = i -> core_own sym lv0 l' = i).
    { intros l' E. unfold core_own. rewrite E, Eskip. reflexivity. }
    destruct o as [l0 v|dst src]; simpl in Ho, Hl.
    - destruct Hl as [<-|[]]. apply Hrow, Ho.
    - destruct Ho as [-> [Hd Hs]]. destruct Hl as [<-|[<-|[]]]; [|apply Hrow, Hs].
      simpl in Eskip. rewrite Z.gtb_ltb in Eskip. apply Z.ltb_ge in Eskip.
      unfold core_own. rewrite Hd. simpl hd. rewrite transp_diag0 by assumption. simpl andb.
      destruct (Z.eq_dec (diag0 (fst lv0) i) 0) as [Ez|Enz].
      + rewrite Ez. simpl. apply transp_fix; assumption.
      + replace (- diag0 (fst lv0) i >? 0)%Z with true by (symmetry; apply Z.gtb_lt; lia).
        apply transp_invol; assumption.
  Qed.
End CoreProofs.
