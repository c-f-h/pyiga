(* C08 -- the property theorems, each followed by Print Assumptions. *)
From Coq Require Import ZArith List Bool Arith Lia.
From Verif.lib Require Import ListFacts.
From Verif.C15 Require Model.
From Verif.C08 Require Import Model Proofs CoreSym Update Formats Bsr MlbLink Memo.
Import ListNotations.

(* chunk_tasks (assemble_tools_cy.pyx:387): for every task list and every requested
   number of chunks k >= 1 the chunks concatenate to the input, none is empty,
   there are at most k of them. *)
Theorem chunks_partition : forall (A : Type) (l : list A) (k : nat),
  (1 <= k)%nat ->
  concat (chunk_tasks l k) = l /\
  Forall (fun c => c <> [] /\ (length c <= chunk_size (length l) k)%nat) (chunk_tasks l k) /\
  (length (chunk_tasks l k) <= k)%nat.
Proof.
  intros A l k Hk. split; [apply chunks_concat | split; [apply chunks_shape | apply chunks_count, Hk]].
Qed.
Print Assumptions chunks_partition.

(* the chunks of the output array are the slices matching the chunks of the
   index array: chunking commutes with any elementwise map (it only looks at the length) *)
Theorem chunks_matching_slices : forall (A B : Type) (f : A -> B) (l : list A) (k : nat),
  chunk_tasks (map f l) k = map (map f) (chunk_tasks l k).
Proof. exact chunks_map. Qed.
Print Assumptions chunks_matching_slices.

(* Schedule independence, general form.  Tasks are lists of stores / copies; a
   schedule is any merge keeping each task's order.  If every location a task
   reads or writes is touched by that task only, all schedules end in the same memory. *)
Theorem schedule_independent : forall (L V : Type) (L_eqb : L -> L -> bool),
  (forall a b, L_eqb a b = true <-> a = b) ->
  forall (own : L -> nat) (ts : list (list (op L V))) s1 s2,
  owned L V own ts -> interleave ts s1 -> interleave ts s2 ->
  forall m l, exec L_eqb s1 m l = exec L_eqb s2 m l.
Proof. exact sched_own_independent. Qed.
Print Assumptions schedule_independent.

(* multi_entries / multi_blocks on an ARBITRARY index list (subset, rows, repeated
   or unsorted indices), any thread count T (T = 0 included) and any interleaving of
   the pool's chunk tasks: the result array is  map entry idx,  i.e. the
   corresponding entries of the full matrix, identical for every T and schedule. *)
Theorem pool_schedule_independent : forall (I V : Type) (entry : I -> V) (idx : list I) (T : nat)
    (s : list (op nat V)) (m0 : nat -> V),
  interleave (pool_tasks entry idx T) s ->
  read_back (length idx) (exec Nat.eqb s m0) = map entry idx.
Proof. exact pool_result. Qed.
Print Assumptions pool_schedule_independent.

Theorem pool_write_sets_disjoint : forall (I V : Type) (entry : I -> V) (idx : list I) (T : nat),
  NoDup (concat (map (locs nat V) (pool_tasks entry idx T))).
Proof. intros. rewrite pool_locs. apply seq_NoDup. Qed.
Print Assumptions pool_write_sets_disjoint.

(* the num_threads <= 1 path *)
Theorem subset_consistent_serial : forall (I V : Type) (entry : I -> V) (idx : list I) (m0 : nat -> V),
  read_back (length idx) (exec Nat.eqb (serial_task entry idx) m0) = map entry idx.
Proof.
  intros I V entry idx m0. rewrite <- (pool_concat I V entry idx 1). apply (pool_result I V entry idx 1), interleave_concat.
Qed.
Print Assumptions subset_consistent_serial.

(* assemble_entries(symmetric=True) (assemble.py:746-758) and the packed/bsr path
   (774-790, V = component block, tr = block transpose): for a duplicate-free
   symmetric pattern and an entry function with e(j,i) = tr(e(i,j)) the matrix
   denoted by lower triangle + mirrored strictly lower part is the matrix of the full assembly.
   No algebraic law of vadd is used: each coordinate receives exactly one summand. *)
Theorem symmetric_equals_full : forall (V : Type) (vzero : V) (vadd : V -> V -> V) (tr : V -> V)
    (P : list (Z * Z)) (e : Z * Z -> V),
  NoDup P -> (forall p, In p P -> In (swap p) P) ->
  (forall p, In p P -> e (swap p) = tr (e p)) ->
  forall q, den vzero vadd (assemble_entries tr true P e) q = den vzero vadd (assemble_entries tr false P e) q.
Proof.
  intros V vzero vadd tr P e Hnd Hsym He q. destruct (in_dec pair_eq_dec q P) as [Hq|Hq].
  - rewrite den_full_in by assumption. destruct (lower q) eqn:Hl; [apply den_sym_lower; assumption|].
    rewrite den_sym_upper, <- He, swap_swap by auto. reflexivity.
  - rewrite den_full_out, den_sym_out by assumption. reflexivity.
Qed.
Print Assumptions symmetric_equals_full.

(* 'packed' vs 'blocked' (assemble.py:772, 807-809): the data element of the multi-level
   matrix addressed by the per-level pattern entries sel and component (r,c) sits at
   row/column perm(packed row/column) in the blocked layout, for any number of levels,
   square or non-square component blocks ... *)
Theorem packed_blocked_permutation : forall (bs : list (Z * Z)) (nc : Z * Z) (sel : list (Z * Z)) (rc : Z * Z),
  in_ranges (map fst sel) (map fst bs) -> in_ranges (map snd sel) (map snd bs) ->
  (0 <= fst rc < fst nc)%Z -> (0 <= snd rc < snd nc)%Z ->
  key_blocked bs nc sel rc =
    (perm (prodZ (map fst bs)) (fst nc) (fst (key_packed bs nc sel rc)),
     perm (prodZ (map snd bs)) (snd nc) (snd (key_packed bs nc sel rc))).
Proof.
  intros bs nc sel rc HI HJ Hr Hc.
  pose proof (Forall2_length _ _ _ HI) as HlI. pose proof (Forall2_length _ _ _ HJ) as HlJ.
  unfold key_blocked, key_packed, ml_key. rewrite !map_app. cbn [map fst snd].
  rewrite !to_seq_snoc, !perm_of_packed, !to_seq_cons by assumption. reflexivity.
Qed.
Print Assumptions packed_blocked_permutation.

(* ... and perm is a bijection of range(M*k) with inverse perm k M *)
Theorem layout_permutation_bijective : forall M k p : Z,
  (0 < M)%Z -> (0 < k)%Z -> (0 <= p < M * k)%Z ->
  (0 <= perm M k p < M * k)%Z /\ perm k M (perm M k p) = p.
Proof.
  intros M k p HM Hk Hp.
  pose proof (Z.div_mod p k ltac:(lia)) as Hdm. pose proof (Z.mod_pos_bound p k Hk) as Hr.
  assert (Ha : (0 <= p / k < M)%Z) by (split; [apply Z.div_pos | apply Z.div_lt_upper_bound]; lia).
  change (perm M k p) with (p mod k * M + p / k)%Z.
  split; [nia | rewrite perm_of_packed by exact Ha; lia].
Qed.
Print Assumptions layout_permutation_bijective.

(* generic_assemble_core_vec_{1,2,3}d (cython.py:1089): the prange iterations mu0 = 0..MU0-1,
   each running the kernel loops incl. the mirrored copies into row transp0[mu0], for ANY
   number of inner levels, symmetric or not: every location an iteration reads or writes is
   owned by that iteration alone (rows with diag0 > 0 belong to the iteration of their
   transposed row, which is the only one writing them), hence every assignment and
   interleaving of the iterations to threads leaves the same `entries` array.
   Hypotheses: the level-0 pattern has no duplicates and transp0 is the index of the
   transposed pattern entry (what get_transpose_idx_for_bidx computes, tied exactly). *)
Theorem prange_schedule_independent : forall (V : Type) (nc0 nc1 : nat) (B : list Z -> list Z -> nat -> V)
    (sym : bool) (lv0 : level) (rest : list level) s1 s2,
  NoDup (fst lv0) -> transp_ok lv0 ->
  interleave (core_tasks nc0 nc1 B sym (lv0 :: rest)) s1 ->
  interleave (core_tasks nc0 nc1 B sym (lv0 :: rest)) s2 ->
  forall m l, exec eloc_eqb s1 m l = exec eloc_eqb s2 m l.
Proof.
  intros V nc0 nc1 B sym lv0 rest s1 s2 Hnd Htr.
  apply (sched_own_independent eloc V eloc_eqb eloc_eqb_spec (core_own sym lv0)), core_owned; assumption.
Qed.
Print Assumptions prange_schedule_independent.

(* generic_assemble_core_vec_{1,2,3}d with symmetric=True (cython.py:1065-1141): skip rule
   `diag_0 = .. = diag_{k-1} = 0 and diag_k > 0`, entry_impl on the remaining index tuples, mirrored
   store of the transposed component block into transp[mu].  For ANY number of levels, square
   nc x nc component blocks, duplicate-free level patterns with correct transp arrays and an entry
   function with B(j,i)[col,row] = B(i,j)[row,col], the `entries` array after the run equals the
   array of the unsymmetric run, element by element (coverage: every tuple with a lexicographically
   positive diagonal vector is filled by the mirror copy of its transposed tuple, all others directly;
   all stores to one location carry the same value). *)
Theorem symmetric_equals_full_core : forall (V : Type) (nc : nat) (B : list Z -> list Z -> nat -> V)
    (lvs : list level),
  (forall i j row col, row < nc -> col < nc -> B j i (col * nc + row) = B i j (row * nc + col)) ->
  forall vzero : V, Forall level_ok lvs ->
  core_entries vzero nc nc B true lvs = core_entries vzero nc nc B false lvs.
Proof.
  intros V nc B lvs Bsym vzero Hok. destruct lvs as [|lv0 rest]; [reflexivity|].
  unfold core_entries. apply flat_map_ext_in. intros mu Hmu. apply prod_idx_in_shape in Hmu.
  apply map_ext_in. intros c Hc. apply in_seq in Hc.
  rewrite !(core_value V nc B _ Bsym) by (assumption || discriminate || lia). reflexivity.
Qed.
Print Assumptions symmetric_equals_full_core.

(* ---- update()/update_params() versus fresh construction (abstract slot store, Update.v) ---- *)

(* If the layout keeps the arrays apart and the generated update(n) refreshes exactly the arrays
   fed by input n (refresh_complete: THE generator's obligation, checked on every run against the
   generated text of every compiled corpus form), then update(n = x) after __init__(env) leaves
   the store of __init__(env[n := x]), slot by slot, for every derived-quantity function D. *)
Theorem update_equals_fresh : forall (X V : Type) (D : nat -> X -> nat -> V) arrs refreshed n,
  disjoint_layout arrs -> refresh_complete arrs refreshed n ->
  forall (env : nat -> X) (x : X) (st0 : nat -> V) s,
  update D refreshed x (init D arrs env st0) s = init D arrs (override env n x) st0 s.
Proof.
  intros X V D arrs refreshed n Hd [Hall Honly] env x st0 s.
  destruct (cover_cases arrs s) as [[a [Ha Hc]]|Hnone].
  - rewrite (init_some X V D arrs _ st0 s a Hd Ha Hc). unfold override.
    destruct (Nat.eqb_spec (src a) n) as [Es|Ens].
    + (* a is fed by n: refreshed, and the only refreshed array at s *)
      apply (foldw_some X V D refreshed _ _ s a (Hall a Ha Es) Hc).
      intros b Hb Hcb. apply (Hd b a s); [apply Honly, Hb | | |]; assumption.
    + (* a is fed by another input: not refreshed *)
      rewrite (update_untouched X V D arrs refreshed a x _ s Hd Ha Hc); [apply init_some; assumption|].
      intros b Hb. destruct (Honly b Hb) as [Hba Hbs]. split; [exact Hba | congruence].
  - unfold update, init. rewrite !foldw_none; [reflexivity | exact Hnone | exact Hnone |].
    intros b Hb. apply Hnone, Honly, Hb.
Qed.
Print Assumptions update_equals_fresh.

(* the same for every history of updates of one assembler object (reuse) *)
Theorem update_history_equals_fresh : forall (X V : Type) (D : nat -> X -> nat -> V) arrs
    (refreshed : nat -> list arr) ups,
  disjoint_layout arrs ->
  (forall u, In u ups -> refresh_complete arrs (refreshed (fst u)) (fst u)) ->
  forall (env : nat -> X) (st0 : nat -> V) s,
  run_updates D refreshed ups (init D arrs env st0) s = init D arrs (env_after env ups) st0 s.
Proof.
  intros X V D arrs refreshed ups Hd.
  induction ups as [|[n x] ups IH]; intros Hc env st0 s; [reflexivity|].
  change (run_updates D refreshed ((n, x) :: ups) (init D arrs env st0))
    with (run_updates D refreshed ups (update D (refreshed n) x (init D arrs env st0))).
  change (env_after env ((n, x) :: ups)) with (env_after (override env n x) ups).
  rewrite (run_updates_ext X V D refreshed ups _ (init D arrs (override env n x) st0)).
  - apply IH. intros u Hu. apply Hc. right; exact Hu.
  - intro s'. apply update_equals_fresh; [exact Hd | apply (Hc (n, x)); left; reflexivity].
Qed.
Print Assumptions update_history_equals_fresh.

(* updating an input to the value it already has changes no slot *)
Theorem reuse_idempotent : forall (X V : Type) (D : nat -> X -> nat -> V) arrs refreshed n,
  disjoint_layout arrs -> refresh_complete arrs refreshed n ->
  forall (env : nat -> X) (st0 : nat -> V) s,
  update D refreshed (env n) (init D arrs env st0) s = init D arrs env st0 s.
Proof.
  intros X V D arrs refreshed n Hd Hc env st0 s.
  rewrite (update_equals_fresh X V D arrs refreshed n Hd Hc). apply init_env_ext.
  intro k. unfold override. destruct (Nat.eqb_spec k n) as [->|_]; reflexivity.
Qed.
Print Assumptions reuse_idempotent.

(* soundness of the executable obligation evaluated on the tables read off the generated code *)
Theorem update_checked_equals_fresh : forall (X V : Type) (D : nat -> X -> nat -> V) arrs upd temp_srcs,
  update_okb arrs upd temp_srcs = true ->
  forall n refreshed, In (n, refreshed) upd ->
  forall (env : nat -> X) (x : X) (st0 : nat -> V) s,
  update D refreshed x (init D arrs env st0) s = init D arrs (override env n x) st0 s.
Proof.
  intros X V D arrs upd temp_srcs H n refreshed Hin. unfold update_okb in H.
  apply andb_true_iff in H. destruct H as [H _]. apply andb_true_iff in H. destruct H as [Hl Hr].
  rewrite forallb_forall in Hr. specialize (Hr (n, refreshed) Hin).
  apply update_equals_fresh; [apply layout_okb_sound, Hl | apply refresh_okb_sound, Hr].
Qed.
Print Assumptions update_checked_equals_fresh.

(* the obligation is necessary: an array of the layout that update() does not refresh keeps the
   quantity derived from the old input (the shape of seeded change C08-1) *)
Theorem update_incomplete_stale : forall (X V : Type) (D : nat -> X -> nat -> V) arrs refreshed a,
  disjoint_layout arrs -> In a arrs -> (forall b, In b refreshed -> In b arrs /\ b <> a) ->
  forall (env : nat -> X) (x : X) (st0 : nat -> V) s, covers a s = true ->
  update D refreshed x (init D arrs env st0) s = D (aid a) (env (src a)) (s - ofs a).
Proof.
  intros X V D arrs refreshed a Hd Ha Hr env x st0 s Hc.
  rewrite (update_untouched X V D arrs refreshed a) by assumption. apply init_some; assumption.
Qed.
Print Assumptions update_incomplete_stale.

(* ---- formats (Formats.v) ---- *)

(* COO -> CSR (scipy coo_tocsr: stable counting sort by row) and COO -> CSC (the same on the
   transposed coordinates) denote the matrix the COO triples denote (duplicates summed), for every
   triple list inside the M x N shape and every coordinate q; no law of the addition is used.
   Together with bsr_denotes_blocks / bsr_gather_same (BSR) and mlb_is_nonzero_order (MLB -> COO, linked
   to C15's nonzero_spec) below this covers every format of the property; the name keeps its
   _partial suffix only because the scipy routines themselves are transcribed, not verified. *)
Theorem format_irrelevant_partial : forall (V : Type) (vzero : V) (vadd : V -> V -> V) M N
    (T : list ((Z * Z) * V)) q,
  (forall t, In t T -> (0 <= fst (fst t) < Z.of_nat M)%Z /\ (0 <= snd (fst t) < Z.of_nat N)%Z) ->
  den vzero vadd (csr_triples V (coo_tocsr V M T)) q = den vzero vadd T q /\
  den vzero vadd (csc_triples V (coo_tocsc V N T)) q = den vzero vadd T q.
Proof.
  intros V vzero vadd M N T q H. split; [apply coo_csr_same | apply coo_csc_same]; intros t Ht; apply (H t Ht).
Qed.
Print Assumptions format_irrelevant_partial.

(* sum_duplicates inside a compressed row keeps the sum stored for every column (associativity of
   the addition is the only law used) and leaves strictly increasing columns, i.e. one stored
   entry per coordinate *)
Theorem sum_duplicates_same : forall (V : Type) (vzero : V) (vadd : V -> V -> V),
  (forall a b c, vadd (vadd a b) c = vadd a (vadd b c)) ->
  forall (l : list (Z * V)) j,
  row_den V vzero vadd (canon_row V vadd l) j = row_den V vzero vadd l j.
Proof.
  intros V vzero vadd Hassoc. induction l as [|[j0 v0] l IH]; intro j; [reflexivity|].
  simpl. rewrite row_den_ins, IH by exact Hassoc. reflexivity.
Qed.
Print Assumptions sum_duplicates_same.

Theorem sum_duplicates_canonical : forall (V : Type) (vadd : V -> V -> V) (l : list (Z * V)),
  strictly_sorted V (canon_row V vadd l).
Proof. induction l as [|[j v] l IH]; simpl; [exact I | apply ins_sorted, IH]. Qed.
Print Assumptions sum_duplicates_canonical.

(* BSR with blocks of shape (b0, b1): at scalar coordinate (I*b0 + r, J*b1 + c) the COO list of the
   block entries (Model.expand_blocks) denotes entry (r,c) of the sum of the blocks stored at (I,J);
   no law of the addition is used *)
Theorem bsr_denotes_blocks : forall (V : Type) (vzero : V) (vadd : V -> V -> V) (d : V) (b0 b1 : nat)
    (BT : list ((Z * Z) * list V)) (I J : Z) (r c : nat),
  r < b0 -> c < b1 ->
  den vzero vadd (expand_blocks d b0 b1 BT) (I * Z.of_nat b0 + Z.of_nat r, J * Z.of_nat b1 + Z.of_nat c)%Z
    = bden V vzero vadd d b1 BT (I, J) r c.
Proof.
  intros V vzero vadd d b0 b1. induction BT as [|[[Ib Jb] blk] BT IH]; intros I J r c Hr Hc; [reflexivity|].
  rewrite expand_cons. simpl fst; simpl snd. simpl bden.
  destruct (pair_eqb (Ib, Jb) (I, J)) eqn:E.
  - apply pair_eqb_spec in E. injection E as -> ->. rewrite rows_hit, IH by lia. reflexivity.
  - rewrite block_miss; [apply IH; assumption | exact Hr | exact Hc |].
    intro E'. rewrite E', (proj2 (pair_eqb_spec _ _) eq_refl) in E. discriminate.
Qed.
Print Assumptions bsr_denotes_blocks.

(* gathering a scalar matrix into b0 x b1 blocks (tobsr) over a duplicate-free list of block
   coordinates keeps every entry of the gathered blocks (right identity of the addition only) *)
Theorem bsr_gather_same : forall (V : Type) (vzero : V) (vadd : V -> V -> V) (d : V) (b0 b1 : nat),
  (forall a, vadd a vzero = a) ->
  forall (T : list ((Z * Z) * V)) (keys : list (Z * Z)) (I J : Z) (r c : nat),
  NoDup keys -> In (I, J) keys -> r < b0 -> c < b1 ->
  den vzero vadd (expand_blocks d b0 b1 (gather V vzero vadd b0 b1 T keys))
      (I * Z.of_nat b0 + Z.of_nat r, J * Z.of_nat b1 + Z.of_nat c)%Z
    = den vzero vadd T (I * Z.of_nat b0 + Z.of_nat r, J * Z.of_nat b1 + Z.of_nat c)%Z.
Proof.
  intros V vzero vadd d b0 b1 H0 T keys I J r c Hnd Hin Hr Hc.
  rewrite bsr_denotes_blocks by assumption. apply bden_gather; assumption.
Qed.
Print Assumptions bsr_gather_same.

(* MLB: the coordinates C08's model gives to the data array of the generic core in the packed
   layout (core_triples false = combine packed_keys data) are, in data order, the list
   MLStructure.nonzero() returns for S_base.join(dense(nc)) according to C15's model and its
   nonzero_spec -- what MLMatrix.asmatrix() zips with data.ravel() *)
Theorem mlb_is_nonzero_order : forall (bs : list (Z * Z)) (nr ncl : Z) (lv : list (list (Z * Z))),
  length bs = length lv -> (0 <= nr)%Z -> (0 < ncl)%Z ->
  C15.Model.nonzero (bs ++ [(nr, ncl)]) (lv ++ [C15.Model.compute_dense_ij nr ncl]) false
    = Some (packed_keys bs (nr, ncl) lv).
Proof.
  intros bs nr ncl lv H Hr Hc. rewrite <- dense_level_is_compute_dense_ij by assumption.
  apply mlb_keys_are_nonzero, H.
Qed.
Print Assumptions mlb_is_nonzero_order.

(* ---- caches (Memo.v) ---- *)

(* A memoised function returns, for EVERY history of calls in one process, what the underlying
   function returns  iff  equal cache keys imply equal results.  (Seeded change C08-4 keyed the
   sparsity pattern on (p, numdofs, mesh): Examples2.ex_c084_* is a pair of knot vectors with equal
   key and different patterns.) *)
Theorem memo_sound_iff_key_determines : forall (K X R : Type) (K_eqb : K -> K -> bool),
  (forall a b, K_eqb a b = true <-> a = b) ->
  forall (key : X -> K) (f : X -> R),
  (forall xs, run_calls K_eqb key f [] xs = map f xs) <-> key_determines K X R key f.
Proof.
  intros K X R K_eqb Hspec key f. split.
  - (* the history [x; y] with equal keys returns f x twice *)
    intros H x y Hxy. specialize (H [x; y]). simpl in H. unfold call in H. simpl in H.
    rewrite <- Hxy, (proj2 (Hspec _ _) eq_refl) in H. simpl in H. injection H as H. exact H.
  - intros Hk xs. apply (run_ok K X R K_eqb Hspec key f Hk). intros k r H. discriminate.
Qed.
Print Assumptions memo_sound_iff_key_determines.
