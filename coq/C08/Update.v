(* C08 -- update()/update_params() versus fresh construction, at the level of an abstract
   slot store (pyiga/codegen/cython.py: generate_init 622-637, generate_update 703-724,
   generate_update_params 726-744).

   The generated __init__ stores, for every array variable fed by an input field, the derived
   quantity (value / Jacobian / Hessian on the quadrature grid) into the slots [ofs, ofs+sz) of
   the last axis of self.fields; update(name=field) is generated as one block per array that the
   generator decides to refresh.  Parameters live in the same way in self.constants.
   The model is executable (Definitions); the lemmas follow. *)
From Coq Require Import List Bool Arith Lia.
Import ListNotations.

(* an array variable: (id of the derived quantity, id of the input feeding it, ofs, sz) *)
Definition arr : Type := (nat * nat * nat * nat)%type.
Definition aid (a : arr) : nat := fst (fst (fst a)).
Definition src (a : arr) : nat := snd (fst (fst a)).
Definition ofs (a : arr) : nat := snd (fst a).
Definition sz (a : arr) : nat := snd a.

Definition covers (a : arr) (s : nat) : bool := (ofs a <=? s) && (s <? ofs a + sz a).

Definition arr_eqb (a b : arr) : bool :=
  Nat.eqb (aid a) (aid b) && Nat.eqb (src a) (src b) && Nat.eqb (ofs a) (ofs b) && Nat.eqb (sz a) (sz b).
Definition mem_arr (a : arr) (l : list arr) : bool := existsb (arr_eqb a) l.

Section Slots.
  Variable X V : Type.
  (* D q x k: k-th stored number of derived quantity q of input value x (at one grid point) *)
  Variable D : nat -> X -> nat -> V.

  Definition write_arr (a : arr) (x : X) (st : nat -> V) : nat -> V :=
    fun s => if covers a s then D (aid a) x (s - ofs a) else st s.

  Definition foldw (l : list arr) (val : arr -> X) (st : nat -> V) : nat -> V :=
    fold_left (fun st a => write_arr a (val a) st) l st.

  (* __init__: every array is filled from the input that feeds it *)
  Definition init (arrs : list arr) (env : nat -> X) (st0 : nat -> V) : nat -> V :=
    foldw arrs (fun a => env (src a)) st0.

  (* update(name = x): the generated blocks, each storing the quantity derived from x *)
  Definition update (refreshed : list arr) (x : X) (st : nat -> V) : nat -> V :=
    foldw refreshed (fun _ => x) st.

  Definition override (env : nat -> X) (n : nat) (x : X) : nat -> X :=
    fun k => if Nat.eqb k n then x else env k.

  (* a history of updates (input id, new value); refreshed n = the blocks generated for input n *)
  Definition run_updates (refreshed : nat -> list arr) (ups : list (nat * X)) (st : nat -> V) : nat -> V :=
    fold_left (fun st u => update (refreshed (fst u)) (snd u) st) ups st.
  Definition env_after (env : nat -> X) (ups : list (nat * X)) : nat -> X :=
    fold_left (fun e u => override e (fst u) (snd u)) ups env.
End Slots.
Arguments write_arr {X V}. Arguments foldw {X V}. Arguments init {X V}. Arguments update {X V}.
Arguments override {X}. Arguments run_updates {X V}. Arguments env_after {X}.

(* the layout keeps the arrays apart *)
Definition disjoint_layout (arrs : list arr) : Prop :=
  forall a b s, In a arrs -> In b arrs -> covers a s = true -> covers b s = true -> a = b.

(* THE GENERATOR'S OBLIGATION: update(n) refreshes every array fed by input n, and nothing else *)
Definition refresh_complete (arrs refreshed : list arr) (n : nat) : Prop :=
  (forall a, In a arrs -> src a = n -> In a refreshed) /\
  (forall a, In a refreshed -> In a arrs /\ src a = n).

(* executable versions, evaluated on the tables read off the generated text *)
Definition layout_okb (arrs : list arr) : bool :=
  forallb (fun a => forallb (fun b =>
     arr_eqb a b || (ofs a + sz a <=? ofs b) || (ofs b + sz b <=? ofs a)) arrs) arrs.
Definition refresh_okb (arrs refreshed : list arr) (n : nat) : bool :=
  forallb (fun a => negb (Nat.eqb (src a) n) || mem_arr a refreshed) arrs &&
  forallb (fun a => mem_arr a arrs && Nat.eqb (src a) n) refreshed.
(* whole generated class: layout, one refresh list per updatable input, and no updatable input
   may feed an array outside the updatable store (temp_fields are consumed once by precompute) *)
Definition update_okb (arrs : list arr) (upd : list (nat * list arr)) (temp_srcs : list nat) : bool :=
  layout_okb arrs &&
  forallb (fun nr => refresh_okb arrs (snd nr) (fst nr)) upd &&
  forallb (fun nr => negb (existsb (Nat.eqb (fst nr)) temp_srcs)) upd.

Lemma arr_eqb_spec : forall a b, arr_eqb a b = true <-> a = b.
Proof.
  intros [[[a1 a2] a3] a4] [[[b1 b2] b3] b4]. unfold arr_eqb, aid, src, ofs, sz. simpl.
  rewrite !andb_true_iff, !Nat.eqb_eq. split.
  - intros [[[-> ->] ->] ->]. reflexivity.
  - intro E. injection E. auto.
Qed.

Lemma mem_arr_spec : forall a l, mem_arr a l = true <-> In a l.
Proof.
  intros a l. unfold mem_arr. rewrite existsb_exists. split.
  - intros [b [Hb E]]. apply arr_eqb_spec in E. subst. exact Hb.
  - intro H. exists a. split; [exact H | apply arr_eqb_spec; reflexivity].
Qed.

Lemma layout_okb_sound : forall arrs, layout_okb arrs = true -> disjoint_layout arrs.
Proof.
  intros arrs H a b s Ha Hb Ca Cb. unfold layout_okb in H. rewrite forallb_forall in H.
  specialize (H a Ha). rewrite forallb_forall in H. specialize (H b Hb).
  unfold covers in Ca, Cb. apply andb_true_iff in Ca, Cb. destruct Ca as [C1 C2], Cb as [C3 C4].
  apply Nat.leb_le in C1, C3. apply Nat.ltb_lt in C2, C4.
  apply orb_true_iff in H. destruct H as [H|H]; [|apply Nat.leb_le in H; lia].
  apply orb_true_iff in H. destruct H as [H|H]; [apply arr_eqb_spec, H | apply Nat.leb_le in H; lia].
Qed.

Lemma refresh_okb_sound : forall arrs refreshed n,
  refresh_okb arrs refreshed n = true -> refresh_complete arrs refreshed n.
Proof.
  intros arrs refreshed n H. unfold refresh_okb in H. apply andb_true_iff in H. destruct H as [H1 H2].
  rewrite forallb_forall in H1, H2. split.
  - intros a Ha Hs. specialize (H1 a Ha). rewrite Hs, Nat.eqb_refl in H1. simpl in H1.
    apply mem_arr_spec, H1.
  - intros a Ha. specialize (H2 a Ha). apply andb_true_iff in H2. destruct H2 as [M E].
    split; [apply mem_arr_spec, M | apply Nat.eqb_eq, E].
Qed.

Lemma cover_cases : forall (l : list arr) s,
  (exists a, In a l /\ covers a s = true) \/ (forall a, In a l -> covers a s = false).
Proof.
  induction l as [|b l IH]; intro s; [right; intros a []|].
  destruct (IH s) as [[a [Ha Hc]]|Hn]; [left; exists a; simpl; auto|].
  destruct (covers b s) eqn:E; [left; exists b; simpl; auto | right; intros a [<-|Ha]; auto].
Qed.

Section SlotProofs.
  Variable X V : Type.
  Variable D : nat -> X -> nat -> V.

  Lemma foldw_cons : forall a l val (st : nat -> V),
    foldw D (a :: l) val st = foldw D l val (write_arr D a (val a) st).
  Proof. reflexivity. Qed.

  Lemma foldw_none : forall l val (st : nat -> V) s,
    (forall a, In a l -> covers a s = false) -> foldw D l val st s = st s.
  Proof.
    induction l as [|a l IH]; intros val st s H; [reflexivity|].
    rewrite foldw_cons, IH by (intros b Hb; apply H; right; exact Hb).
    unfold write_arr. rewrite (H a (or_introl eq_refl)). reflexivity.
  Qed.

  (* the one array of l that covers s determines the slot, wherever (and however often) it stands in l *)
  Lemma foldw_some : forall l val (st : nat -> V) s a,
    In a l -> covers a s = true -> (forall b, In b l -> covers b s = true -> b = a) ->
    foldw D l val st s = D (aid a) (val a) (s - ofs a).
  Proof.
    induction l as [|b l IH]; intros val st s a Hin Hc Hu; [destruct Hin|].
    rewrite foldw_cons. destruct (cover_cases l s) as [[c [Hcl Hcc]]|Hnone].
    - rewrite (Hu c (or_intror Hcl) Hcc) in Hcl.
      apply IH; [exact Hcl | exact Hc |]. intros b' Hb'. apply Hu. right; exact Hb'.
    - rewrite foldw_none by exact Hnone.
      destruct Hin as [->|Hin]; [|rewrite (Hnone a Hin) in Hc; discriminate].
      unfold write_arr. rewrite Hc. reflexivity.
  Qed.

  Lemma foldw_ext : forall l val (st1 st2 : nat -> V),
    (forall s, st1 s = st2 s) -> forall s, foldw D l val st1 s = foldw D l val st2 s.
  Proof.
    induction l as [|a l IH]; intros val st1 st2 H s; [apply H|].
    rewrite !foldw_cons. apply IH. intro s'. unfold write_arr. destruct (covers a s'); [reflexivity | apply H].
  Qed.

  Lemma init_env_ext : forall arrs (e1 e2 : nat -> X) (st0 : nat -> V),
    (forall k, e1 k = e2 k) -> forall s, init D arrs e1 st0 s = init D arrs e2 st0 s.
  Proof.
    unfold init. induction arrs as [|a l IH]; intros e1 e2 st0 H s; [reflexivity|].
    rewrite !foldw_cons. rewrite (H (src a)). apply IH. exact H.
  Qed.

  Lemma init_some : forall arrs (env : nat -> X) (st0 : nat -> V) s a,
    disjoint_layout arrs -> In a arrs -> covers a s = true ->
    init D arrs env st0 s = D (aid a) (env (src a)) (s - ofs a).
  Proof.
    intros arrs env st0 s a Hd Ha Hc. apply (foldw_some arrs (fun a => env (src a)) st0 s a Ha Hc).
    intros b Hb Hcb. apply (Hd b a s); assumption.
  Qed.

  (* update() leaves alone a slot that belongs to an array of the layout it does not refresh *)
  Lemma update_untouched : forall arrs refreshed a (x : X) (st : nat -> V) s,
    disjoint_layout arrs -> In a arrs -> covers a s = true ->
    (forall b, In b refreshed -> In b arrs /\ b <> a) -> update D refreshed x st s = st s.
  Proof.
    intros arrs refreshed a x st s Hd Ha Hc Hr. apply foldw_none.
    intros b Hb. destruct (covers b s) eqn:Ecb; [|reflexivity].
    destruct (Hr b Hb) as [Hba []]. apply (Hd b a s); assumption.
  Qed.

  Lemma run_updates_ext : forall (refreshed : nat -> list arr) ups (st1 st2 : nat -> V),
    (forall s, st1 s = st2 s) ->
    forall s, run_updates D refreshed ups st1 s = run_updates D refreshed ups st2 s.
  Proof.
    unfold run_updates. induction ups as [|[n x] ups IH]; intros st1 st2 H s; [apply H|].
    simpl fold_left. apply IH. intro s'. unfold update. apply foldw_ext. exact H.
  Qed.
End SlotProofs.
