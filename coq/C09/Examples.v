(* C09 -- non-vacuity: concrete inputs meeting the hypotheses of the theorems of Props.v. *)
From Coq Require Import QArith Qcanon ZArith List Arith Bool Lia.
From Verif.lib Require Import Bsp.
From Verif.C02 Require Import Proofs.
From Verif.C09 Require Import Model Proofs.
Import ListNotations.
Open Scope Qc_scope.

Definition q (n : Z) (d : positive) : Qc := Q2Qc (n # d).
(* degree 2, a double interior knot and a simple one, non-uniform *)
Definition ex_kv := map (fun z => q z 4) [0;0;0;1;1;2;4;4;4]%Z.
(* a 2-point rule with rational nodes (the theorems hold for ANY rule): weights sum to 2 *)
Definition ex_ref : rule := [(q (-1) 2, q 1 1); (q 1 2, q 1 1)].
Definition ex_pts := iterated ex_ref (mesh ex_kv).

Example ex_open : open_kv ex_kv 2 = true.
Proof. vm_compute. reflexivity. Qed.

Example ex_mesh : qc_list_eqb (mesh ex_kv) [q 0 1; q 1 4; q 1 2; q 1 1] = true /\ span_indices ex_kv = [2; 4; 5]%nat.
Proof. vm_compute. split; reflexivity. Qed.

Example ex_ref_weights : sumf snd ex_ref = Q2Qc (2 # 1).          (* hypothesis of iterated_weights_sum *)
Proof. apply Qc_is_canon. vm_compute. reflexivity. Qed.

Example ex_weights_positive : forallb (fun xw => qltb 0 (snd xw)) ex_pts = true.   (* hypothesis of gram_psd *)
Proof. vm_compute. reflexivity. Qed.

(* hypothesis of mass_sum: the collocation rows sum to one at every quadrature point *)
Example ex_pou : forallb (fun xw => qeqb (sumf (fun i => nth i (colloc_row ex_kv 2 0 (fst xw)) 0) (seq 0 6)) 1) ex_pts = true.
Proof. vm_compute. reflexivity. Qed.

(* hypothesis of stiff_kernel_const: the derivative rows sum to zero *)
Example ex_dsum : forallb (fun xw => qeqb (sumf (fun i => nth i (colloc_row ex_kv 2 1 (fst xw)) 0) (seq 0 6)) 0) ex_pts = true.
Proof. vm_compute. reflexivity. Qed.

(* the model on this input: a 6x6 matrix whose entries sum to the domain length, row sums of
   the stiffness matrix vanish, and the model equals the Gram form of the collocation rows *)
Example ex_mass_sum : sumq (map sumq (biform_1d ex_kv 2 0 0 ex_ref None)) = q 1 1.
Proof. apply Qc_is_canon. vm_compute. reflexivity. Qed.
Example ex_stiff_rows : forallb (fun row => qeqb (sumq row) 0) (biform_1d ex_kv 2 1 1 ex_ref None) = true
  /\ length (biform_1d ex_kv 2 1 1 ex_ref None) = 6%nat.
Proof. vm_compute. split; reflexivity. Qed.
Example ex_model_is_gram :
  mat_eqb (biform_1d ex_kv 2 1 0 ex_ref None) (gram_ref_mat ex_kv 2 ex_kv 2 1 0 ex_pts) = true.
Proof. vm_compute. reflexivity. Qed.

(* inverse closed forms: a matrix with non-zero determinant *)
Example ex_det3 : det3 (q 1 1) (q 2 1) (q 0 1) (q 0 1) (q 1 1) (q 3 1) (q 1 2) (q 0 1) (q 1 1) <> 0.
Proof. intro H. apply (f_equal (fun x : Qc => qeqb x 0)) in H. vm_compute in H. discriminate. Qed.

(* hypotheses of first_active_correct / asym_first_active / biform_1d_entry_partial:
   the example knot vector is a kv_ok one, the example rule has its nodes inside (-1,1) *)
Example ex_sorted : sorted ex_kv.
Proof.
  intros i j Hij Hj. change (length ex_kv) with 9%nat in Hj.
  assert (Hb : forallb (fun i => forallb (fun j => (j <? i)%nat || qleb (kn ex_kv i) (kn ex_kv j)) (seq 0 9)) (seq 0 9) = true)
    by (vm_compute; reflexivity).
  rewrite forallb_forall in Hb. specialize (Hb i ltac:(apply in_seq; lia)).
  rewrite forallb_forall in Hb. specialize (Hb j ltac:(apply in_seq; lia)).
  apply orb_true_iff in Hb. destruct Hb as [Hb|Hb].
  - apply Nat.ltb_lt in Hb. lia.
  - apply qleb_iff. exact Hb.
Qed.

Example ex_kv_ok : kv_ok ex_kv 2.
Proof.
  constructor.
  - vm_compute. lia.
  - exact ex_sorted.
  - apply qeqb_iff. vm_compute. reflexivity.
  - apply qeqb_iff. vm_compute. reflexivity.
  - apply qltb_iff. vm_compute. reflexivity.
Qed.

Example ex_ref_inside : forall xw, In xw ex_ref -> - (1) < fst xw /\ fst xw < 1.
Proof.
  intros xw H. assert (Hb : forallb (fun xw => qltb (- (1)) (fst xw) && qltb (fst xw) 1) ex_ref = true) by (vm_compute; reflexivity).
  rewrite forallb_forall in Hb. specialize (Hb xw H). apply andb_true_iff in Hb. destruct Hb as [A B].
  split; apply qltb_iff; assumption.
Qed.

Example ex_numspans : numspans ex_kv = 3%nat.
Proof. vm_compute. reflexivity. Qed.

(* and the conclusion on this input, computed: every node of every cell is found in the span the
   COO offsets assume *)
Example ex_first_active_computed :
  map (fun xw => first_active_at ex_kv 2 (fst xw)) ex_pts = [0; 0; 2; 2; 3; 3]%nat.
Proof. vm_compute. reflexivity. Qed.

From Verif.C09 Require Import Proofs_entry.

(* the example knot vector and rule meet the hypotheses of biform_1d_entry (ex_kv_ok,
   ex_ref_inside); the grid hypothesis of biform_asym_entry holds for the default grid ... *)
Example ex_grid_refines : grid_refines ex_kv (mesh ex_kv).
Proof. exact (mesh_refines_self ex_kv 2 ex_kv_ok). Qed.

(* ... and for a second, coarser space of another degree on the same domain with the FINER mesh
   as quadrature grid (kv2 = degree 1, breakpoints 0, 1/2, 1) *)
Definition ex_kv2 := map (fun z => q z 4) [0;0;2;4;4]%Z.
Example ex_grid_refines2 : forall k, (S k < length (mesh ex_kv))%nat ->
  nth k (mesh ex_kv) 0 < nth (S k) (mesh ex_kv) 0 /\
  exists s, (S s < length ex_kv2)%nat /\ kn ex_kv2 s <= nth k (mesh ex_kv) 0 /\ nth (S k) (mesh ex_kv) 0 <= kn ex_kv2 (S s).
Proof.
  intros k Hk. change (length (mesh ex_kv)) with 4%nat in Hk.
  destruct k as [|[|[|k]]]; try lia.
  - split; [apply qltb_iff; vm_compute; reflexivity|]. exists 1%nat. repeat split; try (cbn; lia); apply qleb_iff; vm_compute; reflexivity.
  - split; [apply qltb_iff; vm_compute; reflexivity|]. exists 1%nat. repeat split; try (cbn; lia); apply qleb_iff; vm_compute; reflexivity.
  - split; [apply qltb_iff; vm_compute; reflexivity|]. exists 2%nat. repeat split; try (cbn; lia); apply qleb_iff; vm_compute; reflexivity.
Qed.

(* the conclusion of biform_1d_entry computed on the example: entry (1,2) of the (du,dv) = (1,0)
   matrix against the reference sum *)
Example ex_entry_computed :
  qeqb (entry1d ex_kv 2 1 0 ex_ref None 1 2)
       (sumf (fun xw => snd xw * (dNref ex_kv 0 2 1 (fst xw) * dNref ex_kv 1 2 2 (fst xw))) ex_pts) = true
  /\ qeqb (entry1d ex_kv 2 1 0 ex_ref None 1 2) 0 = false.
Proof. vm_compute. split; reflexivity. Qed.

(* nqp: default node counts, and an exact rule passing the table check with eps = 0 (midpoint rule) *)
Example ex_nqp : map (fun d => nqp_default 4 (fst d) (snd d)) [(0, 0); (1, 1); (2, 2); (1, 0)]%nat = [3; 2; 1; 2]%Z.
Proof. vm_compute. reflexivity. Qed.
Example ex_rule_ok : rule_ok 0 1 [(q 0 1, q 2 1)] = true.
Proof. vm_compute. reflexivity. Qed.
Example ex_nqp_is_one : Z.to_nat (nqp_default 4 2 2) = 1%nat.
Proof. vm_compute. reflexivity. Qed.

From Verif.C09 Require Import Poly Proofs_exact.

(* span 4 of ex_kv is (1/4, 1/2); function 2 of degree 2 restricted to it, as coefficients *)
Example ex_nref_poly : qc_list_eqb (nref_poly ex_kv 2 2 4) [q 4 1; q (-16) 1; q 16 1] = true
  /\ qeqb (Nref ex_kv 2 2 (q 3 8)) (peval (nref_poly ex_kv 2 2 4) (q 3 8)) = true
  /\ qeqb (Nref ex_kv 2 2 (q 3 8)) 0 = false.
Proof. vm_compute. repeat split; reflexivity. Qed.

Example ex_dnref_poly : qc_list_eqb (dnref_poly ex_kv 1 2 2 4) [q (-16) 1; q 32 1] = true.
Proof. vm_compute. reflexivity. Qed.

(* hypotheses of biform_1d_entry_exact_rule0 hold for (du,dv) = (2,2) with the midpoint rule
   (default node count 1, exact to degree 1, eps = 0): ex_kv_ok, ex_rule_ok, ex_nqp_is_one;
   and both sides of its conclusion, computed: a non-zero entry *)
Example ex_entry_exact :
  qeqb (entry1d ex_kv 2 2 2 [(q 0 1, q 2 1)] None 2 3)
       (sumf (fun k => span_half ex_kv (nth k (span_indices ex_kv) 0%nat)
                       * pint 0 (cell_poly ex_kv 2 2 2 2 3 (nth k (span_indices ex_kv) 0%nat))) (seq 0 (numspans ex_kv))) = true
  /\ qeqb (entry1d ex_kv 2 2 2 [(q 0 1, q 2 1)] None 2 3) 0 = false.
Proof. vm_compute. split; reflexivity. Qed.

(* hypothesis grid_in_spans of biform_asym_entry_exact_partial: the mesh of ex_kv inside the spans
   2, 4, 5 of ex_kv itself and inside the spans 1, 1, 2 of the coarser ex_kv2 *)
Example ex_grid_in_spans : grid_in_spans ex_kv (mesh ex_kv) [2; 4; 5]%nat /\ grid_in_spans ex_kv2 (mesh ex_kv) [1; 1; 2]%nat.
Proof.
  split; intros k Hk; change (length (mesh ex_kv)) with 4%nat in Hk;
    (destruct k as [|[|[|k]]]; [| | |lia]);
    (split; [apply qltb_iff; vm_compute; reflexivity|]); (split; [cbn; lia|]);
    split; apply qleb_iff; vm_compute; reflexivity.
Qed.
