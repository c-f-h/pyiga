(* C09 -- a small polynomial library over Qc: a polynomial is its coefficient list
   (c_0, c_1, ...), evaluated by Model.peval (Horner).  Operations, their evaluation
   lemmas and length (degree + 1) bounds. *)
From Coq Require Import QArith Qcanon List Lia.
From Verif.C09 Require Import Model.
Import ListNotations.
Open Scope Qc_scope.

Fixpoint padd (a b : list Qc) : list Qc :=
  match a, b with
  | [], _ => b
  | _, [] => a
  | x :: a', y :: b' => (x + y) :: padd a' b'
  end.
Definition pscale (c : Qc) (a : list Qc) : list Qc := map (fun x => c * x) a.
(* multiplication by the variable; the zero polynomial [] stays [] *)
Definition pshift (a : list Qc) : list Qc := match a with [] => [] | _ => 0 :: a end.
Fixpoint pmul (a b : list Qc) : list Qc :=
  match a with
  | [] => []
  | x :: a' => padd (pscale x b) (pshift (pmul a' b))
  end.
(* (a0 + a1 x) * p *)
Definition pmul_lin (a0 a1 : Qc) (p : list Qc) : list Qc := padd (pscale a0 p) (pshift (pscale a1 p)).
(* p(m + h x) *)
Fixpoint pcomp (p : list Qc) (m h : Qc) : list Qc :=
  match p with
  | [] => []
  | c :: p' => padd [c] (pmul_lin m h (pcomp p' m h))
  end.

Lemma peval_nil x : peval [] x = 0.
Proof. reflexivity. Qed.
Lemma peval_cons c p x : peval (c :: p) x = c + x * peval p x.
Proof. reflexivity. Qed.

Lemma peval_padd : forall a b x, peval (padd a b) x = peval a x + peval b x.
Proof.
  induction a as [|c a IH]; intros [|d b] x; cbn [padd]; rewrite ?peval_nil, ?peval_cons; try ring.
  rewrite IH. ring.
Qed.
Lemma peval_pscale c : forall a x, peval (pscale c a) x = c * peval a x.
Proof.
  induction a as [|d a IH]; intros x; cbn [pscale map]; rewrite ?peval_nil, ?peval_cons; [ring|].
  fold (pscale c a). rewrite IH. ring.
Qed.
Lemma peval_pshift a x : peval (pshift a) x = x * peval a x.
Proof. destruct a; cbn [pshift]; rewrite ?peval_nil, ?peval_cons; ring. Qed.
Lemma peval_pmul : forall a b x, peval (pmul a b) x = peval a x * peval b x.
Proof.
  induction a as [|c a IH]; intros b x; cbn [pmul]; rewrite ?peval_nil, ?peval_cons; [ring|].
  rewrite peval_padd, peval_pscale, peval_pshift, IH. ring.
Qed.
Lemma peval_pmul_lin a0 a1 p x : peval (pmul_lin a0 a1 p) x = (a0 + a1 * x) * peval p x.
Proof. unfold pmul_lin. rewrite peval_padd, peval_pshift, !peval_pscale. ring. Qed.
Lemma peval_pcomp : forall p m h x, peval (pcomp p m h) x = peval p (m + h * x).
Proof.
  induction p as [|c p IH]; intros m h x; cbn [pcomp]; [reflexivity|].
  rewrite peval_padd, peval_pmul_lin, IH, !peval_cons, peval_nil. ring.
Qed.

Lemma length_padd : forall a b, length (padd a b) = Nat.max (length a) (length b).
Proof.
  induction a as [|c a IH]; intros [|d b]; cbn [padd length]; try lia. rewrite IH. lia.
Qed.
Lemma length_pscale c a : length (pscale c a) = length a.
Proof. apply map_length. Qed.
Lemma length_pshift a : length (pshift a) = match a with [] => 0%nat | _ => S (length a) end.
Proof. destruct a; reflexivity. Qed.
Lemma length_pmul_lin a0 a1 p : length (pmul_lin a0 a1 p) = match p with [] => 0%nat | _ => S (length p) end.
Proof.
  unfold pmul_lin. rewrite length_padd, length_pshift.
  destruct p; cbn [pscale map length]; rewrite ?map_length; lia.
Qed.
Lemma length_pmul : forall a b, (length (pmul a b) <= length a + length b - 1)%nat.
Proof.
  induction a as [|c a IH]; intros b; cbn [pmul length]; [lia|].
  rewrite length_padd, length_pscale, length_pshift. specialize (IH b).
  destruct (pmul a b) as [|y r] eqn:E; [lia|].
  destruct a as [|c' a']; [discriminate|]. cbn [length] in *. lia.
Qed.
Lemma length_pcomp : forall p m h, (length (pcomp p m h) <= length p)%nat.
Proof.
  induction p as [|c p IH]; intros m h; cbn [pcomp length]; [lia|].
  rewrite length_padd, length_pmul_lin. specialize (IH m h).
  destruct (pcomp p m h); cbn [length] in *; lia.
Qed.
