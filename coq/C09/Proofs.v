(* C09 -- proofs.  Generic list facts and finite sums; Gram matrices of ANY quadrature rule (finite
   weighted point sums); the iterated rule; what the table check rule_ok gives (polynomials up to
   the degree the default node count needs are integrated up to the defect); the index arithmetic
   of the 1D assemblers (mesh cells are knot spans, quadrature nodes are located in the span of
   their cell). *)
From Coq Require Import QArith Qcanon Qcabs List Lia.
From Verif.lib Require Import Bsp QcFacts ListFacts.
From Verif.C02 Require Import Proofs.
From Verif.C09 Require Import Model.
Import ListNotations.
Open Scope Qc_scope.

Lemma combine_concat_map {X A B} (f : X -> list A) (g : X -> list B) (l : list X) :
  (forall x, In x l -> length (f x) = length (g x)) ->
  combine (concat (map f l)) (concat (map g l)) = concat (map (fun x => combine (f x) (g x)) l).
Proof.
  induction l as [|x l IH]; intros H; [reflexivity|].
  cbn [map concat]. rewrite combine_app_eq by (apply H; left; reflexivity).
  f_equal. apply IH. intros y Hy. apply H. right. exact Hy.
Qed.

Lemma sumf_nil {A} (f : A -> Qc) : sumf f [] = 0.
Proof. reflexivity. Qed.

Lemma sumf_cons {A} (f : A -> Qc) a l : sumf f (a :: l) = f a + sumf f l.
Proof. reflexivity. Qed.

Lemma sumf_app {A} (f : A -> Qc) l1 l2 : sumf f (l1 ++ l2) = sumf f l1 + sumf f l2.
Proof. induction l1 as [|a l IH]; cbn [app]; rewrite ?sumf_nil, ?sumf_cons, ?IH; ring. Qed.

Lemma sumf_ext {A} (f g : A -> Qc) l : (forall a, In a l -> f a = g a) -> sumf f l = sumf g l.
Proof.
  induction l as [|a l IH]; intros H; [reflexivity|].
  rewrite !sumf_cons, (H a (or_introl eq_refl)), IH; [reflexivity|].
  intros b Hb. apply H. right. exact Hb.
Qed.

Lemma sumf_map {A B} (g : A -> B) (f : B -> Qc) l : sumf f (map g l) = sumf (fun a => f (g a)) l.
Proof. induction l as [|a l IH]; [reflexivity|]. cbn [map]. rewrite !sumf_cons, IH. reflexivity. Qed.

Lemma sumf_plus {A} (f g : A -> Qc) l : sumf (fun a => f a + g a) l = sumf f l + sumf g l.
Proof. induction l as [|a l IH]; rewrite ?sumf_nil, ?sumf_cons, ?IH; ring. Qed.

Lemma sumf_scal {A} c (f : A -> Qc) l : sumf (fun a => c * f a) l = c * sumf f l.
Proof. induction l as [|a l IH]; rewrite ?sumf_nil, ?sumf_cons, ?IH; ring. Qed.

Lemma sumf_scal_r {A} c (f : A -> Qc) l : sumf (fun a => f a * c) l = sumf f l * c.
Proof. induction l as [|a l IH]; rewrite ?sumf_nil, ?sumf_cons, ?IH; ring. Qed.

Lemma sumf_mul {A B} (f : A -> Qc) (g : B -> Qc) l1 l2 :
  sumf f l1 * sumf g l2 = sumf (fun a => sumf (fun b => f a * g b) l2) l1.
Proof.
  rewrite <- sumf_scal_r. apply sumf_ext. intros a _. rewrite <- sumf_scal. reflexivity.
Qed.

Lemma sumf_zero {A} (l : list A) : sumf (fun _ => 0) l = 0.
Proof. induction l as [|a l IH]; rewrite ?sumf_nil, ?sumf_cons, ?IH; ring. Qed.

Lemma sumf_all_zero {A} (f : A -> Qc) l : (forall a, In a l -> f a = 0) -> sumf f l = 0.
Proof. intros H. rewrite (sumf_ext f (fun _ => 0) l H). apply sumf_zero. Qed.

Lemma sumf_swap {A B} (f : A -> B -> Qc) la lb :
  sumf (fun a => sumf (fun b => f a b) lb) la = sumf (fun b => sumf (fun a => f a b) la) lb.
Proof.
  induction la as [|a la IH].
  - cbn [sumf fold_right]. symmetry. apply sumf_zero.
  - rewrite sumf_cons, IH, <- sumf_plus. apply sumf_ext. intros b _. rewrite sumf_cons. reflexivity.
Qed.

Lemma sumf_concat {A} (f : A -> Qc) ls : sumf f (concat ls) = sumf (fun l => sumf f l) ls.
Proof. induction ls as [|l ls IH]; [reflexivity|]. cbn [concat]. rewrite sumf_app, sumf_cons, IH. reflexivity. Qed.

Lemma sumf_flat_map {A B} (g : A -> list B) (f : B -> Qc) l :
  sumf f (flat_map g l) = sumf (fun a => sumf f (g a)) l.
Proof. rewrite flat_map_concat_map, sumf_concat, sumf_map. reflexivity. Qed.

Lemma sumf_seq_ext (f g : nat -> Qc) n :
  (forall i, (i < n)%nat -> f i = g i) -> sumf f (seq 0 n) = sumf g (seq 0 n).
Proof. intros H. apply sumf_ext. intros i Hi. apply in_seq in Hi. apply H. lia. Qed.

Lemma sumf_nonneg {A} (f : A -> Qc) l : (forall a, In a l -> 0 <= f a) -> 0 <= sumf f l.
Proof.
  induction l as [|a l IH]; intros H.
  - apply Qcle_refl.
  - rewrite sumf_cons. replace 0 with (0 + 0) by ring. apply Qcplus_le_compat.
    + apply H. left. reflexivity.
    + apply IH. intros b Hb. apply H. right. exact Hb.
Qed.

Lemma sumf_abs_bound {A} (f g e : A -> Qc) (l : list A) :
  (forall a, In a l -> Qcabs (f a - g a) <= e a) ->
  Qcabs (sumf f l - sumf g l) <= sumf e l.
Proof.
  induction l as [|a l IH]; intros H.
  - rewrite !sumf_nil. replace (0 - 0) with 0 by ring. rewrite Qcabs_pos; apply Qcle_refl.
  - rewrite !sumf_cons.
    replace (f a + sumf f l - (g a + sumf g l)) with ((f a - g a) + (sumf f l - sumf g l)) by ring.
    eapply Qcle_trans; [apply Qcabs_triangle|]. apply Qcplus_le_compat.
    + apply H. left. reflexivity.
    + apply IH. intros b Hb. apply H. right. exact Hb.
Qed.

(* a defect bound on the reference cell (rule sum qs, exact integral ex), scaled by the
   half-width h >= 0 of the cell *)
Lemma scaled_defect (h qs ex eps n : Qc) :
  0 <= h -> Qcabs (qs - ex) <= eps * n -> Qcabs (h * qs - h * ex) <= eps * (h * n).
Proof.
  intros Hh H. replace (h * qs - h * ex) with (h * (qs - ex)) by ring.
  rewrite Qcabs_Qcmult, (Qcabs_pos h Hh). replace (eps * (h * n)) with (eps * n * h) by ring.
  rewrite (Qcmult_comm h). apply Qcmult_le_compat_r; assumption.
Qed.

Lemma defect0_eq (x y c : Qc) : Qcabs (x - y) <= 0 * c -> x = y.
Proof.
  intros H. replace (0 * c) with 0 in H by ring.
  assert (E : x - y = 0) by (apply Qcabs_null, Qcle_antisym; [exact H|apply Qcabs_nonneg]).
  replace x with (x - y + y) by ring. rewrite E. ring.
Qed.

Lemma half_pos : 0 < half.
Proof. unfold half. apply Qclt_alt. reflexivity. Qed.

Lemma two_neq0 : (1 + 1 : Qc) <> 0.
Proof. intro H. apply (f_equal (fun x : Qc => qeqb x 0)) in H. vm_compute in H. discriminate. Qed.
Lemma half_inv : half = / (1 + 1).
Proof. apply Qc_is_canon. reflexivity. Qed.

Lemma half_width_pos (a b : Qc) : a < b -> 0 < half * (b - a).
Proof. intros H. apply Qcmult_pos; [apply half_pos|apply Qcsub_pos, H]. Qed.

(* Gram matrices of a weighted point set.
   pts : the quadrature points (any type: 1D nodes, tensor nodes, ...);
   w   : the weight of a point (quadrature weight x weight function x |det J|);
   U,V : basis function number i evaluated at a point (or a derivative of it). *)

Section Gram.
  Context {P : Type}.
  Variable pts : list P.
  Variable w : P -> Qc.

  Definition gram (U V : P -> nat -> Qc) (i j : nat) : Qc :=
    sumf (fun x => w x * (U x i * V x j)) pts.

  (* sum over a list of dof numbers *)
  Definition bsum (I : list nat) (c : nat -> Qc) : Qc := sumf c I.

  (* x^T G y = sum_pts w (sum_i x_i U_i)(sum_j y_j V_j) *)
  Lemma gram_bilinear U V (I J : list nat) (c d : nat -> Qc) :
    bsum I (fun i => bsum J (fun j => c i * gram U V i j * d j)) =
    sumf (fun x => w x * (bsum I (fun i => c i * U x i) * bsum J (fun j => d j * V x j))) pts.
  Proof.
    unfold bsum, gram.
    transitivity (sumf (fun i => sumf (fun x => sumf (fun j => c i * (w x * (U x i * V x j)) * d j) J) pts) I).
    { apply sumf_ext. intros i _. rewrite sumf_swap. apply sumf_ext. intros j _.
      rewrite <- sumf_scal, <- sumf_scal_r. reflexivity. }
    rewrite sumf_swap. apply sumf_ext. intros x _.
    rewrite sumf_mul, <- sumf_scal. apply sumf_ext. intros i _.
    rewrite <- sumf_scal. apply sumf_ext. intros j _. ring.
  Qed.
End Gram.

(* the iterated rule: weights sum to (sum of reference weights)/2 * (b - a), per cell and
   over a whole mesh (telescoping): = |domain| when the reference weights sum to 2 *)

Lemma gauss_cell_weights ref a b :
  sumf snd (gauss_cell ref a b) = half * (b - a) * sumf snd ref.
Proof.
  unfold gauss_cell. rewrite sumf_map. cbn [snd]. rewrite <- sumf_scal. reflexivity.
Qed.

Lemma cells_weights ref : sumf snd ref = Q2Qc (2 # 1) ->
  forall msh, sumf snd (iterated ref msh) = sumf (fun ab => snd ab - fst ab) (cells msh).
Proof.
  intros H2 msh. unfold iterated. rewrite sumf_concat, sumf_map. apply sumf_ext. intros [a b] _.
  rewrite gauss_cell_weights, H2. cbn [fst snd].
  replace (Q2Qc (2 # 1)) with (1 + 1) by (apply Qc_is_canon; reflexivity).
  rewrite half_inv. field. apply two_neq0.
Qed.

Lemma cells_telescope d : forall msh, sumf (fun ab => snd ab - fst ab) (cells msh) = last msh d - nth 0 msh d.
Proof.
  induction msh as [|a [|b t] IH]; [cbn; ring..|].
  change (cells (a :: b :: t)) with ((a, b) :: cells (b :: t)). rewrite sumf_cons, IH.
  change (last (a :: b :: t) d) with (last (b :: t) d). cbn [fst snd nth]. ring.
Qed.

(* exactness on monomials (with a defect) extends to polynomials by linearity *)
Lemma quad_poly_defect_l r eps : forall c k,
  (forall i, (k <= i < k + length c)%nat -> Qcabs (rule_moment r i - moment_exact i) <= eps) ->
  Qcabs (sumf (fun xw => snd xw * (qpow (fst xw) k * peval c (fst xw))) r - pint k c) <= eps * l1norm c.
Proof.
  induction c as [|a c IH]; intros k H.
  - cbn [peval pint l1norm].
    rewrite sumf_all_zero by (intros; ring).
    replace (0 - 0) with 0 by ring. replace (eps * 0) with 0 by ring.
    rewrite Qcabs_pos; apply Qcle_refl.
  - cbn [peval pint l1norm].
    (* split off the monomial a x^k; the rest is x^(k+1) * c *)
    assert (E : sumf (fun xw => snd xw * (qpow (fst xw) k * (a + fst xw * peval c (fst xw)))) r
                = a * rule_moment r k + sumf (fun xw => snd xw * (qpow (fst xw) (S k) * peval c (fst xw))) r).
    { unfold rule_moment. rewrite <- sumf_scal, <- sumf_plus. apply sumf_ext. intros. cbn [qpow]. ring. }
    rewrite E. set (rest := sumf _ r).
    replace (a * rule_moment r k + rest - (a * moment_exact k + pint (S k) c))
      with (a * (rule_moment r k - moment_exact k) + (rest - pint (S k) c)) by ring.
    eapply Qcle_trans; [apply Qcabs_triangle|].
    replace (eps * (Qcabs a + l1norm c)) with (Qcabs a * eps + eps * l1norm c) by ring.
    apply Qcplus_le_compat.
    + rewrite Qcabs_Qcmult. rewrite (Qcmult_comm (Qcabs a)), (Qcmult_comm (Qcabs a)).
      apply Qcmult_le_compat_r; [|apply Qcabs_nonneg]. apply H. cbn [length]. lia.
    + apply IH. intros i Hi. apply H. cbn [length]. lia.
Qed.

(* moments computed column-wise (rule_ok) are the moments *)
Lemma wpows_nth x : forall n acc k, (k < n)%nat -> nth k (wpows x acc n) 0 = acc * qpow x k.
Proof.
  induction n as [|n IH]; intros acc k Hk; [lia|]. cbn [wpows]. destruct k as [|k]; cbn [nth qpow]; [ring|].
  rewrite IH by lia. ring.
Qed.
Lemma wpows_length x : forall n acc, length (wpows x acc n) = n.
Proof. induction n as [|n IH]; intros acc; [reflexivity|]. cbn [wpows length]. rewrite IH. reflexivity. Qed.
Lemma vadd_nth : forall a b k, length a = length b -> nth k (vadd a b) 0 = nth k a 0 + nth k b 0.
Proof.
  induction a as [|x a IH]; intros [|y b] k H; cbn in H; try discriminate.
  - destruct k; cbn; ring.
  - destruct k as [|k]; cbn [vadd nth]; [reflexivity|]. apply IH. lia.
Qed.
Lemma vadd_length : forall a b, length a = length b -> length (vadd a b) = length a.
Proof.
  induction a as [|x a IH]; intros [|y b] H; cbn in H; try discriminate; [reflexivity|].
  cbn [vadd length]. rewrite IH by lia. reflexivity.
Qed.
Lemma moments_length r n : length (moments r n) = n.
Proof.
  unfold moments. induction r as [|xw r IH]; cbn [fold_right]; [apply repeat_length|].
  rewrite vadd_length; rewrite wpows_length; [reflexivity|]. symmetry. exact IH.
Qed.
Lemma moments_nth r n k : (k < n)%nat -> nth k (moments r n) 0 = rule_moment r k.
Proof.
  intros Hk. unfold rule_moment. induction r as [|xw r IH].
  - unfold moments. cbn [fold_right]. rewrite sumf_nil. apply nth_repeat.
  - change (moments (xw :: r) n) with (vadd (wpows (fst xw) (snd xw) n) (moments r n)).
    rewrite vadd_nth by (rewrite wpows_length, moments_length; reflexivity).
    rewrite wpows_nth by exact Hk. rewrite IH, sumf_cons. reflexivity.
Qed.

(* what the table check establishes, in the form quad_poly_defect consumes *)
Lemma rule_ok_moments eps n r : rule_ok eps n r = true ->
  forall i, (i < 2 * n)%nat -> Qcabs (rule_moment r i - moment_exact i) <= eps.
Proof.
  unfold rule_ok. intros H i Hi. apply andb_true_iff in H. destruct H as [_ H].
  rewrite forallb_forall in H.
  assert (Hl : (i < length (combine (seq 0 (2 * n)) (moments r (2 * n))))%nat)
    by (rewrite combine_length, seq_length, moments_length; lia).
  assert (Hc := H _ (nth_In _ (0%nat, 0) Hl)).
  rewrite combine_nth, seq_nth, moments_nth in Hc by (rewrite ?seq_length, ?moments_length; lia).
  apply qleb_iff. exact Hc.
Qed.

Lemma rule_ok_nodes eps n r : rule_ok eps n r = true ->
  forall xw, In xw r -> - (1) < fst xw /\ fst xw < 1.
Proof.
  unfold rule_ok. intros H xw Hin. do 2 (apply andb_true_iff in H; destruct H as [H _]).
  apply andb_true_iff in H. destruct H as [_ H].
  rewrite forallb_forall in H. specialize (H xw Hin).
  apply andb_true_iff in H. destruct H as [H _]. apply andb_true_iff in H. destruct H as [A B].
  split; apply qltb_iff; assumption.
Qed.

(* a rule that passes the table check for n nodes integrates every polynomial of degree <= 2n - 1
   (coefficient list of length <= 2n) with defect <= eps * l1norm *)
Lemma rule_ok_poly_defect eps n r c : rule_ok eps n r = true -> (length c <= 2 * n)%nat ->
  Qcabs (sumf (fun xw => snd xw * peval c (fst xw)) r - pint 0 c) <= eps * l1norm c.
Proof.
  intros Hok Hc.
  rewrite (sumf_ext _ (fun xw => snd xw * (qpow (fst xw) 0 * peval c (fst xw)))) by (intros; cbn [qpow]; ring).
  apply quad_poly_defect_l. intros i Hi. apply (rule_ok_moments eps n r Hok). lia.
Qed.

(* nqp = int(ceil((P - du - dv + 1)/2)) (P = 2p, or p1 + p2) is the LEAST q such that a rule exact
   to degree 2q-1 covers the degree P - du - dv of the integrand on each span *)
Lemma nqp_default_suffices_l P du dv : (du + dv <= P)%nat ->
  let q := Z.to_nat (nqp_default P du dv) in
  (P - du - dv <= 2 * q - 1)%nat /\ (1 <= q)%nat /\ (2 * (q - 1) - 1 < P - du - dv \/ q = 1)%nat.
Proof.
  intros H. unfold nqp_default. cbv zeta.
  set (n := (Z.of_nat P - Z.of_nat du - Z.of_nat dv + 1 + 1)%Z).
  pose proof (Z.div_mod n 2 ltac:(lia)). pose proof (Z.mod_pos_bound n 2 ltac:(lia)). lia.
Qed.

(* the DEFAULT node count covers the integrand's degree P - du - dv *)
Lemma nqp_default_exact_l P du dv eps r c : (du + dv <= P)%nat ->
  rule_ok eps (Z.to_nat (nqp_default P du dv)) r = true ->
  (length c <= P - du - dv + 1)%nat ->
  Qcabs (sumf (fun xw => snd xw * peval c (fst xw)) r - pint 0 c) <= eps * l1norm c.
Proof.
  intros Hd Hok Hc. apply (rule_ok_poly_defect eps _ r c Hok).
  destruct (nqp_default_suffices_l P du dv Hd) as [H1 [H2 _]]. cbv zeta in H1, H2. lia.
Qed.

Lemma span_indices_from_cons off a b t : span_indices_from off (a :: b :: t) =
  if qeqb a b then span_indices_from (S off) (b :: t) else off :: span_indices_from (S off) (b :: t).
Proof. reflexivity. Qed.
Lemma mesh_cons a b t : mesh (a :: b :: t) = if qeqb a b then mesh (b :: t) else a :: mesh (b :: t).
Proof. reflexivity. Qed.

Lemma mesh_head a t d : nth 0 (mesh (a :: t)) d = a.
Proof.
  revert a. induction t as [|b t IH]; intros a; [reflexivity|].
  rewrite mesh_cons. destruct (qeqb a b) eqn:E.
  - apply qeqb_iff in E. subst b. apply IH.
  - reflexivity.
Qed.

Lemma mesh_nonempty : forall t a, mesh (a :: t) <> [].
Proof.
  induction t as [|b t IH]; intros a; [discriminate|].
  rewrite mesh_cons. destruct (qeqb a b); [apply IH|discriminate].
Qed.

Lemma mesh_last : forall kv d, last (mesh kv) d = last kv d.
Proof.
  induction kv as [|a [|b t'] IH]; intros d; [reflexivity..|].
  rewrite mesh_cons. change (last (a :: b :: t') d) with (last (b :: t') d).
  destruct (qeqb a b); [apply IH|].
  destruct (mesh (b :: t')) as [|m ms] eqn:E; [exfalso; exact (mesh_nonempty t' b E)|].
  change (last (a :: m :: ms) d) with (last (m :: ms) d). apply IH.
Qed.

Lemma span_indices_from_ge off kv : forall s, In s (span_indices_from off kv) -> (off <= s)%nat.
Proof.
  revert off. induction kv as [|a t IH]; intros off s H; [contradiction|].
  destruct t as [|b t']; [contradiction|].
  rewrite span_indices_from_cons in H. destruct (qeqb a b).
  - apply IH in H. lia.
  - destruct H as [H|H]; [lia|]. apply IH in H. lia.
Qed.

(* the k-th mesh cell is the k-th non-empty knot span: mesh[k] = kv[s_k], mesh[k+1] = kv[s_k+1] *)
Lemma mesh_span_from : forall kv off k,
  (k < length (span_indices_from off kv))%nat ->
  let s := (nth k (span_indices_from off kv) 0 - off)%nat in
  nth k (mesh kv) 0 = nth s kv 0 /\ nth (S k) (mesh kv) 0 = nth (S s) kv 0 /\
  nth s kv 0 <> nth (S s) kv 0 /\ (S s < length kv)%nat /\ (off <= nth k (span_indices_from off kv) 0)%nat.
Proof.
  induction kv as [|a [|b t'] IH]; intros off k Hk; [cbn in Hk; lia..|].
  cbn zeta. rewrite span_indices_from_cons in *. rewrite mesh_cons.
  destruct (qeqb a b) eqn:E; [|destruct k as [|k]].
  2: { cbn [nth]. rewrite Nat.sub_diag. cbn [nth]. rewrite mesh_head.
       apply qeqb_false_iff in E. repeat split; auto. cbn [length]. lia. }
  (* otherwise the cell is cell k of the tail b :: t', whose span s' - S off is span s' - off here *)
  all: cbn [nth length] in *; specialize (IH (S off) k ltac:(lia)); cbn zeta in IH.
  all: destruct IH as [H1 [H2 [H3 [H4 H5]]]].
  all: set (s' := nth k (span_indices_from (S off) (b :: t')) 0%nat) in *.
  all: replace (s' - off)%nat with (S (s' - S off)) by lia.
  all: repeat split; try assumption; lia.
Qed.

Lemma length_mesh_spans : forall kv off, kv <> [] -> length (mesh kv) = S (length (span_indices_from off kv)).
Proof.
  induction kv as [|a t IH]; intros off H; [contradiction|].
  destruct t as [|b t']; [reflexivity|].
  rewrite mesh_cons, span_indices_from_cons. destruct (qeqb a b).
  - apply IH. discriminate.
  - cbn [length]. f_equal. apply IH. discriminate.
Qed.

(* for a kv_ok knot vector: cell k of the mesh is the knot span s_k = mesh_span_indices[k], and
   that span is not empty *)
Lemma mesh_cell_span kv p k : kv_ok kv p -> (k < numspans kv)%nat ->
  let s := nth k (span_indices kv) 0%nat in
  nth k (mesh kv) 0 = kn kv s /\ nth (S k) (mesh kv) 0 = kn kv (S s) /\
  kn kv s < kn kv (S s) /\ (S s < length kv)%nat.
Proof.
  intros Hok Hk.
  assert (Hne : kv <> []) by (intros ->; destruct Hok as [L _ _ _ _]; cbn in L; lia).
  unfold numspans in Hk. rewrite (length_mesh_spans kv 0 Hne) in Hk.
  destruct (mesh_span_from kv 0 k ltac:(lia)) as [M1 [M2 [M3 [M4 _]]]].
  cbn zeta in *. rewrite Nat.sub_0_r in *. fold (span_indices kv) in *.
  repeat split; try assumption.
  destruct (Qcle_lt_or_eq _ _ (ok_sorted _ _ Hok _ (S _) (Nat.le_succ_diag_r _) M4)) as [L|E];
    [exact L|contradiction].
Qed.

(* the cells of a grid by number, and the iterated rule as the rules of cells 0, 1, ... in a row *)
Lemma cells_seq : forall m, cells m = map (fun k => (nth k m 0, nth (S k) m 0)) (seq 0 (length m - 1)).
Proof.
  induction m as [|a [|b t] IH]; [reflexivity..|].
  change (cells (a :: b :: t)) with ((a, b) :: cells (b :: t)). rewrite IH.
  cbn [length]. rewrite !Nat.sub_succ, !Nat.sub_0_r. cbn [seq map nth]. f_equal.
  rewrite <- seq_shift, map_map. reflexivity.
Qed.

Lemma iterated_seq ref grid :
  iterated ref grid
  = concat (map (fun k => gauss_cell ref (nth k grid 0) (nth (S k) grid 0)) (seq 0 (length grid - 1))).
Proof. unfold iterated. rewrite cells_seq, map_map. reflexivity. Qed.

Lemma sumf_iterated (f : Qc * Qc -> Qc) ref grid :
  sumf f (iterated ref grid)
  = sumf (fun k => sumf f (gauss_cell ref (nth k grid 0) (nth (S k) grid 0))) (seq 0 (length grid - 1)).
Proof. rewrite iterated_seq, sumf_concat, sumf_map. reflexivity. Qed.

Lemma in_iterated ref grid xw : In xw (iterated ref grid) ->
  exists k, (S k < length grid)%nat /\ In xw (gauss_cell ref (nth k grid 0) (nth (S k) grid 0)).
Proof.
  rewrite iterated_seq. intros H. apply in_concat in H. destruct H as [c [Hc Hx]].
  apply in_map_iff in Hc. destruct Hc as [k [<- Hk]]. apply in_seq in Hk.
  exists k. split; [lia|exact Hx].
Qed.

Lemma grid_weight_nonneg ref grid xw :
  (forall k, (S k < length grid)%nat -> nth k grid 0 < nth (S k) grid 0) ->
  (forall xw, In xw ref -> 0 <= snd xw) -> In xw (iterated ref grid) -> 0 <= snd xw.
Proof.
  intros Hg Href Hin. destruct (in_iterated _ _ _ Hin) as [k [Hk Hc]].
  apply in_map_iff in Hc. destruct Hc as [xw0 [<- Hi]]. cbn [snd].
  apply Qcmult_nonneg; [|apply (Href _ Hi)]. apply Qclt_le_weak, half_width_pos, Hg, Hk.
Qed.

(* a Gauss node of the cell (a,b) lies strictly inside it when the reference node is in (-1,1) *)
Lemma node_inside (a b xi : Qc) : a < b -> - (1) < xi -> xi < 1 ->
  let x := half * (b - a) * xi + half * (a + b) in a < x /\ x < b.
Proof.
  intros Hab H1 H2 x. pose proof (half_width_pos a b Hab) as Hh.
  split; apply Qclt_minus_iff.
  - replace (x + - a) with (half * (b - a) * (xi - - (1)))
      by (unfold x; rewrite half_inv; field; apply two_neq0).
    apply Qcmult_pos; [exact Hh|apply Qcsub_pos, H1].
  - replace (b + - x) with (half * (b - a) * (1 - xi))
      by (unfold x; rewrite half_inv; field; apply two_neq0).
    apply Qcmult_pos; [exact Hh|apply Qcsub_pos, H2].
Qed.

Lemma gauss_cell_inside ref a b x w :
  a < b -> (forall xw, In xw ref -> - (1) < fst xw /\ fst xw < 1) ->
  In (x, w) (gauss_cell ref a b) -> a < x /\ x < b.
Proof.
  intros Hab Href Hin. apply in_map_iff in Hin. destruct Hin as [xw [E Hi]].
  injection E as <- _. destruct (Href _ Hi) as [H1 H2]. exact (node_inside a b _ Hab H1 H2).
Qed.

(* every node of the rule on a cell inside the knot span s is located in span s by pyx_findspan,
   and lies in the domain *)
Lemma node_in_span kv p s a b ref x w :
  kv_ok kv p -> (S s < length kv)%nat -> kn kv s <= a -> a < b -> b <= kn kv (S s) ->
  (forall xw, In xw ref -> - (1) < fst xw /\ fst xw < 1) ->
  In (x, w) (gauss_cell ref a b) ->
  findspan kv p x = s /\ kn kv 0 <= x /\ x <= kn kv (length kv - 1).
Proof.
  intros Hok Hs Ha Hab Hb Href Hin.
  destruct (gauss_cell_inside ref a b x w Hab Href Hin) as [L U].
  pose proof (ok_sorted _ _ Hok) as Hsort.
  assert (L' : kn kv s < x) by (eapply Qcle_lt_trans; eassumption).
  assert (U' : x < kn kv (S s)) by (eapply Qclt_le_trans; eassumption).
  assert (H0 : kn kv 0 <= x).
  { eapply Qcle_trans; [apply (Hsort 0%nat s); lia|]. apply Qclt_le_weak. exact L'. }
  assert (H1 : x < kn kv (length kv - 1)) by (eapply Qclt_le_trans; [exact U'|apply Hsort; lia]).
  split; [|split; [exact H0|apply Qclt_le_weak; exact H1]].
  symmetry. apply findspan_unique_l; try assumption. apply Qclt_le_weak. exact L'.
Qed.

(* 3x3 matrix product and identity, entry by entry (statements of inv3_left / inv3_right) *)

Definition delta (i j : nat) : Qc := if Nat.eqb i j then 1 else 0.
Definition mm3 (A B : list (list Qc)) (i j : nat) : Qc :=
  mget A i 0 * mget B 0 j + mget A i 1 * mget B 1 j + mget A i 2 * mget B 2 j.
