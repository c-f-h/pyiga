(* C09 -- biform_1d_entry / biform_asym_entry: the matrix assembled by the 1D routines
   (flattened element matrices -> COO triplets -> sums of duplicates) is the Gram matrix of
   the B-spline (derivative) functions at the quadrature nodes.  From C02: what active_deriv returns
   are the dNref values of the p+1 active functions (active_derivs_eq_spec), all others vanish
   (dN_local). *)
From Coq Require Import QArith Qcanon List Lia.
From Verif.lib Require Import Bsp ListFacts.
From Verif.C02 Require Import Proofs.
From Verif.C02 Require Proofs_ref Proofs_deriv.
From Verif.C09 Require Import Model Proofs.
Import ListNotations.
Open Scope Qc_scope.

Lemma dot3_map {X} (g1 g2 g3 : X -> Qc) (l : list X) :
  dot3 (map g1 l) (map g2 l) (map g3 l) = sumf (fun x => g1 x * (g2 x * g3 x)) l.
Proof. induction l as [|x l IH]; [reflexivity|]. cbn [map dot3]. rewrite sumf_cons, IH. reflexivity. Qed.

Lemma slice_map {A B} (g : A -> B) (l : list A) a b : slice (map g l) a b = map g (slice l a b).
Proof. unfold slice. rewrite skipn_map, firstn_map. reflexivity. Qed.

Lemma slice_concat_uniform {A} n (ls : list (list A)) k :
  (forall l, In l ls -> length l = n) -> (k < length ls)%nat ->
  slice (concat ls) (n * k) (n * (k + 1)) = nth k ls [].
Proof.
  unfold slice. replace (n * (k + 1) - n * k)%nat with n by lia.
  revert ls. induction k as [|k IH]; intros [|l ls] H Hk; cbn [length] in Hk; try lia; cbn [concat nth].
  - rewrite Nat.mul_0_r. cbn [skipn]. rewrite <- (H l (or_introl eq_refl)).
    rewrite firstn_app, Nat.sub_diag, firstn_all. apply app_nil_r.
  - replace (n * S k)%nat with (length l + n * k)%nat by (rewrite (H l (or_introl eq_refl)); lia).
    rewrite skipn_app, (skipn_all2 l) by lia.
    replace (length l + n * k - length l)%nat with (n * k)%nat by lia.
    apply IH; [intros l' Hl'; apply H; right; exact Hl'|lia].
Qed.

(* the global index i is one of the n indices fa, fa + 1, ... written by a cell with offset fa *)
Definition inrange (fa n i : nat) : bool := ((fa <=? i) && (i <? fa + n))%nat.

(* sum over local indices a of an indicator [fa + a = i] picks the term a = i - fa *)
Lemma sum_indicator (G : nat -> Qc) fa i : forall n,
  sumf (fun a => if Nat.eqb (fa + a) i then G a else 0) (seq 0 n)
  = if inrange fa n i then G (i - fa)%nat else 0.
Proof.
  unfold inrange. induction n as [|n IH].
  - cbn [seq sumf fold_right]. destruct (Nat.leb_spec fa i), (Nat.ltb_spec i (fa + 0)); cbn [andb]; try reflexivity; lia.
  - rewrite seq_S, sumf_app, IH. cbn [Nat.add]. rewrite sumf_cons, sumf_nil.
    destruct (Nat.eqb_spec (fa + n) i) as [E|E].
    + subst i. replace (fa + n - fa)%nat with n by lia.
      destruct (Nat.leb_spec fa (fa + n)), (Nat.ltb_spec (fa + n) (fa + n)), (Nat.ltb_spec (fa + n) (fa + S n));
        cbn [andb]; try lia; ring.
    + destruct (Nat.leb_spec fa i), (Nat.ltb_spec i (fa + n)), (Nat.ltb_spec i (fa + S n)); cbn [andb]; try lia; ring.
Qed.

Lemma length_concat_map_map {A B X} (h : A -> B -> X) (la : list A) (lb : list B) :
  length (concat (map (fun a => map (h a) lb) la)) = (length la * length lb)%nat.
Proof.
  induction la as [|a la IH]; [reflexivity|]. cbn [map concat length].
  rewrite app_length, map_length, IH. reflexivity.
Qed.

Lemma combine_concat_map3 {K A B X Y} (u : K -> A -> B -> X) (v : K -> A -> B -> Y)
  (lk : list K) (la : list A) (lb : list B) :
  combine (concat (map (fun k => concat (map (fun a => map (u k a) lb) la)) lk))
          (concat (map (fun k => concat (map (fun a => map (v k a) lb) la)) lk))
  = concat (map (fun k => concat (map (fun a => map (fun b => (u k a b, v k a b)) lb) la)) lk).
Proof.
  rewrite combine_concat_map by (intros; rewrite !length_concat_map_map; reflexivity).
  f_equal. apply map_ext. intros k.
  rewrite combine_concat_map by (intros; rewrite !map_length; reflexivity).
  f_equal. apply map_ext. intros a. apply combine_map_map.
Qed.

(* the assembly loop in general: element matrices of arbitrary local functions g1 (rows) and g2
   (columns) on arbitrary cells, scattered with arbitrary first-active arrays *)
Section Assembly.
  Variable cell : nat -> list (Qc * Qc).      (* the rule on cell k *)
  Variables nspans nqp : nat.
  Hypothesis Hlen : forall k, (k < nspans)%nat -> length (cell k) = nqp.
  Variables (n1 n2 : nat) (g1 g2 : Qc -> nat -> Qc) (wg : Qc * Qc -> Qc) (fa1 fa2 : list nat).
  Let q := concat (map cell (seq 0 nspans)).
  Let vals1 := map (fun a => map (fun x => g1 x a) (map fst q)) (seq 0 n1).
  Let vals2 := map (fun b => map (fun x => g2 x b) (map fst q)) (seq 0 n2).
  Let qw := map wg q.

  Lemma slice_cell k : (k < nspans)%nat -> slice q (nqp * k) (nqp * (k + 1)) = cell k.
  Proof.
    intros Hk. unfold q. rewrite (slice_concat_uniform nqp).
    - rewrite (nth_map_lt _ _ k [] 0%nat), seq_nth by (rewrite ?seq_length; exact Hk). reflexivity.
    - intros l Hl. apply in_map_iff in Hl. destruct Hl as [k' [<- Hk']]. apply in_seq in Hk'. apply Hlen. lia.
    - rewrite map_length, seq_length. exact Hk.
  Qed.

  (* the element matrices, entry by entry *)
  Lemma elmats_entries :
    elmats nspans nqp vals1 vals2 qw
    = map (fun k => map (fun a => map (fun b =>
        sumf (fun xw => g1 (fst xw) a * (g2 (fst xw) b * wg xw)) (cell k)) (seq 0 n2)) (seq 0 n1))
        (seq 0 nspans).
  Proof.
    unfold elmats. apply map_ext_in. intros k Hk. apply in_seq in Hk.
    unfold vals1, vals2, qw. rewrite !map_map. apply map_ext. intros a.
    rewrite !map_map. apply map_ext. intros b. rewrite map_map, !slice_map, slice_cell by lia.
    apply (dot3_map (fun xw => g1 (fst xw) a) (fun xw => g2 (fst xw) b) wg).
  Qed.

  Lemma assembly_entry i j :
    coo_get (coo_custom nspans n1 n2 fa1 fa2) (ravel3 (elmats nspans nqp vals1 vals2 qw)) i j
    = sumf (fun k => sumf (fun xw =>
          (if inrange (nth k fa1 0%nat) n1 i then g1 (fst xw) (i - nth k fa1 0%nat) else 0) *
          ((if inrange (nth k fa2 0%nat) n2 j then g2 (fst xw) (j - nth k fa2 0%nat) else 0) * wg xw))
          (cell k)) (seq 0 nspans).
  Proof.
    rewrite elmats_entries. unfold coo_get, coo_custom, ravel3.
    rewrite flat_map_concat_map, map_map.
    rewrite (map_ext _ _ (fun k => flat_map_concat_map _ _)).
    rewrite (combine_concat_map3 (fun k a b => (nth k fa1 0 + a, nth k fa2 0 + b)%nat)).
    rewrite sumf_concat, sumf_map. apply sumf_ext. intros k _.
    rewrite sumf_concat, sumf_map.
    (* triplets of cell k: the double indicator sum picks a = i - fa1[k], b = j - fa2[k] *)
    set (T := fun a b => sumf (fun xw => g1 (fst xw) a * (g2 (fst xw) b * wg xw)) (cell k)).
    set (f1 := nth k fa1 0%nat). set (f2 := nth k fa2 0%nat).
    transitivity (sumf (fun a => if Nat.eqb (f1 + a) i
                                 then (if inrange f2 n2 j then T a (j - f2)%nat else 0) else 0) (seq 0 n1)).
    { apply sumf_ext. intros a _. rewrite sumf_map. cbn [fst snd].
      destruct (Nat.eqb (f1 + a) i); cbn [andb].
      - apply (sum_indicator (fun b => T a b) f2 j n2).
      - apply sumf_zero. }
    rewrite (sum_indicator (fun a => if inrange f2 n2 j then T a (j - f2)%nat else 0) f1 i n1).
    unfold T.
    destruct (inrange f1 n1 i), (inrange f2 n2 j); try reflexivity;
      symmetry; apply sumf_all_zero; intros; ring.
  Qed.
End Assembly.

Definition wgt (wf : option (Qc -> Qc)) (xw : Qc * Qc) : Qc :=
  match wf with None => snd xw | Some f => snd xw * f (fst xw) end.

Lemma apply_weightfunc_map wf q : apply_weightfunc wf q = map (wgt wf) q.
Proof. destruct wf; reflexivity. Qed.

(* the local value number a that active_deriv returns at x *)
Definition local_val (kv : list Qc) (p nd d : nat) (x : Qc) (a : nat) : Qc :=
  nth a (nth d (active_deriv kv p x nd) []) 0.

Lemma vals_at_eq kv p nd d nodes :
  vals_at kv p nd d nodes = map (fun a => map (fun x => local_val kv p nd d x a) nodes) (seq 0 (S p)).
Proof. unfold vals_at, local_val. apply map_ext. intros a. rewrite map_map. reflexivity. Qed.

(* what the scatter with first-active offset fa contributes to the global index i *)
Definition scattered_val (kv : list Qc) (p nd d fa : nat) (x : Qc) (i : nat) : Qc :=
  if inrange fa (S p) i then local_val kv p nd d x (i - fa) else 0.

(* on a cell inside the knot span s, scattered with offset s - p, the local values ARE the global
   function values (zero off the p+1 active functions): C02 active_derivs_eq_spec + dN_local *)
Lemma cell_scattered_val kv p nd d s a b ref x w i :
  kv_ok kv p -> (S s < length kv)%nat -> kn kv s <= a -> a < b -> b <= kn kv (S s) ->
  (forall xw, In xw ref -> - (1) < fst xw /\ fst xw < 1) -> In (x, w) (gauss_cell ref a b) ->
  (d <= nd)%nat -> (i < numdofs kv p)%nat ->
  scattered_val kv p nd d (s - p) x i = dNref kv d p i x.
Proof.
  intros Hok Hs Ha Hab Hb Href Hin Hd Hi.
  destruct (node_in_span kv p s a b ref x w Hok Hs Ha Hab Hb Href Hin) as [Hf [H0 H1]].
  destruct (findspan_spec_l kv p x Hok H0 H1) as [A [B _]]. rewrite Hf in A, B.
  unfold scattered_val, inrange, local_val, numdofs in *.
  destruct (Nat.leb_spec (s - p) i) as [L|L]; destruct (Nat.ltb_spec i (s - p + S p)) as [U|U]; cbn [andb].
  1: { rewrite Proofs_deriv.active_derivs_eq_spec_l by (assumption || lia). rewrite Hf. f_equal. lia. }
  all: symmetry; apply Proofs_ref.dN_local_l; try assumption; rewrite ?Hf; lia.
Qed.

(* the assembly loop of the two 1D routines: two spaces on a common grid, any weight, any
   first-active arrays that are right on every cell *)
Lemma gauss_assembly_entry kv1 p1 nd1 du kv2 p2 nd2 dv ref grid wg fa1 fa2 i j :
  (forall k x w, (S k < length grid)%nat -> In (x, w) (gauss_cell ref (nth k grid 0) (nth (S k) grid 0)) ->
     scattered_val kv2 p2 nd2 dv (nth k fa2 0%nat) x i = dNref kv2 dv p2 i x /\
     scattered_val kv1 p1 nd1 du (nth k fa1 0%nat) x j = dNref kv1 du p1 j x) ->
  let nodes := map fst (iterated ref grid) in
  coo_get (coo_custom (length grid - 1) (S p2) (S p1) fa2 fa1)
          (ravel3 (elmats (length grid - 1) (length ref) (vals_at kv2 p2 nd2 dv nodes) (vals_at kv1 p1 nd1 du nodes)
                          (map wg (iterated ref grid)))) i j
  = gram (iterated ref grid) wg (fun xw i => dNref kv2 dv p2 i (fst xw)) (fun xw j => dNref kv1 du p1 j (fst xw)) i j.
Proof.
  intros H nodes. subst nodes. unfold gram. rewrite sumf_iterated, !vals_at_eq, iterated_seq.
  etransitivity.
  { exact (assembly_entry (fun k => gauss_cell ref (nth k grid 0) (nth (S k) grid 0)) (length grid - 1) (length ref)
             (fun k _ => map_length _ ref) (S p2) (S p1) (local_val kv2 p2 nd2 dv) (local_val kv1 p1 nd1 du) wg fa2 fa1 i j). }
  apply sumf_seq_ext. intros k Hk.
  apply sumf_ext. intros [x w] Hin. destruct (H k x w ltac:(lia) Hin) as [E2 E1].
  unfold scattered_val in E1, E2. cbn [fst]. rewrite E1, E2. ring.
Qed.

Definition entry1d kv p du dv ref wf i j : Qc :=
  coo_get (fst (biform_1d_coo kv p du dv ref wf)) (snd (biform_1d_coo kv p du dv ref wf)) i j.

(* biform_1d_entry, in the terms of Gram matrices *)
Lemma entry1d_gram kv p du dv ref wf i j :
  kv_ok kv p -> (forall xw, In xw ref -> - (1) < fst xw /\ fst xw < 1) ->
  (i < numdofs kv p)%nat -> (j < numdofs kv p)%nat ->
  entry1d kv p du dv ref wf i j
  = gram (iterated ref (mesh kv)) (wgt wf) (fun xw i => dNref kv dv p i (fst xw)) (fun xw j => dNref kv du p j (fst xw)) i j.
Proof.
  intros Hok Href Hi Hj. unfold entry1d, biform_1d_coo. cbn [fst snd]. rewrite apply_weightfunc_map.
  apply gauss_assembly_entry. intros k x w Hk Hin.
  destruct (mesh_cell_span kv p k Hok ltac:(unfold numspans; lia)) as [M1 [M2 [L Hs]]]. cbn zeta in *.
  rewrite M1, M2 in Hin.
  rewrite (map_nth (first_active p) _ 0%nat k : nth k (map (first_active p) (span_indices kv)) 0%nat = _).
  set (s := nth k (span_indices kv) 0%nat) in *.
  split; apply (cell_scattered_val kv p _ _ s (kn kv s) (kn kv (S s)) ref x w); try assumption; try apply Qcle_refl; lia.
Qed.

(* the quadrature grid refines the mesh of kv: every grid cell is non-degenerate and lies inside
   one knot span *)
Definition grid_refines (kv : list Qc) (grid : list Qc) : Prop :=
  forall k, (S k < length grid)%nat ->
    nth k grid 0 < nth (S k) grid 0 /\
    exists s, (S s < length kv)%nat /\ kn kv s <= nth k grid 0 /\ nth (S k) grid 0 <= kn kv (S s).

(* the default grid of the two-space routine (quadgrid = knotvec1.mesh) refines kv1's own mesh *)
Lemma mesh_refines_self kv p : kv_ok kv p -> grid_refines kv (mesh kv).
Proof.
  intros Hok k Hk.
  destruct (mesh_cell_span kv p k Hok ltac:(unfold numspans; lia)) as [M1 [M2 [L Hs]]]. cbn zeta in *.
  rewrite M1, M2. split; [exact L|].
  exists (nth k (span_indices kv) 0%nat). repeat split; try assumption; apply Qcle_refl.
Qed.

Lemma refined_nodes_domain kv p ref grid xw :
  kv_ok kv p -> (forall xw, In xw ref -> - (1) < fst xw /\ fst xw < 1) -> grid_refines kv grid ->
  In xw (iterated ref grid) -> kn kv 0 <= fst xw /\ fst xw <= kn kv (length kv - 1).
Proof.
  intros Hok Href Hg Hin. destruct (in_iterated _ _ _ Hin) as [k [Hk Hc]].
  destruct (Hg k Hk) as [Hab [s [Hs [Ha Hb]]]]. destruct xw as [x w].
  exact (proj2 (node_in_span kv p s _ _ ref x w Hok Hs Ha Hab Hb Href Hc)).
Qed.

Lemma iterated_nodes_domain kv p ref xw :
  kv_ok kv p -> (forall xw, In xw ref -> - (1) < fst xw /\ fst xw < 1) ->
  In xw (iterated ref (mesh kv)) -> kn kv 0 <= fst xw /\ fst xw <= kn kv (length kv - 1).
Proof. intros Hok Href. apply (refined_nodes_domain kv p); try assumption. apply (mesh_refines_self kv p Hok). Qed.

(* the offset the two-space routine takes at the FIRST node of cell k (q[0][::nqp]) *)
Lemma first_node_offset kv p ref grid k s :
  kv_ok kv p -> (forall xw, In xw ref -> - (1) < fst xw /\ fst xw < 1) -> ref <> [] ->
  (S k < length grid)%nat -> nth k grid 0 < nth (S k) grid 0 ->
  (S s < length kv)%nat -> kn kv s <= nth k grid 0 -> nth (S k) grid 0 <= kn kv (S s) ->
  first_active_at kv p (nth (length ref * k) (map fst (iterated ref grid)) 0) = (s - p)%nat.
Proof.
  intros Hok Href Hne Hk Hab Hs Ha Hb. unfold first_active_at. f_equal.
  rewrite (map_nth fst _ (0, 0) _ : nth _ (map fst _) 0 = _).
  rewrite iterated_seq, <- flat_map_concat_map.
  replace (length ref * k)%nat with (k * length ref + 0)%nat by lia.
  rewrite (nth_flat_map_uniform _ (length ref) _ 0%nat);
    [|intros; apply map_length|rewrite seq_length; lia|destruct ref; [contradiction|cbn [length]; lia]].
  rewrite seq_nth by lia. cbn [Nat.add].
  destruct (gauss_cell ref (nth k grid 0) (nth (S k) grid 0)) as [|[x0 w0] c] eqn:E.
  { destruct ref; [contradiction|discriminate]. }
  apply (node_in_span kv p s _ _ ref x0 w0 Hok Hs Ha Hab Hb Href). rewrite E. left. reflexivity.
Qed.

Lemma asym_entry_gram kv1 p1 kv2 p2 du dv grid ref i j :
  kv_ok kv1 p1 -> kv_ok kv2 p2 -> (forall xw, In xw ref -> - (1) < fst xw /\ fst xw < 1) ->
  grid_refines kv1 grid -> grid_refines kv2 grid ->
  (i < numdofs kv2 p2)%nat -> (j < numdofs kv1 p1)%nat ->
  let coo := biform_asym_coo kv1 p1 kv2 p2 du dv grid ref in
  coo_get (fst coo) (snd coo) i j
  = gram (iterated ref grid) snd (fun xw i => dNref kv2 dv p2 i (fst xw)) (fun xw j => dNref kv1 du p1 j (fst xw)) i j.
Proof.
  intros Hok1 Hok2 Href Hg1 Hg2 Hi Hj. cbv zeta. unfold biform_asym_coo. cbn [fst snd].
  apply gauss_assembly_entry. intros k x w Hk Hin.
  destruct (Hg1 k Hk) as [Hab [s1 [Hs1 [Ha1 Hb1]]]]. destruct (Hg2 k Hk) as [_ [s2 [Hs2 [Ha2 Hb2]]]].
  assert (Hne : ref <> []) by (intros ->; exact Hin).
  rewrite !map_map, !(nth_map_lt _ _ k 0%nat 0%nat), seq_nth by (rewrite ?seq_length; lia).
  cbn [Nat.add].
  rewrite (first_node_offset kv1 p1 ref grid k s1), (first_node_offset kv2 p2 ref grid k s2) by assumption.
  split; eapply cell_scattered_val; try eassumption; lia.
Qed.

(* C02's range sums are sums over seq *)
Lemma c02_sumf_seq (f : nat -> Qc) : forall n a, Proofs_ref.sumf f a n = sumf f (seq a n).
Proof. induction n as [|n IH]; intros a; [reflexivity|]. cbn [Proofs_ref.sumf seq]. rewrite sumf_cons, IH. reflexivity. Qed.
