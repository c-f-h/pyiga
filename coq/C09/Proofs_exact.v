(* C09 -- the Cox-de Boor functions are polynomials on every open knot span: explicit coefficient
   lists built by the same recursions (nref_poly, dnref_poly); the quadrature sum over one cell is
   the half-width times the reference rule applied to the pulled-back product polynomial (cell_sum2).
   From these Props.v derives that every entry of the assembled 1D matrix is the sum over the spans
   of the exactly integrated product polynomial, up to the defect of the Gauss table. *)
From Coq Require Import QArith Qcanon List Lia.
From Verif.lib Require Import Bsp.
From Verif.C02 Require Import Proofs.
From Verif.C09 Require Import Model Proofs Proofs_entry Poly.
Import ListNotations.
Open Scope Qc_scope.

(* N_{i,p} restricted to the open span (t_s, t_{s+1}): the Cox-de Boor recursion on polynomials *)
Fixpoint nref_poly (kv : list Qc) (p i s : nat) : list Qc :=
  match p with
  | O => if Nat.eqb i s then [1] else []
  | S q =>
      let d1 := kn kv (i + p) - kn kv i in
      let d2 := kn kv (i + p + 1) - kn kv (i + 1) in
      padd (pmul_lin (- kn kv i / d1) (1 / d1) (nref_poly kv q i s))
           (pmul_lin (kn kv (i + p + 1) / d2) (- (1) / d2) (nref_poly kv q (S i) s))
  end.

(* the k-th derivative: the derivative recursion (dNref) on polynomials *)
Fixpoint dnref_poly (kv : list Qc) (k p i s : nat) : list Qc :=
  match k with
  | O => nref_poly kv p i s
  | S k' =>
      match p with
      | O => []
      | S q =>
          pscale (Zq (Z.of_nat p))
            (padd (pscale (/ (kn kv (i + p) - kn kv i)) (dnref_poly kv k' q i s))
                  (pscale (- / (kn kv (i + p + 1) - kn kv (i + 1))) (dnref_poly kv k' q (S i) s)))
      end
  end.

(* on the open span s only the degree-0 function number s is switched on *)
Lemma in_span_open kv s u i :
  sorted kv -> (S s < length kv)%nat -> (S i < length kv)%nat -> kn kv s < u -> u < kn kv (S s) ->
  in_span kv i u = Nat.eqb i s.
Proof.
  intros Hs Hl Hi L U. unfold in_span.
  assert (Hlast : qeqb u (kn kv (length kv - 1)) = false).
  { destruct (qeqb u (kn kv (length kv - 1))) eqn:E; [|reflexivity]. apply qeqb_iff in E. exfalso.
    apply (Qclt_not_le _ _ U). rewrite E. apply Hs; lia. }
  rewrite Hlast. cbn [andb]. rewrite orb_false_r.
  destruct (Nat.eqb_spec i s) as [->|Hne].
  - apply andb_true_iff. split; [apply qleb_iff; apply Qclt_le_weak; exact L|apply qltb_iff; exact U].
  - apply andb_false_iff.
    destruct (Nat.lt_ge_cases i s) as [Hlt|Hge].
    + right. apply qltb_false_iff. eapply Qcle_trans; [apply (Hs (S i) s); lia|]. apply Qclt_le_weak. exact L.
    + left. apply qleb_false_iff. eapply Qclt_le_trans; [exact U|]. apply Hs; lia.
Qed.

Lemma nref_poly_eval kv s u : sorted kv -> (S s < length kv)%nat -> kn kv s < u -> u < kn kv (S s) ->
  forall p i, (i + p + 1 < length kv)%nat -> Nref kv p i u = peval (nref_poly kv p i s) u.
Proof.
  intros Hs Hl L U. induction p as [|q IH]; intros i Hi.
  - cbn [Nref nref_poly]. rewrite (in_span_open kv s u i Hs Hl ltac:(lia) L U).
    destruct (Nat.eqb i s); cbn [peval]; ring.
  - cbn [Nref nref_poly]. rewrite peval_padd, !peval_pmul_lin.
    rewrite <- (IH i) by lia. rewrite <- (IH (S i)) by lia. unfold Qcdiv. ring.
Qed.

Lemma nref_poly_length kv s : forall p i, (length (nref_poly kv p i s) <= p + 1)%nat.
Proof.
  induction p as [|q IH]; intros i; cbn [nref_poly].
  - destruct (Nat.eqb i s); cbn; lia.
  - rewrite length_padd, !length_pmul_lin. pose proof (IH i). pose proof (IH (S i)).
    destruct (nref_poly kv q i s), (nref_poly kv q (S i) s); cbn [length] in *; lia.
Qed.

Lemma dnref_poly_eval kv s u : sorted kv -> (S s < length kv)%nat -> kn kv s < u -> u < kn kv (S s) ->
  forall k p i, (i + p + 1 < length kv)%nat -> dNref kv k p i u = peval (dnref_poly kv k p i s) u.
Proof.
  intros Hs Hl L U. induction k as [|k IH]; intros p i Hi.
  - cbn [dNref dnref_poly]. apply nref_poly_eval; assumption.
  - destruct p as [|q]; cbn [dNref dnref_poly]; [reflexivity|].
    rewrite peval_pscale, peval_padd, !peval_pscale.
    rewrite <- (IH q i) by lia. rewrite <- (IH q (S i)) by lia. unfold Qcdiv. ring.
Qed.

Lemma dnref_poly_length kv s : forall k p i, (length (dnref_poly kv k p i s) <= p - k + 1)%nat.
Proof.
  induction k as [|k IH]; intros p i.
  - cbn [dnref_poly]. pose proof (nref_poly_length kv s p i). lia.
  - destruct p as [|q]; cbn [dnref_poly]; [cbn; lia|].
    rewrite length_pscale, length_padd, !length_pscale.
    pose proof (IH q i). pose proof (IH q (S i)). lia.
Qed.

(* the product polynomial of an entry on span s, and its pull-back to the reference cell [-1,1] *)

Definition span_poly (kv : list Qc) (p du dv i j s : nat) : list Qc :=
  pmul (dnref_poly kv dv p i s) (dnref_poly kv du p j s).
Definition span_half (kv : list Qc) (s : nat) : Qc := half * (kn kv (S s) - kn kv s).
Definition span_mid (kv : list Qc) (s : nat) : Qc := half * (kn kv s + kn kv (S s)).
Definition cell_poly (kv : list Qc) (p du dv i j s : nat) : list Qc :=
  pcomp (span_poly kv p du dv i j s) (span_mid kv s) (span_half kv s).

(* the two-space routine: a grid cell (a,b) inside span s1 of kv1 (trial) and span s2 of kv2 (test) *)
Definition cell_poly2 (kv1 : list Qc) (p1 : nat) (kv2 : list Qc) (p2 du dv i j s1 s2 : nat) (a b : Qc) : list Qc :=
  pcomp (pmul (dnref_poly kv2 dv p2 i s2) (dnref_poly kv1 du p1 j s1)) (half * (a + b)) (half * (b - a)).

(* one space: the cell is the whole span *)
Lemma cell_poly_eq kv p du dv i j s :
  cell_poly kv p du dv i j s = cell_poly2 kv p kv p du dv i j s s (kn kv s) (kn kv (S s)).
Proof. reflexivity. Qed.

Lemma cell_poly2_length kv1 p1 kv2 p2 du dv i j s1 s2 a b : (du <= p1)%nat -> (dv <= p2)%nat ->
  (length (cell_poly2 kv1 p1 kv2 p2 du dv i j s1 s2 a b) <= p1 + p2 - du - dv + 1)%nat.
Proof.
  intros Hu Hv. unfold cell_poly2.
  pose proof (length_pcomp (pmul (dnref_poly kv2 dv p2 i s2) (dnref_poly kv1 du p1 j s1)) (half * (a + b)) (half * (b - a))).
  pose proof (length_pmul (dnref_poly kv2 dv p2 i s2) (dnref_poly kv1 du p1 j s1)).
  pose proof (dnref_poly_length kv2 s2 dv p2 i). pose proof (dnref_poly_length kv1 s1 du p1 j). lia.
Qed.

(* the quadrature sum over one cell = half-width * the reference rule applied to the cell polynomial *)
Lemma cell_sum2 kv1 p1 kv2 p2 du dv i j s1 s2 a b ref :
  sorted kv1 -> sorted kv2 -> a < b ->
  (S s1 < length kv1)%nat -> kn kv1 s1 <= a -> b <= kn kv1 (S s1) ->
  (S s2 < length kv2)%nat -> kn kv2 s2 <= a -> b <= kn kv2 (S s2) ->
  (forall xw, In xw ref -> - (1) < fst xw /\ fst xw < 1) ->
  (i + p2 + 1 < length kv2)%nat -> (j + p1 + 1 < length kv1)%nat ->
  sumf (fun xw => snd xw * (dNref kv2 dv p2 i (fst xw) * dNref kv1 du p1 j (fst xw))) (gauss_cell ref a b)
  = half * (b - a) * sumf (fun xw => snd xw * peval (cell_poly2 kv1 p1 kv2 p2 du dv i j s1 s2 a b) (fst xw)) ref.
Proof.
  intros Hs1 Hs2 Hab Hl1 A1 B1 Hl2 A2 B2 Href Hi Hj. unfold gauss_cell. rewrite sumf_map. cbn [fst snd].
  rewrite <- sumf_scal. apply sumf_ext. intros [xi w] Hin. cbn [fst snd].
  destruct (Href _ Hin) as [H1 H2]. cbn [fst] in H1, H2.
  destruct (node_inside a b xi Hab H1 H2) as [L U]. cbv zeta in L, U.
  set (x := half * (b - a) * xi + half * (a + b)) in *.
  rewrite (dnref_poly_eval kv2 s2 x Hs2 Hl2 (Qcle_lt_trans _ _ _ A2 L) (Qclt_le_trans _ _ _ U B2) dv p2 i Hi).
  rewrite (dnref_poly_eval kv1 s1 x Hs1 Hl1 (Qcle_lt_trans _ _ _ A1 L) (Qclt_le_trans _ _ _ U B1) du p1 j Hj).
  unfold cell_poly2. rewrite peval_pcomp, peval_pmul.
  replace (half * (a + b) + half * (b - a) * xi) with x by (unfold x; ring).
  ring.
Qed.

(* explicit-witness form of grid_refines: spans[k] is the knot span containing grid cell k *)
Definition grid_in_spans (kv : list Qc) (grid : list Qc) (spans : list nat) : Prop :=
  forall k, (S k < length grid)%nat ->
    nth k grid 0 < nth (S k) grid 0 /\ (S (nth k spans 0%nat) < length kv)%nat /\
    kn kv (nth k spans 0%nat) <= nth k grid 0 /\ nth (S k) grid 0 <= kn kv (S (nth k spans 0%nat)).

Lemma grid_in_spans_refines kv grid spans : grid_in_spans kv grid spans -> grid_refines kv grid.
Proof.
  intros H k Hk. destruct (H k Hk) as [A [B [C D]]]. split; [exact A|]. exists (nth k spans 0%nat). auto.
Qed.
