(* C09 -- property theorems only, each followed by Print Assumptions.

   Reading guide.  A "Gram matrix" is  G[i,j] = sum_{x in pts} w(x) * U_i(x) * V_j(x)  for an
   arbitrary finite list of points [pts] (1D Gauss nodes, tensor-product nodes, ...), an
   arbitrary weight [w] (quadrature weight x weight function x |det J|) and arbitrary families
   of functions U, V (B-splines or their derivatives, evaluated by any means).  Every matrix
   the 1D routines, the Kronecker paths and the generic assemblers of pyiga produce for mass /
   stiffness / mixed-derivative forms is such a matrix (model: C09/Model.v, theorem
   biform_1d_entry below; tie: harness/props/c09.py). *)
From Coq Require Import QArith Qcanon Qcabs List Arith.
From Coq Require Import Lia.
From Verif.lib Require Import Bsp QcFacts ListFacts.
From Verif.C02 Require Import Proofs.
From Verif.C02 Require Proofs_ref Proofs_deriv.
From Verif.C09 Require Import Model Proofs Proofs_entry Poly Proofs_exact.
Import ListNotations.
Open Scope Qc_scope.

(* Symmetry: trial = test functions => G is symmetric (any rule, any weight). *)
Theorem gram_sym : forall (P : Type) (pts : list P) (w : P -> Qc) (U : P -> nat -> Qc) i j,
  gram pts w U U i j = gram pts w U U j i.
Proof. intros. unfold gram. apply sumf_ext. intros. ring. Qed.
Print Assumptions gram_sym.

(* mass_sym_psd: c^T G c is the weighted sum of squares of the function sum_i c_i U_i at the
   quadrature points; hence >= 0 for non-negative weights (mass AND stiffness: U may be a
   derivative, or one component of a gradient). *)
Theorem gram_quadratic_form : forall (P : Type) (pts : list P) (w : P -> Qc) (U : P -> nat -> Qc)
  (I : list nat) (c : nat -> Qc),
  bsum I (fun i => bsum I (fun j => c i * gram pts w U U i j * c j)) =
  sumf (fun x => w x * (bsum I (fun i => c i * U x i) * bsum I (fun i => c i * U x i))) pts.
Proof. intros. apply gram_bilinear. Qed.
Print Assumptions gram_quadratic_form.

Theorem gram_psd : forall (P : Type) (pts : list P) (w : P -> Qc) (U : P -> nat -> Qc)
  (I : list nat) (c : nat -> Qc),
  (forall x, In x pts -> 0 <= w x) ->
  0 <= bsum I (fun i => bsum I (fun j => c i * gram pts w U U i j * c j)).
Proof.
  intros P pts w U I c Hw. rewrite gram_quadratic_form. apply sumf_nonneg. intros x Hx.
  apply Qcmult_nonneg; [apply Hw; exact Hx|apply Qcsq_nonneg].
Qed.
Print Assumptions gram_psd.

(* mass_sum: if the basis functions sum to one at every quadrature point (partition of unity,
   C02), the entries of the mass matrix sum to the sum of the weights -- which is the measure
   of the (mapped) domain when w = quadrature weight x |det J| is integrated exactly. *)
Theorem mass_sum : forall (P : Type) (pts : list P) (w : P -> Qc) (U V : P -> nat -> Qc) (I J : list nat),
  (forall x, In x pts -> bsum I (U x) = 1) -> (forall x, In x pts -> bsum J (V x) = 1) ->
  bsum I (fun i => bsum J (fun j => gram pts w U V i j)) = sumf w pts.
Proof.
  intros P pts w U V I J HU HV.
  transitivity (bsum I (fun i => bsum J (fun j => 1 * gram pts w U V i j * 1))).
  { apply sumf_ext. intros i _. apply sumf_ext. intros j _. ring. }
  rewrite gram_bilinear. apply sumf_ext. intros x Hx.
  transitivity (w x * (bsum I (U x) * bsum J (V x))).
  { unfold bsum. f_equal. f_equal; apply sumf_ext; intros; ring. }
  rewrite HU, HV by exact Hx. ring.
Qed.
Print Assumptions mass_sum.

(* ... and the sum of the weights of the iterated Gauss rule built by quadrature.py over a mesh
   a = m_0, m_1, ..., m_n is m_n - a, for ANY reference rule whose weights sum to 2. *)
Theorem iterated_weights_sum : forall ref a msh, sumf snd ref = Q2Qc (2 # 1) ->
  sumf snd (iterated ref (a :: msh)) = last (a :: msh) a - a.
Proof. intros ref a msh H. rewrite (cells_weights ref H). apply (cells_telescope a). Qed.
Print Assumptions iterated_weights_sum.

(* stiff_kernel_const: if the trial-side functions (derivatives of B-splines) sum to zero at
   every quadrature point, every row sums to zero: constants are in the kernel, K 1 = 0. *)
Theorem stiff_kernel_const : forall (P : Type) (pts : list P) (w : P -> Qc) (U V : P -> nat -> Qc)
  (J : list nat) i,
  (forall x, In x pts -> bsum J (V x) = 0) -> bsum J (fun j => gram pts w U V i j) = 0.
Proof.
  intros P pts w U V J i HV. unfold gram. unfold bsum at 1. rewrite sumf_swap.
  apply sumf_all_zero. intros x Hx.
  transitivity (w x * U x i * bsum J (V x)).
  { unfold bsum. rewrite <- sumf_scal. apply sumf_ext. intros. ring. }
  rewrite HV by exact Hx. ring.
Qed.
Print Assumptions stiff_kernel_const.

(* kron_factorisation: with a tensor-product rule and tensor-product basis functions the Gram
   entry factorises into the 1D Gram entries: generic path (same rule) = Kronecker path. *)
Theorem kron_factorisation_2d : forall (A B : Type) (P1 : list A) (P2 : list B)
  (w1 u1 v1 : A -> Qc) (w2 u2 v2 : B -> Qc),
  sumf (fun a => sumf (fun b => (w1 a * w2 b) * ((u1 a * u2 b) * (v1 a * v2 b))) P2) P1
  = sumf (fun a => w1 a * (u1 a * v1 a)) P1 * sumf (fun b => w2 b * (u2 b * v2 b)) P2.
Proof.
  intros. rewrite sumf_mul. apply sumf_ext. intros a _. apply sumf_ext. intros b _. ring.
Qed.
Print Assumptions kron_factorisation_2d.

Theorem kron_factorisation_3d : forall (A B C : Type) (P1 : list A) (P2 : list B) (P3 : list C)
  (w1 u1 v1 : A -> Qc) (w2 u2 v2 : B -> Qc) (w3 u3 v3 : C -> Qc),
  sumf (fun a => sumf (fun b => sumf (fun c =>
     (w1 a * w2 b * w3 c) * ((u1 a * u2 b * u3 c) * (v1 a * v2 b * v3 c))) P3) P2) P1
  = sumf (fun a => w1 a * (u1 a * v1 a)) P1 * sumf (fun b => w2 b * (u2 b * v2 b)) P2
    * sumf (fun c => w3 c * (u3 c * v3 c)) P3.
Proof.
  intros. rewrite <- Qcmult_assoc, <- kron_factorisation_2d, sumf_mul.
  apply sumf_ext. intros a _. apply sumf_ext. intros b _. rewrite <- sumf_scal.
  apply sumf_ext. intros c _. ring.
Qed.
Print Assumptions kron_factorisation_3d.

(* layout of scipy.sparse.kron as modelled (Model.kron): entry (i1*nB + i2, j1*mB + j2) of
   kron(A,B) is A[i1,j1]*B[i2,j2]; together with kron_factorisation_2d/3d: the Kronecker path
   places the products of the 1D Gram entries where the tensor-product numbering (C order,
   last direction fastest) expects them. *)
Theorem kron_get : forall (A B : list (list Qc)) mB i1 i2 j1 j2,
  (forall rb, In rb B -> length rb = mB) ->
  (i1 < length A)%nat -> (i2 < length B)%nat -> (j1 < length (nth i1 A []))%nat -> (j2 < mB)%nat ->
  mget (kron A B) (i1 * length B + i2) (j1 * mB + j2) = mget A i1 j1 * mget B i2 j2.
Proof.
  intros A B mB i1 i2 j1 j2 HB Hi1 Hi2 Hj1 Hj2. unfold mget, kron.
  assert (Hrb : length (nth i2 B []) = mB) by (apply HB, nth_In, Hi2).
  rewrite (nth_flat_map_uniform _ (length B) [] [] A i1 i2); [|intros; apply map_length|exact Hi1|exact Hi2].
  rewrite (nth_map_lt _ B i2 [] []) by exact Hi2.
  rewrite (nth_flat_map_uniform _ mB 0 0 (nth i1 A []) j1 j2);
    [|intros; rewrite map_length; exact Hrb|exact Hj1|exact Hj2].
  apply nth_map_lt. rewrite Hrb. exact Hj2.
Qed.
Print Assumptions kron_get.

(* the Laplace integrand grad u . grad v: K1 (x) M2 + M1 (x) K2  (bsp_stiffness_2d) *)
Theorem kron_stiffness_2d : forall (A B : Type) (P1 : list A) (P2 : list B)
  (w1 u1 v1 du1 dv1 : A -> Qc) (w2 u2 v2 du2 dv2 : B -> Qc),
  sumf (fun a => sumf (fun b =>
     (w1 a * w2 b) * ((du1 a * u2 b) * (dv1 a * v2 b) + (u1 a * du2 b) * (v1 a * dv2 b))) P2) P1
  = sumf (fun a => w1 a * (du1 a * dv1 a)) P1 * sumf (fun b => w2 b * (u2 b * v2 b)) P2
  + sumf (fun a => w1 a * (u1 a * v1 a)) P1 * sumf (fun b => w2 b * (du2 b * dv2 b)) P2.
Proof.
  intros. rewrite <- !kron_factorisation_2d, <- sumf_plus. apply sumf_ext. intros a _.
  rewrite <- sumf_plus. apply sumf_ext. intros b _. ring.
Qed.
Print Assumptions kron_stiffness_2d.

(* K0 (x) (M1 (x) M2) + M0 (x) (K1 (x) M2 + M1 (x) K2)  (bsp_stiffness_3d) *)
Theorem kron_stiffness_3d : forall (A B C : Type) (P1 : list A) (P2 : list B) (P3 : list C)
  (w1 u1 v1 du1 dv1 : A -> Qc) (w2 u2 v2 du2 dv2 : B -> Qc) (w3 u3 v3 du3 dv3 : C -> Qc),
  let G1 f g := sumf (fun a => w1 a * (f a * g a)) P1 in
  let G2 f g := sumf (fun b => w2 b * (f b * g b)) P2 in
  let G3 f g := sumf (fun c => w3 c * (f c * g c)) P3 in
  sumf (fun a => sumf (fun b => sumf (fun c =>
     (w1 a * w2 b * w3 c) *
       ((du1 a * u2 b * u3 c) * (dv1 a * v2 b * v3 c)
        + (u1 a * du2 b * u3 c) * (v1 a * dv2 b * v3 c)
        + (u1 a * u2 b * du3 c) * (v1 a * v2 b * dv3 c))) P3) P2) P1
  = G1 du1 dv1 * (G2 u2 v2 * G3 u3 v3)
    + G1 u1 v1 * (G2 du2 dv2 * G3 u3 v3 + G2 u2 v2 * G3 du3 dv3).
Proof.
  intros A B C P1 P2 P3 w1 u1 v1 du1 dv1 w2 u2 v2 du2 dv2 w3 u3 v3 du3 dv3 G1 G2 G3. unfold G1, G2, G3.
  rewrite Qcmult_plus_distr_r, !Qcmult_assoc, <- !kron_factorisation_3d, <- !sumf_plus.
  apply sumf_ext. intros a _. rewrite <- !sumf_plus. apply sumf_ext. intros b _.
  rewrite <- !sumf_plus. apply sumf_ext. intros c _. ring.
Qed.
Print Assumptions kron_stiffness_3d.

(* A rule that integrates the monomials x^k..x^(k+n-1) with defect <= eps integrates
   x^k * (c_0 + c_1 x + ... ) with defect <= eps * sum |c_i|  (linearity; the monomial
   defects of numpy's tables are checked at run time: gen/C09_leggauss.v). *)
Theorem quad_poly_defect : forall r eps c k,
  (forall i, (k <= i < k + length c)%nat -> Qcabs (rule_moment r i - moment_exact i) <= eps) ->
  Qcabs (sumf (fun xw => snd xw * (qpow (fst xw) k * peval c (fst xw))) r - pint k c) <= eps * l1norm c.
Proof. exact quad_poly_defect_l. Qed.
Print Assumptions quad_poly_defect.

(* det2_3_spec / inv2_3_spec: the closed forms of assemble_tools_cy.pyx are two-sided inverses
   and multiplicative determinants, for all matrices with non-zero determinant. *)
Theorem inv2_right : forall a b c d, det2 a b c d <> 0 ->
  let Y := inv2 a b c d in
  a * mget Y 0 0 + b * mget Y 1 0 = 1 /\ a * mget Y 0 1 + b * mget Y 1 1 = 0 /\
  c * mget Y 0 0 + d * mget Y 1 0 = 0 /\ c * mget Y 0 1 + d * mget Y 1 1 = 1.
Proof. unfold det2. intros a b c d H. cbn. repeat split; field; exact H. Qed.
Print Assumptions inv2_right.

Theorem inv2_left : forall a b c d, det2 a b c d <> 0 ->
  let Y := inv2 a b c d in
  mget Y 0 0 * a + mget Y 0 1 * c = 1 /\ mget Y 0 0 * b + mget Y 0 1 * d = 0 /\
  mget Y 1 0 * a + mget Y 1 1 * c = 0 /\ mget Y 1 0 * b + mget Y 1 1 * d = 1.
Proof. unfold det2. intros a b c d H. cbn. repeat split; field; exact H. Qed.
Print Assumptions inv2_left.

Theorem det2_mul : forall a b c d a' b' c' d',
  det2 (a * a' + b * c') (a * b' + b * d') (c * a' + d * c') (c * b' + d * d') = det2 a b c d * det2 a' b' c' d'.
Proof. intros. unfold det2. ring. Qed.
Print Assumptions det2_mul.

Theorem inv3_right : forall x00 x01 x02 x10 x11 x12 x20 x21 x22,
  det3 x00 x01 x02 x10 x11 x12 x20 x21 x22 <> 0 ->
  forall i j, (i < 3)%nat -> (j < 3)%nat ->
  mm3 [[x00; x01; x02]; [x10; x11; x12]; [x20; x21; x22]] (inv3 x00 x01 x02 x10 x11 x12 x20 x21 x22) i j = delta i j.
Proof.
  intros x00 x01 x02 x10 x11 x12 x20 x21 x22 H i j Hi Hj. unfold inv3.
  set (v := 1 / det3 x00 x01 x02 x10 x11 x12 x20 x21 x22).
  assert (Hv : det3 x00 x01 x02 x10 x11 x12 x20 x21 x22 * v = 1) by (unfold v; field; exact H).
  (* X * adj X = det X * I entry by entry (ring), and det X * v = 1 *)
  destruct i as [|[|[|i]]]; try lia; destruct j as [|[|[|j]]]; try lia;
    unfold mm3, delta, mget; cbn [nth Nat.eqb]; rewrite <- ?Hv; unfold det3; ring.
Qed.
Print Assumptions inv3_right.

Theorem inv3_left : forall x00 x01 x02 x10 x11 x12 x20 x21 x22,
  det3 x00 x01 x02 x10 x11 x12 x20 x21 x22 <> 0 ->
  forall i j, (i < 3)%nat -> (j < 3)%nat ->
  mm3 (inv3 x00 x01 x02 x10 x11 x12 x20 x21 x22) [[x00; x01; x02]; [x10; x11; x12]; [x20; x21; x22]] i j = delta i j.
Proof.
  intros x00 x01 x02 x10 x11 x12 x20 x21 x22 H i j Hi Hj. unfold inv3.
  set (v := 1 / det3 x00 x01 x02 x10 x11 x12 x20 x21 x22).
  assert (Hv : det3 x00 x01 x02 x10 x11 x12 x20 x21 x22 * v = 1) by (unfold v; field; exact H).
  (* adj X * X = det X * I entry by entry (ring), and det X * v = 1 *)
  destruct i as [|[|[|i]]]; try lia; destruct j as [|[|[|j]]]; try lia;
    unfold mm3, delta, mget; cbn [nth Nat.eqb]; rewrite <- ?Hv; unfold det3; ring.
Qed.
Print Assumptions inv3_left.

Theorem det3_mul : forall a00 a01 a02 a10 a11 a12 a20 a21 a22 b00 b01 b02 b10 b11 b12 b20 b21 b22,
  det3 (a00*b00+a01*b10+a02*b20) (a00*b01+a01*b11+a02*b21) (a00*b02+a01*b12+a02*b22)
       (a10*b00+a11*b10+a12*b20) (a10*b01+a11*b11+a12*b21) (a10*b02+a11*b12+a12*b22)
       (a20*b00+a21*b10+a22*b20) (a20*b01+a21*b11+a22*b21) (a20*b02+a21*b12+a22*b22)
  = det3 a00 a01 a02 a10 a11 a12 a20 a21 a22 * det3 b00 b01 b02 b10 b11 b12 b20 b21 b22.
Proof. intros. unfold det3. ring. Qed.
Print Assumptions det3_mul.

Theorem det3_triangular : forall a b c d e f, det3 a b c 0 d e 0 0 f = a * d * f.
Proof. intros. unfold det3. ring. Qed.
Print Assumptions det3_triangular.

(* KnotVector.mesh / mesh_span_indices: the k-th mesh cell is the k-th non-empty knot span,
   for every list of knots (no monotonicity needed for this fact). *)
Theorem mesh_span_cells : forall kv k,
  (k < length (span_indices kv))%nat ->
  let s := nth k (span_indices kv) 0%nat in
  nth k (mesh kv) 0 = nth s kv 0 /\ nth (S k) (mesh kv) 0 = nth (S s) kv 0 /\
  nth s kv 0 <> nth (S s) kv 0 /\ (S s < length kv)%nat.
Proof.
  intros kv k H. destruct (mesh_span_from kv 0 k H) as [H1 [H2 [H3 [H4 _]]]].
  cbn zeta in *. rewrite Nat.sub_0_r in *. repeat split; assumption.
Qed.
Print Assumptions mesh_span_cells.

Theorem numspans_spans : forall kv, kv <> [] -> numspans kv = length (span_indices kv).
Proof. intros kv H. unfold numspans, span_indices. rewrite (length_mesh_spans kv 0 H). cbn. apply Nat.sub_0_r. Qed.
Print Assumptions numspans_spans.

(* first_active_correct ("the first-active index arithmetic is right for every knot
   configuration"): for every open knot vector (any multiplicities, any degree), every reference
   rule with nodes strictly inside (-1,1) and every mesh cell k, every quadrature node of the
   cell is located by pyx_findspan in the span mesh_span_indices[k], i.e. the row/column offset
   first_active(mesh_span_indices[k]) used by _create_coo_1d_from_kv is the index of the first
   function that bspline.active_deriv evaluates at that node. *)
Theorem first_active_correct : forall kv p ref k x w,
  kv_ok kv p ->
  (forall xw, In xw ref -> - (1) < fst xw /\ fst xw < 1) ->
  (k < numspans kv)%nat ->
  In (x, w) (gauss_cell ref (nth k (mesh kv) 0) (nth (S k) (mesh kv) 0)) ->
  findspan kv p x = nth k (span_indices kv) 0%nat /\
  first_active_at kv p x = first_active p (nth k (span_indices kv) 0%nat).
Proof.
  intros kv p ref k x w Hok Href Hk Hin.
  destruct (mesh_cell_span kv p k Hok Hk) as [M1 [M2 [L Hs]]]. cbn zeta in *. rewrite M1, M2 in Hin.
  destruct (node_in_span kv p _ _ _ ref x w Hok Hs (Qcle_refl _) L (Qcle_refl _) Href Hin) as [Hf _].
  split; [exact Hf|]. unfold first_active_at, first_active. rewrite Hf. reflexivity.
Qed.
Print Assumptions first_active_correct.

(* two-space routine (bsp_mixed_deriv_biform_1d_asym): on a quadrature cell (a,b) that lies
   inside one knot span s of a knot vector -- i.e. the quadrature grid refines its mesh --
   first_active_at of the first node of the cell is valid for every node of the cell. *)
Theorem asym_first_active : forall kv p s a b ref x w x0 w0,
  kv_ok kv p -> (S s < length kv)%nat -> kn kv s <= a -> a < b -> b <= kn kv (S s) ->
  (forall xw, In xw ref -> - (1) < fst xw /\ fst xw < 1) ->
  In (x0, w0) (gauss_cell ref a b) -> In (x, w) (gauss_cell ref a b) ->
  first_active_at kv p x = first_active_at kv p x0 /\ first_active_at kv p x = (s - p)%nat.
Proof.
  intros kv p s a b ref x w x0 w0 Hok Hs Ha Hab Hb Href H0 H1. unfold first_active_at.
  rewrite (proj1 (node_in_span kv p s a b ref x w Hok Hs Ha Hab Hb Href H1)).
  rewrite (proj1 (node_in_span kv p s a b ref x0 w0 Hok Hs Ha Hab Hb Href H0)). split; reflexivity.
Qed.
Print Assumptions asym_first_active.

(* biform_1d_entry: the matrix assembled by bsp_mixed_deriv_biform_1d -- element matrices of the
   values bspline.active_deriv returns at the Gauss nodes, flattened, scattered as COO triplets
   with the offsets first_active(mesh_span_indices), duplicates summed by tocsr() -- has as entry
   (i,j) the sum over all spans and nodes of  weight * N_i^(dv)(x) * N_j^(du)(x)  with N^(k) the
   Cox-de Boor reference derivative (dNref), for EVERY kv_ok knot vector (any multiplicities),
   degree, derivative orders, reference rule with nodes in (-1,1) and weight function.
   wgt wf (x,w) = w (no weight function) or w * f(x). *)
Theorem biform_1d_entry : forall kv p du dv ref wf i j,
  kv_ok kv p -> (forall xw, In xw ref -> - (1) < fst xw /\ fst xw < 1) ->
  (i < numdofs kv p)%nat -> (j < numdofs kv p)%nat ->
  let coo := biform_1d_coo kv p du dv ref wf in
  coo_get (fst coo) (snd coo) i j
  = sumf (fun xw => wgt wf xw * (dNref kv dv p i (fst xw) * dNref kv du p j (fst xw))) (iterated ref (mesh kv)).
Proof. exact entry1d_gram. Qed.
Print Assumptions biform_1d_entry.

(* the same with the dense collocation rows (Model.gram_ref), and the access to the dense result *)
Theorem biform_1d_entry_colloc : forall kv p du dv ref wf i j,
  kv_ok kv p -> (forall xw, In xw ref -> - (1) < fst xw /\ fst xw < 1) ->
  (i < numdofs kv p)%nat -> (j < numdofs kv p)%nat ->
  entry1d kv p du dv ref wf i j
  = gram_ref kv p kv p du dv (map (fun xw => (fst xw, wgt wf xw)) (iterated ref (mesh kv))) i j.
Proof.
  intros kv p du dv ref wf i j Hok Href Hi Hj. rewrite entry1d_gram by assumption.
  unfold gram, gram_ref. rewrite sumf_map. apply sumf_ext. intros xw Hx. cbn [fst snd].
  destruct (iterated_nodes_domain kv p ref xw Hok Href Hx) as [H0 H1].
  rewrite !Proofs_deriv.colloc_row_derivs_l by assumption. reflexivity.
Qed.
Print Assumptions biform_1d_entry_colloc.

Theorem coo_dense_entry : forall IJ data i j,
  (i < fst (coo_shape IJ))%nat -> (j < snd (coo_shape IJ))%nat ->
  mget (coo_dense IJ data) i j = coo_get IJ data i j.
Proof.
  intros IJ data i j. unfold coo_dense, mget. destruct (coo_shape IJ) as [nr nc]. cbn [fst snd]. intros Hi Hj.
  rewrite (nth_map_lt _ _ i [] 0%nat), (nth_map_lt _ _ j 0 0%nat), !seq_nth by (rewrite ?seq_length; assumption).
  reflexivity.
Qed.
Print Assumptions coo_dense_entry.

(* biform_asym_entry: two knot vectors (trial kv1 / columns / du, test kv2 / rows / dv) on a
   quadrature grid that refines both meshes (every grid cell non-degenerate and inside one knot
   span of each): the first-active offsets taken at the FIRST node of each cell are right. *)
Theorem biform_asym_entry : forall kv1 p1 kv2 p2 du dv grid ref i j,
  kv_ok kv1 p1 -> kv_ok kv2 p2 -> (forall xw, In xw ref -> - (1) < fst xw /\ fst xw < 1) ->
  grid_refines kv1 grid -> grid_refines kv2 grid ->
  (i < numdofs kv2 p2)%nat -> (j < numdofs kv1 p1)%nat ->
  let coo := biform_asym_coo kv1 p1 kv2 p2 du dv grid ref in
  coo_get (fst coo) (snd coo) i j
  = sumf (fun xw => snd xw * (dNref kv2 dv p2 i (fst xw) * dNref kv1 du p1 j (fst xw))) (iterated ref grid).
Proof. exact asym_entry_gram. Qed.
Print Assumptions biform_asym_entry.

(* the default grid quadgrid = knotvec1.mesh refines knotvec1's own mesh *)
Theorem mesh_refines_itself : forall kv p, kv_ok kv p -> grid_refines kv (mesh kv).
Proof. exact mesh_refines_self. Qed.
Print Assumptions mesh_refines_itself.

(* Consequences for the ACTUAL B-spline matrices: the partition-of-unity / derivative-sum
   hypotheses of mass_sum and stiff_kernel_const are discharged by C02
   (N_partition_of_unity_all, dN_sum_zero_all). *)
Theorem mass_sum_bspline : forall kv p ref wf,
  kv_ok kv p -> (forall xw, In xw ref -> - (1) < fst xw /\ fst xw < 1) ->
  sumf (fun i => sumf (fun j => entry1d kv p 0 0 ref wf i j) (seq 0 (numdofs kv p))) (seq 0 (numdofs kv p))
  = sumf (wgt wf) (iterated ref (mesh kv)).
Proof.
  intros kv p ref wf Hok Href.
  etransitivity.
  { apply sumf_seq_ext. intros i Hi. apply sumf_seq_ext. intros j Hj. apply entry1d_gram; assumption. }
  apply mass_sum; intros xw Hx; destruct (iterated_nodes_domain kv p ref xw Hok Href Hx) as [H0 H1];
    unfold bsum; rewrite <- c02_sumf_seq; cbn [dNref]; apply Proofs_ref.N_partition_of_unity_all_l; assumption.
Qed.
Print Assumptions mass_sum_bspline.

(* unweighted, any reference rule whose weights sum to 2: sum of the entries = |domain| *)
Theorem mass_sum_domain : forall kv p ref,
  kv_ok kv p -> (forall xw, In xw ref -> - (1) < fst xw /\ fst xw < 1) -> sumf snd ref = Q2Qc (2 # 1) ->
  sumf (fun i => sumf (fun j => entry1d kv p 0 0 ref None i j) (seq 0 (numdofs kv p))) (seq 0 (numdofs kv p))
  = kn kv (length kv - 1) - kn kv 0.
Proof.
  intros kv p ref Hok Href H2. rewrite mass_sum_bspline by assumption.
  change (wgt None) with (@snd Qc Qc).
  rewrite (cells_weights ref H2), (cells_telescope 0), mesh_last, last_nth_len.
  destruct kv as [|a t]; [reflexivity|]. rewrite mesh_head. reflexivity.
Qed.
Print Assumptions mass_sum_domain.

(* a derivative of order >= 1 on the trial side (stiffness: du = dv = 1): K * 1 = 0 *)
Theorem stiff_kernel_bspline : forall kv p du dv ref wf i,
  kv_ok kv p -> (forall xw, In xw ref -> - (1) < fst xw /\ fst xw < 1) ->
  (1 <= du)%nat -> (i < numdofs kv p)%nat ->
  sumf (fun j => entry1d kv p du dv ref wf i j) (seq 0 (numdofs kv p)) = 0.
Proof.
  intros kv p du dv ref wf i Hok Href Hdu Hi.
  etransitivity.
  { apply sumf_seq_ext. intros j Hj. apply entry1d_gram; assumption. }
  apply stiff_kernel_const. intros xw _. unfold bsum. rewrite <- c02_sumf_seq.
  apply Proofs_ref.dN_sum_zero_all_l; assumption.
Qed.
Print Assumptions stiff_kernel_bspline.

Theorem biform_1d_symmetric : forall kv p d ref wf i j,
  kv_ok kv p -> (forall xw, In xw ref -> - (1) < fst xw /\ fst xw < 1) ->
  (i < numdofs kv p)%nat -> (j < numdofs kv p)%nat ->
  entry1d kv p d d ref wf i j = entry1d kv p d d ref wf j i.
Proof. intros kv p d ref wf i j Hok Href Hi Hj. rewrite !entry1d_gram by assumption. apply gram_sym. Qed.
Print Assumptions biform_1d_symmetric.

Theorem biform_1d_psd : forall kv p d ref wf (c : nat -> Qc),
  kv_ok kv p -> (forall xw, In xw ref -> - (1) < fst xw /\ fst xw < 1) ->
  (forall xw, In xw (iterated ref (mesh kv)) -> 0 <= wgt wf xw) ->
  0 <= sumf (fun i => sumf (fun j => c i * entry1d kv p d d ref wf i j * c j) (seq 0 (numdofs kv p))) (seq 0 (numdofs kv p)).
Proof.
  intros kv p d ref wf c Hok Href Hw.
  erewrite sumf_seq_ext.
  2: { intros i Hi. apply sumf_seq_ext. intros j Hj. rewrite entry1d_gram by assumption. reflexivity. }
  apply gram_psd. exact Hw.
Qed.
Print Assumptions biform_1d_psd.

(* ... whose weight hypothesis holds without a weight function for non-negative reference weights *)
Theorem iterated_weights_nonneg : forall kv p ref xw,
  kv_ok kv p -> (forall xw, In xw ref -> 0 <= snd xw) ->
  In xw (iterated ref (mesh kv)) -> 0 <= snd xw.
Proof.
  intros kv p ref xw Hok Href. apply grid_weight_nonneg; [|exact Href].
  intros k Hk. apply (mesh_refines_self kv p Hok k Hk).
Qed.
Print Assumptions iterated_weights_nonneg.

(* The default number of nodes nqp = int(ceil((P - du - dv + 1)/2)) (P = 2p, resp. p1 + p2): the
   integrand N^(dv) N^(du) has degree P - du - dv on each span, a q-node Gauss rule is exact to
   degree 2q - 1: the default is >= 1, sufficient, and the least sufficient count. *)
Theorem nqp_default_suffices : forall P du dv, (du + dv <= P)%nat ->
  let q := Z.to_nat (nqp_default P du dv) in
  (P - du - dv <= 2 * q - 1)%nat /\ (1 <= q)%nat /\ (2 * (q - 1) - 1 < P - du - dv \/ q = 1)%nat.
Proof. exact nqp_default_suffices_l. Qed.
Print Assumptions nqp_default_suffices.

(* the run-time table check (rule_ok, gen/C09_leggauss) in the form quad_poly_defect consumes *)
Theorem rule_ok_moment_defects : forall eps n r, rule_ok eps n r = true ->
  forall i, (i < 2 * n)%nat -> Qcabs (rule_moment r i - moment_exact i) <= eps.
Proof. exact rule_ok_moments. Qed.
Print Assumptions rule_ok_moment_defects.

(* nqp exactness: a reference rule that passes the table check for the DEFAULT node count
   integrates every polynomial of the integrand's degree P - du - dv over [-1,1] with defect
   <= eps * (l1 norm of its coefficients); eps = 0 for an exact rule. *)
Theorem nqp_default_exact : forall P du dv eps r c, (du + dv <= P)%nat ->
  rule_ok eps (Z.to_nat (nqp_default P du dv)) r = true ->
  (length c <= P - du - dv + 1)%nat ->
  Qcabs (sumf (fun xw => snd xw * peval c (fst xw)) r - pint 0 c) <= eps * l1norm c.
Proof. exact nqp_default_exact_l. Qed.
Print Assumptions nqp_default_exact.

(* The Cox-de Boor functions are polynomials on every open knot span (Poly.v, Proofs_exact.v).
   nref_poly kv p i s / dnref_poly kv k p i s: explicit coefficient lists (c_0, c_1, ...) built by the
   Cox-de Boor / derivative recursions carried out on polynomials (multiplication by a linear factor,
   scaling, addition); peval = Horner evaluation. *)
Theorem nref_poly_spec : forall kv s u, sorted kv -> (S s < length kv)%nat -> kn kv s < u -> u < kn kv (S s) ->
  forall p i, (i + p + 1 < length kv)%nat -> Nref kv p i u = peval (nref_poly kv p i s) u.
Proof. exact nref_poly_eval. Qed.
Print Assumptions nref_poly_spec.

Theorem dnref_poly_spec : forall kv s u, sorted kv -> (S s < length kv)%nat -> kn kv s < u -> u < kn kv (S s) ->
  forall k p i, (i + p + 1 < length kv)%nat -> dNref kv k p i u = peval (dnref_poly kv k p i s) u.
Proof. exact dnref_poly_eval. Qed.
Print Assumptions dnref_poly_spec.

(* degree <= p - k (length = degree + 1) *)
Theorem dnref_poly_degree : forall kv s k p i, (length (dnref_poly kv k p i s) <= p - k + 1)%nat.
Proof. exact dnref_poly_length. Qed.
Print Assumptions dnref_poly_degree.

(* the polynomial operations mean what they say, and the product has the sum of the degrees *)
Theorem poly_mul_eval : forall a b x, peval (pmul a b) x = peval a x * peval b x.
Proof. exact peval_pmul. Qed.
Print Assumptions poly_mul_eval.
Theorem poly_mul_degree : forall a b, (length (pmul a b) <= length a + length b - 1)%nat.
Proof. exact length_pmul. Qed.
Print Assumptions poly_mul_degree.
Theorem poly_comp_eval : forall p m h x, peval (pcomp p m h) x = peval p (m + h * x).
Proof. exact peval_pcomp. Qed.
Print Assumptions poly_comp_eval.

(* the integrand N_i^(dv) N_j^(du) on span s IS the product polynomial, of degree <= 2p - du - dv
   after pull-back to the reference cell [-1,1] *)
Theorem span_product_polynomial : forall kv p du dv i j s u,
  sorted kv -> (S s < length kv)%nat -> kn kv s < u -> u < kn kv (S s) ->
  (i + p + 1 < length kv)%nat -> (j + p + 1 < length kv)%nat ->
  dNref kv dv p i u * dNref kv du p j u = peval (span_poly kv p du dv i j s) u.
Proof.
  intros kv p du dv i j s u Hs Hl L U Hi Hj. unfold span_poly. rewrite peval_pmul.
  rewrite <- !(dnref_poly_eval kv s u Hs Hl L U) by assumption. reflexivity.
Qed.
Print Assumptions span_product_polynomial.

Theorem cell_polynomial_degree : forall kv p du dv i j s, (du <= p)%nat -> (dv <= p)%nat ->
  (length (cell_poly kv p du dv i j s) <= 2 * p - du - dv + 1)%nat.
Proof.
  intros kv p du dv i j s Hu Hv. rewrite cell_poly_eq.
  pose proof (cell_poly2_length kv p kv p du dv i j s s (kn kv s) (kn kv (S s)) Hu Hv). lia.
Qed.
Print Assumptions cell_polynomial_degree.

(* biform_1d_entry_exact: every entry of the weight-free matrix assembled by
   bsp_mixed_deriv_biform_1d with a reference rule that passes the table check (rule_ok, defect eps)
   for the DEFAULT node count equals the sum over the spans of the exactly integrated product
   polynomial -- half-width_k * int_{-1}^{1} c_k, c_k = cell_poly = N_i^(dv) N_j^(du) restricted to
   span k and pulled back to [-1,1], pint 0 c = sum_m c_m * int_{-1}^{1} x^m -- up to
   eps * sum_k half-width_k * ||c_k||_1.  For numpy's tables rule_ok holds with eps = 2e-15
   (generated obligation leggauss_exact_bounded_qc, node counts <= 6). *)
Theorem biform_1d_entry_exact_partial : forall kv p du dv ref eps i j,
  kv_ok kv p -> (du <= p)%nat -> (dv <= p)%nat ->
  rule_ok eps (Z.to_nat (nqp_default (2 * p) du dv)) ref = true ->
  (i < numdofs kv p)%nat -> (j < numdofs kv p)%nat ->
  let sp k := nth k (span_indices kv) 0%nat in
  Qcabs (entry1d kv p du dv ref None i j
         - sumf (fun k => span_half kv (sp k) * pint 0 (cell_poly kv p du dv i j (sp k))) (seq 0 (numspans kv)))
  <= eps * sumf (fun k => span_half kv (sp k) * l1norm (cell_poly kv p du dv i j (sp k))) (seq 0 (numspans kv)).
Proof.
  intros kv p du dv ref eps i j Hok Hu Hv Hrule Hi Hj sp.
  pose proof (rule_ok_nodes _ _ _ Hrule) as Href. pose proof (ok_sorted _ _ Hok) as Hs.
  rewrite entry1d_gram by assumption. unfold gram. rewrite sumf_iterated, <- sumf_scal.
  apply sumf_abs_bound. intros k Hk. apply in_seq in Hk.
  destruct (mesh_cell_span kv p k Hok ltac:(unfold numspans in *; lia)) as [M1 [M2 [L Hl]]]. cbn zeta in *.
  fold (sp k) in *. rewrite M1, M2, cell_poly_eq. unfold numdofs in Hi, Hj.
  rewrite (cell_sum2 kv p kv p du dv i j (sp k) (sp k) _ _ ref) by (assumption || apply Qcle_refl || lia).
  apply scaled_defect; [apply Qclt_le_weak, half_width_pos, L|].
  apply (nqp_default_exact_l (p + p) du dv); [lia|replace (p + p)%nat with (2 * p)%nat by lia; exact Hrule|].
  apply cell_poly2_length; assumption.
Qed.
Print Assumptions biform_1d_entry_exact_partial.

(* ... with an exact rule (eps = 0) the entries ARE these sums of exact integrals *)
Theorem biform_1d_entry_exact_rule0 : forall kv p du dv ref i j,
  kv_ok kv p -> (du <= p)%nat -> (dv <= p)%nat ->
  rule_ok 0 (Z.to_nat (nqp_default (2 * p) du dv)) ref = true ->
  (i < numdofs kv p)%nat -> (j < numdofs kv p)%nat ->
  let sp k := nth k (span_indices kv) 0%nat in
  entry1d kv p du dv ref None i j
  = sumf (fun k => span_half kv (sp k) * pint 0 (cell_poly kv p du dv i j (sp k))) (seq 0 (numspans kv)).
Proof.
  intros kv p du dv ref i j Hok Hu Hv Hrule Hi Hj sp. eapply defect0_eq.
  apply (biform_1d_entry_exact_partial kv p du dv ref 0 i j); assumption.
Qed.
Print Assumptions biform_1d_entry_exact_rule0.

(* the same for the two-space routine: grid cell k lies in span S1[k] of kv1 and S2[k] of kv2 *)
Theorem biform_asym_entry_exact_partial : forall kv1 p1 kv2 p2 du dv grid S1 S2 ref eps i j,
  kv_ok kv1 p1 -> kv_ok kv2 p2 -> (du <= p1)%nat -> (dv <= p2)%nat ->
  grid_in_spans kv1 grid S1 -> grid_in_spans kv2 grid S2 ->
  rule_ok eps (Z.to_nat (nqp_default (p1 + p2) du dv)) ref = true ->
  (i < numdofs kv2 p2)%nat -> (j < numdofs kv1 p1)%nat ->
  let coo := biform_asym_coo kv1 p1 kv2 p2 du dv grid ref in
  let cp k := cell_poly2 kv1 p1 kv2 p2 du dv i j (nth k S1 0%nat) (nth k S2 0%nat) (nth k grid 0) (nth (S k) grid 0) in
  let hw k := half * (nth (S k) grid 0 - nth k grid 0) in
  Qcabs (coo_get (fst coo) (snd coo) i j - sumf (fun k => hw k * pint 0 (cp k)) (seq 0 (length grid - 1)))
  <= eps * sumf (fun k => hw k * l1norm (cp k)) (seq 0 (length grid - 1)).
Proof.
  intros kv1 p1 kv2 p2 du dv grid S1 S2 ref eps i j Hok1 Hok2 Hu Hv G1 G2 Hrule Hi Hj coo cp hw.
  pose proof (rule_ok_nodes _ _ _ Hrule) as Href.
  unfold coo. rewrite (asym_entry_gram kv1 p1 kv2 p2 du dv grid ref i j Hok1 Hok2 Href
                         (grid_in_spans_refines _ _ _ G1) (grid_in_spans_refines _ _ _ G2) Hi Hj).
  unfold gram. rewrite sumf_iterated, <- sumf_scal.
  apply sumf_abs_bound. intros k Hk. apply in_seq in Hk.
  destruct (G1 k ltac:(lia)) as [Hab [Hl1 [A1 B1]]]. destruct (G2 k ltac:(lia)) as [_ [Hl2 [A2 B2]]].
  unfold numdofs in Hi, Hj.
  rewrite (cell_sum2 kv1 p1 kv2 p2 du dv i j (nth k S1 0%nat) (nth k S2 0%nat) _ _ ref)
    by (assumption || apply (ok_sorted _ _ Hok1) || apply (ok_sorted _ _ Hok2) || lia).
  apply scaled_defect; [apply Qclt_le_weak, half_width_pos, Hab|].
  apply (nqp_default_exact_l (p1 + p2) du dv); [lia|exact Hrule|apply cell_poly2_length; assumption].
Qed.
Print Assumptions biform_asym_entry_exact_partial.

(* NOT PROVED (what separates the two _partial theorems from "entries equal the exact integrals
   int N_i^(dv) N_j^(du) dx" for the implementation):
   - Gauss-Legendre exactness itself: the true nodes are irrational, numpy's tables satisfy rule_ok
     only with eps = 2e-15 (checked at run time for q <= 13 in integers, q <= 6 in the Qc form
     these theorems consume); with an exact rational rule the statement is biform_1d_entry_exact_rule0;
   - the change of variables half-width * int_{-1}^{1} C(m + h xi) d xi = int_a^b C(x) dx is used as the
     definition of the exact integral over a span (pint is the closed form sum_m c_m * 2/(m+1) [m even]);
   - floating point: rounding of the implementation is bounded only by the tie (bound R in c09.py);
   - weight functions (polynomial weights would need nqp passed explicitly; covered by the oracle);
   - definiteness of M / dim ker K = 1 (unisolvence): exact LDL^T / rank on the oracle.
   The theorem below states the scatter identity behind biform_1d_entry node by node, for the
   collocation row. *)
Theorem biform_1d_entry_partial : forall kv p ref k x w,
  kv_ok kv p ->
  (forall xw, In xw ref -> - (1) < fst xw /\ fst xw < 1) ->
  (k < numspans kv)%nat ->
  In (x, w) (gauss_cell ref (nth k (mesh kv) 0) (nth (S k) (mesh kv) 0)) ->
  forall j d, (j < numdofs kv p)%nat ->
    nth j (colloc_row kv p d x) 0 =
    if ((first_active p (nth k (span_indices kv) 0%nat) <=? j) && (j <=? first_active p (nth k (span_indices kv) 0%nat) + p))%nat
    then nth (j - first_active p (nth k (span_indices kv) 0%nat)) (nth d (active_deriv kv p x d) []) 0
    else 0.
Proof.
  intros kv p ref k x w Hok Href Hk Hin j d Hj.
  destruct (first_active_correct kv p ref k x w Hok Href Hk Hin) as [_ Hfa].
  unfold colloc_row. rewrite Hfa, (nth_map_lt _ _ j 0 0%nat), seq_nth by (rewrite ?seq_length; exact Hj).
  reflexivity.
Qed.
Print Assumptions biform_1d_entry_partial.
