(* C10 -- non-vacuity: concrete inputs meet the hypotheses of the theorems of Props.v. *)
From Coq Require Import List Arith Bool ZArith Lia Ring QArith Qcanon.
From Coq Require Import setoid_ring.InitialRing.
From Verif.lib Require Import Slice Bsp.
From Verif.C14 Require Model.
From Verif.C10 Require Import Model Model_ic Model_bc Proofs Proofs_ic Proofs_ic3 Proofs_mp Proofs_bc Props.
Import ListNotations.

(* the ring hypothesis is inhabited by Z and by the rationals *)
Example ring_Z : ring_theory 0%Z 1%Z Z.add Z.mul Z.sub Z.opp eq.
Proof. exact Zth. Qed.
Example ring_Qc : ring_theory 0%Qc 1%Qc Qcplus Qcmult Qcminus Qcopp eq.
Proof. exact Qcrt. Qed.

Open Scope Z_scope.

(* a 5x5 system, constrained dofs given UNSORTED: dof 3 := 10, dof 0 := 20 *)
Definition exA : list (list Z) :=
  [[ 4; -1;  0;  2;  1];
   [-1;  5;  2;  0; -3];
   [ 0;  2;  6;  1;  0];
   [ 2;  0;  1;  7; -2];
   [ 1; -3;  0; -2;  8]].
Definition ex_idx : list nat := [3%nat; 0%nat].
Definition ex_vals : list Z := [10; 20].
Definition ex_x : list Z := [20; 1; -2; 10; 3].           (* a solution with the prescribed values *)
Definition ex_b : list Z := matvec Z 0 Z.add Z.mul exA ex_x.
Definition ex_s := rls_init Z 0 Z.add Z.mul Z.sub exA 5 (Arr ex_b) ex_idx (Arr ex_vals) None.
Definition ex_u : list Z := [1; -2; 3].

Example ex_hyp_nodup : NoDup ex_idx.
Proof. repeat constructor; simpl; intuition discriminate. Qed.
Example ex_hyp_range : forall x, In x ex_idx -> (x < 5)%nat.
Proof. intros x [<-|[<-|[]]]; lia. Qed.
Example ex_hyp_len : length ex_vals = length ex_idx.
Proof. reflexivity. Qed.
(* u solves the restricted system *)
Example ex_hyp_solves : matvec Z 0 Z.add Z.mul (r_A Z ex_s) ex_u = r_b Z ex_s.
Proof. vm_compute. reflexivity. Qed.
Example ex_restricted_is_3x3 : length (r_A Z ex_s) = 3%nat /\ length ex_u = ntrue (r_mask Z ex_s).
Proof. vm_compute. auto. Qed.
Example ex_complete : rls_complete Z 0 Z.add ex_s ex_u = ex_x.
Proof. vm_compute. reflexivity. Qed.
(* the unrepaired line gives a different (wrong) vector on the same input *)
Example ex_unrepaired_differs :
  rls_complete Z 0 Z.add
    (rls_init_unsorted_bug Z 0 Z.add Z.mul Z.sub exA 5 (Arr ex_b) ex_idx (Arr ex_vals) None) ex_u
  = [10; 1; -2; 20; 3].
Proof. vm_compute. reflexivity. Qed.

(* with elim_rows (Petrov-Galerkin): rows 4 and 1 eliminated instead of rows 0 and 3 *)
Definition ex_s2 := rls_init Z 0 Z.add Z.mul Z.sub exA 5 (Arr ex_b) ex_idx (Arr ex_vals) (Some [4%nat; 1%nat]).
Example ex2_hyp_solves : matvec Z 0 Z.add Z.mul (r_A Z ex_s2) ex_u = r_b Z ex_s2.
Proof. vm_compute. reflexivity. Qed.
Example ex2_not_eliminated : ~ In 0%nat (elim_row_set ex_idx (Some [4%nat; 1%nat])).
Proof. simpl. intuition discriminate. Qed.

(* scalar right-hand side and scalar value *)
Definition ex_s3 := rls_init Z 0 Z.add Z.mul Z.sub exA 5 (Scalar 0) ex_idx (Scalar 2) None.
Example ex3_values : r_values Z ex_s3 = [2; 2] /\ length (bcast Z 5 (Scalar 0)) = 5%nat.
Proof. vm_compute. auto. Qed.

Example ex_argsort : argsort [7; 2; 9; 0]%nat = [3; 1; 0; 2]%nat.
Proof. vm_compute. reflexivity. Qed.

(* combine_bcs: dof 5 occurs twice, the first value wins; result sorted *)
Example ex_combine :
  combine_bcs Z 0 [([5; 2]%nat, [50; 20]); ([7; 5]%nat, [70; 55])] = ([2; 5; 7]%nat, [20; 50; 70]).
Proof. vm_compute. reflexivity. Qed.

Example ex_parse : parse_bdspec (BName BTop) 2 = Some (0%nat, 1%nat) /\ parse_bdspec (BName BFront) 2 = None
                   /\ parse_bdspec (BPair 1 2) 2 = None /\ parse_bdspec (BPair 2 0) 2 = None.
Proof. vm_compute. auto. Qed.
Example ex_slice : boundary_slice [3; 4]%nat (BName BRight) [] = Some [3; 7; 11]%nat
                   /\ slice_indices_z 0 (-1) [3; 4]%nat [true] = Some [11; 10; 9; 8]%nat.
Proof. vm_compute. auto. Qed.
Example ex_blocked : dirichlet_indices [2; 3]%nat (BPair 0 0) 2 = Some [0; 1; 2; 6; 7; 8]%nat.
Proof. vm_compute. reflexivity. Qed.
Example ex_all : dirichlet_bcs_indices [3; 3]%nat (map (fun b => (b, 0%nat)) (all_faces 2)) = Some [0; 1; 2; 3; 5; 6; 7; 8]%nat.
Proof. vm_compute. reflexivity. Qed.
Example ex_initial : initial_indices [3; 2]%nat (BPair 0 1) = Some [2; 3; 4; 5]%nat.
Proof. vm_compute. reflexivity. Qed.

Close Scope Z_scope.
Open Scope nat_scope.
(* a valid multi-index on the slice; the 2x2 solve with a non-singular matrix *)
Example ex_valid_mi : valid_mi [3; 4] [2; 1] /\ nth 0 [2; 1] 0 = 2 /\ ravel [3; 4] [2; 1] = 9.
Proof. repeat split; repeat constructor. Qed.
Example ex_slice_hyp : 0 < length [3; 4] /\ 2 < nth 0 [3; 4] 0.
Proof. simpl. lia. Qed.

(* ---- initial conditions: a quadratic open knot vector on the time interval [2, 3] ---- *)
Definition qq (n : Z) (dd : positive) : Qc := Q2Qc (n # dd).
Definition ex_tkv : list Qc := [qq 2 1; qq 2 1; qq 2 1; qq 5 2; qq 3 1; qq 3 1; qq 3 1].
Example ex_ic_hyp : open_kv ex_tkv 2 = true /\ 1 <= 2.
Proof. split; [vm_compute; reflexivity|lia]. Qed.
(* c = p/(t_3 - t_0) = 2/(1/2) = 4 on both ends; g0 = 3/2, g1 = 4 *)
Example ex_ic_matrix :
  (let '(a, b, c, dd) := ic_bdcolloc ex_tkv 2 0 in map this [a; b; c; dd]) = [1; 0; -4 # 1; 4 # 1]%Q /\
  (let '(a, b, c, dd) := ic_bdcolloc ex_tkv 2 1 in map this [a; b; c; dd]) = [0; 1; -4 # 1; 4 # 1]%Q.
Proof. vm_compute. split; reflexivity. Qed.
Example ex_ic_coeffs :
  (let '(a, b) := ic_coeffs ex_tkv 2 0 (qq 3 2) (qq 4 1) in map this [a; b]) = [3 # 2; 5 # 2]%Q /\
  (let '(a, b) := ic_coeffs ex_tkv 2 1 (qq 3 2) (qq 4 1) in map this [a; b]) = [1 # 2; 3 # 2]%Q.
Proof. vm_compute. split; reflexivity. Qed.
(* a coefficient vector meeting the hypothesis of initial_condition_01_reproduces (numdofs = 4) *)
Example ex_ic_coef : let coef := [qq 3 2; qq 5 2; qq 7 1; qq (-1) 3] in
  numdofs ex_tkv 2 = 4 /\ nth 0 coef 0%Qc = fst (ic_coeffs ex_tkv 2 0 (qq 3 2) (qq 4 1))
  /\ nth 1 coef 0%Qc = snd (ic_coeffs ex_tkv 2 0 (qq 3 2) (qq 4 1)).
Proof. split; [reflexivity|]. split; apply Qc_is_canon; vm_compute; reflexivity. Qed.

(* ---- multipatch: two 2x2-dof patches glued along one edge; patch 0 re-appears after patch 1 ---- *)
Definition ex_mp_st := C14.Model.run [[2; 2]; [2; 2]] [C14.Model.mk_bjoin 0 1 1 1 1 0 [false]].
Definition ex_mp_Ns := [4; 4].
Definition ex_mp_conds : list (mp_cond Z) :=
  [(0, [1; 3], [10; 30]%Z); (1, [0; 1], [40; 50]%Z); (0, [0; 1], [60; 70]%Z)].
Example ex_mp_valid : Forall (cond_valid Z ex_mp_Ns) ex_mp_conds.
Proof.
  unfold ex_mp_conds.
  repeat (apply Forall_cons; [split; [simpl; intros i Hi; intuition lia|reflexivity]|]). apply Forall_nil.
Qed.
Example ex_mp_result :
  C14.Model.patch_to_global_idx ex_mp_st ex_mp_Ns 0 = [0; 4; 1; 5] /\
  C14.Model.patch_to_global_idx ex_mp_st ex_mp_Ns 1 = [4; 2; 5; 3] /\
  mp_compute_dirichlet_bcs Z 0%Z (C14.Model.patch_to_global_idx ex_mp_st ex_mp_Ns) ex_mp_conds
  = ([0; 2; 4; 5], [60; 50; 10; 30]%Z).
Proof. vm_compute. repeat split; reflexivity. Qed.

Example ex_face_hyp : parse_bdspec (BName BTop) (length [3; 4]) = Some (0, 1) /\ 0 < nth 0 [3; 4] 0.
Proof. split; [vm_compute; reflexivity|simpl; lia]. Qed.
Example ex_cells : boundary_cells [2; 3] (BName BLeft) = Some [0; 3] /\ boundary_dofs [3; 4] (BName BTop) [true] = Some [11; 10; 9; 8].
Proof. vm_compute. split; reflexivity. Qed.
Example ex_on_face : on_face [3; 4] 0 1 [2; 1].
Proof. split; [repeat constructor|reflexivity]. Qed.
Example ex_all_once : Forall (fun n => 0 < n) [3; 3] /\
  dirichlet_bcs_all_indices [3; 3] 0 = Some [0; 1; 2; 3; 5; 6; 7; 8] /\
  dirichlet_bcs_all_indices [2; 2] 2 = Some [0; 1; 2; 3; 4; 5; 6; 7].
Proof. split; [repeat constructor|]. vm_compute. split; reflexivity. Qed.

Example ex_conds_ok : Forall (cond_ok [3; 3]) [(BName BTop, 0); (BPair 1 0, 2); (BName BTop, 0)].
Proof. repeat constructor; [exists 0, 1 | exists 1, 0 | exists 0, 1]; split; (vm_compute; reflexivity) || (simpl; lia). Qed.
Example ex_conds_result : dirichlet_bcs_indices [3; 3] [(BName BTop, 0); (BPair 1 0, 2); (BName BTop, 0)]
  = Some [0; 3; 6; 7; 8; 9; 12; 15] /\ dirichlet_bcs_indices [3; 3] [(BName BTop, 0); (BName BFront, 0)] = None.
Proof. vm_compute. split; reflexivity. Qed.
(* vector data on the left face of a 2x3 patch, coefficient (k, j) = 10*k + j, one nan *)
Example ex_vector_values :
  dirichlet_bc_vector Z [2; 3] (BName BLeft) 2 (fun k j => if (k =? 1) && (j =? 0) then None else Some (Z.of_nat (10 * k + j)))
  = Some ([0; 6; 9], [0; 1; 11]%Z).
Proof. vm_compute. reflexivity. Qed.
Example ex_scalar_values :
  dirichlet_bc_scalar Z [2; 3] (BName BRight) (fun k => if k =? 0 then None else Some (Z.of_nat k)) = Some ([5], [1]%Z).
Proof. vm_compute. reflexivity. Qed.

(* hypothesis of initial_condition_spacetime: two spatial dofs on the knot vector ex_tkv ([2,3], p = 2) *)
Example ex_spacetime_hyp :
  let G0 := fun s : nat => qq (Z.of_nat s + 1) 2 in let G1 := fun s : nat => qq 4 1 in
  let c := fun (j s : nat) => match j with 0 => G0 s | 1 => (G0 s + qq 1 1)%Qc | _ => qq 7 3 end in
  forall s, s < 2 -> c 0 s = fst (ic_coeffs ex_tkv 2 0 (G0 s) (G1 s)) /\ c 1 s = snd (ic_coeffs ex_tkv 2 0 (G0 s) (G1 s)).
Proof. intros G0 G1 c s Hs. destruct s as [|[|s]]; [| |lia]; split; apply Qc_is_canon; vm_compute; reflexivity. Qed.

(* initial condition with values on a 3x2 patch, time axis 0, upper end: slices 1 and 2 *)
Example ex_ic_values_hyp : parse_bdspec (BPair 0 1) (length [3; 2]) = Some (0, 1) /\ 2 <= nth 0 [3; 2] 0.
Proof. split; [vm_compute; reflexivity|simpl; lia]. Qed.
Example ex_ic_values : initial_condition Z [3; 2] (BPair 0 1) (fun k s => Z.of_nat (10 * k + s))
  = Some ([2; 3; 4; 5], [0; 1; 10; 11]%Z) /\ put 0 2 [1; 1] = [2; 1].
Proof. vm_compute. split; reflexivity. Qed.
