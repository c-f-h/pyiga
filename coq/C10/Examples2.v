(* C10 -- non-vacuity of the theorems of Props2.v (tests by vm_compute, labelled as such). *)
From Coq Require Import List Arith Bool ZArith.
From Verif.lib Require Import Slice.
From Verif.C10 Require Import Model Proofs Proofs2.
Import ListNotations.
Local Open Scope nat_scope.

(* restricted_system_exact: A 3x3 over Z, dofs [2;0] (unsorted) prescribed [7;-1]; x = [-1;2;7] satisfies
   row 1 (the only non-eliminated equation: 1*(-1) + 5*2 + 2*7 = 23) *)
Definition exA : list (list Z) := [[4;1;0];[1;5;2];[0;2;6]]%Z.
Definition exs := rls_init Z 0%Z Z.add Z.mul Z.sub exA 3 (Arr [100;23;-50]%Z) [2;0] (Arr [7;-1]%Z) None.
Example ex_exact_hyp_prescribed : nth 2 [-1;2;7]%Z 0%Z = 7%Z /\ nth 0 [-1;2;7]%Z 0%Z = (-1)%Z.
Proof. split; reflexivity. Qed.
Example ex_exact_hyp_row : dot Z 0%Z Z.add Z.mul (nth 1 exA []) [-1;2;7]%Z = 23%Z.
Proof. vm_compute. reflexivity. Qed.
Example ex_exact_concl : matvec Z 0%Z Z.add Z.mul (r_A Z exs) (rls_restrict Z exs [-1;2;7]%Z) = r_b Z exs
  /\ rls_complete Z 0%Z Z.add exs (rls_restrict Z exs [-1;2;7]%Z) = [-1;2;7]%Z.
Proof. vm_compute. split; reflexivity. Qed.

(* restrict_matrix_entries: rectangular B (2 rows, 3 columns), elim_rows = [0] *)
Definition exs2 := rls_init Z 0%Z Z.add Z.mul Z.sub [[1;2;3];[4;5;6]]%Z 3 (Scalar 0%Z) [1] (Scalar 2%Z) (Some [0]).
Example ex_entries : rls_restrict_matrix Z exs2 [[1;2;3];[4;5;6]]%Z = [[4;6]]%Z /\ free_dofs 3 [1] = [0;2].
Proof. vm_compute. split; reflexivity. Qed.

Example ex_c_order : map (ravel [2;3;2]) (product (map (seq 0) [2;3;2])) = seq 0 12.
Proof. vm_compute. reflexivity. Qed.
Example ex_ravel_2d : nth (ravel [2;3] [1;2]) (concat [[10;11;12];[20;21;22]]) 0 = 22.
Proof. vm_compute. reflexivity. Qed.
