(* C10 -- lemmas about the model of RestrictedLinearSystem and of the boundary-index code. *)
From Coq Require Import List Arith Bool ZArith Lia Ring Permutation Sorted.
From Verif.lib Require Import ListFacts Slice.
From Verif.C10 Require Import Model.
Import ListNotations.
Local Open Scope nat_scope.

Lemma nth_app_r {A} (l l' : list A) n k d : length l = n -> nth (n + k) (l ++ l') d = nth k l' d.
Proof. intros <-. apply app_nth2_plus. Qed.

Lemma map_const_repeat {A B} (c : B) (l : list A) : map (fun _ => c) l = repeat c (length l).
Proof. induction l; simpl; congruence. Qed.

Lemma Forall2_cons_iff {A B} (P : A -> B -> Prop) x l y l' :
  Forall2 P (x :: l) (y :: l') <-> P x y /\ Forall2 P l l'.
Proof. split; [intros H; inversion H; auto | intros [H1 H2]; constructor; assumption]. Qed.

Lemma combine_concat {A B} (parts : list (list A * list B)) :
  Forall (fun p => length (fst p) = length (snd p)) parts ->
  combine (concat (map fst parts)) (concat (map snd parts)) = concat (map (fun p => combine (fst p) (snd p)) parts).
Proof.
  induction 1 as [|p parts Hp _ IH]; simpl; auto.
  rewrite combine_app_eq by exact Hp. rewrite IH. reflexivity.
Qed.

Lemma concat_fst_snd_length {A B} (parts : list (list A * list B)) :
  Forall (fun p => length (fst p) = length (snd p)) parts ->
  length (concat (map fst parts)) = length (concat (map snd parts)).
Proof.
  induction 1 as [|p parts Hp _ IH]; simpl; [reflexivity|]. rewrite !app_length, Hp, IH. reflexivity.
Qed.

Lemma combine_seq {A} (d : A) l : combine l (seq 0 (length l)) = map (fun k => (nth k l d, k)) (seq 0 (length l)).
Proof.
  rewrite <- (combine_map_map (fun k => nth k l d) (fun k => k)), map_nth_seq, map_id. reflexivity.
Qed.

Lemma NoDup_flat_map_disjoint {A B} (f : A -> list B) l :
  NoDup l -> (forall x, In x l -> NoDup (f x)) ->
  (forall x y b, In x l -> In y l -> In b (f x) -> In b (f y) -> x = y) ->
  NoDup (flat_map f l).
Proof.
  induction 1 as [|a l Ha Hn IH]; intros H1 H2; simpl; [constructor|].
  apply NoDup_app_intro.
  - apply H1. left. reflexivity.
  - apply IH; [intros x Hx; apply H1; right; exact Hx|].
    intros x y b Hx Hy. apply (H2 x y b); right; assumption.
  - intros b Hb Hin. apply in_flat_map in Hin. destruct Hin as [y [Hy Hby]].
    apply Ha. rewrite (H2 a y b); auto; [left; reflexivity|right; exact Hy].
Qed.

Lemma list_max_ge l x : In x l -> x <= list_max l.
Proof.
  intros H. pose proof (proj1 (list_max_le l (list_max l)) (le_n _)) as F.
  rewrite Forall_forall in F. apply F, H.
Qed.

Lemma filter_seq_sorted f : forall n s, StronglySorted lt (filter f (seq s n)).
Proof.
  induction n as [|n IH]; intros s; simpl; [constructor|].
  destruct (f s); [|apply IH]. constructor; [apply IH|].
  rewrite Forall_forall. intros x Hx. apply filter_In in Hx. destruct Hx as [Hx _].
  apply in_seq in Hx. lia.
Qed.

Lemma sorted_lt_NoDup l : StronglySorted lt l -> NoDup l.
Proof.
  induction 1 as [|x l Hs IH Hall]; constructor; auto.
  rewrite Forall_forall in Hall. intros Hx. specialize (Hall x Hx). lia.
Qed.

Lemma sorted_nodup_strict l : StronglySorted le l -> NoDup l -> StronglySorted lt l.
Proof.
  induction 1 as [|x l Hs IH Hall]; intros Hn; constructor; inversion Hn; subst; auto.
  rewrite Forall_forall in *. intros y Hy. specialize (Hall y Hy).
  assert (x <> y) by (intros ->; contradiction). lia.
Qed.

Lemma sorted_lt_ext : forall l l', StronglySorted lt l -> StronglySorted lt l' ->
  (forall x, In x l <-> In x l') -> l = l'.
Proof.
  induction l as [|a l IH]; intros [|b l'] Hs Hs' H.
  - reflexivity.
  - destruct (proj2 (H b) (or_introl eq_refl)).
  - destruct (proj1 (H a) (or_introl eq_refl)).
  - apply StronglySorted_inv in Hs, Hs'. destruct Hs as [Hs Ha], Hs' as [Hs' Hb].
    rewrite Forall_forall in Ha, Hb.
    assert (a = b).
    { destruct (proj1 (H a) (or_introl eq_refl)) as [E|Hin]; [auto|].
      destruct (proj2 (H b) (or_introl eq_refl)) as [E|Hin']; [auto|].
      specialize (Ha b Hin'). specialize (Hb a Hin). lia. }
    subst b. f_equal. apply IH; auto. intros x. split; intros Hx.
    + destruct (proj1 (H x) (or_intror Hx)) as [<-|K]; [|exact K]. specialize (Ha a Hx). lia.
    + destruct (proj2 (H x) (or_intror Hx)) as [<-|K]; [|exact K]. specialize (Hb a Hx). lia.
Qed.

Lemma flat_map_blocks P : forall n s,
  flat_map (fun x => map (fun r => x * P + r) (seq 0 P)) (seq s n) = seq (s * P) (n * P).
Proof.
  induction n as [|n IH]; intros s; simpl; [reflexivity|].
  rewrite IH, <- seq_add_map, seq_app. f_equal. f_equal. simpl. lia.
Qed.

Lemma compress_nil_r {X} (m : list bool) : @compress X m [] = [].
Proof. destruct m; reflexivity. Qed.

Lemma compress_map {X Y} (f : X -> Y) m : forall l, compress m (map f l) = map f (compress m l).
Proof.
  induction m as [|b m IH]; intros [|x l]; simpl; auto.
  destruct b; simpl; rewrite IH; reflexivity.
Qed.

Lemma compress_map_filter {X} (f : X -> bool) : forall l, compress (map f l) l = filter f l.
Proof. induction l as [|x l IH]; simpl; [reflexivity|]. rewrite IH. reflexivity. Qed.

Lemma compress_length {X} m : forall (l : list X), length l = length m -> length (compress m l) = ntrue m.
Proof.
  unfold ntrue. induction m as [|b m IH]; intros [|x l] H; simpl in *; try discriminate; auto.
  destruct b; simpl; rewrite IH; auto.
Qed.

Lemma nmask_length m : length (nmask m) = length m.
Proof. apply map_length. Qed.

Lemma free_mask_length n idx : length (free_mask n idx) = n.
Proof. unfold free_mask. rewrite map_length, seq_length. reflexivity. Qed.

Lemma memb_In j l : memb j l = true <-> In j l.
Proof.
  unfold memb. rewrite existsb_exists. split.
  - intros [x [Hx He]]. apply Nat.eqb_eq in He. subst. exact Hx.
  - intros H. exists j. split; auto. apply Nat.eqb_refl.
Qed.

Lemma nth_free_mask n idx j : j < n -> nth j (free_mask n idx) false = negb (memb j idx).
Proof.
  intros H. apply nth_map_seq, H.
Qed.

Lemma nth_free_mask_true n idx j : nth j (free_mask n idx) false = true <-> j < n /\ ~ In j idx.
Proof.
  destruct (Nat.lt_ge_cases j n) as [Hlt|Hge].
  - rewrite nth_free_mask, negb_true_iff, <- not_true_iff_false, memb_In by exact Hlt. tauto.
  - rewrite nth_overflow by (rewrite free_mask_length; exact Hge). split; [discriminate|lia].
Qed.

Lemma nth_nmask m j : j < length m -> nth j (nmask m) false = negb (nth j m false).
Proof.
  intros H. unfold nmask. apply nth_map_lt, H.
Qed.

Lemma nth_rank_compress {X} (dflt : X) m : forall (l : list X) j,
  length l = length m -> nth j m false = true ->
  nth (rank m j) (compress m l) dflt = nth j l dflt.
Proof.
  unfold rank, ntrue.
  induction m as [|b m IH]; intros l j Hl Hj.
  - destruct j; discriminate.
  - destruct l as [|x l]; [discriminate|]. simpl in Hl.
    destruct j as [|j].
    + simpl in Hj. subst b. reflexivity.
    + simpl in Hj. simpl. destruct b; simpl; apply IH; auto.
Qed.

Lemma rank_lt_ntrue m : forall j, nth j m false = true -> rank m j < ntrue m.
Proof.
  unfold rank, ntrue.
  induction m as [|b m IH]; intros j Hj.
  - destruct j; discriminate.
  - destruct j as [|j]; simpl in *.
    + subst b. simpl. lia.
    + destruct b; simpl; specialize (IH j Hj); lia.
Qed.

Lemma compress_eq_nth {X} (dflt : X) m : forall (a b : list X) i,
  length a = length b -> compress m a = compress m b -> nth i m false = true ->
  nth i a dflt = nth i b dflt.
Proof.
  induction m as [|c m IH]; intros a b i Hl He Hi.
  - destruct i; discriminate.
  - destruct a as [|x a], b as [|y b]; try discriminate.
    + reflexivity.
    + simpl in Hl. destruct i as [|i]; simpl in *.
      * subst c. injection He. auto.
      * destruct c; [injection He; intros|]; apply IH; auto.
Qed.

Lemma compress_ext {X} (d : X) m : forall (a b : list X), length a = length b ->
  (forall i, i < length a -> nth i m false = true -> nth i a d = nth i b d) -> compress m a = compress m b.
Proof.
  induction m as [|c m IH]; intros a b Hl H; [reflexivity|].
  destruct a as [|x a], b as [|y b]; simpl in *; try discriminate; [reflexivity|].
  assert (E : compress m a = compress m b).
  { apply IH; [lia|]. intros i Hi Hm. apply (H (S i)); [lia|exact Hm]. }
  destruct c; [|exact E]. rewrite E. f_equal. apply (H 0); [lia|reflexivity].
Qed.

Lemma compress_incl {X} m : forall (l : list X) x, In x (compress m l) -> In x l.
Proof.
  induction m as [|c m IH]; intros [|y l] x H; simpl in *; try contradiction.
  destruct c; [destruct H as [H|H]; [left; exact H|]|]; right; apply IH, H.
Qed.

Lemma compress_as_map_nth {X} (d : X) m (x : list X) :
  compress m x = map (fun j => nth j x d) (compress m (seq 0 (length x))).
Proof. rewrite <- compress_map, map_nth_seq. reflexivity. Qed.

Lemma ntrue_split m : ntrue m + ntrue (nmask m) = length m.
Proof. unfold ntrue, nmask. induction m as [|[|] m IH]; simpl; lia. Qed.

(* the rows of R_elim are the constrained dofs below n, in increasing order *)
Lemma elim_dofs_filter n idx : elim_dofs n idx = filter (fun j => memb j idx) (seq 0 n).
Proof.
  unfold elim_dofs, free_mask, nmask. rewrite map_map, compress_map_filter.
  apply filter_ext. intros j. apply negb_involutive.
Qed.

Definition le1 (a b : nat * nat) : Prop := fst a <= fst b.

Lemma ins_perm kp l : Permutation (ins kp l) (kp :: l).
Proof.
  induction l as [|x l IH]; simpl; auto.
  destruct (fst kp <=? fst x); auto.
  eapply perm_trans; [apply perm_skip, IH | apply perm_swap].
Qed.

Lemma ins_sorted kp l : StronglySorted le1 l -> StronglySorted le1 (ins kp l).
Proof.
  induction l as [|x l IH]; intros Hs; simpl.
  - constructor; constructor.
  - destruct (StronglySorted_inv Hs) as [Hs' Hall]. rewrite Forall_forall in Hall.
    destruct (Nat.leb_spec (fst kp) (fst x)) as [E|E].
    + constructor; [exact Hs|]. rewrite Forall_forall.
      intros y [<-|Hy]; [exact E|]. specialize (Hall y Hy). unfold le1 in *. lia.
    + constructor; [apply IH, Hs'|]. rewrite Forall_forall.
      intros y Hy. apply (Permutation_in _ (ins_perm kp l)) in Hy.
      destruct Hy as [<-|Hy]; [unfold le1; lia|apply Hall, Hy].
Qed.

Lemma sort_pairs_perm idx :
  Permutation (sort_pairs idx) (map (fun k => (nth k idx 0, k)) (seq 0 (length idx))).
Proof.
  unfold sort_pairs. rewrite (combine_seq 0).
  induction (map _ _) as [|x l IH]; simpl; auto.
  eapply perm_trans; [apply ins_perm | apply perm_skip, IH].
Qed.

Lemma sort_pairs_sorted idx : StronglySorted le1 (sort_pairs idx).
Proof.
  unfold sort_pairs. induction (combine idx (seq 0 (length idx))) as [|x l IH]; simpl.
  - constructor.
  - apply ins_sorted, IH.
Qed.

Lemma sorted_map_fst l : StronglySorted le1 l -> StronglySorted le (map fst l).
Proof.
  induction 1 as [|x l Hs IH Hall]; simpl; constructor; auto.
  rewrite Forall_forall in *. intros y Hy. apply in_map_iff in Hy. destruct Hy as [z [<- Hz]].
  apply Hall, Hz.
Qed.

Lemma argsort_perm idx : Permutation (argsort idx) (seq 0 (length idx)).
Proof.
  unfold argsort. rewrite (Permutation_map snd (sort_pairs_perm idx)), map_map, map_id. reflexivity.
Qed.

Lemma argsort_length idx : length (argsort idx) = length idx.
Proof. rewrite (Permutation_length (argsort_perm idx)). apply seq_length. Qed.

Lemma argsort_lt idx p : In p (argsort idx) -> p < length idx.
Proof. intros H. apply (Permutation_in _ (argsort_perm idx)) in H. apply in_seq in H. lia. Qed.

(* np.argsort brings duplicate-free indices into the order of the rows of I[~mask]: both lists
   are strictly increasing and have the elements of idx *)
Lemma argsort_spec n idx :
  NoDup idx -> (forall x, In x idx -> x < n) ->
  map (fun p => nth p idx 0) (argsort idx) = elim_dofs n idx.
Proof.
  intros Hnd Hr. pose proof (sort_pairs_perm idx) as Hp.
  assert (E : map (fun p => nth p idx 0) (argsort idx) = map fst (sort_pairs idx)).
  { unfold argsort. rewrite map_map. apply map_ext_in. intros [a p] Hin.
    apply (Permutation_in _ Hp), in_map_iff in Hin. destruct Hin as [k [Ek _]].
    injection Ek as <- <-. reflexivity. }
  assert (Hpf : Permutation (map fst (sort_pairs idx)) idx).
  { rewrite (Permutation_map fst Hp), map_map. cbn [fst]. rewrite map_nth_seq. reflexivity. }
  rewrite E, elim_dofs_filter. apply sorted_lt_ext.
  - apply sorted_nodup_strict; [apply sorted_map_fst, sort_pairs_sorted|].
    apply (Permutation_NoDup (Permutation_sym Hpf) Hnd).
  - apply filter_seq_sorted.
  - intros x. rewrite filter_In, in_seq, memb_In. split.
    + intros Hx. apply (Permutation_in _ Hpf) in Hx. specialize (Hr x Hx). split; [lia|exact Hx].
    + intros [_ Hx]. apply (Permutation_in _ (Permutation_sym Hpf)), Hx.
Qed.

Lemma ntrue_elim n idx : NoDup idx -> (forall x, In x idx -> x < n) ->
  ntrue (nmask (free_mask n idx)) = length idx.
Proof.
  intros Hnd Hr. rewrite <- (argsort_length idx), <- (map_length (fun p => nth p idx 0)), (argsort_spec n idx Hnd Hr).
  symmetry. apply compress_length. rewrite seq_length, nmask_length, free_mask_length. reflexivity.
Qed.

Lemma ntrue_free_mask n idx : NoDup idx -> (forall x, In x idx -> x < n) ->
  ntrue (free_mask n idx) = n - length idx.
Proof.
  intros Hnd Hr. pose proof (ntrue_split (free_mask n idx)) as E.
  rewrite (ntrue_elim n idx Hnd Hr), free_mask_length in E. lia.
Qed.

(* the row of R_elim that holds dof idx[k] is the one argsort sends to k *)
Lemma argsort_rank n idx k : NoDup idx -> (forall x, In x idx -> x < n) -> k < length idx ->
  let r := rank (nmask (free_mask n idx)) (nth k idx 0) in
  r < length idx /\ nth r (argsort idx) 0 = k.
Proof.
  intros Hnd Hr Hk r. set (j := nth k idx 0) in *.
  assert (Hj : j < n) by (apply Hr, nth_In, Hk).
  assert (Hnm : nth j (nmask (free_mask n idx)) false = true).
  { rewrite nth_nmask, nth_free_mask, negb_involutive by (rewrite ?free_mask_length; exact Hj).
    apply memb_In, nth_In, Hk. }
  assert (Hlt : r < length idx) by (rewrite <- (ntrue_elim n idx Hnd Hr); apply rank_lt_ntrue, Hnm).
  split; [exact Hlt|]. rewrite <- (argsort_length idx) in Hlt.
  assert (Hrow : nth r (elim_dofs n idx) 0 = j).
  { unfold elim_dofs, r. rewrite nth_rank_compress; [apply seq_nth, Hj| |exact Hnm].
    rewrite seq_length, nmask_length, free_mask_length. reflexivity. }
  rewrite <- (argsort_spec n idx Hnd Hr), nth_map_lt with (d' := 0) in Hrow by exact Hlt.
  apply (proj1 (NoDup_nth idx 0) Hnd); auto. apply argsort_lt, nth_In, Hlt.
Qed.

Section LinProofs.
Variable R : Type.
Variables (rO rI : R) (radd rmul rsub : R -> R -> R) (ropp : R -> R).
Hypothesis Rth : ring_theory rO rI radd rmul rsub ropp eq.
Add Ring Rring : Rth.

Notation expand := (expand R rO).
Notation dot := (dot R rO radd rmul).
Notation matvec := (matvec R rO radd rmul).
Notation vadd := (vadd R radd).
Notation vsub := (vsub R rsub).
Notation take := (take R rO).
Notation complete := (complete R rO radd).
Notation extend := (extend R rO).
Notation lift := (lift R rO).
Notation restrict := (restrict R).
Notation restrict_rhs := (restrict_rhs R).
Notation restrict_matrix := (restrict_matrix R).
Notation restricted_rhs := (restricted_rhs R rO radd rmul rsub).

Lemma expand_length m : forall v, length (expand m v) = length m.
Proof. induction m as [|[|] m IH]; intros v; simpl; auto. Qed.

Lemma dot_nil_r a : dot a [] = rO.
Proof. destruct a; reflexivity. Qed.

(* restrict (extend u) = u *)
Lemma compress_expand m : forall v, length v = ntrue m -> compress m (expand m v) = v.
Proof.
  unfold ntrue. induction m as [|[|] m IH]; intros v H; simpl in *.
  - destruct v; [reflexivity|discriminate].
  - destruct v as [|x v]; [discriminate|]. simpl. f_equal. apply IH. simpl in H. lia.
  - apply IH, H.
Qed.

(* restrict (R_elim^T w) = 0 *)
Lemma compress_expand_nmask m : forall w, compress m (expand (nmask m) w) = repeat rO (ntrue m).
Proof.
  unfold ntrue, nmask. induction m as [|[|] m IH]; intros w; simpl; auto.
  f_equal. apply IH.
Qed.

(* <row, R^T v> = <R row, v> *)
Lemma dot_expand m : forall row v, dot row (expand m v) = dot (compress m row) v.
Proof.
  induction m as [|b m IH]; intros row v.
  - simpl. rewrite dot_nil_r. reflexivity.
  - destruct row as [|r row]; [reflexivity|].
    destruct b; simpl.
    + destruct v as [|x v]; simpl.
      * rewrite IH, dot_nil_r. ring.
      * rewrite IH. reflexivity.
    + rewrite IH. ring.
Qed.

(* (R_v B R^T) u = R_v (B (R^T u)): restrict_matrix is consistent with extend/restrict_rhs *)
Lemma restrict_matrix_matvec mask maskv B u :
  matvec (restrict_matrix mask maskv B) u = restrict_rhs maskv (matvec B (extend mask u)).
Proof.
  unfold Model.restrict_matrix, Model.restrict_rhs, Model.matvec, Model.extend.
  rewrite !compress_map, map_map.
  apply map_ext. intros row. symmetry. apply dot_expand.
Qed.

Lemma vzip_length f : forall a b, length a = length b -> length (vzip R f a b) = length a.
Proof. induction a as [|x a IH]; intros [|y b] H; simpl in *; try discriminate; auto. Qed.

Lemma dot_vadd : forall row x y, length x = length y ->
  dot row (vadd x y) = radd (dot row x) (dot row y).
Proof.
  induction row as [|r row IH]; intros x y H; simpl; [ring|].
  destruct x as [|a x], y as [|c y]; try discriminate; simpl; [ring|].
  unfold Model.vadd in IH. rewrite IH by (simpl in H; lia). ring.
Qed.

Lemma matvec_vadd A x y : length x = length y ->
  matvec A (vadd x y) = vadd (matvec A x) (matvec A y).
Proof.
  intros H. unfold Model.matvec. induction A as [|row A IH]; simpl; auto.
  rewrite dot_vadd by exact H. unfold Model.vadd in *. simpl. f_equal. exact IH.
Qed.

Lemma compress_vzip f m : forall a b, compress m (vzip R f a b) = vzip R f (compress m a) (compress m b).
Proof.
  induction m as [|c m IH]; intros a b.
  - destruct a, b; reflexivity.
  - destruct a as [|x a], b as [|y b]; simpl.
    + reflexivity.
    + destruct c; reflexivity.
    + destruct c; simpl; destruct (compress m a); reflexivity.
    + destruct c; simpl; rewrite IH; reflexivity.
Qed.

Lemma vsub_vadd : forall a b, length a = length b -> vadd (vsub a b) b = a.
Proof.
  induction a as [|x a IH]; intros [|y b] H; simpl in *; try discriminate; auto.
  unfold Model.vadd, Model.vsub in *. simpl. rewrite IH by lia. f_equal. ring.
Qed.

Lemma matvec_length A x : length (matvec A x) = length A.
Proof. apply map_length. Qed.

Lemma complete_lengths mask values u : length (extend mask u) = length (lift mask values).
Proof. unfold Model.extend, Model.lift. rewrite !expand_length, nmask_length. reflexivity. Qed.

(* every non-eliminated equation of the original system holds for the completed solution *)
Lemma complete_solves_restricted mask maskv A b values u :
  length b = length A ->
  matvec (restrict_matrix mask maskv A) u = restricted_rhs mask maskv A b values ->
  restrict_rhs maskv (matvec A (complete mask values u)) = restrict_rhs maskv b.
Proof.
  intros Hb H. unfold Model.complete.
  rewrite matvec_vadd by apply complete_lengths.
  unfold Model.restrict_rhs. unfold Model.vadd. rewrite compress_vzip.
  fold (restrict_rhs maskv (matvec A (extend mask u))).
  rewrite <- restrict_matrix_matvec, H.
  unfold Model.restricted_rhs, Model.restrict_rhs, Model.vsub.
  rewrite <- compress_vzip. f_equal.
  apply vsub_vadd. rewrite matvec_length. exact Hb.
Qed.

Lemma complete_solves_rows mask maskv A b values u i :
  length b = length A ->
  matvec (restrict_matrix mask maskv A) u = restricted_rhs mask maskv A b values ->
  nth i maskv false = true ->
  dot (nth i A []) (complete mask values u) = nth i b rO.
Proof.
  intros Hb H Hi.
  pose proof (complete_solves_restricted mask maskv A b values u Hb H) as E.
  unfold Model.restrict_rhs in E.
  pose proof (compress_eq_nth rO maskv _ _ i (eq_trans (matvec_length A _) (eq_sym Hb)) E Hi) as E2.
  rewrite <- E2. unfold Model.matvec.
  destruct (Nat.lt_ge_cases i (length A)) as [Hlt|Hge].
  - symmetry. apply (nth_map_lt (fun row => dot row (complete mask values u))), Hlt.
  - rewrite !nth_overflow by (rewrite ?map_length; exact Hge). reflexivity.
Qed.

Lemma nth_expand m : forall v j, j < length m ->
  nth j (expand m v) rO = if nth j m false then nth (rank m j) v rO else rO.
Proof.
  unfold rank, ntrue.
  induction m as [|b m IH]; intros v j Hj; simpl in Hj; [lia|].
  destruct j as [|j].
  - destruct b; simpl; [destruct v|]; reflexivity.
  - destruct b; simpl; rewrite IH by lia; [|reflexivity].
    destruct (nth j m false); [|reflexivity].
    generalize (length (filter (fun b : bool => b) (firstn j m))). intros r.
    destruct v; simpl; [destruct r|]; reflexivity.
Qed.

Lemma nth_vadd : forall a b j, length a = length b ->
  nth j (vadd a b) rO = radd (nth j a rO) (nth j b rO).
Proof.
  induction a as [|x a IH]; intros [|y b] j H; simpl in *; try discriminate.
  - destruct j; ring.
  - destruct j; [reflexivity|]. apply IH. lia.
Qed.

(* complete(u), entry by entry: a free dof takes its entry of u, an eliminated dof its stored
   value; the former do not depend on the values, the latter not on u *)
Lemma nth_complete mask values u j : j < length mask ->
  nth j (complete mask values u) rO =
  if nth j mask false then nth (rank mask j) u rO else nth (rank (nmask mask) j) values rO.
Proof.
  intros Hj. unfold Model.complete. rewrite nth_vadd by apply complete_lengths.
  unfold Model.extend, Model.lift.
  rewrite !nth_expand by (rewrite ?nmask_length; exact Hj).
  rewrite nth_nmask by exact Hj. destruct (nth j mask false); simpl; ring.
Qed.

Lemma complete_free_l mask values u j :
  j < length mask -> nth j mask false = true ->
  nth j (complete mask values u) rO = nth (rank mask j) u rO.
Proof. intros Hj Hm. rewrite nth_complete, Hm by exact Hj. reflexivity. Qed.

Lemma nth_complete_elim n idx values u k : (forall x, In x idx -> x < n) -> k < length idx ->
  nth (nth k idx 0) (complete (free_mask n idx) values u) rO =
  nth (rank (nmask (free_mask n idx)) (nth k idx 0)) values rO.
Proof.
  intros Hr Hk. pose proof (nth_In idx 0 Hk) as Hin.
  rewrite nth_complete, nth_free_mask by (rewrite ?free_mask_length; apply Hr, Hin).
  rewrite (proj2 (memb_In _ _) Hin). reflexivity.
Qed.

(* the completed vector takes the prescribed value at every constrained dof,
   whatever the order in which the dofs were given *)
Lemma nth_complete_argsort n idx values u k :
  NoDup idx -> (forall x, In x idx -> x < n) -> k < length idx ->
  nth (nth k idx 0) (complete (free_mask n idx) (take (argsort idx) values) u) rO = nth k values rO.
Proof.
  intros Hnd Hr Hk. destruct (argsort_rank n idx k Hnd Hr Hk) as [Hlt E].
  rewrite nth_complete_elim by assumption. unfold Model.take.
  rewrite nth_map_lt with (d' := 0) by (rewrite argsort_length; exact Hlt).
  rewrite E. reflexivity.
Qed.

Lemma nth_complete_repeat n idx c u j :
  NoDup idx -> (forall x, In x idx -> x < n) -> In j idx ->
  nth j (complete (free_mask n idx) (repeat c (length idx)) u) rO = c.
Proof.
  intros Hnd Hr Hin. destruct (In_nth _ _ 0 Hin) as [k [Hk <-]].
  destruct (argsort_rank n idx k Hnd Hr Hk) as [Hlt _].
  rewrite nth_complete_elim by assumption.
  apply nth_repeat_lt, Hlt.
Qed.

Lemma vadd_zero_r : forall u k, length u = k -> vadd u (repeat rO k) = u.
Proof.
  induction u as [|x u IH]; intros k H; subst k; simpl; auto.
  unfold Model.vadd in *. simpl. rewrite IH by reflexivity. f_equal. ring.
Qed.

(* free dofs of the completed vector are the restricted solution: restrict (complete u) = u *)
Lemma compress_complete mask values u :
  length u = ntrue mask -> restrict mask (complete mask values u) = u.
Proof.
  intros H. unfold Model.restrict, Model.complete, Model.vadd. rewrite compress_vzip.
  unfold Model.extend, Model.lift. rewrite compress_expand by exact H.
  rewrite compress_expand_nmask. apply vadd_zero_r, H.
Qed.

(* R_free^T R_free + R_elim^T R_elim = I *)
Lemma split_identity mask : forall x, length x = length mask ->
  vadd (expand mask (compress mask x)) (expand (nmask mask) (compress (nmask mask) x)) = x.
Proof.
  unfold Model.vadd, nmask.
  induction mask as [|[|] m IH]; intros [|a x] H; simpl in *; try discriminate; auto;
    rewrite IH by lia; f_equal; ring.
Qed.

End LinProofs.

Section ClassProofs.
Variable R : Type.
Variables (rO : R) (radd rmul rsub : R -> R -> R).

Notation rls_init := (rls_init R rO radd rmul rsub).
Notation rls_restrict_matrix := (rls_restrict_matrix R).

Definition elim_row_set (idx : list nat) (elim_rows : option (list nat)) : list nat :=
  match elim_rows with Some er => er | None => idx end.

Lemma rls_A_is_restrict_matrix A ncols b idx values elim_rows :
  let s := rls_init A ncols b idx values elim_rows in r_A R s = rls_restrict_matrix s A.
Proof. reflexivity. Qed.

End ClassProofs.

Lemma unique_sorted_In l j : In j (unique_sorted l) <-> In j l.
Proof.
  unfold unique_sorted. rewrite filter_In, memb_In, in_seq. split; [tauto|].
  intros H. split; auto. pose proof (list_max_ge l j H). lia.
Qed.

Lemma unique_sorted_sorted l : StronglySorted lt (unique_sorted l).
Proof. apply filter_seq_sorted. Qed.

Lemma unique_sorted_NoDup l : NoDup (unique_sorted l).
Proof. apply sorted_lt_NoDup, unique_sorted_sorted. Qed.

Lemma first_pos_spec j l : In j l ->
  first_pos j l < length l /\ nth (first_pos j l) l 0 = j /\
  (forall k, k < first_pos j l -> nth k l 0 <> j).
Proof.
  induction l as [|x l IH]; intros H; [contradiction|]. simpl.
  destruct (Nat.eqb_spec j x) as [->|Hne].
  - split; [lia|]. split; [reflexivity|]. intros k Hk. lia.
  - destruct H as [H|H]; [congruence|]. destruct (IH H) as [H1 [H2 H3]].
    split; [lia|]. split; [exact H2|]. intros [|k] Hk; simpl; [congruence|]. apply H3. lia.
Qed.

Section CombineProofs.
Variable X : Type.
Variable d : X.

Lemma combine_flat_fst_length indices (values : list X) :
  length (fst (combine_flat X d indices values)) = length (snd (combine_flat X d indices values)).
Proof. unfold combine_flat. simpl. rewrite map_length. reflexivity. Qed.

Lemma combine_flat_pairs indices (values : list X) r v :
  let res := combine_flat X d indices values in
  In (r, v) (combine (fst res) (snd res)) <-> In r indices /\ v = nth (first_pos r indices) values d.
Proof.
  unfold combine_flat. cbn [fst snd]. rewrite <- (map_id (unique_sorted indices)) at 1.
  rewrite combine_map_map, in_map_iff, <- unique_sorted_In. split.
  - intros [j [E Hj]]. injection E as <- <-. auto.
  - intros [H ->]. exists r. auto.
Qed.

(* combine_bcs on duplicate-free indices only sorts: the (index, value) pairs are the same *)
Lemma combine_flat_nodup indices (values : list X) :
  NoDup indices -> length values = length indices ->
  let res := combine_flat X d indices values in
  forall r v, In (r, v) (combine (fst res) (snd res)) <-> In (r, v) (combine indices values).
Proof.
  intros Hnd Hl res r v. unfold res. rewrite combine_flat_pairs. symmetry in Hl.
  pose proof (combine_length indices values) as Lc. split.
  - intros [Hr ->]. destruct (first_pos_spec r indices Hr) as [A [B _]].
    rewrite <- B at 1. rewrite <- (combine_nth _ _ _ 0 d Hl). apply nth_In. lia.
  - intros H. destruct (In_nth _ _ (0, d) H) as [k [Hk E]].
    rewrite (combine_nth _ _ _ 0 d Hl) in E. injection E as <- <-.
    assert (Hr : In (nth k indices 0) indices) by (apply nth_In; lia). split; [exact Hr|].
    destruct (first_pos_spec _ indices Hr) as [A [B _]].
    rewrite (proj1 (NoDup_nth indices 0) Hnd _ k A) by (lia || exact B). reflexivity.
Qed.

End CombineProofs.

(* blocked numbering: the index sets of different components are disjoint *)
Lemma blocked_disjoint NN bd j1 j2 i1 i2 :
  (forall i, In i bd -> i < NN) -> In i1 bd -> In i2 bd ->
  i1 + j1 * NN = i2 + j2 * NN -> i1 = i2 /\ j1 = j2.
Proof.
  intros Hr H1 H2 E. pose proof (Hr i1 H1). pose proof (Hr i2 H2).
  assert (j1 = j2) by nia. subst. split; lia.
Qed.

Lemma parse_bdspec_pair a s dim ax side :
  parse_bdspec (BPair a s) dim = Some (ax, side) <->
  (a = Z.of_nat ax /\ s = Z.of_nat side /\ ax < dim /\ (side = 0 \/ side = 1)).
Proof.
  unfold parse_bdspec. split.
  - destruct ((s =? 0)%Z || (s =? 1)%Z) eqn:E1; simpl; [|discriminate].
    destruct (0 <=? a)%Z eqn:E2; simpl; [|discriminate].
    destruct (a <? Z.of_nat dim)%Z eqn:E3; simpl; [|discriminate].
    intros H. injection H; intros; subst.
    apply Z.leb_le in E2. apply Z.ltb_lt in E3. apply orb_true_iff in E1.
    rewrite !Z.eqb_eq in E1. repeat split; try lia.
  - intros [-> [-> [H1 H2]]].
    replace ((Z.of_nat side =? 0)%Z || (Z.of_nat side =? 1)%Z) with true
      by (destruct H2; subst; reflexivity).
    replace (0 <=? Z.of_nat ax)%Z with true by (symmetry; apply Z.leb_le; lia).
    replace (Z.of_nat ax <? Z.of_nat dim)%Z with true by (symmetry; apply Z.ltb_lt; lia).
    simpl. rewrite !Nat2Z.id. reflexivity.
Qed.

Lemma parse_bdspec_name s dim :
  parse_bdspec (BName s) dim = parse_bdspec (BPair (fst (bdname_pair s dim)) (snd (bdname_pair s dim))) dim.
Proof. unfold parse_bdspec. destruct (bdname_pair s dim). reflexivity. Qed.

Lemma parse_bdspec_some b dim ax side : parse_bdspec b dim = Some (ax, side) ->
  ax < dim /\ (side = 0 \/ side = 1).
Proof.
  destruct b as [s|a s]; [rewrite parse_bdspec_name|];
  intros H; apply parse_bdspec_pair in H; tauto.
Qed.

Lemma all_faces_valid dim b : In b (all_faces dim) ->
  exists ax side, b = BPair (Z.of_nat ax) (Z.of_nat side) /\ ax < dim /\ side < 2 /\
                  parse_bdspec b dim = Some (ax, side).
Proof.
  unfold all_faces. intros H. apply in_flat_map in H. destruct H as [ax [Hax Hb]].
  apply in_seq in Hax.
  destruct Hb as [<-|[<-|[]]]; [exists ax, 0 | exists ax, 1]; repeat split; try lia;
    apply parse_bdspec_pair; repeat split; auto; lia.
Qed.

Definition valid_mi (shape mi : list nat) : Prop := Forall2 (fun n i => i < n) shape mi.

Lemma product_In ls : forall mi, In mi (product ls) <-> Forall2 (fun l i => In i l) ls mi.
Proof.
  induction ls as [|l ls IH]; intros mi; simpl.
  - split.
    + intros [<-|[]]. constructor.
    + intros H. inversion H. left. reflexivity.
  - rewrite in_flat_map. split.
    + intros [x [Hx Hm]]. apply in_map_iff in Hm. destruct Hm as [t [<- Ht]].
      constructor; auto. apply IH, Ht.
    + intros H. inversion H as [|? i ? t Hi Ht]; subst. exists i. split; auto.
      apply in_map, IH, Ht.
Qed.

Lemma product_NoDup ls : Forall (@NoDup nat) ls -> NoDup (product ls).
Proof.
  induction 1 as [|l ls Hl Hls IH]; simpl.
  - constructor; [intros []|constructor].
  - apply NoDup_flat_map_disjoint; auto.
    + intros x _. apply NoDup_map_inj_on; [|exact IH]. intros t t' _ _ E. injection E. auto.
    + intros x y b _ _ Hx Hy. apply in_map_iff in Hx, Hy.
      destruct Hx as [t [<- _]]. destruct Hy as [t' [E _]]. injection E; auto.
Qed.

Lemma axrange_In (fl : bool) n i : In i (if fl then rev (seq 0 n) else seq 0 n) <-> i < n.
Proof. destruct fl; rewrite <- ?in_rev, in_seq; lia. Qed.

Lemma axdofs_NoDup ax idx : forall shape k flip, Forall (@NoDup nat) (axdofs_aux k ax idx shape flip).
Proof.
  induction shape as [|n shape IH]; intros k flip; simpl; constructor; auto.
  destruct (Nat.eqb k ax).
  - constructor; [intros []|constructor].
  - destruct (match flip with [] => false | f :: _ => f end).
    + apply NoDup_rev, seq_NoDup.
    + apply seq_NoDup.
Qed.

Lemma axdofs_In_after ax idx : forall shape k flip mi, ax < k ->
  Forall2 (fun l i => In i l) (axdofs_aux k ax idx shape flip) mi <-> valid_mi shape mi.
Proof.
  unfold valid_mi.
  induction shape as [|n shape IH]; intros k flip [|i mi] Hk; simpl.
  - split; constructor.
  - split; intros H; inversion H.
  - split; intros H; inversion H.
  - rewrite (proj2 (Nat.eqb_neq k ax)) by lia.
    rewrite !Forall2_cons_iff, axrange_In, IH by lia. reflexivity.
Qed.

(* the per-axis ranges: the fixed index on axis ax, the full (possibly reversed) range elsewhere *)
Lemma axdofs_In ax idx : forall shape k j flip mi,
  ax = k + j -> j < length shape -> idx < nth j shape 0 ->
  Forall2 (fun l i => In i l) (axdofs_aux k ax idx shape flip) mi <->
  valid_mi shape mi /\ nth j mi 0 = idx.
Proof.
  unfold valid_mi.
  induction shape as [|n shape IH]; intros k j flip mi Hk Hax Hidx; simpl in *; [lia|].
  destruct mi as [|i mi]; [split; [intros H|intros [H _]]; inversion H|].
  rewrite !Forall2_cons_iff. destruct j as [|j]; cbn [nth] in *.
  - rewrite (proj2 (Nat.eqb_eq k ax)), (axdofs_In_after ax idx) by lia.
    unfold valid_mi. split.
    + intros [[<-|[]] H]. auto.
    + intros [[_ H] ->]. split; [left; reflexivity|exact H].
  - rewrite (proj2 (Nat.eqb_neq k ax)), axrange_In, (IH (S k) j) by lia. symmetry. apply and_assoc.
Qed.

Definition prodl (l : list nat) : nat := fold_right Nat.mul 1 l.

Lemma ravel_aux_len : forall shape mi acc, length shape = length mi ->
  ravel_aux acc shape mi = acc * prodl shape + ravel_aux 0 shape mi.
Proof.
  induction shape as [|n shape IH]; intros [|i t] acc H; simpl in *; try discriminate; [lia|].
  rewrite (IH t (acc * n + i)), (IH t i) by lia. ring.
Qed.

Lemma ravel_lt_prodl : forall shape mi, valid_mi shape mi -> ravel shape mi < prodl shape.
Proof.
  unfold ravel. induction 1 as [|n i shape t Hi Ht IH]; simpl; [lia|].
  rewrite ravel_aux_len by apply (Forall2_length _ _ _ Ht). nia.
Qed.

Lemma prodl_prod_list l : prodl l = prod_list l.
Proof.
  unfold prodl, prod_list. symmetry. apply fold_symmetric; intros; lia.
Qed.

Lemma ravel_lt_prod shape mi : valid_mi shape mi -> ravel shape mi < prod_list shape.
Proof. rewrite <- prodl_prod_list. apply ravel_lt_prodl. Qed.

Lemma ravel_inj : forall shape mi mi', valid_mi shape mi -> valid_mi shape mi' ->
  ravel shape mi = ravel shape mi' -> mi = mi'.
Proof.
  unfold ravel. intros shape mi mi' H. revert mi'.
  induction H as [|n i shape t Hi Ht IH]; intros mi' H' E; inversion H' as [|? i' ? t' Hi' Ht']; subst; auto.
  simpl in E. rewrite (ravel_aux_len shape t), (ravel_aux_len shape t') in E by (eapply Forall2_length; eassumption).
  pose proof (ravel_lt_prodl shape t Ht). pose proof (ravel_lt_prodl shape t' Ht'). unfold ravel in *.
  assert (i = i') by nia. subst. f_equal. apply IH; auto. lia.
Qed.

Lemma slice_multi_In ax idx shape flip mi :
  ax < length shape -> idx < nth ax shape 0 ->
  (In mi (slice_multi ax idx shape flip) <-> valid_mi shape mi /\ nth ax mi 0 = idx).
Proof.
  intros Hax Hidx. unfold slice_multi. rewrite product_In.
  apply (axdofs_In ax idx shape 0 ax); auto.
Qed.

(* slice_indices lists every dof whose multi-index has coordinate idx on axis ax exactly once,
   for every shape, axis, index and flip pattern *)
Lemma slice_indices_face_l ax idx shape flip :
  ax < length shape -> idx < nth ax shape 0 ->
  NoDup (slice_indices ax idx shape flip) /\
  (forall r, In r (slice_indices ax idx shape flip) <->
             exists mi, valid_mi shape mi /\ nth ax mi 0 = idx /\ r = ravel shape mi).
Proof.
  intros Hax Hidx. unfold slice_indices. split.
  - apply NoDup_map_inj_on.
    + intros x y Hx Hy. apply (slice_multi_In ax idx shape flip) in Hx, Hy; auto.
      apply ravel_inj; tauto.
    + apply product_NoDup, axdofs_NoDup.
  - intros r. rewrite in_map_iff. split.
    + intros [mi [<- Hmi]]. apply slice_multi_In in Hmi; auto. exists mi. tauto.
    + intros [mi [H1 [H2 ->]]]. exists mi. split; auto. apply slice_multi_In; auto.
Qed.

Lemma slice_indices_disjoint ax i i' shape flip r :
  ax < length shape -> i < nth ax shape 0 -> i' < nth ax shape 0 ->
  In r (slice_indices ax i shape flip) -> In r (slice_indices ax i' shape flip) -> i = i'.
Proof.
  intros Hax Hi Hi' H H'.
  apply (slice_indices_face_l ax i shape flip Hax Hi) in H. destruct H as [mi [Hv [<- ->]]].
  apply (slice_indices_face_l ax i' shape flip Hax Hi') in H'. destruct H' as [mi' [Hv' [<- E]]].
  apply ravel_inj in E; auto. subst mi'. reflexivity.
Qed.

Lemma wrap_spec idx n : (- Z.of_nat n <= idx < Z.of_nat n)%Z ->
  (0 <= wrap idx n < Z.of_nat n)%Z /\ wrap idx n = (idx mod Z.of_nat n)%Z.
Proof.
  intros H. unfold wrap. destruct (idx <? 0)%Z eqn:E.
  - apply Z.ltb_lt in E. split; [lia|]. apply Z.mod_unique with (q := (-1)%Z); [left; lia | lia].
  - apply Z.ltb_ge in E. split; [lia|]. symmetry. apply Z.mod_small. lia.
Qed.

Lemma slice_indices_z_some ax (idx : Z) shape flip :
  ax < length shape -> (0 <= wrap idx (nth ax shape 0%nat) < Z.of_nat (nth ax shape 0%nat))%Z ->
  slice_indices_z ax idx shape flip = Some (slice_indices ax (Z.to_nat (wrap idx (nth ax shape 0))) shape flip).
Proof.
  intros Hax [H0 H1]. unfold slice_indices_z.
  rewrite (proj2 (Nat.ltb_lt _ _) Hax), (proj2 (Z.leb_le _ _) H0), (proj2 (Z.ltb_lt _ _) H1). reflexivity.
Qed.

Lemma slice_indices_z_nat ax (idx : Z) shape flip :
  ax < length shape -> (- Z.of_nat (nth ax shape 0%nat) <= idx < Z.of_nat (nth ax shape 0%nat))%Z ->
  slice_indices_z ax idx shape flip = Some (slice_indices ax (Z.to_nat (idx mod Z.of_nat (nth ax shape 0%nat))) shape flip).
Proof.
  intros Hax Hidx. destruct (wrap_spec _ _ Hidx) as [Hw <-]. apply slice_indices_z_some; assumption.
Qed.
