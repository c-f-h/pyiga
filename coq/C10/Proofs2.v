(* C10 -- RestrictedLinearSystem: the elimination is exact in BOTH directions (every vector with the
   prescribed values that satisfies the non-eliminated equations restricts to a solution of the
   restricted system and is recovered by complete), entry formula of restrict_matrix for
   rectangular operators, the free dofs. *)
From Coq Require Import List Arith Bool Lia Ring.
From Verif.lib Require Import ListFacts.
From Verif.C10 Require Import Model Proofs.
Import ListNotations.
Local Open Scope nat_scope.

(* the free dofs / non-eliminated rows in increasing order: the row indices of I[mask] *)
Definition free_dofs (n : nat) (idx : list nat) : list nat := compress (free_mask n idx) (seq 0 n).

Lemma free_dofs_filter n idx : free_dofs n idx = filter (fun j => negb (memb j idx)) (seq 0 n).
Proof. unfold free_dofs, free_mask. apply compress_map_filter. Qed.

Section LinProofs2.
Variable R : Type.
Variables (rO rI : R) (radd rmul rsub : R -> R -> R) (ropp : R -> R).
Hypothesis Rth : ring_theory rO rI radd rmul rsub ropp eq.
Add Ring Rring : Rth.

Notation expand := (expand R rO).
Notation dot := (dot R rO radd rmul).
Notation matvec := (matvec R rO radd rmul).
Notation vadd := (vadd R radd).
Notation vsub := (vsub R rsub).
Notation take := (take R rO).
Notation complete := (complete R rO radd).
Notation extend := (extend R rO).
Notation lift := (lift R rO).
Notation restrict := (restrict R).
Notation restrict_rhs := (restrict_rhs R).
Notation restrict_matrix := (restrict_matrix R).
Notation restricted_rhs := (restricted_rhs R rO radd rmul rsub).

Lemma vadd_vsub : forall a b, length a = length b -> vsub (vadd a b) b = a.
Proof.
  unfold Model.vadd, Model.vsub.
  induction a as [|x a IH]; intros [|y b] H; simpl in *; try discriminate; auto.
  rewrite IH by lia. f_equal. ring.
Qed.

(* complete (restrict x) = x for every x whose eliminated entries are the stored values *)
Lemma complete_restrict mask values x :
  length x = length mask -> compress (nmask mask) x = values -> complete mask values (restrict mask x) = x.
Proof.
  intros Hl Hv. unfold Model.complete, Model.extend, Model.lift, Model.restrict. rewrite <- Hv.
  apply (split_identity R rO rI radd rmul rsub ropp Rth), Hl.
Qed.

(* converse of complete_solves_restricted *)
Lemma restricted_exact mask maskv A b values x :
  length b = length A -> length x = length mask -> compress (nmask mask) x = values ->
  restrict_rhs maskv (matvec A x) = restrict_rhs maskv b ->
  matvec (restrict_matrix mask maskv A) (restrict mask x) = restricted_rhs mask maskv A b values.
Proof.
  intros Hb Hl Hv H.
  rewrite (restrict_matrix_matvec R rO rI radd rmul rsub ropp Rth).
  unfold Model.restricted_rhs.
  pose proof (complete_restrict mask values x Hl Hv) as Ex. unfold Model.complete in Ex.
  rewrite <- Ex in H at 1.
  rewrite (matvec_vadd R rO rI radd rmul rsub ropp Rth) in H
    by apply (complete_lengths R rO).
  unfold Model.restrict_rhs in *.
  unfold Model.vsub, Model.vadd in *. rewrite compress_vzip in *. rewrite <- H.
  symmetry. apply vadd_vsub.
  unfold Model.matvec. rewrite !compress_map, !map_length. reflexivity.
Qed.

(* converse of complete_solves_rows: the selected equations, one by one, give the restricted product *)
Lemma solves_rows_restrict maskv A b x :
  length b = length A ->
  (forall i, i < length A -> nth i maskv false = true -> dot (nth i A []) x = nth i b rO) ->
  restrict_rhs maskv (matvec A x) = restrict_rhs maskv b.
Proof.
  intros Hb H. apply (compress_ext rO).
  - rewrite (matvec_length R rO radd rmul). symmetry. exact Hb.
  - intros i Hi Hm. rewrite (matvec_length R rO radd rmul) in Hi.
    unfold Model.matvec. rewrite (nth_map_lt (fun row => dot row x) A i rO []) by exact Hi.
    apply H; assumption.
Qed.

(* a vector that takes values[k] at dof idx[k] has the stored (argsorted) values on the rows of R_elim *)
Lemma prescribed_compress n idx values x :
  NoDup idx -> (forall j, In j idx -> j < n) -> length x = n ->
  (forall k, k < length idx -> nth (nth k idx 0) x rO = nth k values rO) ->
  compress (nmask (free_mask n idx)) x = take (argsort idx) values.
Proof.
  intros Hnd Hr Hl Hp. rewrite (compress_as_map_nth rO), Hl.
  fold (elim_dofs n idx). rewrite <- (argsort_spec n idx Hnd Hr), map_map.
  unfold Model.take. apply map_ext_in. intros p Hin. apply Hp, argsort_lt, Hin.
Qed.

Lemma take_repeat idx c : take (argsort idx) (repeat c (length idx)) = repeat c (length idx).
Proof.
  unfold Model.take. transitivity (map (fun _ : nat => c) (argsort idx));
    [|rewrite map_const_repeat, argsort_length; reflexivity].
  apply map_ext_in. intros p Hin. apply argsort_lt in Hin.
  apply nth_repeat_lt, Hin.
Qed.

(* entries of restrict_matrix: B[non-eliminated rows][:, free dofs], for every (rectangular) B *)
Lemma restrict_matrix_entries mask maskv B :
  restrict_matrix mask maskv B =
  map (fun i => map (fun j => nth j (nth i B []) rO) (compress mask (seq 0 (length (nth i B [])))))
      (compress maskv (seq 0 (length B))).
Proof.
  unfold Model.restrict_matrix.
  rewrite (compress_as_map_nth [] maskv), map_length. apply map_ext_in. intros i Hi.
  assert (Hlt : i < length B) by (apply compress_incl, in_seq in Hi; lia).
  rewrite (nth_map_lt (compress mask) B i [] []) by exact Hlt.
  apply compress_as_map_nth.
Qed.

(* self.values: the given values in increasing dof order, a scalar broadcast *)
Lemma rls_values ncols A b idx values elim_rows :
  r_values R (rls_init R rO radd rmul rsub A ncols b idx values elim_rows) = take (argsort idx) (bcast R (length idx) values).
Proof. destruct values as [c|v]; simpl; [|reflexivity]. symmetry. apply take_repeat. Qed.

End LinProofs2.
