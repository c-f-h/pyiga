(* C10 -- compute_dirichlet_bcs for an arbitrary list of conditions and for the 'all' shorthand;
   compute_dirichlet_bc with its values: blocked arrangement of vector-valued coefficients, _drop_nans. *)
From Coq Require Import List Arith Bool Lia Sorted.
From Verif.lib Require Import ListFacts Slice.
From Verif.C10 Require Import Model Proofs Proofs_mp Model_bc.
Import ListNotations.
Local Open Scope nat_scope.

Definition cond_ok (shape : list nat) (c : bdspec * nat) : Prop :=
  exists ax side, parse_bdspec (fst c) (length shape) = Some (ax, side) /\ 0 < nth ax shape 0.

Lemma dirichlet_bcs_list_spec shape conds : Forall (cond_ok shape) conds ->
  exists l, dirichlet_bcs_indices shape conds = Some l /\ StronglySorted lt l /\ NoDup l /\
    (forall r, In r l <->
       exists b nc ax side mi, In (b, nc) conds /\ parse_bdspec b (length shape) = Some (ax, side) /\
         on_face shape ax side mi /\
         (if Nat.eqb nc 0 then r = ravel shape mi
          else exists j, j < nc /\ r = ravel shape mi + j * prod_list shape)).
Proof.
  intros Hok. rewrite Forall_forall in Hok. unfold dirichlet_bcs_indices. rewrite !map_map.
  replace (forallb _ _) with true.
  - eexists. split; [reflexivity|]. split; [apply unique_sorted_sorted|]. split; [apply unique_sorted_NoDup|].
    intros r. rewrite unique_sorted_In, in_concat. split.
    + intros [l [Hl Hr]]. apply in_map_iff in Hl. destruct Hl as [[b nc] [<- Hc]].
      destruct (Hok _ Hc) as [ax [side [Hp Hn]]]. cbn [fst snd] in *.
      destruct (dirichlet_indices_spec shape b nc ax side Hp Hn) as [l [E Hin]].
      rewrite E in Hr. apply Hin in Hr. destruct Hr as [mi [Hf Hr]]. exists b, nc, ax, side, mi. auto.
    + intros [b [nc [ax [side [mi [Hc [Hp [Hf Hr]]]]]]]].
      destruct (Hok _ Hc) as [ax' [side' [Hp' Hn]]]. cbn [fst] in Hp'. rewrite Hp in Hp'. injection Hp' as <- <-.
      destruct (dirichlet_indices_spec shape b nc ax side Hp Hn) as [l [E Hin]].
      exists l. split.
      * apply in_map_iff. exists (b, nc). cbn [fst snd]. rewrite E. auto.
      * apply Hin. exists mi. auto.
  - symmetry. apply forallb_forall. intros o Ho. apply in_map_iff in Ho. destruct Ho as [[b nc] [<- Hc]].
    destruct (Hok _ Hc) as [ax [side [Hp Hn]]]. cbn [fst snd] in *.
    destruct (dirichlet_indices_spec shape b nc ax side Hp Hn) as [l [E _]]. rewrite E. reflexivity.
Qed.

Lemma all_faces_cond_ok shape nc : Forall (fun n => 0 < n) shape ->
  Forall (cond_ok shape) (map (fun b => (b, nc)) (all_faces (length shape))).
Proof.
  intros Hpos. apply Forall_forall. intros c Hc. apply in_map_iff in Hc. destruct Hc as [b [<- Hb]].
  destruct (all_faces_valid _ _ Hb) as [ax [side [_ [Hax [_ Hp]]]]]. exists ax, side.
  split; [exact Hp|]. rewrite Forall_forall in Hpos. apply Hpos, nth_In, Hax.
Qed.

(* the k-th face dof (shifted by f) paired with the k-th coefficient *)
Lemma in_combine_coef {B} (f : nat -> nat) (g : nat -> B) bd r v :
  In (r, v) (combine (map f bd) (map g (seq 0 (length bd)))) <->
  exists k, k < length bd /\ r = f (nth k bd 0) /\ g k = v.
Proof.
  rewrite <- (map_nth_seq 0 bd) at 1. rewrite map_map, combine_map_map, in_map_iff. split.
  - intros [k [E Hk]]. injection E as <- <-. apply in_seq in Hk. exists k. split; [lia|auto].
  - intros [k [Hk [-> <-]]]. exists k. split; [reflexivity|apply in_seq; lia].
Qed.

Section Values.
Variable X : Type.

Lemma drop_nans_length idx vals : length (fst (drop_nans X idx vals)) = length (snd (drop_nans X idx vals)).
Proof.
  revert vals. induction idx as [|i idx IH]; intros [|[v|] vals]; simpl; auto.
  specialize (IH vals). destruct (drop_nans X idx vals). simpl in *. lia.
Qed.

(* _drop_nans keeps exactly the pairs whose value is not nan, in the same order *)
Lemma drop_nans_pairs idx vals r v :
  In (r, v) (combine (fst (drop_nans X idx vals)) (snd (drop_nans X idx vals))) <-> In (r, Some v) (combine idx vals).
Proof.
  revert vals. induction idx as [|i idx IH]; intros [|[w|] vals]; simpl; try tauto.
  - specialize (IH vals). destruct (drop_nans X idx vals) as [is vs]. simpl in *. rewrite IH.
    split; intros [H|H]; auto; left; congruence.
  - rewrite IH. split; [auto|]. intros [H|H]; [discriminate|exact H].
Qed.

Lemma drop_nans_incl idx vals x : In x (fst (drop_nans X idx vals)) -> In x idx.
Proof.
  revert vals. induction idx as [|i idx IH]; intros [|[w|] vals]; simpl; try tauto.
  - specialize (IH vals). destruct (drop_nans X idx vals) as [is vs]. simpl in *. intros [H|H]; auto.
  - intros H. right. eapply IH, H.
Qed.

Lemma drop_nans_sorted idx vals : StronglySorted lt idx -> StronglySorted lt (fst (drop_nans X idx vals)).
Proof.
  revert vals. induction idx as [|i idx IH]; intros [|[w|] vals] Hs; simpl; try constructor;
    inversion Hs as [|? ? Hs' Hall]; subst.
  - pose proof (drop_nans_incl idx vals) as Hi. specialize (IH vals Hs').
    destruct (drop_nans X idx vals) as [is vs]. simpl in *. constructor; auto.
    rewrite Forall_forall in *. intros x Hx. apply Hall, Hi, Hx.
  - apply IH, Hs'.
Qed.

Lemma drop_nans_NoDup idx vals : NoDup idx -> NoDup (fst (drop_nans X idx vals)).
Proof.
  revert vals. induction idx as [|i idx IH]; intros [|[w|] vals] Hn; simpl; try constructor;
    inversion Hn as [|? ? Hni Hn']; subst.
  - pose proof (drop_nans_incl idx vals) as Hi. specialize (IH vals Hn').
    destruct (drop_nans X idx vals) as [is vs]. simpl in *. constructor; auto.
  - apply IH, Hn'.
Qed.

(* combine_bcs followed by _drop_nans, on duplicate-free indices: the non-nan pairs, sorted *)
Lemma sort_drop_nans (I : list nat) (V : list (option X)) : NoDup I -> length V = length I ->
  let r := combine_flat (option X) None I V in
  let res := drop_nans X (fst r) (snd r) in
  length (fst res) = length (snd res) /\ StronglySorted lt (fst res) /\
  (forall i v, In (i, v) (combine (fst res) (snd res)) <-> In (i, Some v) (combine I V)).
Proof.
  intros Hnd Hl r res. split; [apply drop_nans_length|]. split.
  - apply drop_nans_sorted, unique_sorted_sorted.
  - intros i v. unfold res. rewrite drop_nans_pairs. apply combine_flat_nodup; assumption.
Qed.

End Values.

Section BCValues.
Variable X : Type.
Variables (NN : nat) (bd : list nat) (nc : nat) (coef : nat -> nat -> option X).

Lemma vec_indices_NoDup : NoDup bd -> (forall i, In i bd -> i < NN) ->
  NoDup (concat (map (fun j => map (fun i => i + j * NN) bd) (seq 0 nc))).
Proof.
  intros Hnd Hlt. rewrite <- flat_map_concat_map. apply NoDup_flat_map_disjoint.
  - apply seq_NoDup.
  - intros j _. apply NoDup_map_inj_on; [|exact Hnd]. intros x y _ _ H. lia.
  - intros j j' r _ _ H1 H2. apply in_map_iff in H1, H2.
    destruct H1 as [i [<- Hi]]. destruct H2 as [i' [E Hi']].
    symmetry in E. destruct (blocked_disjoint NN bd j j' i i' Hlt Hi Hi' E). assumption.
Qed.

Notation parts := (vec_parts X NN bd nc coef).

(* the index lists of the components are those of Model.dirichlet_indices *)
Lemma vec_parts_fst : map fst parts = map (fun j => map (fun i => i + j * NN) bd) (seq 0 nc).
Proof. unfold vec_parts. rewrite map_map. reflexivity. Qed.

Lemma vec_parts_lengths : Forall (fun p => length (fst p) = length (snd p)) parts.
Proof.
  apply Forall_forall. intros p Hp. apply in_map_iff in Hp. destruct Hp as [j [<- _]].
  cbn [fst snd]. rewrite !map_length, seq_length. reflexivity.
Qed.

(* blocked numbering: component j of the k-th face dof sits at index bd[k] + j*NN and carries
   coefficient coef k j *)
Lemma vec_parts_pairs r v :
  In (r, v) (combine (concat (map fst parts)) (concat (map snd parts))) <->
  exists k j, k < length bd /\ j < nc /\ r = nth k bd 0 + j * NN /\ coef k j = v.
Proof.
  rewrite combine_concat by apply vec_parts_lengths.
  unfold vec_parts. rewrite map_map, in_concat. cbn [fst snd]. split.
  - intros [l [Hl Hrv]]. apply in_map_iff in Hl. destruct Hl as [j [<- Hj]]. apply in_seq in Hj.
    apply in_combine_coef in Hrv. destruct Hrv as [k [Hk [-> Ev]]]. exists k, j. repeat split; auto; lia.
  - intros [k [j [Hk [Hj [-> Ev]]]]]. eexists. split.
    + apply in_map_iff. exists j. split; [reflexivity|apply in_seq; lia].
    + apply in_combine_coef. exists k. auto.
Qed.

End BCValues.
