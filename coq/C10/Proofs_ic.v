(* C10 -- compute_initial_condition_01 reproduces value and first time derivative on the initial
   face.  Time direction: at an end point of an open knot vector (any degree >= 1, any interval) only
   two basis functions are non-zero, their values and first derivatives are the entries of the 2x2
   collocation matrix (C02: active_derivs_eq_spec, N_left_end, ...), and the computed pair solves
   that 2x2 system.  Space-time: exchanging the two finite sums, the spline with the computed
   boundary coefficients restricted to the face IS the spatial spline with coefficients G0 (value)
   resp. G1 (time derivative), whatever the spatial basis (the weights B s are arbitrary numbers). *)
From Coq Require Import QArith Qcanon ZArith List Bool Arith Lia Lqa Field.
From Verif.lib Require Import Bsp.
From Verif.C02 Require Import Proofs Proofs_ref Proofs_single Proofs_deriv.
From Verif.C10 Require Import Model_ic.
Import ListNotations.
Open Scope Qc_scope.

Lemma solve2_correct c00 c01 c10 c11 g0 g1 :
  c00 * c11 - c01 * c10 <> 0 ->
  let a := solve2 c00 c01 c10 c11 g0 g1 in
  c00 * fst a + c01 * snd a = g0 /\ c10 * fst a + c11 * snd a = g1.
Proof. intros H. unfold solve2. simpl. split; field; exact H. Qed.

(* the two matrices that occur: [[1, 0], [-c, c]] and [[0, 1], [-c, c]] *)
Lemma solve2_first c g0 g1 : c <> 0 -> solve2 1 0 (- c) c g0 g1 = (g0, g0 + g1 / c).
Proof. intros Hc. unfold solve2. f_equal; field; exact Hc. Qed.

Lemma solve2_last c g0 g1 : c <> 0 -> solve2 0 1 (- c) c g0 g1 = (g0 - g1 / c, g0).
Proof.
  intros Hc. unfold solve2.
  f_equal; field; repeat split; try exact Hc; intros E; apply Hc; rewrite <- E; ring.
Qed.

Lemma Qcminus_nonzero a b : a < b -> b - a <> 0.
Proof. intros H. qc2q. lra. Qed.

Lemma Zq_div_nonzero p a b : (1 <= p)%nat -> a < b -> Zq (Z.of_nat p) / (b - a) <> 0.
Proof.
  intros Hp Hlt E. apply Qcminus_nonzero in Hlt.
  assert (Hz : Zq (Z.of_nat p) <> 0).
  { unfold Zq. intros Z. apply Qc_eq_Qeq in Z. cbn [this Q2Qc] in Z. rewrite !Qred_correct in Z.
    unfold Qeq in Z. simpl in Z. lia. }
  apply Hz. rewrite <- (Qcmult_div_r (Zq (Z.of_nat p)) (b - a) Hlt), E. ring.
Qed.

(* a sum in which only the terms number a and b = a+1 are non-zero *)
Lemma sumf_two (F cf : nat -> Qc) a b n : b = S a -> (b < n)%nat ->
  (forall j, (j < n)%nat -> j <> a -> j <> b -> F j = 0) ->
  sumf (fun j => cf j * F j) 0 n = F a * cf a + F b * cf b.
Proof.
  intros -> Hn Hz. replace n with (a + (2 + (n - a - 2)))%nat by lia.
  rewrite !sumf_app. cbn [sumf Nat.add].
  rewrite (sumf_zero _ a 0), (sumf_zero _ (n - a - 2) (a + 2)); [ring| |];
    intros j Hj; rewrite Hz by lia; ring.
Qed.

Lemma dNref_1 kv p i u : (1 <= p)%nat ->
  dNref kv 1 p i u = Zq (Z.of_nat p) *
    (Nref kv (p - 1) i u / (kn kv (i + p) - kn kv i) - Nref kv (p - 1) (S i) u / (kn kv (i + p + 1) - kn kv (i + 1))).
Proof.
  intros H. destruct p as [|q]; [lia|]. cbn [dNref]. replace (S q - 1)%nat with q by lia. reflexivity.
Qed.

Section ENDS.
Variable kv : list Qc.
Variable p : nat.
Hypothesis Hopen : open_kv kv p = true.
Hypothesis Hp : (1 <= p)%nat.

Notation t0 := (kn kv 0).
Notation t1 := (lastk kv).

(* what open_kv says, piece by piece *)
Lemma open_len : (2 * p + 2 <= length kv)%nat.
Proof. apply (open_kv_parts kv p Hopen). Qed.

Lemma open_sorted : sorted kv.
Proof. apply (open_kv_parts kv p Hopen). Qed.

Lemma open_first i : (i <= p)%nat -> kn kv i = t0.
Proof. apply (open_kv_parts kv p Hopen). Qed.

Lemma open_last i : (i <= p)%nat -> kn kv (length kv - 1 - i) = t1.
Proof. apply (open_kv_parts kv p Hopen). Qed.

Lemma open_first_lt : t0 < kn kv (S p).
Proof. rewrite <- (open_first p (le_n p)). apply (open_kv_parts kv p Hopen). Qed.

Lemma open_last_lt : kn kv (length kv - p - 2) < t1.
Proof.
  (* length kv - 1 - p = length kv - p - 1 *)
  rewrite <- (open_last p (le_n p)), <- (Nat.sub_add_distr _ 1 p), (Nat.add_comm 1 p), Nat.sub_add_distr.
  apply (open_kv_parts kv p Hopen).
Qed.

(* at the left end point the only non-zero function of degree q <= p is number p - q, with value 1 *)
Lemma N_zero_at_first : forall q i, (q <= p)%nat -> (i + q + 1 < length kv)%nat -> (i + q)%nat <> p ->
  Nref kv q i t0 = 0.
Proof.
  pose proof open_len as Hlen. pose proof open_sorted as Hs. pose proof open_first_lt as Hlt.
  induction q as [|q IH]; intros i Hq Hi Hne.
  - cbn [Nref]. destruct (in_span kv i t0) eqn:E; [exfalso|reflexivity].
    apply in_span_true in E. unfold supp in E. replace (i + 0 + 1)%nat with (S i) in E by lia.
    destruct E as [[A B]|[A _]].
    + destruct (Nat.lt_ge_cases i p) as [L|G].
      * rewrite (open_first (S i)) in B by lia. revert B. apply Qcle_not_lt, Qcle_refl.
      * assert (kn kv (S p) <= kn kv i) by (apply Hs; lia).
        apply (Qclt_not_le _ _ Hlt). eapply Qcle_trans; eassumption.
    + assert (kn kv (S p) <= lastk kv) by (apply Hs; lia).
      rewrite <- A in H. apply (Qclt_not_le _ _ Hlt H).
  - rewrite Nref_S.
    rewrite (IH (i + 1)%nat) by lia.
    destruct (Nat.eq_dec (i + q) p) as [E|Hne2].
    + rewrite (open_first i) by lia. replace (t0 - t0) with 0 by ring. rewrite Qcdiv_0_l. ring.
    + rewrite (IH i) by lia. ring.
Qed.

Lemma N_at_first : forall q i, (q <= p)%nat -> (i + q + 1 < length kv)%nat ->
  Nref kv q i t0 = if Nat.eqb i (p - q) then 1 else 0.
Proof.
  intros q i Hq Hi. destruct (Nat.eqb_spec i (p - q)) as [->|Hne].
  - apply N_left_end.
    + intros m Hm. apply open_first. lia.
    + replace (p - q + q + 1)%nat with (S p) by lia. exact open_first_lt.
  - apply N_zero_at_first; [assumption|assumption|lia].
Qed.

Definition cleft : Qc := Zq (Z.of_nat p) / (kn kv (S p) - t0).

Lemma cleft_nonzero : cleft <> 0.
Proof. apply (Zq_div_nonzero p _ _ Hp), open_first_lt. Qed.

Lemma dN_at_first i : (i + p + 1 < length kv)%nat ->
  dNref kv 1 p i t0 = match i with 0%nat => - cleft | 1%nat => cleft | _ => 0 end.
Proof.
  intros Hi. rewrite dNref_1 by exact Hp.
  rewrite !N_at_first by lia. unfold cleft, Qcdiv.
  replace (p - (p - 1))%nat with 1%nat by lia.
  destruct i as [|[|i]]; cbn [Nat.eqb Nat.add]; rewrite ?(open_first 1%nat) by lia;
    replace (p + 1)%nat with (S p) by lia; ring.
Qed.

Lemma findspan_first : findspan kv p t0 = p.
Proof.
  pose proof open_len as Hlen. pose proof open_first_lt as Hlt.
  symmetry. apply findspan_unique_l.
  - apply open_kv_ok_l, Hopen.
  - apply Qcle_refl.
  - eapply Qclt_le_trans; [exact Hlt|]. apply open_sorted; lia.
  - lia.
  - rewrite (open_first p) by lia. apply Qcle_refl.
  - exact Hlt.
Qed.

Lemma at_first_values :
  Nref kv p 0 t0 = 1 /\ Nref kv p 1 t0 = 0 /\ dNref kv 1 p 0 t0 = - cleft /\ dNref kv 1 p 1 t0 = cleft.
Proof.
  pose proof open_len as Hlen.
  rewrite !N_at_first, !dN_at_first, Nat.sub_diag by lia. auto.
Qed.

(* active_deriv(kv, t0, 1)[:2, :2] = [[1, 0], [-c, c]] *)
Lemma ic_bdcolloc_left : ic_bdcolloc kv p 0 = (1, 0, - cleft, cleft).
Proof.
  pose proof open_len as Hlen.
  assert (Hok := open_kv_ok_l kv p Hopen).
  assert (H1 : t0 <= kn kv (length kv - 1)) by (apply open_sorted; lia).
  destruct at_first_values as [V0 [V1 [D0 D1]]].
  unfold ic_bdcolloc, ic_endpoint. cbn [Nat.eqb].
  rewrite !(active_derivs_eq_spec_l kv p t0 1) by (auto; try lia; apply Qcle_refl).
  rewrite findspan_first, Nat.sub_diag. cbn [Nat.add].
  change (dNref kv 0 p 0 t0) with (Nref kv p 0 t0). change (dNref kv 0 p 1 t0) with (Nref kv p 1 t0).
  rewrite V0, V1, D0, D1. reflexivity.
Qed.

(* value and first derivative at the left end point of the spline with coefficients cf, when
   the first two coefficients are the computed ones: only two basis functions contribute, and
   the computed pair solves the 2x2 system of their values *)
Lemma ic_reproduces_left (cf : nat -> Qc) g0 g1 :
  cf 0%nat = fst (ic_coeffs kv p 0 g0 g1) -> cf 1%nat = snd (ic_coeffs kv p 0 g0 g1) ->
  sumf (fun j => cf j * Nref kv p j t0) 0 (numdofs kv p) = g0 /\
  sumf (fun j => cf j * dNref kv 1 p j t0) 0 (numdofs kv p) = g1.
Proof.
  pose proof open_len as Hlen. destruct at_first_values as [V0 [V1 [D0 D1]]].
  unfold ic_coeffs, numdofs. rewrite ic_bdcolloc_left. intros E0 E1.
  assert (Hn : (1 < length kv - p - 1)%nat) by lia.
  assert (ZN : forall j, (j < length kv - p - 1)%nat -> j <> 0%nat -> j <> 1%nat -> Nref kv p j t0 = 0).
  { intros [|j] Hj H0 _; [congruence|]. rewrite N_at_first, Nat.sub_diag by lia. reflexivity. }
  assert (ZD : forall j, (j < length kv - p - 1)%nat -> j <> 0%nat -> j <> 1%nat -> dNref kv 1 p j t0 = 0).
  { intros [|[|j]] Hj H0 H1; [congruence|congruence|]. apply dN_at_first. lia. }
  rewrite (sumf_two _ cf 0 1 _ eq_refl Hn ZN), (sumf_two _ cf 0 1 _ eq_refl Hn ZD).
  rewrite V0, V1, D0, D1, E0, E1.
  apply solve2_correct. intros E. apply cleft_nonzero. rewrite <- E. ring.
Qed.

Notation L := (length kv - p - 2)%nat.     (* the last basis function *)

Definition cright : Qc := Zq (Z.of_nat p) / (t1 - kn kv L).

Lemma cright_nonzero : cright <> 0.
Proof. apply (Zq_div_nonzero p _ _ Hp), open_last_lt. Qed.

(* With the number l of the last basis function as a variable:
   length kv = l + p + 2 keeps truncated subtraction out of the index arithmetic. *)
Section RIGHT_l.
Variable l : nat.
Hypothesis Hl : length kv = (l + p + 2)%nat.

Lemma open_last_l i : (i <= p)%nat -> kn kv (l + p + 1 - i) = t1.
Proof. intros Hi. rewrite <- (open_last i Hi). f_equal. lia. Qed.

Lemma p_le_l : (p <= l)%nat.
Proof. pose proof open_len. lia. Qed.

(* at the right end point the only non-zero function of degree q <= p is the last one *)
Lemma N_at_last_val : forall q i, (q <= p)%nat -> (i + q + 1 < length kv)%nat ->
  Nref kv q i t1 = if Nat.eqb i l then 1 else 0.
Proof.
  pose proof open_sorted as Hs. pose proof open_last_lt as Hlt. replace L with l in Hlt by lia.
  intros q i Hq Hi. destruct (Nat.eqb_spec i l) as [->|Hne].
  - apply N_right_end; [exact Hlt|].
    intros m Hm. replace (l + m)%nat with (l + p + 1 - (p + 1 - m))%nat by lia. apply open_last_l. lia.
  - destruct (Qc_eq_dec (Nref kv q i t1) 0) as [Z|NZ]; [exact Z|exfalso].
    apply (N_at_last kv Hs) in NZ; [|exact Hi]. destruct NZ as [A B].
    destruct (Nat.lt_ge_cases i l) as [Lt|Ge].
    + assert (kn kv (i + 1) <= kn kv l) by (apply Hs; lia).
      rewrite B in H. apply (Qclt_not_le _ _ Hlt H).
    + assert (E : kn kv i = t1).
      { replace i with (l + p + 1 - (l + p + 1 - i))%nat by lia. apply open_last_l. lia. }
      rewrite E in A. revert A. apply Qcle_not_lt, Qcle_refl.
Qed.

Lemma dN_at_last i : (i + p + 1 < length kv)%nat ->
  dNref kv 1 p i t1 =
  if Nat.eqb i l then cright else if Nat.eqb (S i) l then - cright else 0.
Proof.
  intros Hi. rewrite dNref_1 by exact Hp.
  rewrite !N_at_last_val by lia. unfold cright, Qcdiv. replace L with l by lia.
  assert (EL : kn kv (l + p) = t1).
  { replace (l + p)%nat with (l + p + 1 - 1)%nat by lia. apply open_last_l. lia. }
  destruct (Nat.eqb_spec i l) as [->|Hne].
  - rewrite (proj2 (Nat.eqb_neq (S l) l)), EL by lia. ring.
  - destruct (Nat.eqb_spec (S i) l) as [E|Hne2]; [|ring].
    replace (i + p + 1)%nat with (l + p)%nat by lia. replace (i + 1)%nat with l by lia.
    rewrite EL. ring.
Qed.

Lemma findspan_last : findspan kv p t1 = l.
Proof.
  unfold findspan. replace (length kv - p - 1)%nat with (S l) by lia. replace L with l by lia.
  replace (qleb (kn kv (S l)) t1) with true; [reflexivity|].
  symmetry. apply qleb_iff. apply open_sorted; lia.
Qed.

Lemma at_last_values :
  Nref kv p (l - 1) t1 = 0 /\ Nref kv p l t1 = 1 /\
  dNref kv 1 p (l - 1) t1 = - cright /\ dNref kv 1 p l t1 = cright.
Proof.
  pose proof p_le_l as Hpl.
  rewrite !N_at_last_val, !dN_at_last by lia.
  rewrite Nat.eqb_refl, (proj2 (Nat.eqb_neq (l - 1) l)), (proj2 (Nat.eqb_eq (S (l - 1)) l)) by lia.
  auto.
Qed.

(* active_deriv(kv, t1, 1)[:2, -2:] = [[0, 1], [-c, c]] *)
Lemma ic_bdcolloc_right_l : ic_bdcolloc kv p 1 = (0, 1, - cright, cright).
Proof.
  pose proof p_le_l as Hpl.
  assert (Hok := open_kv_ok_l kv p Hopen).
  assert (H1 : kn kv 0 <= t1) by (apply open_sorted; lia).
  destruct at_last_values as [V0 [V1 [D0 D1]]].
  unfold ic_bdcolloc, ic_endpoint. cbn [Nat.eqb]. fold t1.
  rewrite !(active_derivs_eq_spec_l kv p t1 1) by (auto; try lia; apply Qcle_refl).
  rewrite findspan_last.
  replace (l - p + (p - 1))%nat with (l - 1)%nat by lia. replace (l - p + S (p - 1))%nat with l by lia.
  change (dNref kv 0 p (l - 1) t1) with (Nref kv p (l - 1) t1). change (dNref kv 0 p l t1) with (Nref kv p l t1).
  rewrite V0, V1, D0, D1. reflexivity.
Qed.

(* the mirror statement at the right end point: the last two coefficients *)
Lemma ic_reproduces_right_l (cf : nat -> Qc) g0 g1 :
  cf (l - 1)%nat = fst (ic_coeffs kv p 1 g0 g1) -> cf l = snd (ic_coeffs kv p 1 g0 g1) ->
  sumf (fun j => cf j * Nref kv p j t1) 0 (S l) = g0 /\
  sumf (fun j => cf j * dNref kv 1 p j t1) 0 (S l) = g1.
Proof.
  pose proof p_le_l as Hpl. destruct at_last_values as [V0 [V1 [D0 D1]]].
  unfold ic_coeffs. rewrite ic_bdcolloc_right_l. intros E0 E1.
  assert (Hb : l = S (l - 1)) by lia.
  assert (ZN : forall j, (j < S l)%nat -> j <> (l - 1)%nat -> j <> l -> Nref kv p j t1 = 0).
  { intros j Hj _ Hne. rewrite N_at_last_val, (proj2 (Nat.eqb_neq j l)) by lia. reflexivity. }
  assert (ZD : forall j, (j < S l)%nat -> j <> (l - 1)%nat -> j <> l -> dNref kv 1 p j t1 = 0).
  { intros j Hj H0 H1. rewrite dN_at_last, (proj2 (Nat.eqb_neq j l)), (proj2 (Nat.eqb_neq (S j) l)) by lia.
    reflexivity. }
  rewrite (sumf_two _ cf _ _ _ Hb (Nat.lt_succ_diag_r l) ZN), (sumf_two _ cf _ _ _ Hb (Nat.lt_succ_diag_r l) ZD).
  rewrite V0, V1, D0, D1, E0, E1.
  apply solve2_correct. intros E. apply cright_nonzero. rewrite <- E. ring.
Qed.

End RIGHT_l.

Lemma open_length_L : length kv = (L + p + 2)%nat.
Proof. pose proof open_len. lia. Qed.

Lemma ic_bdcolloc_right : ic_bdcolloc kv p 1 = (0, 1, - cright, cright).
Proof. exact (ic_bdcolloc_right_l _ open_length_L). Qed.

Lemma ic_reproduces_right (cf : nat -> Qc) g0 g1 :
  cf (numdofs kv p - 2)%nat = fst (ic_coeffs kv p 1 g0 g1) ->
  cf (numdofs kv p - 1)%nat = snd (ic_coeffs kv p 1 g0 g1) ->
  sumf (fun j => cf j * Nref kv p j t1) 0 (numdofs kv p) = g0 /\
  sumf (fun j => cf j * dNref kv 1 p j t1) 0 (numdofs kv p) = g1.
Proof.
  pose proof open_length_L as Hl.
  assert (E : numdofs kv p = S L) by (unfold numdofs; lia).
  rewrite E. cbn [Nat.sub]. rewrite Nat.sub_0_r. apply (ic_reproduces_right_l _ Hl).
Qed.

End ENDS.

Lemma sumf_add f g : forall n a, sumf (fun i => f i + g i) a n = sumf f a n + sumf g a n.
Proof. induction n as [|n IH]; intros a; cbn [sumf]; [ring|]. rewrite IH. ring. Qed.

Lemma sumf_swap (h : nat -> nat -> Qc) : forall m n a b,
  sumf (fun i => sumf (fun j => h i j) b n) a m = sumf (fun j => sumf (fun i => h i j) a m) b n.
Proof.
  induction m as [|m IH]; intros n a b; cbn [sumf].
  - symmetry. apply sumf_zero. reflexivity.
  - rewrite IH. rewrite <- sumf_add. reflexivity.
Qed.

(* c j s: coefficients of the space-time spline (time index, spatial index); W j: the time basis
   (or its derivative) at the end point; B s: the spatial basis at some point.  If every column
   s < ns of c has time-direction sum G s, the space-time sum is the spatial sum of G *)
Lemma sumf_columns (c : nat -> nat -> Qc) (W B G : nat -> Qc) nd ns :
  (forall s, (s < ns)%nat -> sumf (fun j => c j s * W j) 0 nd = G s) ->
  sumf (fun j => sumf (fun s => c j s * (W j * B s)) 0 ns) 0 nd = sumf (fun s => G s * B s) 0 ns.
Proof.
  intros H. rewrite sumf_swap. apply sumf_ext. intros s Hs. rewrite <- H by lia.
  rewrite Qcmult_comm, <- sumf_scale. apply sumf_ext. intros j _. ring.
Qed.
