(* C10 -- compute_initial_condition_01: which dof every computed coefficient lands on.
   The s-th entries of the two boundary slices have the SAME spatial multi-index and time
   indices firstidx resp. firstidx+1; coefficient (k, s) is paired with the s-th entry of slice k. *)
From Coq Require Import List Arith Bool ZArith Lia.
From Verif.lib Require Import ListFacts Slice.
From Verif.C10 Require Import Model Proofs Model_bc.
Import ListNotations.
Local Open Scope nat_scope.

(* the multi-index mi with its coordinate on axis ax replaced by i *)
Fixpoint put (ax i : nat) (mi : list nat) {struct mi} : list nat :=
  match mi with
  | [] => []
  | x :: t => match ax with 0 => i :: t | S a => x :: put a i t end
  end.

Lemma put_S ax i x mi : put (S ax) i (x :: mi) = x :: put ax i mi.
Proof. reflexivity. Qed.

Lemma put_0 i x mi : put 0 i (x :: mi) = i :: mi.
Proof. reflexivity. Qed.

Lemma axdofs_gt ax i i0 : forall shape k fl, ax < k -> axdofs_aux k ax i shape fl = axdofs_aux k ax i0 shape fl.
Proof.
  induction shape as [|n shape IH]; intros k fl H; simpl; [reflexivity|].
  replace (Nat.eqb k ax) with false by (symmetry; apply Nat.eqb_neq; lia).
  rewrite (IH (S k) (tl fl)) by lia. reflexivity.
Qed.

(* slices at different positions of the same axis differ only in that coordinate, entry by entry *)
Lemma product_axdofs_put ax i i0 : forall shape k fl, k <= ax ->
  product (axdofs_aux k ax i shape fl) = map (put (ax - k) i) (product (axdofs_aux k ax i0 shape fl)).
Proof.
  induction shape as [|n shape IH]; intros k fl Hk; simpl; [reflexivity|].
  destruct (Nat.eqb_spec k ax) as [->|Hne].
  - rewrite Nat.sub_diag. rewrite (axdofs_gt ax i i0 shape (S ax) (tl fl)) by lia.
    simpl. rewrite !app_nil_r, map_map. apply map_ext. intros mi. reflexivity.
  - rewrite (IH (S k) (tl fl)) by lia.
    replace (ax - k) with (S (ax - S k)) by lia.
    rewrite map_flat_map. apply flat_map_ext. intros x. rewrite !map_map. apply map_ext. intros mi. reflexivity.
Qed.

Lemma slice_multi_put ax i i0 shape fl :
  slice_multi ax i shape fl = map (put ax i) (slice_multi ax i0 shape fl).
Proof.
  unfold slice_multi. rewrite (product_axdofs_put ax i i0 shape 0 _ (Nat.le_0_l ax)). rewrite Nat.sub_0_r. reflexivity.
Qed.

Lemma slice_indices_put ax i i0 shape fl :
  slice_indices ax i shape fl = map (fun mi => ravel shape (put ax i mi)) (slice_multi ax i0 shape fl).
Proof. unfold slice_indices. rewrite (slice_multi_put ax i i0), map_map. reflexivity. Qed.

Section ICValues.
Variable X : Type.
Variable d : X.

(* first time index of the two boundary slices: 0 resp. n-2 *)
Definition ic_first_idx (n side : nat) : nat := if Nat.eqb side 0 then 0 else n - 2.

Lemma ic_first_idx_lt n side : 2 <= n -> ic_first_idx n side + 1 < n.
Proof. unfold ic_first_idx. destruct (Nat.eqb side 0); lia. Qed.

(* the two slices firstidx, firstidx+1 (= 0, 1 resp. -2, -1) are the slices f, f+1 *)
Lemma ic_slices ax side shape fl : ax < length shape -> 2 <= nth ax shape 0 ->
  let first := (if Nat.eqb side 0 then 0 else -2)%Z in
  let f := ic_first_idx (nth ax shape 0) side in
  slice_indices_z ax first shape fl = Some (slice_indices ax f shape fl) /\
  slice_indices_z ax (first + 1) shape fl = Some (slice_indices ax (f + 1) shape fl).
Proof.
  intros Hax Hn first f. set (n := nth ax shape 0) in *.
  pose proof (ic_first_idx_lt n side Hn) as Hf. fold f in Hf.
  assert (W : wrap first n = Z.of_nat f /\ wrap (first + 1) n = Z.of_nat (f + 1)).
  { unfold wrap, first, f, ic_first_idx. destruct (Nat.eqb side 0); [split; reflexivity|].
    change (-2 <? 0)%Z with true. change (-2 + 1 <? 0)%Z with true. lia. }
  destruct W as [W0 W1].
  rewrite !slice_indices_z_some by (fold n; rewrite ?W0, ?W1; lia). fold n. rewrite W0, W1, !Nat2Z.id. auto.
Qed.

Lemma initial_condition_spec shape b (coef : nat -> nat -> X) ax side :
  parse_bdspec b (length shape) = Some (ax, side) -> 2 <= nth ax shape 0 ->
  let f := ic_first_idx (nth ax shape 0) side in
  let face := slice_multi ax f shape [] in
  exists idx vals, initial_condition X shape b coef = Some (idx, vals) /\
    initial_indices shape b = Some idx /\
    length idx = 2 * length face /\ length vals = length idx /\ NoDup idx /\
    (forall s, s < length face ->
       let mi := nth s face [] in
       valid_mi shape mi /\ nth ax mi 0 = f /\
       nth s idx 0 = ravel shape mi /\ nth s vals d = coef 0 s /\
       nth (length face + s) idx 0 = ravel shape (put ax (f + 1) mi) /\ nth (length face + s) vals d = coef 1 s).
Proof.
  intros Hp Hn f face. destruct (parse_bdspec_some _ _ _ _ Hp) as [Hax _].
  pose proof (ic_first_idx_lt _ side Hn) as Hf. fold f in Hf. assert (Hf0 : f < nth ax shape 0) by lia.
  destruct (ic_slices ax side shape [] Hax Hn) as [Ea Ec].
  unfold initial_condition, initial_indices. rewrite Hp, Ea, Ec. fold f.
  set (a := slice_indices ax f shape []). set (c := slice_indices ax (f + 1) shape []).
  assert (Ec' : c = map (fun mi => ravel shape (put ax (f + 1) mi)) face) by apply slice_indices_put.
  assert (La : length a = length face) by apply map_length.
  assert (Lc : length c = length face) by (rewrite Ec'; apply map_length).
  eexists. eexists. split; [reflexivity|]. split; [reflexivity|].
  split; [rewrite app_length; lia|].
  split; [rewrite !app_length, !map_length, !seq_length; lia|].
  split.
  - apply NoDup_app_intro; try (apply slice_indices_face_l; assumption).
    intros r Ha Hc. pose proof (slice_indices_disjoint _ _ _ _ _ _ Hax Hf0 Hf Ha Hc). lia.
  - intros s Hs. set (mi := nth s face []).
    destruct (proj1 (slice_multi_In ax f shape [] mi Hax Hf0) (nth_In _ _ Hs)) as [Hv Hc].
    split; [exact Hv|]. split; [exact Hc|].
    (* both slices are maps over face, both rows of values maps over seq 0 (length face) *)
    rewrite La. change a with (map (ravel shape) face). rewrite Ec'.
    rewrite !app_nth1 by (rewrite map_length, ?seq_length; exact Hs).
    rewrite !nth_app_r by (rewrite map_length, ?seq_length; reflexivity).
    rewrite !(nth_map_lt _ face s 0 []), !nth_map_seq by exact Hs. auto.
Qed.

End ICValues.
