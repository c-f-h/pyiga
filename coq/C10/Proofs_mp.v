(* C10 -- Multipatch.compute_dirichlet_bcs on top of C14's numbering (glob, patch_to_global_idx);
   boundary_dofs / boundary_cells / the index set of one condition. *)
From Coq Require Import List Arith Bool ZArith Lia.
From Verif.lib Require Import Slice.
From Verif.C14 Require Model Spec Proofs.
From Verif.C10 Require Import Model Proofs.
Import ListNotations.
Local Open Scope nat_scope.

Section MPProofs.
Variable X : Type.
Variable p2g_of : nat -> list nat.

Definition cache_ok (cache : list (nat * list nat)) : Prop :=
  forall p l, cache_get cache p = Some l -> l = p2g_of p.

Lemma mp_step_spec bcs cache p loc vals :
  cache_ok cache ->
  let st' := mp_step X p2g_of (bcs, cache) (p, loc, vals) in
  fst st' = bcs ++ [(renumber (p2g_of p) loc, vals)] /\ cache_ok (snd st').
Proof.
  intros Hc. unfold mp_step.
  destruct (cache_get cache p) as [l|] eqn:E.
  - rewrite E. cbn [fst snd]. rewrite (Hc p l E). split; [reflexivity|exact Hc].
  - cbn [cache_get]. rewrite Nat.eqb_refl. cbn [fst snd]. split; [reflexivity|].
    intros q l. cbn [cache_get]. destruct (Nat.eqb_spec q p) as [->|Hne].
    + intros H. injection H as <-. reflexivity.
    + apply Hc.
Qed.

(* whatever the order of the conditions and however often a patch re-appears, every condition
   is renumbered with the index map of ITS patch *)
Lemma mp_loop_spec conds :
  mp_loop X p2g_of conds =
  map (fun c : mp_cond X => let '(p, loc, vals) := c in (renumber (p2g_of p) loc, vals)) conds.
Proof.
  unfold mp_loop.
  assert (G : forall bcs cache, cache_ok cache ->
    fst (fold_left (mp_step X p2g_of) conds (bcs, cache)) =
    bcs ++ map (fun c : mp_cond X => let '(p, loc, vals) := c in (renumber (p2g_of p) loc, vals)) conds).
  { induction conds as [|c conds IH]; intros bcs cache Hc; cbn [fold_left map].
    - rewrite app_nil_r. reflexivity.
    - destruct c as [[p loc] vals]. pose proof (mp_step_spec bcs cache p loc vals Hc) as S.
      destruct (mp_step X p2g_of (bcs, cache) (p, loc, vals)) as [bcs' cache'].
      cbn [fst snd] in S. destruct S as [-> Hc'].
      rewrite (IH _ _ Hc'). rewrite <- app_assoc. reflexivity. }
  rewrite G; [reflexivity|]. intros p l H. discriminate.
Qed.

End MPProofs.

Section MPGlued.
Variable X : Type.
Variable d : X.
Variable st : C14.Model.state.
Variable Ns : list nat.

Definition cond_valid (c : mp_cond X) : Prop :=
  let '(p, loc, vals) := c in (forall i, In i loc -> i < nth p Ns 0) /\ length vals = length loc.

(* the glued (global) index lists and the values, concatenated over the conditions *)
Definition glued_indices (conds : list (mp_cond X)) : list nat :=
  concat (map (fun c : mp_cond X => let '(p, loc, _) := c in map (fun i => C14.Model.glob st Ns (p, i)) loc) conds).
Definition all_values (conds : list (mp_cond X)) : list X :=
  concat (map (fun c : mp_cond X => let '(_, _, vals) := c in vals) conds).

Lemma renumber_glob p loc : (forall i, In i loc -> i < nth p Ns 0) ->
  renumber (C14.Model.patch_to_global_idx st Ns p) loc = map (fun i => C14.Model.glob st Ns (p, i)) loc.
Proof.
  intros H. unfold renumber. apply map_ext_in. intros i Hi. apply C14.Proofs.p2g_idx_nth, H, Hi.
Qed.

Lemma mp_flat conds : Forall cond_valid conds ->
  mp_compute_dirichlet_bcs X d (C14.Model.patch_to_global_idx st Ns) conds =
  combine_flat X d (glued_indices conds) (all_values conds).
Proof.
  intros Hv. unfold mp_compute_dirichlet_bcs, combine_bcs. rewrite mp_loop_spec.
  unfold glued_indices, all_values. rewrite !map_map. f_equal; f_equal.
  - apply map_ext_in. intros [[p loc] vals] Hin. cbn [fst].
    rewrite Forall_forall in Hv. destruct (Hv _ Hin) as [H _]. apply renumber_glob, H.
  - apply map_ext. intros [[p loc] vals]. reflexivity.
Qed.

Lemma in_glued conds g : In g (glued_indices conds) <->
  exists p loc vals i, In (p, loc, vals) conds /\ In i loc /\ g = C14.Model.glob st Ns (p, i).
Proof.
  unfold glued_indices. rewrite in_concat. split.
  - intros [l [Hl Hg]]. apply in_map_iff in Hl. destruct Hl as [[[p loc] vals] [<- Hin]].
    apply in_map_iff in Hg. destruct Hg as [i [<- Hi]]. exists p, loc, vals, i. auto.
  - intros [p [loc [vals [i [Hin [Hi ->]]]]]].
    exists (map (fun i => C14.Model.glob st Ns (p, i)) loc). split.
    + apply in_map_iff. exists (p, loc, vals). auto.
    + apply (in_map (fun i => C14.Model.glob st Ns (p, i))). exact Hi.
Qed.

End MPGlued.

(* the local dofs named by valid conditions are dofs of C14's model *)
Lemma cond_valid_dof (X : Type) Ns (conds : list (mp_cond X)) p loc vals i :
  Forall (cond_valid X Ns) conds -> In (p, loc, vals) conds -> In i loc -> C14.Spec.valid Ns (p, i).
Proof.
  intros Hv Hc Hi. rewrite Forall_forall in Hv. destruct (Hv _ Hc) as [Hr _]. specialize (Hr i Hi).
  split; [|exact Hr]. cbn [fst snd] in *.
  destruct (Nat.lt_ge_cases p (length Ns)) as [L|G]; [exact L|].
  rewrite nth_overflow in Hr by exact G. lia.
Qed.

Definition on_face (shape : list nat) (ax side : nat) (mi : list nat) : Prop :=
  valid_mi shape mi /\ nth ax mi 0 = (if Nat.eqb side 0 then 0 else nth ax shape 0 - 1).

Lemma boundary_slice_face shape b flip ax side :
  parse_bdspec b (length shape) = Some (ax, side) -> 0 < nth ax shape 0 ->
  exists l, boundary_slice shape b flip = Some l /\ NoDup l /\
    (forall r, In r l <-> exists mi, on_face shape ax side mi /\ r = ravel shape mi).
Proof.
  intros Hp Hn. destruct (parse_bdspec_some _ _ _ _ Hp) as [Hax _].
  set (f := if Nat.eqb side 0 then 0 else nth ax shape 0 - 1).
  assert (W : wrap (if Nat.eqb side 0 then 0 else -1) (nth ax shape 0) = Z.of_nat f).
  { unfold wrap, f. destruct (Nat.eqb side 0); [reflexivity|]. change (-1 <? 0)%Z with true. lia. }
  assert (Hf : f < nth ax shape 0) by (unfold f; destruct (Nat.eqb side 0); lia).
  unfold boundary_slice. rewrite Hp, slice_indices_z_some, W, Nat2Z.id by (rewrite ?W; lia).
  destruct (slice_indices_face_l ax f shape flip Hax Hf) as [Hnd Hin].
  eexists. split; [reflexivity|]. split; [exact Hnd|].
  intros r. rewrite Hin. unfold on_face. fold f. split; intros [mi H]; exists mi; tauto.
Qed.

(* membership in the index set of one condition (blocked numbering for vector data) *)
Lemma dirichlet_indices_spec shape b nc ax side :
  parse_bdspec b (length shape) = Some (ax, side) -> 0 < nth ax shape 0 ->
  exists l, dirichlet_indices shape b nc = Some l /\
    (forall r, In r l <->
       exists mi, on_face shape ax side mi /\
         (if Nat.eqb nc 0 then r = ravel shape mi
          else exists j, j < nc /\ r = ravel shape mi + j * prod_list shape)).
Proof.
  intros Hp Hn. destruct (boundary_slice_face shape b [] ax side Hp Hn) as [bd [E [_ Hin]]].
  unfold dirichlet_indices. rewrite E. destruct (Nat.eqb nc 0).
  - exists bd. split; [reflexivity|]. exact Hin.
  - eexists. split; [reflexivity|]. intros r. rewrite unique_sorted_In, in_concat. split.
    + intros [l [Hl Hr]]. apply in_map_iff in Hl. destruct Hl as [j [<- Hj]]. apply in_seq in Hj.
      apply in_map_iff in Hr. destruct Hr as [i [<- Hi]]. apply Hin in Hi. destruct Hi as [mi [Hf ->]].
      exists mi. split; [exact Hf|]. exists j. split; [lia|reflexivity].
    + intros [mi [Hf [j [Hj ->]]]]. exists (map (fun i => i + j * prod_list shape) bd). split.
      * apply in_map_iff. exists j. split; [reflexivity|apply in_seq; lia].
      * apply (in_map (fun i => i + j * prod_list shape)). apply Hin. exists mi. auto.
Qed.
