(* C10 -- property theorems only, each followed by Print Assumptions; the lemmas are in the
   Proofs files.  The linear-algebra theorems hold for EVERY commutative
   ring R with Leibniz equality (Z, the rationals Qc, polynomial rings, ...), every matrix
   size, every matrix A, right-hand side b and every duplicate-free list of constrained
   dofs in ANY order. *)
From Coq Require Import List Arith Bool ZArith Lia Ring Sorted QArith Qcanon.
From Verif.lib Require Import ListFacts Slice Bsp.
From Verif.C02 Require Proofs Proofs_ref.
From Verif.C14 Require Model Spec Proofs.
From Verif.C10 Require Import Model Model_ic Model_bc Proofs Proofs_ic Proofs_ic3 Proofs_mp Proofs_bc.
Import ListNotations.
Local Open Scope nat_scope.

(* complete(u) takes the prescribed value at each constrained dof: values[k] at dof
   indices[k], whatever the order of the indices (sorted or not); with or without elim_rows;
   scalar or array right-hand side. *)
Theorem complete_prescribed :
  forall (R : Type) (rO rI : R) radd rmul rsub ropp, ring_theory rO rI radd rmul rsub ropp eq ->
  forall A ncols b idx values elim_rows u k,
  NoDup idx -> (forall x, In x idx -> x < ncols) -> length values = length idx -> k < length idx ->
  nth (nth k idx 0)
      (rls_complete R rO radd (rls_init R rO radd rmul rsub A ncols b idx (Arr values) elim_rows) u) rO
  = nth k values rO.
Proof. intros. eapply nth_complete_argsort; eauto. Qed.
Print Assumptions complete_prescribed.

(* the same for a scalar value (np.isscalar(values)) *)
Theorem complete_prescribed_scalar :
  forall (R : Type) (rO rI : R) radd rmul rsub ropp, ring_theory rO rI radd rmul rsub ropp eq ->
  forall A ncols b idx c elim_rows u j,
  NoDup idx -> (forall x, In x idx -> x < ncols) -> In j idx ->
  nth j (rls_complete R rO radd (rls_init R rO radd rmul rsub A ncols b idx (Scalar c) elim_rows) u) rO = c.
Proof. intros. eapply nth_complete_repeat; eauto. Qed.
Print Assumptions complete_prescribed_scalar.

(* The code before the repair fixes/C10-unsorted-indices.patch (values kept in the caller's
   order while the rows of R_elim are in increasing dof order) violates complete_prescribed:
   indices [3;0], values [10;20] put 10 at dof 0. *)
Theorem complete_prescribed_unrepaired_refuted :
  let idx := [3; 0] in
  let values := [10; 20]%Z in
  let s := rls_init_unsorted_bug Z 0%Z Z.add Z.mul Z.sub [] 5 (Scalar 0%Z) idx (Arr values) None in
  nth (nth 0 idx 0) (rls_complete Z 0%Z Z.add s [0; 0; 0]%Z) 0%Z <> nth 0 values 0%Z.
Proof. vm_compute. discriminate. Qed.
Print Assumptions complete_prescribed_unrepaired_refuted.

(* If u solves the restricted system (self.A u = self.b) then complete(u) satisfies every
   non-eliminated equation of the original system A x = b.  The eliminated rows are
   elim_rows if given, the constrained dofs otherwise. *)
Theorem complete_solves :
  forall (R : Type) (rO rI : R) radd rmul rsub ropp, ring_theory rO rI radd rmul rsub ropp eq ->
  forall A ncols b idx values elim_rows u i,
  let s := rls_init R rO radd rmul rsub A ncols b idx values elim_rows in
  let bv := bcast R (length A) b in
  length bv = length A ->
  (elim_rows = None -> length A = ncols) ->
  matvec R rO radd rmul (r_A R s) u = r_b R s ->
  i < length A -> ~ In i (elim_row_set idx elim_rows) ->
  dot R rO radd rmul (nth i A []) (rls_complete R rO radd s u) = nth i bv rO.
Proof.
  intros R rO rI radd rmul rsub ropp Rth A ncols b idx values elim_rows u i s bv Hb Hsq H Hi Hni.
  apply (complete_solves_rows R rO rI radd rmul rsub ropp Rth _ _ A bv _ u i Hb H).
  destruct elim_rows; apply nth_free_mask_true; split; try rewrite <- Hsq; auto.
Qed.
Print Assumptions complete_solves.

(* restrict, extend, complete, restrict_matrix, restrict_rhs are mutually consistent *)
Theorem restrict_extend :
  forall (R : Type) (rO : R) radd rmul rsub A ncols b idx values elim_rows u,
  let s := rls_init R rO radd rmul rsub A ncols b idx values elim_rows in
  length u = ntrue (r_mask R s) -> rls_restrict R s (rls_extend R rO s u) = u.
Proof. intros. apply compress_expand. assumption. Qed.
Print Assumptions restrict_extend.

Theorem restrict_complete :
  forall (R : Type) (rO rI : R) radd rmul rsub ropp, ring_theory rO rI radd rmul rsub ropp eq ->
  forall A ncols b idx values elim_rows u,
  let s := rls_init R rO radd rmul rsub A ncols b idx values elim_rows in
  length u = ntrue (r_mask R s) -> rls_restrict R s (rls_complete R rO radd s u) = u.
Proof. intros. eapply compress_complete; eauto. Qed.
Print Assumptions restrict_complete.

Theorem restrict_matrix_consistent :
  forall (R : Type) (rO rI : R) radd rmul rsub ropp, ring_theory rO rI radd rmul rsub ropp eq ->
  forall A ncols b idx values elim_rows B u,
  let s := rls_init R rO radd rmul rsub A ncols b idx values elim_rows in
  matvec R rO radd rmul (rls_restrict_matrix R s B) u
  = rls_restrict_rhs R s (matvec R rO radd rmul B (rls_extend R rO s u)).
Proof. intros. eapply restrict_matrix_matvec; eauto. Qed.
Print Assumptions restrict_matrix_consistent.

(* R_free^T R_free + R_elim^T R_elim = I *)
Theorem selection_split_identity :
  forall (R : Type) (rO rI : R) radd rmul rsub ropp, ring_theory rO rI radd rmul rsub ropp eq ->
  forall mask x, length x = length mask ->
  vadd R radd (expand R rO mask (compress mask x)) (expand R rO (nmask mask) (compress (nmask mask) x)) = x.
Proof. exact split_identity. Qed.
Print Assumptions selection_split_identity.

(* the restricted system has ncols - #indices unknowns *)
Theorem num_free_dofs :
  forall (R : Type) (rO : R) radd rmul rsub A ncols b idx values elim_rows,
  NoDup idx -> (forall x, In x idx -> x < ncols) ->
  ntrue (r_mask R (rls_init R rO radd rmul rsub A ncols b idx values elim_rows)) = ncols - length idx.
Proof. intros. apply ntrue_free_mask; assumption. Qed.
Print Assumptions num_free_dofs.

(* np.argsort of duplicate-free indices lists them in the order of the rows of I[~mask] *)
Theorem argsort_orders_rows : forall n idx,
  NoDup idx -> (forall x, In x idx -> x < n) ->
  map (fun p => nth p idx 0) (argsort idx) = elim_dofs n idx.
Proof. exact argsort_spec. Qed.
Print Assumptions argsort_orders_rows.

(* combine_bcs keeps one value per dof: strictly increasing indices, the same set of dofs
   as the input, and each dof takes the value of its FIRST occurrence *)
Theorem combine_one_value_per_dof : forall (X : Type) (d : X) indices (values : list X),
  let r := combine_flat X d indices values in
  StronglySorted lt (fst r) /\ NoDup (fst r) /\
  (forall j, In j (fst r) <-> In j indices) /\
  length (snd r) = length (fst r) /\
  (forall t, t < length (fst r) ->
     let j := nth t (fst r) 0 in
     let k := first_pos j indices in
     k < length indices /\ nth k indices 0 = j /\ (forall k', k' < k -> nth k' indices 0 <> j) /\
     nth t (snd r) d = nth k values d).
Proof.
  intros X d indices values. unfold combine_flat. simpl.
  split; [apply unique_sorted_sorted|]. split; [apply unique_sorted_NoDup|].
  split; [apply unique_sorted_In|]. split; [apply map_length|].
  intros t Ht. set (j := nth t (unique_sorted indices) 0).
  destruct (first_pos_spec j indices) as [A [B C]]; [apply unique_sorted_In, nth_In, Ht|].
  repeat split; auto. apply (nth_map_lt (fun j => nth (first_pos j indices) values d)), Ht.
Qed.
Print Assumptions combine_one_value_per_dof.

(* blocked numbering of vector fields: component j of face dof i is i + j*NN and no two
   (dof, component) pairs collide *)
Theorem blocked_numbering : forall NN bd j1 j2 i1 i2,
  (forall i, In i bd -> i < NN) -> In i1 bd -> In i2 bd ->
  i1 + j1 * NN = i2 + j2 * NN -> i1 = i2 /\ j1 = j2.
Proof. exact blocked_disjoint. Qed.
Print Assumptions blocked_numbering.

(* _parse_bdspec accepts exactly the valid (axis, side) pairs; names are the documented pairs *)
Theorem parse_bdspec_total : forall a s dim ax side,
  parse_bdspec (BPair a s) dim = Some (ax, side) <->
  (a = Z.of_nat ax /\ s = Z.of_nat side /\ ax < dim /\ (side = 0 \/ side = 1)).
Proof. exact parse_bdspec_pair. Qed.
Print Assumptions parse_bdspec_total.

Theorem parse_bdspec_names : forall s dim,
  parse_bdspec (BName s) dim = parse_bdspec (BPair (fst (bdname_pair s dim)) (snd (bdname_pair s dim))) dim.
Proof. exact parse_bdspec_name. Qed.
Print Assumptions parse_bdspec_names.

(* the 'all' shorthand: all 2*dim faces, each valid *)
Theorem all_faces_complete : forall dim ax side,
  ax < dim -> side < 2 -> In (BPair (Z.of_nat ax) (Z.of_nat side)) (all_faces dim).
Proof.
  intros dim ax side H1 H2. unfold all_faces. apply in_flat_map. exists ax. split; [apply in_seq; lia|].
  destruct side as [|[|side]]; [left; reflexivity | right; left; reflexivity | lia].
Qed.
Print Assumptions all_faces_complete.

Theorem all_faces_count : forall dim, length (all_faces dim) = 2 * dim.
Proof.
  intros dim. unfold all_faces. rewrite <- (seq_length dim 0) at 2.
  induction (seq 0 dim) as [|a l IH]; cbn [flat_map app length]; lia.
Qed.
Print Assumptions all_faces_count.

Theorem all_faces_are_valid : forall dim b, In b (all_faces dim) ->
  exists ax side, b = BPair (Z.of_nat ax) (Z.of_nat side) /\ ax < dim /\ side < 2 /\
                  parse_bdspec b dim = Some (ax, side).
Proof. exact all_faces_valid. Qed.
Print Assumptions all_faces_are_valid.

(* slice_indices (hence boundary_dofs, boundary_cells, the index arrays of the boundary
   conditions) lists every dof whose multi-index has coordinate idx on axis ax exactly once,
   for every shape (any dimension), axis, index and flip pattern *)
Theorem slice_indices_face : forall ax idx shape flip,
  ax < length shape -> idx < nth ax shape 0 ->
  NoDup (slice_indices ax idx shape flip) /\
  (forall r, In r (slice_indices ax idx shape flip) <->
             exists mi, valid_mi shape mi /\ nth ax mi 0 = idx /\ r = ravel shape mi).
Proof. exact slice_indices_face_l. Qed.
Print Assumptions slice_indices_face.

(* the same with Python's negative indices (idx = -1 is the last slice) *)
Theorem slice_indices_wrap_face : forall ax (idx : Z) shape flip,
  ax < length shape -> (- Z.of_nat (nth ax shape 0%nat) <= idx < Z.of_nat (nth ax shape 0%nat))%Z ->
  exists l, slice_indices_z ax idx shape flip = Some l /\ NoDup l /\
    (forall r, In r l <->
       exists mi, valid_mi shape mi /\
                  Z.of_nat (nth ax mi 0%nat) = (idx mod Z.of_nat (nth ax shape 0%nat))%Z /\ r = ravel shape mi).
Proof.
  intros ax idx shape flip Hax Hidx. destruct (wrap_spec _ _ Hidx) as [Hw Hm].
  eexists. split; [apply slice_indices_z_nat; assumption|]. rewrite <- Hm.
  destruct (slice_indices_face_l ax (Z.to_nat (wrap idx (nth ax shape 0))) shape flip Hax ltac:(lia)) as [Hnd Hin].
  split; [exact Hnd|]. intros r. rewrite Hin.
  split; intros [mi [Hv [He Hr]]]; exists mi; repeat split; auto; lia.
Qed.
Print Assumptions slice_indices_wrap_face.

(* np.ravel_multi_index is injective on the valid multi-indices of a shape *)
Theorem ravel_injective : forall shape mi mi', valid_mi shape mi -> valid_mi shape mi' ->
  ravel shape mi = ravel shape mi' -> mi = mi'.
Proof. exact ravel_inj. Qed.
Print Assumptions ravel_injective.

(* ---- compute_initial_condition_01 (on top of C02's B-spline theorems) ----
   For EVERY open knot vector kv of degree p >= 1 on any interval [t0, t1] (open_kv is C02's
   boolean well-formedness check; knots are arbitrary rationals):
   the matrix active_deriv(kv, t0, 1)[:2, :2] is [[1, 0], [-c, c]] with c = p / (t_{p+1} - t_0) <> 0,
   the matrix active_deriv(kv, t1, 1)[:2, -2:] is [[0, 1], [-c', c']] with c' = p / (t_last - t_{n-p-2}). *)
Theorem initial_condition_bdcolloc_left : forall kv p, open_kv kv p = true -> 1 <= p ->
  ic_bdcolloc kv p 0 = (1, 0, - cleft kv p, cleft kv p)%Qc /\ cleft kv p <> 0%Qc.
Proof. exact (fun kv p H1 H2 => conj (ic_bdcolloc_left kv p H1 H2) (cleft_nonzero kv p H1 H2)). Qed.
Print Assumptions initial_condition_bdcolloc_left.

Theorem initial_condition_bdcolloc_right : forall kv p, open_kv kv p = true -> 1 <= p ->
  ic_bdcolloc kv p 1 = (0, 1, - cright kv p, cright kv p)%Qc /\ cright kv p <> 0%Qc.
Proof. exact (fun kv p H1 H2 => conj (ic_bdcolloc_right kv p H1 H2) (cright_nonzero kv p H1 H2)). Qed.
Print Assumptions initial_condition_bdcolloc_right.

(* initial_condition_01_reproduces: let (a, b) be the two coefficients computed for one spatial dof
   from the interpolation coefficients g0 (value) and g1 (time derivative).  Then EVERY spline in
   the time direction whose two boundary coefficients are a, b -- whatever its other coefficients
   -- has value g0 and first derivative g1 at the end point: only two basis functions contribute.
   Nref / dNref are the Cox-de Boor reference and its derivative recursion (lib/Bsp.v), sumf the
   finite sum of C02.  side 0: coefficients 0 and 1 at t0 = kv[0]. *)
Theorem initial_condition_01_reproduces : forall kv p coef g0 g1,
  open_kv kv p = true -> 1 <= p ->
  nth 0 coef 0%Qc = fst (ic_coeffs kv p 0 g0 g1) -> nth 1 coef 0%Qc = snd (ic_coeffs kv p 0 g0 g1) ->
  C02.Proofs_ref.sumf (fun j => nth j coef 0 * Nref kv p j (kn kv 0))%Qc 0 (numdofs kv p) = g0 /\
  C02.Proofs_ref.sumf (fun j => nth j coef 0 * dNref kv 1 p j (kn kv 0))%Qc 0 (numdofs kv p) = g1.
Proof. exact (fun kv p coef g0 g1 H1 H2 => ic_reproduces_left kv p H1 H2 (fun j => nth j coef 0%Qc) g0 g1). Qed.
Print Assumptions initial_condition_01_reproduces.

(* side 1: coefficients numdofs-2 and numdofs-1 at t1 = kv[-1] *)
Theorem initial_condition_01_reproduces_right : forall kv p coef g0 g1,
  open_kv kv p = true -> 1 <= p ->
  nth (numdofs kv p - 2) coef 0%Qc = fst (ic_coeffs kv p 1 g0 g1) ->
  nth (numdofs kv p - 1) coef 0%Qc = snd (ic_coeffs kv p 1 g0 g1) ->
  C02.Proofs_ref.sumf (fun j => nth j coef 0 * Nref kv p j (kn kv (length kv - 1)))%Qc 0 (numdofs kv p) = g0 /\
  C02.Proofs_ref.sumf (fun j => nth j coef 0 * dNref kv 1 p j (kn kv (length kv - 1)))%Qc 0 (numdofs kv p) = g1.
Proof. exact (fun kv p coef g0 g1 H1 H2 => ic_reproduces_right kv p H1 H2 (fun j => nth j coef 0%Qc) g0 g1). Qed.
Print Assumptions initial_condition_01_reproduces_right.

(* the computed coefficients in closed form *)
Theorem initial_condition_coeffs : forall kv p g0 g1, open_kv kv p = true -> 1 <= p ->
  ic_coeffs kv p 0 g0 g1 = (g0, g0 + g1 / cleft kv p)%Qc /\
  ic_coeffs kv p 1 g0 g1 = (g0 - g1 / cright kv p, g0)%Qc.
Proof.
  intros kv p g0 g1 H1 H2. unfold ic_coeffs. rewrite (ic_bdcolloc_left kv p H1 H2), (ic_bdcolloc_right kv p H1 H2).
  split; [apply solve2_first, (cleft_nonzero kv p H1 H2) | apply solve2_last, (cright_nonzero kv p H1 H2)].
Qed.
Print Assumptions initial_condition_coeffs.

(* ---- Multipatch.compute_dirichlet_bcs on top of C14's numbering ----
   The loop with its per-patch cache renumbers every condition with the index map of ITS patch,
   for every list of conditions in any order and with any repetition of patches ... *)
Theorem mp_loop_any_order : forall (X : Type) (p2g_of : nat -> list nat) (conds : list (mp_cond X)),
  mp_loop X p2g_of conds =
  map (fun c : mp_cond X => let '(p, loc, vals) := c in (renumber (p2g_of p) loc, vals)) conds.
Proof. exact mp_loop_spec. Qed.
Print Assumptions mp_loop_any_order.

(* ... hence (mp_bcs_glued) the returned indices are exactly the glued numbers glob(p, i) of C14's
   model of the constrained local dofs, strictly increasing (every glued dof once), and each glued
   dof carries the value of its first occurrence in the condition list. *)
Theorem mp_bcs_glued : forall (X : Type) (d : X) (st : C14.Model.state) (Ns : list nat) (conds : list (mp_cond X)),
  Forall (cond_valid X Ns) conds ->
  let r := mp_compute_dirichlet_bcs X d (C14.Model.patch_to_global_idx st Ns) conds in
  StronglySorted lt (fst r) /\ NoDup (fst r) /\
  (forall g, In g (fst r) <->
     exists p loc vals i, In (p, loc, vals) conds /\ In i loc /\ g = C14.Model.glob st Ns (p, i)) /\
  length (snd r) = length (fst r) /\
  (forall t, t < length (fst r) ->
     let g := nth t (fst r) 0 in
     let k := first_pos g (glued_indices X st Ns conds) in
     k < length (glued_indices X st Ns conds) /\ nth k (glued_indices X st Ns conds) 0 = g /\
     nth t (snd r) d = nth k (all_values X conds) d).
Proof.
  intros X d st Ns conds Hv r. unfold r. rewrite (mp_flat X d st Ns conds Hv).
  destruct (combine_one_value_per_dof X d (glued_indices X st Ns conds) (all_values X conds)) as [A [B [C [D E]]]].
  split; [exact A|]. split; [exact B|]. split.
  - intros g. rewrite C. apply in_glued.
  - split; [exact D|]. intros t Ht. destruct (E t Ht) as [E1 [E2 [_ E4]]]. auto.
Qed.
Print Assumptions mp_bcs_glued.

(* two constrained local dofs are represented by the same entry iff the joins connect them
   (C14.glue_is_closure), for every join history ps *)
Theorem mp_bcs_one_entry_per_class : forall (X : Type) (d : X) ps Ns (conds : list (mp_cond X)) p loc vals i q loc' vals' j,
  let st := fold_left C14.Model.join1 ps C14.Model.init in
  Forall (cond_valid X Ns) conds ->
  In (p, loc, vals) conds -> In i loc -> In (q, loc', vals') conds -> In j loc' ->
  let r := mp_compute_dirichlet_bcs X d (C14.Model.patch_to_global_idx st Ns) conds in
  In (C14.Model.glob st Ns (p, i)) (fst r) /\ In (C14.Model.glob st Ns (q, j)) (fst r) /\
  (C14.Model.glob st Ns (p, i) = C14.Model.glob st Ns (q, j) <-> C14.Spec.conn ps (p, i) (q, j)).
Proof.
  intros X d ps Ns conds p loc vals i q loc' vals' j st Hv H1 Hi H2 Hj r.
  destruct (mp_bcs_glued X d st Ns conds Hv) as [_ [_ [C _]]]. fold r in C.
  split; [apply C; exists p, loc, vals, i; auto|].
  split; [apply C; exists q, loc', vals', j; auto|].
  apply C14.Proofs.glue_is_closure_l; eapply cond_valid_dof; eauto.
Qed.
Print Assumptions mp_bcs_one_entry_per_class.

(* ---- faces ----
   boundary_dofs and boundary_cells (the same slice function on numdofs resp. numspans) return
   exactly the multi-indices with coordinate 0 resp. n-1 on the axis of the face, each once,
   for every shape, every accepted bdspec (names and pairs) and every flip pattern. *)
Theorem boundary_dofs_face : forall numdofs b flip ax side,
  parse_bdspec b (length numdofs) = Some (ax, side) -> 0 < nth ax numdofs 0 ->
  exists l, boundary_dofs numdofs b flip = Some l /\ NoDup l /\
    (forall r, In r l <-> exists mi, on_face numdofs ax side mi /\ r = ravel numdofs mi).
Proof. exact boundary_slice_face. Qed.
Print Assumptions boundary_dofs_face.

Theorem boundary_cells_face : forall numspans b ax side,
  parse_bdspec b (length numspans) = Some (ax, side) -> 0 < nth ax numspans 0 ->
  exists l, boundary_cells numspans b = Some l /\ NoDup l /\
    (forall r, In r l <-> exists mi, on_face numspans ax side mi /\ r = ravel numspans mi).
Proof. exact (fun s b => boundary_slice_face s b []). Qed.
Print Assumptions boundary_cells_face.

(* one boundary condition: the face dofs, blocked per component for vector data *)
Theorem dirichlet_indices_face : forall shape b nc ax side,
  parse_bdspec b (length shape) = Some (ax, side) -> 0 < nth ax shape 0 ->
  exists l, dirichlet_indices shape b nc = Some l /\
    (forall r, In r l <->
       exists mi, on_face shape ax side mi /\
         (if Nat.eqb nc 0 then r = ravel shape mi
          else exists j, j < nc /\ r = ravel shape mi + j * prod_list shape)).
Proof. exact dirichlet_indices_spec. Qed.
Print Assumptions dirichlet_indices_face.

(* compute_dirichlet_bcs(('all', g)) = combine_bcs over all 2d faces: every boundary dof (of every
   component) exactly once, in increasing order -- corners and edges shared by several faces included *)
Theorem dirichlet_bcs_all_each_dof_once : forall shape nc, Forall (fun n => 0 < n) shape ->
  exists l, dirichlet_bcs_all_indices shape nc = Some l /\ StronglySorted lt l /\ NoDup l /\
    (forall r, In r l <->
       exists ax side mi, ax < length shape /\ side < 2 /\ on_face shape ax side mi /\
         (if Nat.eqb nc 0 then r = ravel shape mi
          else exists j, j < nc /\ r = ravel shape mi + j * prod_list shape)).
Proof.
  intros shape nc Hpos.
  destruct (dirichlet_bcs_list_spec shape _ (all_faces_cond_ok shape nc Hpos)) as [l [E [Hs [Hnd Hin]]]].
  exists l. repeat (split; [assumption|]). intros r. rewrite Hin. split.
  - intros [b [nc' [ax [side [mi [Hc [Hp [Hf Hr]]]]]]]].
    apply in_map_iff in Hc. destruct Hc as [b' [Eb _]]. injection Eb as -> ->.
    destruct (parse_bdspec_some _ _ _ _ Hp) as [Hax Hside]. exists ax, side, mi.
    split; [exact Hax|]. split; [lia|]. split; assumption.
  - intros [ax [side [mi [Hax [Hside [Hf Hr]]]]]].
    exists (BPair (Z.of_nat ax) (Z.of_nat side)), nc, ax, side, mi.
    split; [apply (in_map (fun b => (b, nc))), all_faces_complete; assumption|]. split; [|auto].
    apply parse_bdspec_pair. repeat split; auto; lia.
Qed.
Print Assumptions dirichlet_bcs_all_each_dof_once.

(* ---- compute_dirichlet_bcs for ANY list of conditions (not only the 'all' shorthand) ----
   every condition names a valid face of a non-empty axis (cond_ok): the result lists exactly the
   dofs (of every component) on the requested faces, each once, strictly increasing -- whatever
   the order of the list, with repeated or overlapping faces, scalar and vector data mixed. *)
Theorem dirichlet_bcs_any_list_each_dof_once : forall shape conds, Forall (cond_ok shape) conds ->
  exists l, dirichlet_bcs_indices shape conds = Some l /\ StronglySorted lt l /\ NoDup l /\
    (forall r, In r l <->
       exists b nc ax side mi, In (b, nc) conds /\ parse_bdspec b (length shape) = Some (ax, side) /\
         on_face shape ax side mi /\
         (if Nat.eqb nc 0 then r = ravel shape mi
          else exists j, j < nc /\ r = ravel shape mi + j * prod_list shape)).
Proof. exact dirichlet_bcs_list_spec. Qed.
Print Assumptions dirichlet_bcs_any_list_each_dof_once.

(* an invalid boundary specification anywhere in the list: the call fails (ValueError), no partial result *)
Theorem dirichlet_bcs_invalid_spec_fails : forall shape conds b nc,
  In (b, nc) conds -> parse_bdspec b (length shape) = None -> dirichlet_bcs_indices shape conds = None.
Proof.
  intros shape conds b nc Hc Hp. unfold dirichlet_bcs_indices.
  replace (forallb _ _) with false; [reflexivity|].
  symmetry. apply not_true_iff_false. rewrite forallb_forall. intros H.
  specialize (H (dirichlet_indices shape b nc)).
  assert (E : dirichlet_indices shape b nc = None).
  { unfold dirichlet_indices, boundary_slice. rewrite Hp. reflexivity. }
  rewrite E in H. discriminate H. apply in_map_iff. exists (b, nc). auto.
Qed.
Print Assumptions dirichlet_bcs_invalid_spec_fails.

(* ---- compute_dirichlet_bc WITH its values (Model_bc.v) ----
   coef k [j] is the interpolation coefficient of the k-th dof of the face [and component j], None = nan.
   Scalar data: the face dofs with a non-nan coefficient, each once, each paired with ITS coefficient. *)
Theorem dirichlet_bc_scalar_values : forall (X : Type) shape b (coef : nat -> option X) ax side,
  parse_bdspec b (length shape) = Some (ax, side) -> 0 < nth ax shape 0 ->
  exists bd idx vals, boundary_slice shape b [] = Some bd /\
    dirichlet_bc_scalar X shape b coef = Some (idx, vals) /\
    length idx = length vals /\ NoDup idx /\
    (forall r v, In (r, v) (combine idx vals) <-> exists k, k < length bd /\ r = nth k bd 0 /\ coef k = Some v).
Proof.
  intros X shape b coef ax side Hp Hn.
  destruct (boundary_slice_face shape b [] ax side Hp Hn) as [bd [E [Hnd _]]].
  unfold dirichlet_bc_scalar. rewrite E. set (cs := map coef (seq 0 (length bd))).
  pose proof (drop_nans_length X bd cs) as L. pose proof (drop_nans_NoDup X bd cs Hnd) as N.
  pose proof (drop_nans_pairs X bd cs) as P.
  destruct (drop_nans X bd cs) as [idx vals]. cbn [fst snd] in *.
  exists bd, idx, vals. repeat (split; [reflexivity || assumption|]).
  intros r v. rewrite P. unfold cs. rewrite <- (map_id bd) at 1. apply in_combine_coef.
Qed.
Print Assumptions dirichlet_bc_scalar_values.

(* Vector data, blocked numbering WITH values: component j of the k-th face dof sits at index
   bd[k] + j*NN (NN = number of dofs of the patch) and carries coefficient coef k j -- no mixing of
   components or dofs; indices strictly increasing; nan coefficients dropped. *)
Theorem dirichlet_bc_vector_blocked_values : forall (X : Type) shape b nc (coef : nat -> nat -> option X) ax side,
  parse_bdspec b (length shape) = Some (ax, side) -> 0 < nth ax shape 0 ->
  exists bd idx vals, boundary_slice shape b [] = Some bd /\
    dirichlet_bc_vector X shape b nc coef = Some (idx, vals) /\
    length idx = length vals /\ StronglySorted lt idx /\
    (forall r v, In (r, v) (combine idx vals) <->
       exists k j, k < length bd /\ j < nc /\ r = nth k bd 0 + j * prod_list shape /\ coef k j = Some v).
Proof.
  intros X shape b nc coef ax side Hp Hn.
  destruct (boundary_slice_face shape b [] ax side Hp Hn) as [bd [E [Hnd Hin]]].
  assert (Hlt : forall i, In i bd -> i < prod_list shape).
  { intros i Hi. apply Hin in Hi. destruct Hi as [mi [[Hv _] ->]]. apply ravel_lt_prod, Hv. }
  unfold dirichlet_bc_vector, combine_bcs. rewrite E.
  (* the index lists of the components are disjoint, so combine_bcs only sorts the pairs *)
  set (parts := vec_parts X (prod_list shape) bd nc coef).
  destruct (sort_drop_nans X (concat (map fst parts)) (concat (map snd parts))) as [L [S P]].
  { unfold parts. rewrite vec_parts_fst. apply vec_indices_NoDup; assumption. }
  { symmetry. apply concat_fst_snd_length, vec_parts_lengths. }
  destruct (drop_nans X _ _) as [idx vals]. cbn [fst snd] in *.
  exists bd, idx, vals. repeat (split; [reflexivity || assumption|]).
  intros r v. rewrite P. apply vec_parts_pairs.
Qed.
Print Assumptions dirichlet_bc_vector_blocked_values.

(* combine_bcs on duplicate-free indices only sorts: the set of (index, value) pairs is unchanged *)
Theorem combine_bcs_nodup_is_sort : forall (X : Type) (d : X) indices (values : list X),
  NoDup indices -> length values = length indices ->
  let res := combine_flat X d indices values in
  forall r v, In (r, v) (combine (fst res) (snd res)) <-> In (r, v) (combine indices values).
Proof. exact combine_flat_nodup. Qed.
Print Assumptions combine_bcs_nodup_is_sort.

(* _drop_nans keeps exactly the pairs whose value is not nan (order and sortedness preserved) *)
Theorem drop_nans_keeps_non_nan : forall (X : Type) idx (vals : list (option X)) r v,
  In (r, v) (combine (fst (drop_nans X idx vals)) (snd (drop_nans X idx vals))) <-> In (r, Some v) (combine idx vals).
Proof. exact drop_nans_pairs. Qed.
Print Assumptions drop_nans_keeps_non_nan.

Theorem drop_nans_preserves_order : forall (X : Type) idx (vals : list (option X)),
  StronglySorted lt idx -> StronglySorted lt (fst (drop_nans X idx vals)).
Proof. exact drop_nans_sorted. Qed.
Print Assumptions drop_nans_preserves_order.

(* ---- compute_initial_condition_01: from the time direction to the space-time spline ----
   c j s = coefficient of the space-time spline with time index j and spatial (face) index s; G0 s, G1 s the
   interpolation coefficients of g0, g1 on the face; B s ARBITRARY weights (the values of the spatial basis
   functions at any point x of the face).  If for every spatial dof the two boundary coefficients are the
   computed pair, then  u(t0, x) = sum_s G0_s B_s(x)  and  du/dt(t0, x) = sum_s G1_s B_s(x):  on the initial
   face the space-time spline IS the spatial interpolant of g0 and its time derivative that of g1 --
   whatever the remaining coefficients of the space-time spline are. *)
Theorem initial_condition_spacetime : forall kv p, open_kv kv p = true -> 1 <= p ->
  forall ns (G0 G1 B : nat -> Qc) (c : nat -> nat -> Qc),
  (forall s, s < ns -> c 0 s = fst (ic_coeffs kv p 0 (G0 s) (G1 s)) /\ c 1 s = snd (ic_coeffs kv p 0 (G0 s) (G1 s))) ->
  (C02.Proofs_ref.sumf (fun j => C02.Proofs_ref.sumf (fun s => c j s * (Nref kv p j (kn kv 0) * B s)) 0 ns) 0 (numdofs kv p)
    = C02.Proofs_ref.sumf (fun s => G0 s * B s) 0 ns /\
   C02.Proofs_ref.sumf (fun j => C02.Proofs_ref.sumf (fun s => c j s * (dNref kv 1 p j (kn kv 0) * B s)) 0 ns) 0 (numdofs kv p)
    = C02.Proofs_ref.sumf (fun s => G1 s * B s) 0 ns)%Qc.
Proof.
  intros kv p Hopen Hp ns G0 G1 B c Hc. split; apply sumf_columns; intros s Hs;
    destruct (Hc s Hs) as [E0 E1]; apply (ic_reproduces_left kv p Hopen Hp (fun j => c j s) _ _ E0 E1).
Qed.
Print Assumptions initial_condition_spacetime.

Theorem initial_condition_spacetime_right : forall kv p, open_kv kv p = true -> 1 <= p ->
  forall ns (G0 G1 B : nat -> Qc) (c : nat -> nat -> Qc),
  (forall s, s < ns -> c (numdofs kv p - 2) s = fst (ic_coeffs kv p 1 (G0 s) (G1 s)) /\
                       c (numdofs kv p - 1) s = snd (ic_coeffs kv p 1 (G0 s) (G1 s))) ->
  (C02.Proofs_ref.sumf (fun j => C02.Proofs_ref.sumf (fun s => c j s * (Nref kv p j (kn kv (length kv - 1)) * B s)) 0 ns) 0 (numdofs kv p)
    = C02.Proofs_ref.sumf (fun s => G0 s * B s) 0 ns /\
   C02.Proofs_ref.sumf (fun j => C02.Proofs_ref.sumf (fun s => c j s * (dNref kv 1 p j (kn kv (length kv - 1)) * B s)) 0 ns) 0 (numdofs kv p)
    = C02.Proofs_ref.sumf (fun s => G1 s * B s) 0 ns)%Qc.
Proof.
  intros kv p Hopen Hp ns G0 G1 B c Hc. split; apply sumf_columns; intros s Hs;
    destruct (Hc s Hs) as [E0 E1]; apply (ic_reproduces_right kv p Hopen Hp (fun j => c j s) _ _ E0 E1).
Qed.
Print Assumptions initial_condition_spacetime_right.

(* ---- compute_initial_condition_01 WITH its values: which dof every coefficient lands on ----
   (Model_bc.initial_condition; coef k s = coll_coeffs[k, s]).  For every shape, every accepted bdspec whose
   axis has at least two dofs: the index array is the one of Model.initial_indices, duplicate-free, of length
   2*nface; its s-th entry is the dof with time index f (= 0 resp. n-2) and the s-th spatial multi-index of the
   face and carries coef 0 s; entry nface+s is the dof with the SAME spatial multi-index and time index f+1
   and carries coef 1 s.  (put ax i mi = mi with coordinate ax replaced by i.) *)
Theorem initial_condition_alignment : forall (X : Type) (d : X) shape b (coef : nat -> nat -> X) ax side,
  parse_bdspec b (length shape) = Some (ax, side) -> 2 <= nth ax shape 0 ->
  let f := ic_first_idx (nth ax shape 0) side in
  let face := slice_multi ax f shape [] in
  exists idx vals, initial_condition X shape b coef = Some (idx, vals) /\
    initial_indices shape b = Some idx /\
    length idx = 2 * length face /\ length vals = length idx /\ NoDup idx /\
    (forall s, s < length face ->
       let mi := nth s face [] in
       valid_mi shape mi /\ nth ax mi 0 = f /\
       nth s idx 0 = ravel shape mi /\ nth s vals d = coef 0 s /\
       nth (length face + s) idx 0 = ravel shape (put ax (f + 1) mi) /\ nth (length face + s) vals d = coef 1 s).
Proof. exact initial_condition_spec. Qed.
Print Assumptions initial_condition_alignment.

(* slices of the same axis at different positions agree entry by entry up to that coordinate (any flips) *)
Theorem slice_positions_aligned : forall ax i i0 shape fl,
  slice_indices ax i shape fl = map (fun mi => ravel shape (put ax i mi)) (slice_multi ax i0 shape fl).
Proof. exact slice_indices_put. Qed.
Print Assumptions slice_positions_aligned.

(* =========================================================================================
   NOT PROVED -- clause by clause account of property C10 (what has no theorem about the model):

   1. "solving the restricted system and completing the solution ... prescribed value ... every
      non-eliminated equation ... restrict/extend/restrict-matrix/complete consistent": THEOREMS
      (complete_prescribed[_scalar], complete_solves, restrict_*, selection_split_identity) over every
      commutative ring.  Without theorem: binary64 rounding of A.dot and of the caller's solve (the tie
      uses integer data, for which the implementation is exact; the solve is done exactly by the harness).
   2. "every dof on the requested faces exactly once": THEOREMS for one face (boundary_dofs_face,
      dirichlet_indices_face, dirichlet_bc_scalar_values), the 'all' shorthand and any list of conditions
      (dirichlet_bcs_all_each_dof_once, dirichlet_bcs_any_list_each_dof_once).
   3. "blocked numbering for vector fields": THEOREMS (blocked_numbering, dirichlet_bc_vector_blocked_values:
      indices AND the pairing of every (dof, component) with its coefficient).  Without theorem: that
      dircoeffs[..., j].ravel() enumerates the face in the order of bdindices (C order of a numpy array;
      the model takes coef k j with k the position in bdindices) -- decided by the interpolation oracle.
   4. "glued numbering for multipatch": THEOREMS on C14's model (mp_loop_any_order, mp_bcs_glued,
      mp_bcs_one_entry_per_class).
   5. "values interpolating the boundary data on the physical boundary face": NO THEOREM.  interpolate()
      (tensor-product collocation solve, C17), geo.boundary() and the evaluation of g at the mapped Greville
      points are not modelled here; evaluated on the implementation on every face within 1e-11 relative
      against an own exact Cox-de Boor evaluation (harness/props/c10.py: check_local_bc).
   6. "combining several conditions keeps one value per dof": THEOREMS (combine_one_value_per_dof,
      combine_bcs_nodup_is_sort, drop_nans_keeps_non_nan, drop_nans_preserves_order).
   7. "space-time initial conditions reproduce the prescribed value and time derivative on the initial
      face": THEOREMS for the time direction, every open knot vector, both ends
      (initial_condition_01_reproduces[_right], initial_condition_bdcolloc_*, initial_condition_coeffs).
      The placement of coefficient (k, s) on the dof with time index firstidx+k and the s-th spatial multi-index
      is a THEOREM (initial_condition_alignment).  Without theorem: (a) that coll_coeffs.ravel() (numpy C order of a
      (2, nface) array) is row 0 followed by row 1 (for the model's ravel: Props2.ravel_2d_is_concat_rows) and that the interpolation coefficients are raveled in the order of
      the face slice (both decided by the reproduction oracle on the implementation);
      (b) the spatial interpolation of g0, g1 that produces G0, G1 (interpolate, C17) -- the passage from the time
      direction to the space-time spline IS a theorem (initial_condition_spacetime[_right]); (c) degree p = 0 in time and
      non-open knot vectors are outside the theorem (the code needs two boundary basis functions);
      (d) binary64 rounding of the 2x2 solve (tied within IC_SOLVE_TOL).
   ========================================================================================= *)
