(* C10 -- the elimination in both directions, the entries of restrict_matrix, the free and the
   eliminated dofs; numpy's C order.  The lemmas are in Proofs2.v. *)
From Coq Require Import List Arith Bool Lia Ring Sorted.
From Verif.lib Require Import ListFacts Slice.
From Verif.C10 Require Import Model Proofs Proofs2.
Import ListNotations.
Local Open Scope nat_scope.

(* The elimination is exact in BOTH directions (converse of complete_solves): every vector x that takes the
   prescribed value at each constrained dof (indices in any order, scalar or array values) and satisfies every
   non-eliminated equation of A x = b restricts to a solution of the restricted system, and complete()
   recovers x from its restriction.  With complete_solves / complete_prescribed / restrict_complete: restrict
   and complete are mutually inverse bijections between the solutions of the restricted system and the
   vectors with the prescribed values solving the non-eliminated equations.  Every commutative ring, every
   (rectangular) A, with or without elim_rows. *)
Theorem restricted_system_exact :
  forall (R : Type) (rO rI : R) radd rmul rsub ropp, ring_theory rO rI radd rmul rsub ropp eq ->
  forall A ncols b idx values elim_rows x,
  let s := rls_init R rO radd rmul rsub A ncols b idx values elim_rows in
  let bv := bcast R (length A) b in
  let vv := bcast R (length idx) values in
  NoDup idx -> (forall j, In j idx -> j < ncols) -> length vv = length idx -> length bv = length A ->
  length x = ncols ->
  (forall k, k < length idx -> nth (nth k idx 0) x rO = nth k vv rO) ->
  (forall i, i < length A -> ~ In i (elim_row_set idx elim_rows) ->
     dot R rO radd rmul (nth i A []) x = nth i bv rO) ->
  matvec R rO radd rmul (r_A R s) (rls_restrict R s x) = r_b R s /\
  rls_complete R rO radd s (rls_restrict R s x) = x.
Proof.
  intros R rO rI radd rmul rsub ropp Rth A ncols b idx values elim_rows x s bv vv Hnd Hr Hv Hb Hx Hp He.
  assert (Hvals : compress (nmask (free_mask ncols idx)) x = r_values R s).
  { unfold s. rewrite rls_values. apply (prescribed_compress R rO); auto. }
  assert (Hm : length x = length (free_mask ncols idx)) by (rewrite free_mask_length; exact Hx).
  split.
  - apply (restricted_exact R rO rI radd rmul rsub ropp Rth _ (r_maskv R s) A bv _ x Hb Hm Hvals).
    apply (solves_rows_restrict R rO radd rmul); [exact Hb|]. intros i Hi Hmk. apply He; [exact Hi|].
    destruct elim_rows; apply nth_free_mask_true in Hmk; apply Hmk.
  - unfold rls_complete, rls_restrict. rewrite <- Hvals.
    apply (complete_restrict R rO rI radd rmul rsub ropp Rth); auto.
Qed.
Print Assumptions restricted_system_exact.

(* restrict_matrix for every operator B (rectangular, with a different set of eliminated rows): entry (i, j)
   of the result is B[r_i][f_j] with r_i the i-th non-eliminated row and f_j the j-th free dof *)
Theorem restrict_matrix_entries :
  forall (R : Type) (rO : R) radd rmul rsub A ncols b idx values elim_rows B,
  let s := rls_init R rO radd rmul rsub A ncols b idx values elim_rows in
  Forall (fun row => length row = ncols) B ->
  length B = length (r_maskv R s) ->
  rls_restrict_matrix R s B =
  map (fun i => map (fun j => nth j (nth i B []) rO) (free_dofs ncols idx))
      (compress (r_maskv R s) (seq 0 (length (r_maskv R s)))).
Proof.
  intros R rO radd rmul rsub A ncols b idx values elim_rows B s HB Hl.
  unfold rls_restrict_matrix. rewrite (Proofs2.restrict_matrix_entries R rO), Hl.
  apply map_ext_in. intros i Hi.
  assert (Hlen : length (nth i B []) = ncols).
  { destruct (Nat.lt_ge_cases i (length B)) as [Hlt|Hge].
    - rewrite Forall_forall in HB. apply HB, nth_In, Hlt.
    - apply compress_incl, in_seq in Hi. lia. }
  rewrite Hlen. reflexivity.
Qed.
Print Assumptions restrict_matrix_entries.

(* the free dofs (rows of R_free): strictly increasing, exactly the dofs not constrained *)
Theorem free_dofs_increasing_complement : forall n idx,
  StronglySorted lt (free_dofs n idx) /\ (forall j, In j (free_dofs n idx) <-> j < n /\ ~ In j idx) /\
  length (free_dofs n idx) = ntrue (free_mask n idx).
Proof.
  intros n idx. rewrite free_dofs_filter. split; [apply filter_seq_sorted|]. split.
  - intros j. rewrite filter_In, in_seq, negb_true_iff, <- not_true_iff_false, memb_In. split; intros [H1 H2]; split; auto; lia.
  - rewrite <- free_dofs_filter. unfold free_dofs. apply compress_length.
    rewrite seq_length, free_mask_length. reflexivity.
Qed.
Print Assumptions free_dofs_increasing_complement.

(* the rows of R_elim: exactly the constrained dofs *)
Theorem elim_dofs_are_constrained : forall n idx j, In j (elim_dofs n idx) <-> j < n /\ In j idx.
Proof.
  intros n idx j. rewrite elim_dofs_filter, filter_In, in_seq, memb_In. split; intros [H1 H2]; split; auto; lia.
Qed.
Print Assumptions elim_dofs_are_constrained.

(* numpy C order = itertools.product order: np.ravel_multi_index over product(range(n0), ..., range(nk))
   counts 0, 1, 2, ... -- so X.ravel()[q] of an array X of this shape is the entry at the q-th multi-index of
   the product enumeration (NOT PROVED 3 of Props.v, for the unflipped, full index set: the face array
   dircoeffs of shape fshape is raveled in the order in which product enumerates the face) *)
Theorem c_order_is_product_order : forall shape,
  map (ravel shape) (product (map (seq 0) shape)) = seq 0 (prodl shape).
Proof.
  unfold ravel. induction shape as [|n shape IH]; [reflexivity|].
  cbn [map product prodl fold_right].
  transitivity (flat_map (fun x => map (fun r => x * prodl shape + r) (seq 0 (prodl shape))) (seq 0 n));
    [|rewrite flat_map_blocks; reflexivity].
  rewrite map_flat_map. apply flat_map_ext. intros x. rewrite map_map, <- IH, map_map.
  apply map_ext_in. intros t Ht. simpl.
  rewrite ravel_aux_len; [reflexivity|].
  apply product_In, Forall2_length in Ht. rewrite <- Ht. symmetry. apply map_length.
Qed.
Print Assumptions c_order_is_product_order.

(* ravel() of a 2-D array (rows of length c) is row 0 followed by row 1, ...: entry (k, s) at position
   ravel [r; c] [k; s] (NOT PROVED 7(a) of Props.v: coll_coeffs.ravel() of the (2, nface) array) *)
Theorem ravel_2d_is_concat_rows : forall (X : Type) (d : X) c (rows : list (list X)) k s,
  Forall (fun row => length row = c) rows -> k < length rows -> s < c ->
  nth (ravel [length rows; c] [k; s]) (concat rows) d = nth s (nth k rows []) d.
Proof.
  intros X d c. unfold ravel. simpl.
  induction rows as [|row rows IH]; intros k s HF Hk Hs; simpl in Hk; [lia|].
  inversion HF as [|? ? Hrow HF']; subst. simpl concat.
  destruct k as [|k].
  - simpl. rewrite app_nth1 by lia. reflexivity.
  - rewrite app_nth2 by (simpl; nia).
    replace (S k * length row + s - length row) with (k * length row + s) by (simpl; lia).
    simpl nth. apply IH; auto. lia.
Qed.
Print Assumptions ravel_2d_is_concat_rows.

(* NOT PROVED: that slice_multi ax idx shape [] with axis ax removed IS product (map (seq 0)
   (shape without ax)) (the structural step from c_order_is_product_order to "position k in bdindices = C-order
   position k of the face array"); decided on the implementation by the per-dof interpolation oracle
   (harness/props/c10.py: check_local_bc, gen_bc_3d_faces).  Multi-column right-hand sides / solutions
   (2-D b, values, u) are not modelled. *)
