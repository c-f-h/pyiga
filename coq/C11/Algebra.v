(* C11 -- algebra of finite sums, of the functional J and the energy error, and their change under
   a subspace correction. *)
From Coq Require Import QArith Qcanon Arith Lia.
From Verif.C11 Require Import Spec.
Open Scope Qc_scope.

Lemma Qc_sub_nonneg_le : forall a b : Qc, 0 <= b -> a - b <= a.
Proof.
  intros. apply Qcle_minus_iff. replace (a + - (a - b)) with b by ring. assumption.
Qed.

Lemma Qc_pos_neq0 : forall a : Qc, 0 < a -> a <> 0.
Proof. intros a H E. rewrite E in H. exact (Qclt_not_eq _ _ H eq_refl). Qed.

Lemma sumn_ext : forall n f g, (forall k, (k < n)%nat -> f k = g k) -> sumn n f = sumn n g.
Proof.
  induction n; intros f g H; simpl; [reflexivity|].
  rewrite (IHn f g), (H n); auto.
Qed.

Lemma sumn_plus : forall n f g, sumn n (fun k => f k + g k) = sumn n f + sumn n g.
Proof. induction n; intros; simpl; [ring|]. rewrite IHn. ring. Qed.

Lemma sumn_scal : forall n c f, sumn n (fun k => c * f k) = c * sumn n f.
Proof. induction n; intros; simpl; [ring|]. rewrite IHn. ring. Qed.

Lemma sumn_scal_r : forall n c f, sumn n (fun k => f k * c) = sumn n f * c.
Proof. induction n; intros; simpl; [ring|]. rewrite IHn. ring. Qed.

Lemma sumn_minus : forall n f g, sumn n (fun k => f k - g k) = sumn n f - sumn n g.
Proof. induction n; intros; simpl; [ring|]. rewrite IHn. ring. Qed.

Lemma sumn_zero : forall n f, (forall k, (k < n)%nat -> f k = 0) -> sumn n f = 0.
Proof.
  induction n; intros f H; simpl; [reflexivity|].
  rewrite IHn by (intros; apply H; lia). rewrite H by lia. ring.
Qed.

Lemma sumn_opp : forall n f, sumn n (fun k => - f k) = - sumn n f.
Proof. induction n; intros; simpl; [ring|]. rewrite IHn. ring. Qed.

Lemma sumn_shift : forall n f, sumn (S n) f = f O + sumn n (fun k => f (S k)).
Proof. induction n; intros; simpl in *; [ring|]. rewrite IHn. ring. Qed.

Lemma sumn_swap : forall n m (f : nat -> nat -> Qc),
  sumn n (fun i => sumn m (fun j => f i j)) = sumn m (fun j => sumn n (fun i => f i j)).
Proof.
  induction n; intros; simpl.
  - symmetry. apply sumn_zero. auto.
  - rewrite IHn. rewrite <- sumn_plus. reflexivity.
Qed.

Lemma sumn_delta : forall n i f, (i < n)%nat ->
  sumn n (fun k => if Nat.eqb k i then f k else 0) = f i.
Proof.
  induction n; intros i f Hi; [lia|]. simpl.
  destruct (Nat.eqb_spec n i).
  - subst. rewrite sumn_zero. ring.
    intros k Hk. destruct (Nat.eqb_spec k i); [lia|reflexivity].
  - rewrite IHn by lia. ring.
Qed.

Lemma sum_skip_split : forall n i f, (i < n)%nat -> sumn n f = sum_skip n i f + f i.
Proof.
  intros. unfold sum_skip.
  transitivity (sumn n (fun j => (if Nat.eqb j i then 0 else f j) + (if Nat.eqb j i then f j else 0))).
  - apply sumn_ext. intros k _. destruct (Nat.eqb k i); ring.
  - rewrite sumn_plus, (sumn_delta n i f H). reflexivity.
Qed.

Lemma mv_delta : forall n A i t k, (i < n)%nat ->
  mv n A (fun j => if Nat.eqb j i then t else 0) k = A k i * t.
Proof.
  intros. unfold mv.
  rewrite (sumn_ext n _ (fun j => if Nat.eqb j i then A k j * t else 0))
    by (intros j _; destruct (Nat.eqb j i); ring).
  apply (sumn_delta n i (fun j => A k j * t)). assumption.
Qed.

Lemma dotn_delta : forall n i t v, (i < n)%nat ->
  dotn n (fun k => if Nat.eqb k i then t else 0) v = t * v i.
Proof.
  intros. unfold dotn.
  rewrite (sumn_ext n _ (fun k => if Nat.eqb k i then t * v k else 0))
    by (intros k _; destruct (Nat.eqb k i); ring).
  apply (sumn_delta n i (fun k => t * v k)). assumption.
Qed.

Lemma mv_plus : forall n A u v i, mv n A (fun k => u k + v k) i = mv n A u i + mv n A v i.
Proof. intros. unfold mv. rewrite <- sumn_plus. apply sumn_ext. intros. ring. Qed.

Lemma mv_minus : forall n A u v i, mv n A (fun k => u k - v k) i = mv n A u i - mv n A v i.
Proof. intros. unfold mv. rewrite <- sumn_minus. apply sumn_ext. intros. ring. Qed.

Lemma dotn_plus_l : forall n u v w, dotn n (fun k => u k + v k) w = dotn n u w + dotn n v w.
Proof. intros. unfold dotn. rewrite <- sumn_plus. apply sumn_ext. intros. ring. Qed.

Lemma dotn_plus_r : forall n u v w, dotn n w (fun k => u k + v k) = dotn n w u + dotn n w v.
Proof. intros. unfold dotn. rewrite <- sumn_plus. apply sumn_ext. intros. ring. Qed.

Lemma dotn_minus_l : forall n u v w, dotn n (fun k => u k - v k) w = dotn n u w - dotn n v w.
Proof. intros. unfold dotn. rewrite <- sumn_minus. apply sumn_ext. intros. ring. Qed.

Lemma dotn_minus_r : forall n w u v, dotn n w (fun k => u k - v k) = dotn n w u - dotn n w v.
Proof. intros. unfold dotn. rewrite <- sumn_minus. apply sumn_ext. intros. ring. Qed.

Lemma dotn_vanish : forall n x g, (forall k, (k < n)%nat -> x k = 0 \/ g k = 0) -> dotn n x g = 0.
Proof.
  intros. unfold dotn. apply sumn_zero. intros k Hk. destruct (H k Hk) as [E|E]; rewrite E; ring.
Qed.

Lemma dotn_ext_supp : forall n d u v, (forall k, (k < n)%nat -> d k = 0 \/ u k = v k) ->
  dotn n d u = dotn n d v.
Proof.
  intros. unfold dotn. apply sumn_ext. intros k Hk. destruct (H k Hk) as [E|E]; rewrite E; ring.
Qed.

Lemma dotn_ext : forall n u v u' v', (forall k, (k < n)%nat -> u k = u' k) ->
  (forall k, (k < n)%nat -> v k = v' k) -> dotn n u v = dotn n u' v'.
Proof. intros. unfold dotn. apply sumn_ext. intros. rewrite H, H0; auto. Qed.

Lemma mv_ext : forall n A u v i, (forall k, (k < n)%nat -> u k = v k) -> mv n A u i = mv n A v i.
Proof. intros. unfold mv. apply sumn_ext. intros. rewrite H; auto. Qed.

Lemma mv_mat_ext : forall n A B v i, (forall j, (j < n)%nat -> A i j = B i j) -> mv n A v i = mv n B v i.
Proof. intros. unfold mv. apply sumn_ext. intros. rewrite H; auto. Qed.

Lemma energy_ext : forall n A xs x y, (forall k, (k < n)%nat -> x k = y k) ->
  energy n A xs x = energy n A xs y.
Proof.
  intros. unfold energy. apply dotn_ext; intros.
  - rewrite H; auto.
  - apply mv_ext. intros. rewrite H; auto.
Qed.

(* u^T A v = v^T A u for symmetric A *)
Lemma sym_bilinear : forall n A u v, symmetric n A ->
  dotn n u (mv n A v) = dotn n v (mv n A u).
Proof.
  intros n A u v Hs. unfold dotn, mv.
  rewrite (sumn_ext n (fun k => u k * sumn n (fun j => A k j * v j))
                      (fun k => sumn n (fun j => u k * A k j * v j))).
  2:{ intros. rewrite <- sumn_scal. apply sumn_ext. intros. ring. }
  rewrite sumn_swap. apply sumn_ext. intros j Hj.
  rewrite <- sumn_scal. apply sumn_ext. intros k Hk. rewrite (Hs k j); auto. ring.
Qed.

Lemma Jfun_zero : forall n A f, Jfun n A f (fun _ => 0) = 0.
Proof.
  intros. unfold Jfun, dotn. rewrite !sumn_zero; try ring; intros; ring.
Qed.

Lemma Jfun_ext : forall n A B f g x y,
  (forall i j, (i < n)%nat -> (j < n)%nat -> A i j = B i j) ->
  (forall i, (i < n)%nat -> f i = g i) -> (forall i, (i < n)%nat -> x i = y i) ->
  Jfun n A f x = Jfun n B g y.
Proof.
  intros n A B f g x y HA Hf Hx. unfold Jfun. f_equal.
  - apply dotn_ext; auto. intros k Hk. rewrite (mv_ext n A x y k Hx).
    apply mv_mat_ext. intros. apply HA; auto.
  - f_equal. apply dotn_ext; auto.
Qed.

(* J(x + d) = J(x) + d^T A d - 2 d^T (f - A x) *)
Lemma J_correction : forall n A f x d, symmetric n A ->
  Jfun n A f (fun k => x k + d k) =
  Jfun n A f x + dotn n d (mv n A d) - (1+1) * dotn n d (fun k => f k - mv n A x k).
Proof.
  intros n A f x d Hs. unfold Jfun.
  rewrite (dotn_ext n (fun k => x k + d k) (mv n A (fun k => x k + d k))
                      (fun k => x k + d k) (fun k => mv n A x k + mv n A d k)).
  2:{ reflexivity. } 2:{ intros. apply mv_plus. }
  rewrite dotn_plus_l, !dotn_plus_r, dotn_plus_l, dotn_minus_r.
  rewrite (sym_bilinear n A x d Hs). ring.
Qed.

(* the energy error is J up to a term linear in x that vanishes when A xs = f, and a constant *)
Lemma energy_J_gen : forall n A f xs x, symmetric n A ->
  energy n A xs x = Jfun n A f x + (1+1) * dotn n x (fun k => f k - mv n A xs k) + dotn n xs (mv n A xs).
Proof.
  intros n A f xs x Hs. unfold energy, Jfun.
  rewrite (dotn_ext n _ (mv n A (fun k => x k - xs k))
                      (fun k => x k - xs k) (fun k => mv n A x k - mv n A xs k))
    by (intros; try apply mv_minus; reflexivity).
  rewrite dotn_minus_l, !dotn_minus_r, (sym_bilinear n A xs x Hs). ring.
Qed.

(* for x vanishing off the rows that xs solves, the linear term is zero *)
Lemma energy_J_supp : forall n A f xs x, symmetric n A ->
  (forall k, (k < n)%nat -> x k = 0 \/ mv n A xs k = f k) ->
  energy n A xs x = Jfun n A f x + dotn n xs (mv n A xs).
Proof.
  intros n A f xs x Hs Hx. rewrite (energy_J_gen n A f) by exact Hs.
  rewrite (dotn_vanish n x); [ring|].
  intros k Hk. destruct (Hx k Hk) as [E|E]; [left; exact E|right; rewrite E; ring].
Qed.

(* Subspace corrections.  If d is supported where the corrected residual equation holds (for
   every k: d k = 0, or (A d)_k = b_k - (A x)_k), then J(x + d) = J(x) - d^T A d; if moreover
   (A xs)_k = b_k there, the same holds for the energy error.  Gauss-Seidel (one coordinate), the
   exact smoother (an index set) and the coarsest-level solve are all instances. *)
Lemma J_subspace_identity : forall n A f x d, symmetric n A ->
  (forall k, (k < n)%nat -> d k = 0 \/ mv n A d k = f k - mv n A x k) ->
  Jfun n A f (fun k => x k + d k) = Jfun n A f x - dotn n d (mv n A d).
Proof.
  intros n A f x d Hs Hd. rewrite J_correction by exact Hs.
  rewrite <- (dotn_ext_supp n d _ _ Hd). ring.
Qed.

Lemma J_subspace : forall n A f x d, symmetric n A -> psd n A ->
  (forall k, (k < n)%nat -> d k = 0 \/ mv n A d k = f k - mv n A x k) ->
  Jfun n A f (fun k => x k + d k) <= Jfun n A f x.
Proof.
  intros n A f x d Hs Hp Hd. rewrite J_subspace_identity by assumption.
  apply Qc_sub_nonneg_le. apply Hp.
Qed.

Lemma subspace_correction_energy : forall n A b xs x d,
  symmetric n A ->
  (forall k, (k < n)%nat -> d k = 0 \/ (mv n A d k = b k - mv n A x k /\ mv n A xs k = b k)) ->
  energy n A xs (fun k => x k + d k) = energy n A xs x - dotn n d (mv n A d).
Proof.
  intros n A b xs x d Hs Hd. rewrite !(energy_J_gen n A b xs) by exact Hs.
  rewrite (J_subspace_identity n A b x d Hs) by (intros k Hk; destruct (Hd k Hk); tauto).
  rewrite dotn_plus_l, (dotn_vanish n d (fun k => b k - mv n A xs k)); [ring|].
  intros k Hk. destruct (Hd k Hk) as [Z|[_ Z]]; [left; exact Z|right; rewrite Z; ring].
Qed.
