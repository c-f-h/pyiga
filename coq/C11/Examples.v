(* C11 -- non-vacuity: concrete non-trivial inputs meet the hypotheses of the theorems. *)
From Coq Require Import QArith Qcanon List Arith Bool ZArith Lia.
From Verif.lib Require Import QcFacts.
From Verif.C11 Require Import Spec Algebra Model Proofs MGProofs MGEnergy MGSolve Props.
Import ListNotations.
Open Scope Qc_scope.
Definition q (a : Z) (b : positive) : Qc := Q2Qc (a # b).

(* the SPD matrix [[4,-1,0],[-1,4,-1],[0,-1,2]] as CSR with unsorted columns in row 1
   and an explicit zero in row 0 *)
Definition exM : csr := mk_csr [0;3;6;8]%nat [0;2;1; 2;0;1; 1;2]%nat
  [q 4 1; q 0 1; q (-1) 1;  q (-1) 1; q (-1) 1; q 4 1;  q (-1) 1; q 2 1].
Definition exD : dense := [[q 4 1; q (-1) 1; q 0 1]; [q (-1) 1; q 4 1; q (-1) 1]; [q 0 1; q (-1) 1; q 2 1]].
Definition ex_xs : vec := [q 1 1; q 2 1; q (-1) 2].
Definition ex_b : vec := [q 2 1; q 15 2; q (-3) 1].      (* A xs *)
Definition ex_x : vec := [q 0 1; q 1 4; q 3 1].

Ltac qc_neq := let H := fresh in intro H; apply (f_equal this) in H; vm_compute in H; discriminate.

Example ex_rows_wf : forall i, In i (base_order 3 None) ->
  (i < 3)%nat /\ wf_row 3 i (row_entries exM i) /\ 0 < entry exM i i /\
  mv 3 (entry exM) (vget ex_xs) i = vget ex_b i.
Proof.
  intros i Hi. simpl in Hi.
  destruct Hi as [<-|[<-|[<-|[]]]]; (split; [lia|split; [split|split]]);
    try (intros c a Hin; vm_compute in Hin;
         repeat (destruct Hin as [Hin|Hin]; [inversion Hin; subst; lia|]); contradiction);
    try (vm_compute; lia); try (vm_compute; reflexivity);
    try (apply Qc_is_canon; vm_compute; reflexivity).
Qed.

Example ex_symmetric : symmetric 3 (entry exM).
Proof.
  intros i j Hi Hj.
  destruct i as [|[|[|i]]]; try lia; destruct j as [|[|[|j]]]; try lia;
    apply Qc_is_canon; vm_compute; reflexivity.
Qed.

(* the sweeps really move x, and the energy really decreases *)
Example ex_sweep_moves :
  map this (gauss_seidel (Sparse exM 3) ex_x ex_b 1 None Symmetric) <> map this ex_x.
Proof. vm_compute. discriminate. Qed.

Example ex_energy_decreases :
  energy 3 (entry exM) (vget ex_xs) (vget (gauss_seidel (Sparse exM 3) ex_x ex_b 2 (Some [2;0]%nat) Backward))
  < energy 3 (entry exM) (vget ex_xs) (vget ex_x).
Proof. vm_compute. reflexivity. Qed.

Example ex_fixed : gauss_seidel (Sparse exM 3) ex_xs ex_b 2 None Symmetric = ex_xs.
Proof. apply gs_fixed_point. intros i Hi. destruct (ex_rows_wf i Hi) as (H1 & H2 & H3 & H4).
  repeat split; try assumption; try apply H2. apply Qc_pos_neq0, H3. Qed.

Example ex_dense_sparse_same :
  map this (gauss_seidel (Dense exD) ex_x ex_b 2 (Some [1;2;1]%nat) Symmetric) =
  map this (gauss_seidel (Sparse exM 3) ex_x ex_b 2 (Some [1;2;1]%nat) Symmetric).
Proof. vm_compute. reflexivity. Qed.

(* a CSR with TWO stored diagonal entries in row 0 (outside wf_row): the routine uses the last one,
   not their sum -- the hypothesis `at most one stored diagonal entry` of gs_textbook is needed *)
Definition exDup : csr := mk_csr [0;2;3]%nat [0;0;1]%nat [q 1 1; q 1 1; q 1 1].
Example ex_duplicate_diagonal_not_textbook :
  map this (gs_row exDup [q 2 1; q 0 1] [q 0 1; q 0 1] 0) = [2%Q; 0%Q] /\ this (entry exDup 0 0) = 2%Q.
Proof. vm_compute. split; reflexivity. Qed.

(* iterative_solve: halving iteration x -> x/2, res = |x| for x >= 0 *)
Example ex_iterative_converges :
  iterative_solve (fun x => x / q 2 1) (fun x => x) (q 1 1) (q 1 5) 10 = (q 1 8, Finite 3).
Proof. apply injective_projections; [apply Qc_is_canon|]; vm_compute; reflexivity. Qed.
Example ex_iterative_limit :
  snd (iterative_solve (fun x => x / q 2 1) (fun x => x) (q 1 1) (q 1 5) 2) = Inf.
Proof. vm_compute. reflexivity. Qed.

(* twogrid loop with an array-valued start (Some v) *)
Example ex_twogrid_start :
  snd (twogrid_loop (fun x => x / q 2 1) (fun x => x) (fun x => x / q 4 1) 0 (Some (q 8 1)) (q 1 100) 50)
  = Converged.
Proof. vm_compute. reflexivity. Qed.

(* smoothing sets: a level with act = {3,4}, deact = {5}, candidates {1,2}, Dirichlet {2,4} *)
Example ex_smoothing_set :
  smoothing_set StCellSupp (Some 1%nat) [3;4]%nat [5]%nat [1;2]%nat [2;4]%nat 2 2 = [3;5]%nat /\
  smoothing_set StCellSupp (Some 1%nat) [3;4]%nat [5]%nat [1;2]%nat [2;4]%nat 2 1 = [1]%nat /\
  smoothing_set StCellSupp (Some 1%nat) [3;4]%nat [5]%nat [1;2]%nat [2;4]%nat 2 0 = [].
Proof. vm_compute. repeat split; reflexivity. Qed.

(* multigrid: a two-level hierarchy (5 fine / 3 coarse hat functions on [0,1], Dirichlet ends)
   satisfies the hypotheses [good] of mg_fixed_point, and the cycle really moves other vectors *)
Definition mgA : dense :=
  [[q 2 1; q (-1) 1; 0; 0; 0]; [q (-1) 1; q 2 1; q (-1) 1; 0; 0]; [0; q (-1) 1; q 2 1; q (-1) 1; 0];
   [0; 0; q (-1) 1; q 2 1; q (-1) 1]; [0; 0; 0; q (-1) 1; q 2 1]].
Definition mgP : dense := [[1; 0; 0]; [q 1 2; q 1 2; 0]; [0; 1; 0]; [0; q 1 2; q 1 2]; [0; 0; 1]].
Definition mgInd : list nat := [1; 2; 3]%nat.
Definition mgL : level := mk_level mgP mgA mgInd (dsolve (submat mgA mgInd)).
Definition mgInd0 : list nat := [1]%nat.
Definition mgB0 : vec -> vec := dsolve (submat (galerkin mgP mgA) mgInd0).
Definition mgD (i : nat) : Prop := i = 1%nat \/ i = 2%nat \/ i = 3%nat.
Definition mgDc (j : nat) : Prop := j = 1%nat.

Lemma vec_eq_this : forall a b : vec, map this a = map this b -> a = b.
Proof.
  induction a; intros [|y b] H; simpl in H; try discriminate; [reflexivity|].
  injection H as H1 H2. f_equal; [|apply IHa; exact H2].
  apply Qc_is_canon. rewrite H1. reflexivity.
Qed.

Example ex_mg_good : good mgInd0 mgB0 5 mgD [mgL].
Proof.
  simpl. split; [reflexivity|]. split.
  { intros i [<-|[<-|[<-|[]]]]; reflexivity. }
  split; [reflexivity|]. split.
  { intros i [<-|[<-|[<-|[]]]]; (split; [lia|split; [unfold mgD; auto|qc_neq]]). }
  split. { apply vec_eq_this. vm_compute. reflexivity. }
  exists 3%nat, mgDc. split; [reflexivity|]. split.
  - intros v Hl Hv j Hj. unfold mgDc in Hj. subst j.
    destruct v as [|a [|b [|c [|d [|e [|? ?]]]]]]; simpl in Hl; try discriminate.
    assert (Hb := Hv 1%nat (or_introl eq_refl)).
    assert (Hc := Hv 2%nat (or_intror (or_introl eq_refl))).
    assert (Hd := Hv 3%nat (or_intror (or_intror eq_refl))).
    unfold vget in *. simpl in Hb, Hc, Hd. subst.
    cbn. ring.
  - split.
    + intros i [<-|[]]. reflexivity.
    + apply vec_eq_this. vm_compute. reflexivity.
Qed.

Example ex_mg_moves :
  map this (mg_step SmGS 1 mgInd0 mgB0 [mgL] [0; q 1 1; 0; 0; 0] [0; q 1 1; q 2 1; q 1 1; 0])
  <> [0%Q; 1%Q; 0%Q; 0%Q; 0%Q].
Proof. vm_compute. discriminate. Qed.

Example ex_mg_fixed :
  mg_step SmSymmetric 2 mgInd0 mgB0 [mgL] [0; q 1 1; q 2 1; q 1 1; 0] [q 7 1; 0; q 2 1; 0; q (-3) 1]
  = [0; q 1 1; q 2 1; q 1 1; 0].
Proof.
  apply (mg_fixed_point SmSymmetric 2 mgInd0 mgB0 mgL [] 5 mgD); try reflexivity.
  - exact ex_mg_good.
  - intros i Hi. destruct Hi as [Hi|[Hi|Hi]]; subst i; apply Qc_is_canon; vm_compute; reflexivity.
Qed.

(* multigrid energy: a two-level hierarchy (3 fine dofs, 1 coarse dof) meets
   goodE / dsym / dpsd, and the cycle with exact solves really lowers the energy *)
Definition eA : dense := [[1+1; -(1); 0]; [-(1); 1+1; -(1)]; [0; -(1); 1+1]].
Definition eP : dense := [[1]; [1+1]; [1]].
Definition eInd : list nat := [0; 2]%nat.
Definition eB (r : vec) : vec := map (fun v => v / (1+1)) r.
Definition eL : level := mk_level eP eA eInd eB.
Definition eInd0 : list nat := [0]%nat.
Definition eB0 (r : vec) : vec := map (fun v => v / (1+1+1+1)) r.

Lemma mat_eq_this : forall a b : dense, map (map this) a = map (map this) b -> a = b.
Proof.
  induction a; intros [|y b] H; simpl in H; try discriminate; [reflexivity|].
  injection H as H1 H2. f_equal; [apply vec_eq_this; exact H1|apply IHa; exact H2].
Qed.

Lemma two_neq0 : 1 + 1 <> 0. Proof. qc_neq. Qed.

Example ex_eA_wf : wfmat eA 3 3.
Proof. split; [split; [reflexivity|intros row [<-|[<-|[<-|[]]]]; reflexivity]|reflexivity]. Qed.
Example ex_eP_wf : wfmat eP 3 1.
Proof. split; [split; [reflexivity|intros row [<-|[<-|[<-|[]]]]; reflexivity]|reflexivity]. Qed.

Example ex_galerkin : galerkin eP eA = [[1+1+1+1]].
Proof. apply mat_eq_this. vm_compute. reflexivity. Qed.

Example ex_eA_sym : dsym 3 eA.
Proof.
  intros i j Hi Hj. destruct i as [|[|[|i]]]; try lia; destruct j as [|[|[|j]]]; try lia; reflexivity.
Qed.

Example ex_eA_psd : dpsd 3 eA.
Proof.
  intros v. unfold dotn, mv, dentry, drow. simpl.
  match goal with |- 0 <= ?e =>
    replace e with (v 0%nat * v 0%nat + (v 0%nat - v 1%nat) * (v 0%nat - v 1%nat)
                    + (v 1%nat - v 2%nat) * (v 1%nat - v 2%nat) + v 2%nat * v 2%nat) by ring end.
  apply Qcplus_nonneg; [apply Qcplus_nonneg; [apply Qcplus_nonneg|]|]; apply Qcsq_nonneg.
Qed.

Example ex_goodE : goodE eInd0 eB0 3 eA [eL].
Proof.
  simpl. split; [exact ex_eA_wf|]. split; [reflexivity|]. split.
  { split; [repeat constructor; simpl; intuition discriminate|].
    intros i [<-|[<-|[]]]; lia. }
  split.
  { intros r Hr. destruct r as [|a [|b [|? ?]]]; simpl in Hr; try discriminate.
    split; [reflexivity|]. unfold eB, dmv, submat, gather, vget, drow. simpl.
    f_equal; [field; exact two_neq0|f_equal; field; exact two_neq0]. }
  exists 1%nat. split; [exact ex_eP_wf|]. simpl. rewrite ex_galerkin.
  split. { split; [split; [reflexivity|intros row [<-|[]]; reflexivity]|reflexivity]. }
  split. { split; [repeat constructor; simpl; intuition|]. intros i [<-|[]]. lia. }
  intros r Hr. destruct r as [|a [|? ?]]; simpl in Hr; try discriminate.
  split; [reflexivity|]. unfold eB0, dmv, submat, gather, vget, drow. simpl.
  f_equal. field. qc_neq.
Qed.

(* the cycle strictly lowers the energy error of x = 0 for xs = (1,2,1), f = A xs = (0,2,0) *)
Example ex_mg_energy_strict :
  energy 3 (dentry eA) (vget [1; 1+1; 1])
         (vget (mg_step SmExact 1 eInd0 eB0 [eL] [0; 0; 0] [0; 1+1; 0]))
  < energy 3 (dentry eA) (vget [1; 1+1; 1]) (vget [0; 0; 0]).
Proof. vm_compute. reflexivity. Qed.

Example ex_mg_energy_thm :
  energy 3 (dentry eA) (vget [1; 1+1; 1])
         (vget (mg_step SmExact 1 eInd0 eB0 [eL] [1; 0; -(1)] [0; 1+1; 0]))
  <= energy 3 (dentry eA) (vget [1; 1+1; 1]) (vget [1; 0; -(1)]).
Proof.
  apply (mg_exact_energy_monotone 1 eInd0 eB0 eL [] 3 eA);
    try exact ex_goodE; try exact ex_eA_sym; try exact ex_eA_psd; try reflexivity;
    apply vec_eq_this; vm_compute; reflexivity.
Qed.
