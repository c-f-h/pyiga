(* C11 -- the local multigrid cycle with exact subspace solves does not increase the
   functional J(x) = x^T A x - 2 x^T f (= energy-norm error + const), for every number of levels.
   The Galerkin product on functions nat -> nat -> Qc; list matrices and the index operations of
   the cycle expressed by them; the cycle. *)
From Coq Require Import QArith Qcanon List Arith Lia.
From Verif.lib Require Import ListFacts.
From Verif.C11 Require Import Spec Algebra Model Proofs MGProofs.
Import ListNotations.
Open Scope Qc_scope.

Definition ftr (P : nat -> nat -> Qc) : nat -> nat -> Qc := fun a i => P i a.
(* the Galerkin product in the order the code computes it: (P^T A) P *)
Definition fgal (n : nat) (P A : nat -> nat -> Qc) : nat -> nat -> Qc :=
  fun a b => sumn n (fun j => sumn n (fun i => P i a * A i j) * P j b).

(* <P y, r> = <y, P^T r> *)
Lemma adjoint : forall n nc P y r,
  dotn n (mv nc P y) r = dotn nc y (mv n (ftr P) r).
Proof.
  intros. unfold dotn, mv, ftr.
  rewrite (sumn_ext n _ (fun k => sumn nc (fun j => P k j * y j * r k)))
    by (intros; rewrite <- sumn_scal_r; reflexivity).
  rewrite sumn_swap. apply sumn_ext. intros a _.
  rewrite <- sumn_scal. apply sumn_ext. intros. ring.
Qed.

(* (P^T A P) y = P^T (A (P y)) *)
Lemma mv_fgal : forall n nc P A y a,
  mv nc (fgal n P A) y a = mv n (ftr P) (mv n A (mv nc P y)) a.
Proof.
  intros. unfold mv, fgal, ftr.
  (* lhs: sum_b (sum_j (sum_i P_ia A_ij) P_jb) y_b *)
  rewrite (sumn_ext nc _ (fun b => sumn n (fun j => sumn n (fun i => P i a * A i j) * (P j b * y b))))
    by (intros; rewrite <- sumn_scal_r; apply sumn_ext; intros; ring).
  rewrite sumn_swap.
  rewrite (sumn_ext n _ (fun j => sumn n (fun i => P i a * A i j) * sumn nc (fun b => P j b * y b)))
    by (intros; rewrite <- sumn_scal; reflexivity).
  rewrite (sumn_ext n _ (fun j => sumn n (fun i => P i a * (A i j * sumn nc (fun b => P j b * y b)))))
    by (intros; rewrite <- sumn_scal_r; apply sumn_ext; intros; ring).
  rewrite sumn_swap. apply sumn_ext. intros i _. rewrite <- sumn_scal. reflexivity.
Qed.

Lemma fgal_expand : forall n P A a b,
  fgal n P A a b = sumn n (fun j => sumn n (fun i => P i a * A i j * P j b)).
Proof. intros. unfold fgal. apply sumn_ext. intros. rewrite <- sumn_scal_r. reflexivity. Qed.

Lemma fgal_sym : forall n nc P A, symmetric n A -> symmetric nc (fgal n P A).
Proof.
  intros n nc P A Hs a b _ _. rewrite !fgal_expand. rewrite sumn_swap.
  apply sumn_ext. intros i Hi. apply sumn_ext. intros j Hj. rewrite (Hs j i Hj Hi). ring.
Qed.

Lemma fgal_quadratic : forall n nc P A y,
  dotn nc y (mv nc (fgal n P A) y) = dotn n (mv nc P y) (mv n A (mv nc P y)).
Proof.
  intros. rewrite adjoint. apply dotn_ext; intros; [reflexivity|]. apply mv_fgal.
Qed.

Lemma fgal_psd : forall n nc P A, psd n A -> psd nc (fgal n P A).
Proof. intros n nc P A H v. rewrite fgal_quadratic. apply H. Qed.

(* coarse-grid correction: J(x + P y) = J(x) + J_c(y) for the Galerkin operator and the
   restricted residual *)
Lemma J_coarse : forall n nc P A f x y, symmetric n A ->
  Jfun n A f (fun k => x k + mv nc P y k) =
  Jfun n A f x + Jfun nc (fgal n P A) (mv n (ftr P) (fun k => f k - mv n A x k)) y.
Proof.
  intros n nc P A f x y Hs. rewrite J_correction by exact Hs.
  rewrite (adjoint n nc P y (fun k => f k - mv n A x k)).
  unfold Jfun at 3. rewrite fgal_quadratic. ring.
Qed.

Definition wfm (A : dense) (r c : nat) : Prop :=
  length A = r /\ (forall row, In row A -> length row = c).
Definition wfmat (A : dense) (r c : nat) : Prop := wfm A r c /\ ncols A = c.

Lemma nth_nil0 : forall j, nth j (@nil Qc) 0 = 0.
Proof. destruct j; reflexivity. Qed.

Lemma drow_length : forall A r c i, wfm A r c -> (i < r)%nat -> length (drow A i) = c.
Proof.
  intros A r c i (H1 & H2) Hi. apply H2. unfold drow. apply nth_In. lia.
Qed.

Lemma dentry_out : forall A i j, (length A <= i)%nat -> dentry A i j = 0.
Proof. intros. unfold dentry, drow. rewrite (nth_overflow A [] H). apply nth_nil0. Qed.

Lemma vget_dmv_mv : forall A r c x i, wfm A r c -> length x = c ->
  vget (dmv A x) i = mv c (dentry A) (vget x) i.
Proof.
  intros A r c x i W Hx. rewrite vget_dmv.
  destruct (Nat.lt_ge_cases i r) as [Hi|Hi].
  - rewrite ldot_sumn by (rewrite (drow_length A r c i W Hi); auto). rewrite Hx. reflexivity.
  - destruct W as (H1 & _). unfold drow. rewrite (nth_overflow A []) by lia. simpl.
    unfold mv. symmetry. apply sumn_zero. intros. rewrite dentry_out by lia. ring.
Qed.

Lemma dcol_length : forall P a, length (dcol P a) = length P.
Proof. intros. unfold dcol. apply map_length. Qed.

Lemma nth_dcol : forall P a i, nth i (dcol P a) 0 = dentry P i a.
Proof.
  intros. unfold dcol, dentry, drow.
  rewrite <- (nth_nil0 a) at 1. apply (map_nth (fun r : list Qc => nth a r 0)).
Qed.

Lemma drow_dtrans : forall P a, (a < ncols P)%nat -> drow (dtrans P) a = dcol P a.
Proof.
  intros. unfold dtrans, drow.
  rewrite (nth_map_lt _ _ _ _ 0%nat) by (rewrite seq_length; exact H).
  rewrite seq_nth by exact H. reflexivity.
Qed.

Lemma dentry_dtrans : forall P a i, (a < ncols P)%nat -> dentry (dtrans P) a i = dentry P i a.
Proof. intros. unfold dentry at 1. rewrite drow_dtrans by exact H. apply nth_dcol. Qed.

Lemma wfm_dtrans : forall P n nc, wfmat P n nc -> wfm (dtrans P) nc n.
Proof.
  intros P n nc ((H1 & H2) & H3). split.
  - rewrite dtrans_length. exact H3.
  - intros row Hin. unfold dtrans in Hin. apply in_map_iff in Hin. destruct Hin as (a & <- & _).
    rewrite dcol_length. exact H1.
Qed.

Lemma drow_dmm : forall X Y a, (a < length X)%nat ->
  drow (dmm X Y) a = map (fun j => ldot (drow X a) (dcol Y j)) (seq 0 (ncols Y)).
Proof. intros. unfold dmm, drow. exact (nth_map_lt _ _ _ _ _ H). Qed.

Lemma dentry_dmm : forall X Y a b m, (a < length X)%nat -> (b < ncols Y)%nat ->
  length (drow X a) = m -> length Y = m ->
  dentry (dmm X Y) a b = sumn m (fun k => dentry X a k * dentry Y k b).
Proof.
  intros X Y a b m Ha Hb H1 H2. unfold dentry at 1. rewrite drow_dmm by exact Ha.
  rewrite (nth_map_lt _ _ _ _ 0%nat) by (rewrite seq_length; exact Hb).
  rewrite seq_nth by exact Hb. simpl.
  rewrite ldot_sumn by (rewrite dcol_length; congruence).
  rewrite dcol_length, H2. apply sumn_ext. intros k _. unfold vget. rewrite nth_dcol. reflexivity.
Qed.

Lemma dmm_length : forall X Y, length (dmm X Y) = length X.
Proof. intros. unfold dmm. apply map_length. Qed.

Lemma dentry_galerkin : forall P A n nc a b,
  wfmat P n nc -> wfmat A n n -> (a < nc)%nat -> (b < nc)%nat ->
  dentry (galerkin P A) a b = fgal n (dentry P) (dentry A) a b.
Proof.
  intros P A n nc a b WP WA Ha Hb. unfold galerkin.
  destruct WP as ((P1 & P2) & P3). destruct WA as ((A1 & A2) & A3).
  set (Z := dmm (dtrans P) A).
  assert (LZ : length Z = nc) by (unfold Z; rewrite dmm_length, dtrans_length; exact P3).
  assert (RZ : length (drow Z a) = n).
  { unfold Z. rewrite drow_dmm by (rewrite dtrans_length; lia). rewrite map_length, seq_length. exact A3. }
  rewrite (dentry_dmm Z P a b n) by (try lia; auto).
  unfold fgal. apply sumn_ext. intros j Hj. f_equal.
  unfold Z. rewrite (dentry_dmm (dtrans P) A a j n).
  - apply sumn_ext. intros i _. rewrite dentry_dtrans by lia. reflexivity.
  - rewrite dtrans_length. lia.
  - lia.
  - rewrite drow_dtrans by lia. rewrite dcol_length. exact P1.
  - exact A1.
Qed.

Lemma wfmat_galerkin : forall P A n nc, wfmat P n nc -> wfmat A n n -> wfmat (galerkin P A) nc nc.
Proof.
  intros P A n nc ((P1 & P2) & P3) WA. unfold galerkin.
  set (Z := dmm (dtrans P) A).
  assert (LZ : length Z = nc) by (unfold Z; rewrite dmm_length, dtrans_length; exact P3).
  split; [split|].
  - rewrite dmm_length. exact LZ.
  - intros row Hin. unfold dmm in Hin. apply in_map_iff in Hin. destruct Hin as (r & <- & _).
    rewrite map_length, seq_length. exact P3.
  - unfold ncols at 1. destruct (Nat.eq_dec nc 0) as [E|E].
    + unfold drow. rewrite nth_overflow by (rewrite dmm_length; lia). simpl. lia.
    + rewrite drow_dmm by lia. rewrite map_length, seq_length. exact P3.
Qed.

(* the correction vector of `x[idx] += y` *)
Fixpoint dfun (idx : list nat) (y : vec) (k : nat) : Qc :=
  match idx, y with
  | i :: idx', v :: y' => (if Nat.eqb k i then v else 0) + dfun idx' y' k
  | _, _ => 0
  end.

Lemma scatter_add_length : forall idx y x, length (scatter_add idx y x) = length x.
Proof.
  induction idx; intros [|v y] x; simpl; auto. rewrite IHidx. apply upd_length.
Qed.

Lemma vget_scatter_add : forall idx y x k, (forall i, In i idx -> (i < length x)%nat) ->
  vget (scatter_add idx y x) k = vget x k + dfun idx y k.
Proof.
  induction idx as [|i idx IH]; intros [|v y] x k H; simpl; try ring.
  rewrite IH by (intros; rewrite upd_length; apply H; right; assumption).
  rewrite vget_upd by (apply H; left; reflexivity). unfold fupd.
  destruct (Nat.eqb k i) eqn:E; [apply Nat.eqb_eq in E; subst; ring|ring].
Qed.

Lemma dfun_notin : forall idx y k, ~ In k idx -> dfun idx y k = 0.
Proof.
  induction idx as [|i idx IH]; intros [|v y] k H; simpl; try reflexivity.
  destruct (Nat.eqb_spec k i); [subst; exfalso; apply H; left; reflexivity|].
  rewrite IH by (intro; apply H; right; assumption). ring.
Qed.

(* A applied to the correction = columns idx of A times y *)
Lemma mv_dfun : forall n M idx y k, (forall i, In i idx -> (i < n)%nat) ->
  mv n M (dfun idx y) k = ldot (map (fun i => M k i) idx) y.
Proof.
  induction idx as [|i idx IH]; intros [|v y] k H; simpl;
    try (unfold mv; apply sumn_zero; intros; ring).
  rewrite mv_plus, IH by (intros; apply H; right; assumption).
  f_equal. apply mv_delta, H. left. reflexivity.
Qed.

(* assignment `x[idx] = y` and accumulation `x[idx] += y` agree where x vanishes on idx *)
Lemma scatter_set_add_zeros : forall idx y x,
  NoDup idx -> (forall i, In i idx -> vget x i = 0) ->
  scatter_set idx y x = scatter_add idx y x.
Proof.
  induction idx as [|i idx IH]; intros [|v y] x Hn Hz; simpl; try reflexivity.
  inversion Hn; subst.
  rewrite (Hz i (or_introl eq_refl)). replace (0 + v) with v by ring.
  apply IH; [assumption|]. intros j Hj. rewrite vget_upd_other.
  - apply Hz. right. exact Hj.
  - intro E. subst. contradiction.
Qed.

Lemma gather_length : forall idx x, length (gather idx x) = length idx.
Proof. intros. unfold gather. apply map_length. Qed.

Lemma vget_gather : forall idx x q, (q < length idx)%nat -> vget (gather idx x) q = vget x (nth q idx 0%nat).
Proof. intros. unfold gather, vget at 1. exact (nth_map_lt _ _ _ _ _ H). Qed.

Lemma drow_submat : forall A idx q, (q < length idx)%nat ->
  drow (submat A idx) q = gather idx (drow A (nth q idx 0%nat)).
Proof. intros. unfold submat, drow at 1. exact (nth_map_lt _ _ _ _ _ H). Qed.

Definition Jl (A : dense) (f x : vec) : Qc := Jfun (length x) (dentry A) (vget f) (vget x).
Definition idx_ok (n : nat) (idx : list nat) : Prop := NoDup idx /\ forall i, In i idx -> (i < n)%nat.
(* the contract of operators.make_solver for the block A[idx][:,idx] *)
Definition solves (A : dense) (idx : list nat) (B : vec -> vec) : Prop :=
  forall r, length r = length idx -> length (B r) = length idx /\ dmv (submat A idx) (B r) = r.
Definition dsym (n : nat) (A : dense) : Prop := symmetric n (dentry A).
Definition dpsd (n : nat) (A : dense) : Prop := psd n (dentry A).

(* J of a list vector through any function that agrees with its entries *)
Lemma Jl_fun : forall A f x n g, length x = n -> (forall k, (k < n)%nat -> vget x k = g k) ->
  Jl A f x = Jfun n (dentry A) (vget f) g.
Proof. intros A f x n g <- H. apply Jfun_ext; auto. Qed.

Lemma Jl_zeros : forall A f n, Jl A f (zeros n) = 0.
Proof.
  intros. rewrite (Jl_fun A f _ n (fun _ => 0)); [apply Jfun_zero|apply repeat_length|].
  intros. apply vget_repeat0.
Qed.

Lemma exact_correction_J : forall A n idx B x f,
  wfm A n n -> dsym n A -> dpsd n A -> idx_ok n idx -> solves A idx B ->
  length x = n -> length f = n ->
  let x' := scatter_add idx (B (gather idx (vsub f (dmv A x)))) x in
  length x' = n /\ Jl A f x' <= Jl A f x.
Proof.
  intros A n idx B x f W Hs Hp (Hnd & Hin) HB Hx Hf. cbv zeta.
  set (r := vsub f (dmv A x)). set (y := B (gather idx r)).
  destruct (HB (gather idx r) (gather_length idx r)) as [Hy1 Hy2]. fold y in Hy1, Hy2.
  assert (Hl : length (scatter_add idx y x) = n) by (rewrite scatter_add_length; exact Hx).
  split; [exact Hl|]. rewrite (Jl_fun A f x n (vget x) Hx) by reflexivity.
  rewrite (Jl_fun A f _ n (fun k => vget x k + dfun idx y k) Hl)
    by (intros; apply vget_scatter_add; intros j Hj; rewrite Hx; apply Hin, Hj).
  apply J_subspace; [exact Hs|exact Hp|].
  intros k Hk. destruct (in_dec Nat.eq_dec k idx) as [Hi|Hi].
  - right. destruct (In_nth idx k 0%nat Hi) as (q & Hq & Eq).
    rewrite (mv_dfun n (dentry A) idx y k Hin).
    assert (E := f_equal (fun v => vget v q) Hy2). simpl in E.
    rewrite vget_dmv, drow_submat, vget_gather in E by exact Hq. rewrite Eq in E.
    change (gather idx (drow A k)) with (map (fun i => dentry A k i) idx) in E.
    rewrite E. apply vget_resid; auto; [apply W|apply (drow_length A n n k W Hk)].
  - left. apply dfun_notin. exact Hi.
Qed.

Lemma coarse_correction_J : forall A P n nc x f y,
  wfmat A n n -> wfmat P n nc -> dsym n A -> length x = n -> length f = n -> length y = nc ->
  Jl A f (vadd x (dmv P y)) =
  Jl A f x + Jl (galerkin P A) (dmv (dtrans P) (vsub f (dmv A x))) y.
Proof.
  intros A P n nc x f y WA WP Hs Hx Hf Hy.
  assert (WA' := proj1 WA). assert (WP' := proj1 WP).
  assert (LP : length (dmv P y) = n) by (rewrite dmv_length; apply WP').
  assert (Lv : length (vadd x (dmv P y)) = n) by (rewrite vadd_length; congruence).
  set (r := vsub f (dmv A x)).
  assert (Lr : length r = n).
  { unfold r. rewrite vsub_length; [exact Hf|]. rewrite dmv_length. destruct WA'. congruence. }
  rewrite (Jl_fun A f x n (vget x) Hx) by reflexivity.
  rewrite (Jl_fun A f _ n (fun k => vget x k + mv nc (dentry P) (vget y) k) Lv)
    by (intros; rewrite vget_vadd by congruence; rewrite (vget_dmv_mv P n nc y k WP' Hy); reflexivity).
  rewrite (J_coarse n nc (dentry P) (dentry A) (vget f) (vget x) (vget y) Hs). f_equal.
  unfold Jl. rewrite Hy. apply Jfun_ext.
  - intros a b Ha Hb. symmetry. apply (dentry_galerkin P A n nc a b WP WA Ha Hb).
  - intros a Ha. rewrite (vget_dmv_mv (dtrans P) nc n r a (wfm_dtrans P n nc WP) Lr).
    rewrite (mv_mat_ext n (dentry (dtrans P)) (ftr (dentry P)) (vget r) a).
    + apply mv_ext. intros k Hk. symmetry. apply vget_resid; auto; [apply WA'|apply (drow_length A n n k WA' Hk)].
    + intros j _. unfold ftr. apply dentry_dtrans. destruct WP as (_ & E). rewrite E. exact Ha.
  - reflexivity.
Qed.

Lemma galerkin_sym : forall P A n nc, wfmat P n nc -> wfmat A n n -> dsym n A -> dsym nc (galerkin P A).
Proof.
  intros P A n nc WP WA Hs a b Ha Hb.
  rewrite !(dentry_galerkin P A n nc) by assumption. apply (fgal_sym n nc); assumption.
Qed.

Lemma galerkin_psd : forall P A n nc, wfmat P n nc -> wfmat A n n -> dpsd n A -> dpsd nc (galerkin P A).
Proof.
  intros P A n nc WP WA Hp v. unfold dpsd in *.
  rewrite (dotn_ext nc v (mv nc (dentry (galerkin P A)) v) v (mv nc (fgal n (dentry P) (dentry A)) v)).
  - apply fgal_psd. exact Hp.
  - reflexivity.
  - intros a Ha. apply mv_mat_ext. intros b Hb. apply (dentry_galerkin P A n nc a b WP WA Ha Hb).
Qed.

Section MGEnergyCycle.
  Variable steps : nat.
  Variable ind0 : list nat.
  Variable B0 : vec -> vec.

  (* the hierarchy below an operator A of order n, as local_mg_step builds it: every level's
     operator is the Galerkin product of the finer one, smoothing sets are repetition-free
     index lists in range, the sub-solvers solve their blocks *)
  Fixpoint goodE (n : nat) (A : dense) (levels : list level) : Prop :=
    wfmat A n n /\
    match levels with
    | [] => idx_ok n ind0 /\ solves A ind0 B0
    | L :: rest =>
        lvA L = A /\ idx_ok n (lvInd L) /\ solves A (lvInd L) (lvB L) /\
        exists nc, wfmat (lvP L) n nc /\ goodE nc (galerkin (lvP L) A) rest
    end.

  (* except on the coarsest level, where the direct solve needs the zero start it is called with,
     the cycle started anywhere does not increase J *)
  Lemma mg_J : forall levels n A, goodE n A levels -> dsym n A -> dpsd n A ->
    forall x f, (levels = [] -> x = zeros n) -> length x = n -> length f = n ->
    length (mg_step SmExact steps ind0 B0 levels x f) = n /\
    Jl A f (mg_step SmExact steps ind0 B0 levels x f) <= Jl A f x.
  Proof.
    induction levels as [|L rest IH]; intros n A G Hs Hp x f Hz Hx Hf.
    - simpl in G. destruct G as (WA & Hi & HB). rewrite (Hz eq_refl) in *. cbn [mg_step].
      rewrite scatter_set_add_zeros by (try apply Hi; intros; apply vget_repeat0).
      rewrite <- (resid_zeros A n f (proj1 (proj1 WA)) Hf) at 1 3.
      exact (exact_correction_J A n ind0 B0 (zeros n) f (proj1 WA) Hs Hp Hi HB Hx Hf).
    - simpl in G. destruct G as (WA & HA & Hi & HB & nc & WP & Grest).
      cbn [mg_step pre_smooth post_smooth]. rewrite HA.
      destruct (exact_correction_J A n (lvInd L) (lvB L) x f (proj1 WA) Hs Hp Hi HB Hx Hf) as [E1 E2].
      set (x1 := scatter_add (lvInd L) (lvB L (gather (lvInd L) (vsub f (dmv A x)))) x) in *.
      set (rc := dmv (dtrans (lvP L)) (vsub f (dmv A x1))).
      assert (Lrc : length rc = nc).
      { unfold rc. rewrite dmv_length, dtrans_length. apply WP. }
      rewrite Lrc.
      destruct (IH nc (galerkin (lvP L) A) Grest
                  (galerkin_sym _ _ n nc WP WA Hs) (galerkin_psd _ _ n nc WP WA Hp)
                  (zeros nc) rc (fun _ => eq_refl) (repeat_length _ _) Lrc) as [Z1 Z2].
      rewrite Jl_zeros in Z2.
      set (yc := mg_step SmExact steps ind0 B0 rest (zeros nc) rc) in *.
      split.
      + rewrite vadd_length; [exact E1|]. rewrite dmv_length. destruct WP as ((W1 & _) & _). congruence.
      + rewrite (coarse_correction_J A (lvP L) n nc x1 f yc WA WP Hs E1 Hf Z1). fold rc.
        eapply Qcle_trans; [|exact E2].
        rewrite <- (Qcplus_0_r (Jl A f x1)) at 2.
        apply Qcplus_le_compat; [apply Qcle_refl|exact Z2].
  Qed.
End MGEnergyCycle.
