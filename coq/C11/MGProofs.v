(* C11 -- the vector operations of the multigrid cycle entry by entry; the exact discrete solution
   is a fixed point of the cycle. *)
From Coq Require Import QArith Qcanon List Lia.
From Verif.C11 Require Import Spec Algebra Model Proofs.
Import ListNotations.
Open Scope Qc_scope.

Lemma vget_repeat0 : forall k i, vget (repeat 0 k) i = 0.
Proof. intros. apply nth_repeat. Qed.

(* vadd and vsub are both of this shape *)
Lemma vget_zip : forall (op : Qc -> Qc -> Qc) a b i, op 0 0 = 0 -> length a = length b ->
  vget (map (fun p => op (fst p) (snd p)) (combine a b)) i = op (vget a i) (vget b i).
Proof.
  unfold vget. induction a; intros [|y b] i H0 H; simpl in H; try discriminate.
  - destruct i; simpl; symmetry; exact H0.
  - destruct i; simpl; [reflexivity|]. apply IHa; [exact H0|lia].
Qed.

Lemma vget_vadd : forall a b k, length a = length b -> vget (vadd a b) k = vget a k + vget b k.
Proof. intros. apply (vget_zip Qcplus); [ring|assumption]. Qed.

Lemma vget_vsub : forall a b i, length a = length b -> vget (vsub a b) i = vget a i - vget b i.
Proof. intros. apply (vget_zip Qcminus); [ring|assumption]. Qed.

Lemma vadd_length : forall a b, length a = length b -> length (vadd a b) = length a.
Proof. intros. unfold vadd. rewrite map_length, combine_length. lia. Qed.

Lemma vsub_length : forall a b, length a = length b -> length (vsub a b) = length a.
Proof. intros. unfold vsub. rewrite map_length, combine_length. lia. Qed.

Lemma vget_dmv : forall A x i, vget (dmv A x) i = ldot (drow A i) x.
Proof.
  intros. unfold vget, dmv, drow.
  change 0 with ((fun r => ldot r x) []) at 1. apply map_nth.
Qed.

Lemma ldot_zeros : forall r k, ldot r (repeat 0 k) = 0.
Proof. induction r; intros [|k]; simpl; auto. rewrite IHr. ring. Qed.

Lemma dmv_zeros : forall A k, dmv A (repeat 0 k) = repeat 0 (length A).
Proof. induction A; intros; simpl; [reflexivity|]. rewrite ldot_zeros, IHA. reflexivity. Qed.

Lemma dmv_length : forall A x, length (dmv A x) = length A.
Proof. intros. unfold dmv. apply map_length. Qed.

Lemma dtrans_length : forall P, length (dtrans P) = ncols P.
Proof. intros. unfold dtrans. rewrite map_length, seq_length. reflexivity. Qed.

Lemma vget_resid : forall A n f x k,
  length A = n -> length (drow A k) = n -> length x = n -> length f = n ->
  vget (vsub f (dmv A x)) k = vget f k - mv n (dentry A) (vget x) k.
Proof.
  intros A n f x k HA Hr Hx Hf. rewrite vget_vsub by (rewrite dmv_length; congruence).
  rewrite vget_dmv, ldot_sumn by congruence. rewrite Hx. reflexivity.
Qed.

Lemma vadd_zeros : forall x, vadd x (repeat 0 (length x)) = x.
Proof. unfold vadd. induction x; simpl; [reflexivity|]. rewrite IHx. f_equal. ring. Qed.

Lemma vsub_zeros : forall f, vsub f (repeat 0 (length f)) = f.
Proof. unfold vsub. induction f; simpl; [reflexivity|]. rewrite IHf. f_equal. ring. Qed.

Lemma gather_vanish : forall idx r, (forall i, In i idx -> vget r i = 0) -> gather idx r = repeat 0 (length idx).
Proof.
  unfold gather. induction idx; intros r H; simpl; [reflexivity|].
  rewrite H by (left; reflexivity). f_equal. apply IHidx. intros. apply H. right. assumption.
Qed.

Lemma scatter_add_zeros : forall idx x k, scatter_add idx (repeat 0 k) x = x.
Proof.
  induction idx; intros x [|k]; simpl; try reflexivity.
  replace (vget x a + 0) with (vget x a) by ring. rewrite upd_same. apply IHidx.
Qed.

Lemma scatter_set_zeros : forall idx k m, scatter_set idx (repeat 0 k) (repeat 0 m) = repeat 0 m.
Proof.
  induction idx; intros [|k] m; simpl; try reflexivity.
  assert (E : upd a 0 (repeat 0 m) = repeat 0 m).
  { pattern 0 at 1. rewrite <- (vget_repeat0 m a). apply upd_same. }
  rewrite E. apply IHidx.
Qed.

Lemma scatter_set_gather : forall idx x, scatter_set idx (gather idx x) x = x.
Proof.
  unfold gather. induction idx as [|i idx IH]; intros x; simpl; [reflexivity|].
  rewrite upd_same. apply IH.
Qed.

Lemma resid_zeros : forall A n f, length A = n -> length f = n -> vsub f (dmv A (zeros n)) = f.
Proof. intros. unfold zeros. rewrite dmv_zeros, H, <- H0. apply vsub_zeros. Qed.

Definition vanishes (D : nat -> Prop) (v : vec) : Prop := forall i, D i -> vget v i = 0.

(* a smoothing step on a set inside D leaves x unchanged when the residual vanishes on D *)
Lemma smooth_fixed : forall sm steps L x f n D,
  length (lvA L) = n -> (forall i, In i (lvInd L) -> length (drow (lvA L) i) = n) ->
  length x = n -> length f = n ->
  (forall i, In i (lvInd L) -> (i < n)%nat /\ D i /\ dentry (lvA L) i i <> 0) ->
  lvB L (repeat 0 (length (lvInd L))) = repeat 0 (length (lvInd L)) ->
  vanishes D (vsub f (dmv (lvA L) x)) ->
  pre_smooth sm steps L x f = x /\ post_smooth sm steps L x f = x.
Proof.
  intros sm steps L x f n D HA Hrow Hx Hf Hind HB Hv.
  assert (Hres : forall i, In i (lvInd L) -> vget (vsub f (dmv (lvA L) x)) i = 0)
    by (intros i Hi; apply Hv, (Hind i Hi)).
  assert (GS : forall sw, gauss_seidel (Dense (lvA L)) x f steps (Some (lvInd L)) sw = x).
  { intros sw. apply dense_sweeps_fixed; [congruence|].
    simpl. intros i Hi. destruct (Hind i Hi) as (H1 & _ & H2). rewrite HA.
    repeat split; auto.
    specialize (Hres i Hi). rewrite (vget_resid _ n) in Hres by auto.
    set (m := mv n _ _ i) in *. replace (vget f i) with (vget f i - m + m) by ring.
    rewrite Hres. ring. }
  assert (EX : scatter_add (lvInd L) (lvB L (gather (lvInd L) (vsub f (dmv (lvA L) x)))) x = x).
  { rewrite gather_vanish by exact Hres. rewrite HB. apply scatter_add_zeros. }
  unfold pre_smooth, post_smooth. destruct sm; auto.
Qed.

Section MGFixed.
  Variable sm : smoother.
  Variable steps : nat.
  Variable ind0 : list nat.
  Variable B0 : vec -> vec.

  (* what the cycle needs from the hierarchy below a level with n dofs whose residuals
     vanish on D: dimensions fit, smoothing sets lie in D and have nonzero diagonal, the
     sub-solvers map 0 to 0 (any linear solver does), and restriction P^T maps vectors
     vanishing on D to vectors vanishing on the coarser level's set Dc. *)
  Fixpoint good (n : nat) (D : nat -> Prop) (levels : list level) : Prop :=
    match levels with
    | [] => (forall i, In i ind0 -> D i) /\ B0 (repeat 0 (length ind0)) = repeat 0 (length ind0)
    | L :: rest =>
        length (lvA L) = n /\ (forall i, In i (lvInd L) -> length (drow (lvA L) i) = n) /\
        length (lvP L) = n /\
        (forall i, In i (lvInd L) -> (i < n)%nat /\ D i /\ dentry (lvA L) i i <> 0) /\
        lvB L (repeat 0 (length (lvInd L))) = repeat 0 (length (lvInd L)) /\
        exists nc Dc, ncols (lvP L) = nc /\
          (forall v, length v = n -> vanishes D v -> vanishes Dc (dmv (dtrans (lvP L)) v)) /\
          good nc Dc rest
    end.

  (* one level: if the coarser cycle, started from zero with a right-hand side vanishing on its
     set, returns zero, then x with residual vanishing on D is returned unchanged: both smoothing
     steps leave x alone and the coarse-grid correction is zero *)
  Lemma mg_level_fixed : forall L rest n D x f,
    good n D (L :: rest) ->
    (forall nc Dc g, good nc Dc rest -> length g = nc -> vanishes Dc g ->
       mg_step sm steps ind0 B0 rest (zeros nc) g = zeros nc) ->
    length x = n -> length f = n -> vanishes D (vsub f (dmv (lvA L) x)) ->
    mg_step sm steps ind0 B0 (L :: rest) x f = x.
  Proof.
    intros L rest n D x f G Hrest Hx Hf Hv.
    simpl in G. destruct G as (HA & Hrow & HP & Hind & HB & nc & Dc & Hnc & Hrestr & Grest).
    cbn [mg_step].
    destruct (smooth_fixed sm steps L x f n D HA Hrow Hx Hf Hind HB Hv) as [Hpre Hpost].
    rewrite Hpre.
    set (r := vsub f (dmv (lvA L) x)) in *.
    assert (Hr : length r = n).
    { unfold r, vsub. rewrite map_length, combine_length, dmv_length. lia. }
    assert (Hrc : length (dmv (dtrans (lvP L)) r) = nc) by (rewrite dmv_length, dtrans_length; exact Hnc).
    rewrite Hrc, (Hrest nc Dc _ Grest Hrc (Hrestr r Hr Hv)).
    unfold zeros. rewrite dmv_zeros, HP, <- Hx, vadd_zeros. exact Hpost.
  Qed.

  Lemma mg_zero : forall levels n D f,
    good n D levels -> length f = n -> vanishes D f ->
    mg_step sm steps ind0 B0 levels (zeros n) f = zeros n.
  Proof.
    induction levels as [|L rest IH]; intros n D f G Hf Hv.
    - simpl in *. destruct G as [G1 G2]. unfold zeros.
      rewrite gather_vanish by (intros; apply Hv; auto). rewrite G2. apply scatter_set_zeros.
    - apply (mg_level_fixed L rest n D); auto.
      + apply repeat_length.
      + rewrite resid_zeros; auto. apply G.
  Qed.
End MGFixed.
