(* C11 -- Gauss-Seidel: the sweeps as sequences of row updates, a row update as the textbook
   update of the denoted matrix, fixed point and energy; the stopping rules of iterative_solve and
   twogrid; the set-level smoothing sets. *)
From Coq Require Import QArith Qcanon List Arith Bool ZArith Lia.
From Verif.lib Require Import ListFacts QcFacts.
From Verif.C11 Require Import Spec Algebra Model.
Import ListNotations.
Open Scope Qc_scope.

Lemma iter_ext : forall (X : Type) (f g : X -> X) k x, (forall y, f y = g y) -> iter k f x = iter k g x.
Proof. induction k; intros; simpl; [reflexivity|]. rewrite H. apply IHk. exact H. Qed.

Lemma iter_fold : forall (X : Type) (g : X -> nat -> X) l k x,
  iter k (fun x => fold_left g l x) x = fold_left g (concat (repeat l k)) x.
Proof.
  induction k; intros; simpl; [reflexivity|]. rewrite fold_left_app. apply IHk.
Qed.

Lemma in_concat_repeat : forall (l : list nat) k i, In i (concat (repeat l k)) -> In i l.
Proof.
  induction k; simpl; intros i H; [contradiction|].
  apply in_app_or in H. destruct H; auto.
Qed.

Lemma fold_invariant : forall (X : Type) (Pv : X -> Prop) (g : X -> nat -> X) rows x,
  Pv x -> (forall y i, In i rows -> Pv y -> Pv (g y i)) -> Pv (fold_left g rows x).
Proof.
  induction rows; intros x H0 H; simpl; [exact H0|].
  apply IHrows; [apply H; [left; reflexivity|exact H0]|].
  intros. apply H; [right; assumption|assumption].
Qed.

Lemma fold_ext_inv : forall (X : Type) (Pv : X -> Prop) (g h : X -> nat -> X) rows x,
  Pv x -> (forall y i, In i rows -> Pv y -> Pv (h y i)) ->
  (forall y i, In i rows -> Pv y -> g y i = h y i) -> fold_left g rows x = fold_left h rows x.
Proof.
  induction rows; intros x H0 Hp H; simpl; [reflexivity|].
  rewrite H by (auto; left; reflexivity).
  apply IHrows.
  - apply Hp; [left; reflexivity|exact H0].
  - intros. apply Hp; [right; assumption|assumption].
  - intros. apply H; [right; assumption|assumption].
Qed.

Lemma fold_ext_in : forall (X : Type) (g h : X -> nat -> X) rows x,
  (forall y i, In i rows -> g y i = h y i) -> fold_left g rows x = fold_left h rows x.
Proof. intros. apply (fold_ext_inv _ (fun _ => True)); auto. Qed.

Lemma upd_length : forall x i v, length (upd i v x) = length x.
Proof. induction x; intros [|i] v; simpl; auto. Qed.

Lemma vget_upd_same : forall x i v, (i < length x)%nat -> vget (upd i v x) i = v.
Proof. unfold vget. induction x; intros [|i] v H; simpl in *; try lia; auto. apply IHx. lia. Qed.

Lemma vget_upd_other : forall x i v k, k <> i -> vget (upd i v x) k = vget x k.
Proof.
  unfold vget. induction x; intros [|i] v [|k] H; simpl; auto; try congruence.
Qed.

Lemma vget_upd : forall x i v k, (i < length x)%nat -> vget (upd i v x) k = fupd (vget x) i v k.
Proof.
  intros. unfold fupd. destruct (Nat.eqb_spec k i).
  - subst. apply vget_upd_same; auto.
  - apply vget_upd_other; auto.
Qed.

Lemma upd_same : forall x i, upd i (vget x i) x = x.
Proof. unfold vget. induction x; intros [|i]; simpl; auto. f_equal. apply IHx. Qed.

(* `i = start; while i != stop: ...; i += step` visits 0..N-1 resp. N-1..0 *)
Lemma zloop_fwd : forall k a, map Z.to_nat (zloop k (Z.of_nat a) (Z.of_nat (a + k)) 1) = seq a k.
Proof.
  induction k; intros a; simpl; [reflexivity|].
  destruct (Z.eqb_spec (Z.of_nat a) (Z.of_nat (a + S k))); [lia|]. cbn [map].
  rewrite Nat2Z.id. f_equal. replace (Z.of_nat a + 1)%Z with (Z.of_nat (S a)) by lia.
  replace (a + S k)%nat with (S a + k)%nat by lia. apply IHk.
Qed.

Lemma zloop_up : forall N, map Z.to_nat (zloop N 0 (Z.of_nat N) 1) = seq 0 N.
Proof. intros N. exact (zloop_fwd N 0). Qed.

Lemma zloop_down : forall k, map Z.to_nat (zloop k (Z.of_nat k - 1) (-1) (-1)) = rev (seq 0 k).
Proof.
  induction k; [reflexivity|].
  rewrite seq_S, rev_app_distr. cbn [zloop rev app plus].
  destruct (Z.eqb_spec (Z.of_nat (S k) - 1) (-1)); [lia|]. cbn [map].
  f_equal; [lia|]. replace (Z.of_nat (S k) - 1 + -1)%Z with (Z.of_nat k - 1)%Z by lia. apply IHk.
Qed.

Lemma gs_indexed_order : forall M b idxs reverse x,
  gs_indexed M b idxs reverse x = fold_left (gs_row M b) (if reverse then rev idxs else idxs) x.
Proof.
  intros. unfold gs_indexed.
  destruct reverse; rewrite <- (map_map Z.to_nat (fun p => nth p idxs 0%nat));
    [rewrite zloop_down, map_rev|rewrite zloop_up]; rewrite map_nth_seq; reflexivity.
Qed.

(* the order of row updates performed by solvers.gauss_seidel *)
Definition base_order (N : nat) (indices : option (list nat)) : list nat :=
  match indices with None => seq 0 N | Some l => l end.

Definition gs_order (N iterations : nat) (indices : option (list nat)) (sw : sweep) : list nat :=
  let base := base_order N indices in
  match sw with
  | Forward => concat (repeat base iterations)
  | Backward => concat (repeat (rev base) iterations)
  | Symmetric => concat (repeat (base ++ rev base) iterations)
  end.

Definition mat_rows (A : matrix) : nat := match A with Sparse _ N => N | Dense D => length D end.
Definition row_update (A : matrix) (b : vec) : vec -> nat -> vec :=
  match A with Sparse M _ => gs_row M b | Dense D => dense_row D b end.

Lemma gs_dir_order : forall A b indices backward k x,
  gs_dir A b indices backward k x =
  fold_left (row_update A b)
    (concat (repeat (if backward then rev (base_order (mat_rows A) indices) else base_order (mat_rows A) indices) k)) x.
Proof.
  intros [M N|D] b indices backward k x; unfold gs_dir; cbn [mat_rows row_update]; rewrite <- iter_fold.
  - destruct indices as [idx|]; cbn [base_order].
    + apply iter_ext. intros. apply gs_indexed_order.
    + destruct backward; apply iter_ext; intros; unfold gs_sweep;
        [rewrite zloop_down|rewrite zloop_up]; reflexivity.
  - destruct indices, backward; reflexivity.
Qed.

Lemma gauss_seidel_order : forall A x b iterations indices sw,
  gauss_seidel A x b iterations indices sw =
  fold_left (row_update A b) (gs_order (mat_rows A) iterations indices sw) x.
Proof.
  intros. unfold gauss_seidel, gs_order. destruct sw.
  - apply gs_dir_order.
  - apply gs_dir_order.
  - rewrite <- iter_fold. apply iter_ext. intros y.
    rewrite !gs_dir_order. simpl. rewrite !app_nil_r, fold_left_app. reflexivity.
Qed.

(* the textbook update on list vectors, for the matrix A : nat -> nat -> Qc of order n *)
Definition tb_row (n : nat) (A : nat -> nat -> Qc) (b x : vec) (i : nat) : vec :=
  upd i (tb_value n A (vget b) (vget x) i) x.

(* the matrix a CSR triple denotes: stored entries with equal coordinates are summed
   (scipy's convention) *)
Fixpoint ent_sum (ents : list (nat * Qc)) (j : nat) : Qc :=
  match ents with
  | [] => 0
  | (c, a) :: t => (if Nat.eqb c j then a else 0) + ent_sum t j
  end.
Definition entry (M : csr) (i j : nat) : Qc := ent_sum (row_entries M i) j.

Fixpoint diag_count (i : nat) (ents : list (nat * Qc)) : nat :=
  match ents with
  | [] => O
  | (c, _) :: t => (if Nat.eqb c i then 1 else 0) + diag_count i t
  end.

(* row i is well formed for a matrix with n columns: column indices in range and
   at most one stored diagonal entry (explicit zeros, any order of the columns and
   repeated off-diagonal coordinates are allowed) *)
Definition wf_row (n i : nat) (ents : list (nat * Qc)) : Prop :=
  (forall c a, In (c, a) ents -> (c < n)%nat) /\ (diag_count i ents <= 1)%nat.

Fixpoint off_sum (i : nat) (x : vec) (ents : list (nat * Qc)) : Qc :=
  match ents with
  | [] => 0
  | (c, a) :: t => (if Nat.eqb i c then 0 else a * vget x c) + off_sum i x t
  end.
Fixpoint last_diag (i : nat) (ents : list (nat * Qc)) (dg : Qc) : Qc :=
  match ents with
  | [] => dg
  | (c, a) :: t => last_diag i t (if Nat.eqb i c then a else dg)
  end.

Lemma scan_fold : forall i x ents rs dg,
  fold_left (scan_step i x) ents (rs, dg) = (rs + off_sum i x ents, last_diag i ents dg).
Proof.
  induction ents as [|[c a] t IH]; intros; simpl.
  - f_equal. ring.
  - destruct (Nat.eqb i c); rewrite IH; f_equal; ring.
Qed.

Lemma sum_skip_plus : forall n i f g,
  sum_skip n i (fun j => f j + g j) = sum_skip n i f + sum_skip n i g.
Proof.
  intros. unfold sum_skip. rewrite <- sumn_plus. apply sumn_ext.
  intros k _. destruct (Nat.eqb k i); ring.
Qed.

Lemma sum_skip_ext : forall n i f g, (forall j, (j < n)%nat -> j <> i -> f j = g j) ->
  sum_skip n i f = sum_skip n i g.
Proof.
  intros. unfold sum_skip. apply sumn_ext. intros k Hk.
  destruct (Nat.eqb_spec k i); [reflexivity|]. apply H; auto.
Qed.

Lemma sum_skip_single : forall n i c (a : Qc) (x : nat -> Qc), (c < n)%nat ->
  sum_skip n i (fun j => (if Nat.eqb c j then a else 0) * x j) = if Nat.eqb i c then 0 else a * x c.
Proof.
  intros. unfold sum_skip.
  rewrite (sumn_ext n _ (fun j => if Nat.eqb j c then (if Nat.eqb i c then 0 else a * x c) else 0)).
  - apply (sumn_delta n c (fun _ => if Nat.eqb i c then 0 else a * x c)). exact H.
  - intros k Hk. destruct (Nat.eqb_spec k i), (Nat.eqb_spec c k), (Nat.eqb_spec k c), (Nat.eqb_spec i c);
      subst; try congruence; ring.
Qed.

Lemma off_sum_spec : forall n i x ents, (forall c a, In (c, a) ents -> (c < n)%nat) ->
  off_sum i x ents = sum_skip n i (fun j => ent_sum ents j * vget x j).
Proof.
  induction ents as [|[c a] t IH]; intros H; simpl.
  - unfold sum_skip. symmetry. apply sumn_zero. intros. destruct (Nat.eqb k i); ring.
  - rewrite IH by (intros; eapply H; right; eauto).
    rewrite (sum_skip_ext n i (fun j => ((if Nat.eqb c j then a else 0) + ent_sum t j) * vget x j)
                              (fun j => (if Nat.eqb c j then a else 0) * vget x j + ent_sum t j * vget x j))
      by (intros; ring).
    rewrite sum_skip_plus, sum_skip_single by (eapply H; left; eauto). reflexivity.
Qed.

Lemma ent_sum_nodiag : forall i ents, diag_count i ents = O -> ent_sum ents i = 0.
Proof.
  induction ents as [|[c a] t IH]; simpl; intros H; [reflexivity|].
  destruct (Nat.eqb c i); [discriminate|]. rewrite IH by exact H. ring.
Qed.

Lemma last_diag_nodiag : forall i ents dg, diag_count i ents = O -> last_diag i ents dg = dg.
Proof.
  induction ents as [|[c a] t IH]; simpl; intros dg H; [reflexivity|].
  rewrite (Nat.eqb_sym i c). destruct (Nat.eqb c i); [discriminate|]. apply IH. exact H.
Qed.

Lemma last_diag_spec : forall i ents, (diag_count i ents <= 1)%nat -> last_diag i ents 0 = ent_sum ents i.
Proof.
  induction ents as [|[c a] t IH]; simpl; intros H; [reflexivity|].
  rewrite (Nat.eqb_sym i c). destruct (Nat.eqb c i).
  - rewrite last_diag_nodiag, ent_sum_nodiag by lia. ring.
  - rewrite IH by exact H. ring.
Qed.

(* what the routine computes on ANY row with column indices in range: the off-diagonal sum is that
   of the denoted matrix (repeated coordinates summed), the divisor is the last stored diagonal entry *)
Lemma gs_row_general : forall M n b x i,
  (forall c a, In (c, a) (row_entries M i) -> (c < n)%nat) ->
  gs_row M b x i =
    let d := last_diag i (row_entries M i) 0 in
    if Qc_eq_dec d 0 then x
    else upd i ((vget b i - sum_skip n i (fun j => entry M i j * vget x j)) / d) x.
Proof.
  intros M n b x i H. unfold gs_row, row_scan. rewrite scan_fold.
  rewrite (off_sum_spec n) by exact H. cbv zeta.
  replace (0 + sum_skip n i (fun j => ent_sum (row_entries M i) j * vget x j))
    with (sum_skip n i (fun j => entry M i j * vget x j)) by (unfold entry; ring).
  reflexivity.
Qed.

(* on a well-formed row that divisor is the denoted diagonal value: the row is skipped when it is
   zero (or not stored), and receives the textbook update otherwise *)
Lemma gs_row_wf : forall M n b x i, wf_row n i (row_entries M i) ->
  gs_row M b x i = if Qc_eq_dec (entry M i i) 0 then x else tb_row n (entry M) b x i.
Proof.
  intros M n b x i [Hc Hd]. rewrite (gs_row_general M n b x i Hc). cbv zeta.
  rewrite (last_diag_spec i _ Hd). reflexivity.
Qed.

Lemma last_diag_app : forall i pre a post dg,
  diag_count i post = O -> last_diag i (pre ++ (i, a) :: post) dg = a.
Proof.
  induction pre as [|[c v] pre IH]; intros a post dg H; simpl.
  - rewrite Nat.eqb_refl. apply last_diag_nodiag. exact H.
  - apply IH. exact H.
Qed.

Lemma ent_sum_app : forall e1 e2 j, ent_sum (e1 ++ e2) j = ent_sum e1 j + ent_sum e2 j.
Proof. induction e1 as [|[c a] t IH]; intros; simpl; [ring|]. rewrite IH. ring. Qed.

Lemma ldot_sumn : forall r x, length r = length x ->
  ldot r x = sumn (length x) (fun j => nth j r 0 * vget x j).
Proof.
  induction r as [|a r IH]; intros [|v x] H; simpl in H; try discriminate; [reflexivity|].
  cbn [ldot length]. rewrite sumn_shift. unfold vget. simpl. rewrite IH by lia. reflexivity.
Qed.

Lemma dense_row_textbook : forall D b x i,
  length (drow D i) = length x -> (i < length x)%nat ->
  dense_row D b x i = tb_row (length x) (dentry D) b x i.
Proof.
  intros. unfold dense_row, tb_row, tb_value. f_equal. f_equal. f_equal.
  rewrite ldot_sumn by assumption.
  rewrite (sum_skip_split (length x) i _ H0). unfold dentry. ring.
Qed.

Lemma tb_row_ext : forall n A A' b x i,
  (forall j, (j < n)%nat -> A i j = A' i j) -> (i < n)%nat -> tb_row n A b x i = tb_row n A' b x i.
Proof.
  intros. unfold tb_row, tb_value. rewrite (H i H0). f_equal. f_equal. f_equal.
  apply sum_skip_ext. intros. rewrite H; auto.
Qed.

Lemma tb_row_length : forall n A b x i, length (tb_row n A b x i) = length x.
Proof. intros. apply upd_length. Qed.

Lemma tb_row_fixed : forall n A b xs i,
  (i < n)%nat -> A i i <> 0 -> mv n A (vget xs) i = vget b i -> tb_row n A b xs i = xs.
Proof.
  intros n A b xs i Hi Hd Hr. unfold tb_row, tb_value.
  rewrite <- Hr. unfold mv. rewrite (sum_skip_split n i _ Hi).
  replace ((sum_skip n i (fun j => A i j * vget xs j) + A i i * vget xs i
            - sum_skip n i (fun j => A i j * vget xs j)) / A i i) with (vget xs i) by (field; exact Hd).
  apply upd_same.
Qed.

Lemma tb_fold_fixed : forall n A b xs rows,
  (forall i, In i rows -> (i < n)%nat /\ A i i <> 0 /\ mv n A (vget xs) i = vget b i) ->
  fold_left (tb_row n A b) rows xs = xs.
Proof.
  induction rows; intros H; simpl; [reflexivity|].
  destruct (H a (or_introl eq_refl)) as (H1 & H2 & H3).
  rewrite tb_row_fixed by assumption. apply IHrows. intros. apply H. right. assumption.
Qed.

(* one textbook update: E(x') = E(x) - a_ii t^2 with t the change of x_i *)
Lemma tb_row_energy : forall n A b xs x i,
  symmetric n A -> (i < n)%nat -> length x = n -> 0 < A i i ->
  mv n A (vget xs) i = vget b i ->
  energy n A (vget xs) (vget (tb_row n A b x i)) <= energy n A (vget xs) (vget x).
Proof.
  intros n A b xs x i Hs Hi Hl Hpos Hr.
  set (t := tb_value n A (vget b) (vget x) i - vget x i).
  set (d := fun k => if Nat.eqb k i then t else 0).
  rewrite (energy_ext n A (vget xs) (vget (tb_row n A b x i)) (fun k => vget x k + d k)).
  2:{ intros k Hk. unfold tb_row. rewrite vget_upd by lia. unfold fupd, d, t.
      destruct (Nat.eqb_spec k i); [subst k|]; ring. }
  rewrite (subspace_correction_energy n A (vget b) (vget xs) (vget x) d Hs).
  - apply Qc_sub_nonneg_le. unfold d. rewrite dotn_delta, mv_delta by exact Hi.
    replace (t * (A i i * t)) with (t * t * A i i) by ring.
    apply Qcmult_nonneg; [apply Qcsq_nonneg|apply Qclt_le_weak; exact Hpos].
  - intros k Hk. unfold d at 1. destruct (Nat.eqb_spec k i); [right|left; reflexivity].
    subst k. split; [|exact Hr]. unfold d. rewrite mv_delta by exact Hi. unfold t, tb_value, mv.
    rewrite (sum_skip_split n i (fun j => A i j * vget x j) Hi). field. exact (Qc_pos_neq0 _ Hpos).
Qed.

Lemma tb_fold_energy : forall n A b xs rows x,
  symmetric n A -> length x = n ->
  (forall i, In i rows -> (i < n)%nat /\ 0 < A i i /\ mv n A (vget xs) i = vget b i) ->
  energy n A (vget xs) (vget (fold_left (tb_row n A b) rows x)) <= energy n A (vget xs) (vget x).
Proof.
  induction rows; intros x Hs Hl H; simpl; [apply Qcle_refl|].
  destruct (H a (or_introl eq_refl)) as (H1 & H2 & H3).
  eapply Qcle_trans.
  - apply IHrows; [exact Hs|rewrite tb_row_length; exact Hl|].
    intros. apply H. right. assumption.
  - apply tb_row_energy; assumption.
Qed.

Lemma gs_order_in : forall N k indices sw i, In i (gs_order N k indices sw) -> In i (base_order N indices).
Proof.
  intros N k indices sw i H. unfold gs_order in H. destruct sw; apply in_concat_repeat in H.
  - exact H.
  - apply in_rev in H. exact H.
  - apply in_app_or in H. destruct H as [H|H]; [exact H|apply in_rev in H; exact H].
Qed.

Lemma dense_sweeps_textbook : forall D x b iterations indices sw,
  length x = length D ->
  (forall i, In i (base_order (length D) indices) -> (i < length D)%nat /\ length (drow D i) = length D) ->
  gauss_seidel (Dense D) x b iterations indices sw =
  fold_left (tb_row (length D) (dentry D) b) (gs_order (length D) iterations indices sw) x.
Proof.
  intros D x b k indices sw Hl H. rewrite gauss_seidel_order. simpl.
  apply (fold_ext_inv _ (fun y => length y = length D)).
  - exact Hl.
  - intros. rewrite tb_row_length. assumption.
  - intros y i Hi Hy. apply gs_order_in in Hi. destruct (H i Hi).
    rewrite <- Hy. apply dense_row_textbook; rewrite Hy; assumption.
Qed.

Lemma dense_sweeps_fixed : forall D xs b iterations indices sw,
  length xs = length D ->
  (forall i, In i (base_order (length D) indices) ->
      (i < length D)%nat /\ length (drow D i) = length D /\ dentry D i i <> 0 /\
      mv (length D) (dentry D) (vget xs) i = vget b i) ->
  gauss_seidel (Dense D) xs b iterations indices sw = xs.
Proof.
  intros D xs b k indices sw Hl H.
  rewrite dense_sweeps_textbook by (try assumption; intros i Hi; apply H in Hi; tauto).
  apply tb_fold_fixed. intros i Hi. apply gs_order_in, H in Hi. tauto.
Qed.

(* every row update is an assignment to x_i (a skipped row assigns the old value) *)
Lemma row_update_upd : forall A b x i, exists v, row_update A b x i = upd i v x.
Proof.
  intros [M N|D] b x i; simpl.
  - unfold gs_row. destruct (row_scan i x (row_entries M i)) as [rs dg].
    destruct (Qc_eq_dec dg 0); eexists; [symmetry; apply upd_same|reflexivity].
  - eexists. reflexivity.
Qed.

Lemma row_update_other : forall A b x i k, k <> i -> vget (row_update A b x i) k = vget x k.
Proof. intros A b x i k H. destruct (row_update_upd A b x i) as [v ->]. apply vget_upd_other, H. Qed.

Lemma row_update_length : forall A b x i, length (row_update A b x i) = length x.
Proof. intros. destruct (row_update_upd A b x i) as [v ->]. apply upd_length. Qed.

Lemma gs_length_l : forall A x b iterations indices sw,
  length (gauss_seidel A x b iterations indices sw) = length x.
Proof.
  intros. rewrite gauss_seidel_order.
  apply (fold_invariant _ (fun y => length y = length x)); [reflexivity|].
  intros. rewrite row_update_length. assumption.
Qed.

Section IterProofs.
  Context {X : Type}.
  Variable step : X -> X.
  Variable res : X -> Qc.

  Lemma iter_S_r : forall m (x : X), iter (S m) step x = step (iter m step x).
  Proof. induction m; intros; [reflexivity|]. simpl in *. rewrite <- IHm. reflexivity. Qed.

  (* the loop body ran m times: no earlier iterate met the reduction or reached the cap, and the
     m-th one ended the loop for the reason the result names *)
  Lemma it_loop_spec : forall fuel x it res0 tol maxiter xr r,
    it_loop step res fuel x it res0 tol maxiter = (xr, r) ->
    (1 <= fuel)%nat -> (maxiter <= it + fuel)%nat ->
    let conv := fun y => res y / res0 < tol in
    exists m, (1 <= m <= fuel)%nat /\ xr = iter m step x /\
      (forall j, (1 <= j < m)%nat -> ~ conv (iter j step x) /\ (it + j < maxiter)%nat) /\
      match r with
      | Finite k => k = (it + m)%nat /\ conv xr
      | Inf => ~ conv xr /\ (maxiter <= it + m)%nat
      end.
  Proof.
    induction fuel; intros x it res0 tol maxiter xr r H Hf Hm conv; [lia|].
    simpl in H.
    destruct (Qclt_le_dec (res (step x) / res0) tol) as [Hc|Hc].
    { inversion H; subst. exists 1%nat. repeat split; try lia; auto. }
    assert (Hn : ~ conv (step x)) by (apply Qcle_not_lt; exact Hc).
    destruct (Nat.leb_spec maxiter (S it)).
    { inversion H; subst. exists 1%nat. repeat split; try lia; auto. }
    destruct fuel as [|fuel']; [lia|].
    destruct (IHfuel (step x) (S it) res0 tol maxiter xr r H ltac:(lia) ltac:(lia))
      as (m & Hm1 & Hx & Hbefore & Hr).
    exists (S m). split; [lia|]. split; [exact Hx|]. split.
    - intros [|[|j]] Hj; [lia|split; [exact Hn|lia]|].
      destruct (Hbefore (S j)) as [Hj1 Hj2]; [lia|]. split; [exact Hj1|lia].
    - destruct r; destruct Hr; split; auto; lia.
  Qed.

  (* twogrid: the loop ends after k <= maxiter+1 cycles, and only for one of the
     three stated reasons, evaluated on the residual after the smoothing steps *)
  Variable correct : X -> X.
  Definition cycle (u : X) : X := correct (step u).

  Lemma tg_loop_spec : forall fuel u it res0 tol maxiter ur k e,
    tg_loop step res correct fuel u it res0 tol maxiter = (ur, k, e) ->
    (1 <= fuel)%nat -> (maxiter < it + fuel)%nat ->
    exists m, (1 <= m <= fuel)%nat /\ k = (it + m)%nat /\ ur = iter m cycle u /\
      let r := res (step (iter (m - 1) cycle u)) in
      match e with
      | Converged => r < tol * res0
      | Diverged => tol * res0 <= r /\ Q2Qc 20 * res0 < r
      | TooMany => tol * res0 <= r /\ r <= Q2Qc 20 * res0 /\ (maxiter < k)%nat
      end.
  Proof.
    induction fuel; intros u it res0 tol maxiter ur k e H Hf Hm; [lia|].
    simpl in H.
    destruct (Qclt_le_dec (res (step u)) (tol * res0)) as [Hc|Hc].
    { inversion H; subst. exists 1%nat. repeat split; try lia. simpl. exact Hc. }
    destruct (Qclt_le_dec (Q2Qc 20 * res0) (res (step u))) as [Hd|Hd].
    { inversion H; subst. exists 1%nat. repeat split; try lia; simpl; auto. }
    destruct (Nat.ltb_spec maxiter (S it)).
    { inversion H; subst. exists 1%nat. repeat split; try lia; simpl; auto. }
    destruct fuel as [|fuel']; [lia|].
    specialize (IHfuel (correct (step u)) (S it) res0 tol maxiter ur k e H ltac:(lia) ltac:(lia)).
    destruct IHfuel as (m & Hm1 & Hk & Hx & Hr).
    exists (S m). repeat split; try lia; auto.
    replace (S m - 1)%nat with (S (m - 1)) by lia. exact Hr.
  Qed.

End IterProofs.

Lemma set_diff_in : forall a b k, In k (set_diff a b) <-> In k a /\ ~ In k b.
Proof.
  intros. unfold set_diff. rewrite filter_In. split; intros [H1 H2]; split; auto.
  - intro Hb. apply negb_true_iff in H2. 
    assert (existsb (Nat.eqb k) b = true) by (apply existsb_exists; exists k; split; [exact Hb|apply Nat.eqb_refl]).
    congruence.
  - apply negb_true_iff. destruct (existsb (Nat.eqb k) b) eqn:E; [|reflexivity].
    apply existsb_exists in E. destruct E as (y & Hy & Ey). apply Nat.eqb_eq in Ey. subst. contradiction.
Qed.

Lemma smoothing_set_in : forall st disp act deact F dir lv i k,
  In k (smoothing_set st disp act deact F dir lv i) <->
  ~ In k dir /\
  if Nat.eqb i lv then In k act \/ In k deact
  else st <> StNew /\ (i < lv)%nat /\
       match disp with None => true | Some d => Nat.leb (lv - d) i end = true /\ In k F.
Proof.
  intros. unfold smoothing_set. destruct (Nat.eqb i lv).
  - rewrite in_app_iff, !set_diff_in. tauto.
  - assert (E : forall c : bool, In k (if c then set_diff F dir else []) <-> ~ In k dir /\ c = true /\ In k F).
    { intros [|]; rewrite ?set_diff_in; simpl; intuition congruence. }
    destruct st; simpl; rewrite ?E, ?andb_true_iff, ?Nat.ltb_lt; intuition congruence.
Qed.
