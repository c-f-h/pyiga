(* C11 -- the property theorems, each followed by Print Assumptions.  Arithmetic is exact
   (Qc, the ordered field of canonical rationals; every binary64 input is such a number). *)
From Coq Require Import QArith Qcanon List Arith Bool ZArith Lia.
From Verif.C11 Require Import Spec Algebra Model Proofs MGProofs MGEnergy SmoothSets SmoothSets2 SmoothSets3.
From Verif.C04 Require Model Boundary Proofs ProofsMesh.
Import ListNotations.
Open Scope Qc_scope.

(* solvers.gauss_seidel -- for a dense matrix or a CSR triple, any number of
   iterations, with or without an index list, forward/backward/symmetric -- performs
   exactly the row updates of [gs_order] (base order, reversed, or base followed by
   reversed, repeated `iterations` times), in that order, and nothing else. *)
Theorem gs_update_order : forall A x b iterations indices sw,
  gauss_seidel A x b iterations indices sw =
  fold_left (row_update A b) (gs_order (mat_rows A) iterations indices sw) x.
Proof. exact gauss_seidel_order. Qed.
Print Assumptions gs_update_order.

(* Sparse: every such row update is the textbook update
     x_i := (b_i - sum_{j<>i} a_ij x_j) / a_ii
   of the matrix the CSR triple denotes, for every CSR whose relaxed rows have column
   indices in range, at most ONE stored diagonal entry and a nonzero diagonal value.
   Explicit zeros, unsorted column indices and repeated off-diagonal coordinates are allowed. *)
Theorem gs_textbook : forall M N x b iterations indices sw,
  (forall i, In i (base_order N indices) -> wf_row N i (row_entries M i) /\ entry M i i <> 0) ->
  gauss_seidel (Sparse M N) x b iterations indices sw =
  fold_left (tb_row N (entry M) b) (gs_order N iterations indices sw) x.
Proof.
  intros M N x b k indices sw H. rewrite gs_update_order. simpl. apply fold_ext_in.
  intros y i Hi. apply gs_order_in in Hi. destruct (H i Hi) as [Hw Hd].
  rewrite (gs_row_wf M N) by exact Hw. destruct (Qc_eq_dec (entry M i i) 0); [contradiction|reflexivity].
Qed.
Print Assumptions gs_textbook.

(* Dense: the same for the dense branch (square matrix, matching lengths). *)
Theorem gs_textbook_dense : forall D x b iterations indices sw,
  length x = length D ->
  (forall i, In i (base_order (length D) indices) -> (i < length D)%nat /\ length (drow D i) = length D) ->
  gauss_seidel (Dense D) x b iterations indices sw =
  fold_left (tb_row (length D) (dentry D) b) (gs_order (length D) iterations indices sw) x.
Proof. exact dense_sweeps_textbook. Qed.
Print Assumptions gs_textbook_dense.

(* Dense and sparse routines agree whenever they denote the same relaxed rows. *)
Theorem gs_dense_sparse_agree : forall M D x b iterations indices sw,
  length x = length D ->
  (forall i, In i (base_order (length D) indices) ->
      (i < length D)%nat /\ length (drow D i) = length D /\
      wf_row (length D) i (row_entries M i) /\ entry M i i <> 0 /\
      (forall j, (j < length D)%nat -> dentry D i j = entry M i j)) ->
  gauss_seidel (Dense D) x b iterations indices sw =
  gauss_seidel (Sparse M (length D)) x b iterations indices sw.
Proof.
  intros M D x b k indices sw Hl H.
  rewrite gs_textbook_dense, gs_textbook; try assumption; try (intros i Hi; apply H in Hi; tauto).
  apply fold_ext_in. intros y i Hi. apply gs_order_in, H in Hi. apply tb_row_ext; tauto.
Qed.
Print Assumptions gs_dense_sparse_agree.

(* A row whose single stored diagonal entry is zero, or which stores no diagonal
   entry, is skipped by the sparse routine. *)
Theorem gs_zero_diagonal_skipped : forall M n b x i,
  wf_row n i (row_entries M i) -> entry M i i = 0 -> gs_row M b x i = x.
Proof.
  intros M n b x i Hw Hz. rewrite (gs_row_wf M n) by exact Hw.
  destruct (Qc_eq_dec (entry M i i) 0); [reflexivity|contradiction].
Qed.
Print Assumptions gs_zero_diagonal_skipped.

(* Non-canonical CSR (outside the property's quantifier, stated to make the boundary of
   gs_textbook explicit).  For ANY row with column indices in range the routine computes
   x_i := (b_i - sum_{j<>i} a_ij x_j) / d with a_ij the DENOTED off-diagonal entries (repeated
   coordinates summed) and d the LAST stored diagonal entry (rows with d = 0 are skipped) ... *)
Theorem gs_row_noncanonical : forall M n b x i,
  (forall c a, In (c, a) (row_entries M i) -> (c < n)%nat) ->
  gs_row M b x i =
    let d := last_diag i (row_entries M i) 0 in
    if Qc_eq_dec d 0 then x
    else upd i ((vget b i - sum_skip n i (fun j => entry M i j * vget x j)) / d) x.
Proof. exact gs_row_general. Qed.
Print Assumptions gs_row_noncanonical.

(* ... where the last stored diagonal entry is the a of the decomposition
   row = pre ++ (i,a) :: post with no diagonal entry in post, whatever pre contains ... *)
Theorem gs_duplicate_diagonal_uses_last : forall M n b x i pre a post,
  row_entries M i = pre ++ (i, a) :: post -> diag_count i post = O -> a <> 0 ->
  (forall c v, In (c, v) (row_entries M i) -> (c < n)%nat) ->
  gs_row M b x i = upd i ((vget b i - sum_skip n i (fun j => entry M i j * vget x j)) / a) x.
Proof.
  intros M n b x i pre a post He Hp Ha Hc.
  rewrite (gs_row_noncanonical M n b x i Hc). cbv zeta. rewrite He, last_diag_app by exact Hp.
  destruct (Qc_eq_dec a 0); [contradiction|reflexivity].
Qed.
Print Assumptions gs_duplicate_diagonal_uses_last.

(* ... while the denoted diagonal value is a plus the diagonal entries stored before it: the
   update is the textbook one exactly when those earlier entries sum to zero ... *)
Theorem gs_duplicate_diagonal_denoted_value : forall M i pre a post,
  row_entries M i = pre ++ (i, a) :: post -> diag_count i post = O ->
  entry M i i = ent_sum pre i + a.
Proof.
  intros M i pre a post He Hp. unfold entry. rewrite He, ent_sum_app. simpl.
  rewrite Nat.eqb_refl, (ent_sum_nodiag i post Hp). ring.
Qed.
Print Assumptions gs_duplicate_diagonal_denoted_value.

(* ... and it does differ: a CSR with two stored diagonal entries on which the routine is
   not the textbook update of the denoted matrix (gs_textbook's hypothesis cannot be dropped). *)
Theorem gs_duplicate_diagonal_refuted :
  exists M n b x i,
    (forall c a, In (c, a) (row_entries M i) -> (c < n)%nat) /\ entry M i i <> 0 /\
    gs_row M b x i <> tb_row n (entry M) b x i.
Proof.
  (* the entry 1 stored twice at (0,0), b = (2,0), x = 0: the routine returns x_0 = 2/1, the
     textbook update of the denoted matrix (a_00 = 2) gives 1 *)
  exists (mk_csr [0;2;3]%nat [0;0;1]%nat [Q2Qc 1; Q2Qc 1; Q2Qc 1]), 2%nat, [Q2Qc 2; 0], [0; 0], 0%nat.
  split; [|split].
  - intros c a Hin. vm_compute in Hin. destruct Hin as [Hin|[Hin|[]]]; inversion Hin; lia.
  - intro H. apply (f_equal this) in H. vm_compute in H. discriminate.
  - intro H. apply (f_equal (map this)) in H. vm_compute in H. discriminate.
Qed.
Print Assumptions gs_duplicate_diagonal_refuted.

(* An exact solution (of the relaxed rows) is left unchanged: sparse and dense. *)
Theorem gs_fixed_point : forall M N xs b iterations indices sw,
  (forall i, In i (base_order N indices) ->
      (i < N)%nat /\ wf_row N i (row_entries M i) /\ entry M i i <> 0 /\
      mv N (entry M) (vget xs) i = vget b i) ->
  gauss_seidel (Sparse M N) xs b iterations indices sw = xs.
Proof.
  intros M N xs b k indices sw H.
  rewrite gs_textbook by (intros i Hi; apply H in Hi; tauto).
  apply tb_fold_fixed. intros i Hi. apply gs_order_in, H in Hi. tauto.
Qed.
Print Assumptions gs_fixed_point.

Theorem gs_fixed_point_dense : forall D xs b iterations indices sw,
  length xs = length D ->
  (forall i, In i (base_order (length D) indices) ->
      (i < length D)%nat /\ length (drow D i) = length D /\ dentry D i i <> 0 /\
      mv (length D) (dentry D) (vget xs) i = vget b i) ->
  gauss_seidel (Dense D) xs b iterations indices sw = xs.
Proof. exact dense_sweeps_fixed. Qed.
Print Assumptions gs_fixed_point_dense.

(* Restricted to an index list (or not), only the listed unknowns change -- for
   every matrix whatsoever. *)
Theorem gs_indexed_only_touches : forall A x b iterations indices sw k,
  ~ In k (base_order (mat_rows A) indices) ->
  vget (gauss_seidel A x b iterations indices sw) k = vget x k.
Proof.
  intros A x b k indices sw j Hj. rewrite gs_update_order.
  apply (fold_invariant _ (fun y => vget y j = vget x j)); [reflexivity|].
  intros y i Hi Hy. apply gs_order_in in Hi. rewrite row_update_other; [exact Hy|].
  intro E. subst. contradiction.
Qed.
Print Assumptions gs_indexed_only_touches.

(* Energy: for a symmetric matrix with positive diagonal on the relaxed rows and
   any xs solving those rows, no sweep of any kind increases
   E(x) = (x-xs)^T A (x-xs).  (SPD matrices are a special case; semi-definite ones
   with positive diagonal are covered as well: E is then a semi-norm.) *)
Theorem gs_energy_monotone : forall M N x xs b iterations indices sw,
  symmetric N (entry M) -> length x = N ->
  (forall i, In i (base_order N indices) ->
      (i < N)%nat /\ wf_row N i (row_entries M i) /\ 0 < entry M i i /\
      mv N (entry M) (vget xs) i = vget b i) ->
  energy N (entry M) (vget xs) (vget (gauss_seidel (Sparse M N) x b iterations indices sw))
  <= energy N (entry M) (vget xs) (vget x).
Proof.
  intros M N x xs b k indices sw Hs Hl H.
  rewrite gs_textbook by (intros i Hi; apply H in Hi; split; [|apply Qc_pos_neq0]; tauto).
  apply tb_fold_energy; auto. intros i Hi. apply gs_order_in, H in Hi. tauto.
Qed.
Print Assumptions gs_energy_monotone.

Theorem gs_energy_monotone_dense : forall D x xs b iterations indices sw,
  symmetric (length D) (dentry D) -> length x = length D ->
  (forall i, In i (base_order (length D) indices) ->
      (i < length D)%nat /\ length (drow D i) = length D /\ 0 < dentry D i i /\
      mv (length D) (dentry D) (vget xs) i = vget b i) ->
  energy (length D) (dentry D) (vget xs) (vget (gauss_seidel (Dense D) x b iterations indices sw))
  <= energy (length D) (dentry D) (vget xs) (vget x).
Proof.
  intros D x xs b k indices sw Hs Hl H.
  rewrite gs_textbook_dense by (try assumption; intros i Hi; apply H in Hi; tauto).
  apply tb_fold_energy; auto. intros i Hi. apply gs_order_in, H in Hi. tauto.
Qed.
Print Assumptions gs_energy_monotone_dense.

(* The energy identity behind it, for ANY subspace correction d (one coordinate for
   Gauss-Seidel, an index set for the exact smoother and the coarsest-level solve):
   if on the support of d the corrected equations hold, E(x+d) = E(x) - d^T A d. *)
Theorem subspace_correction_energy_identity : forall n A b xs x d,
  symmetric n A ->
  (forall k, (k < n)%nat -> d k = 0 \/ (mv n A d k = b k - mv n A x k /\ mv n A xs k = b k)) ->
  energy n A xs (fun k => x k + d k) = energy n A xs x - dotn n d (mv n A d).
Proof. exact subspace_correction_energy. Qed.
Print Assumptions subspace_correction_energy_identity.

(* Local multigrid cycle (solvers.local_mg_step), any number of levels >= 2, any of the five
   smoothers, any number of smoothing steps, any prolongators and smoothing sets satisfying
   [good] (dimensions fit; smoothing sets lie in D and have nonzero diagonal; the exact
   sub-solvers map 0 to 0, as every linear solver does; restriction P^T maps vectors vanishing
   on D to vectors vanishing on the coarser level's set): a vector whose residual f - A x
   vanishes on D -- the exact discrete solution, D = the non-Dirichlet dofs -- is returned
   unchanged by one cycle. *)
Theorem mg_fixed_point : forall sm steps ind0 B0 L rest n D x f,
  good ind0 B0 n D (L :: rest) -> length x = n -> length f = n ->
  vanishes D (vsub f (dmv (lvA L) x)) ->
  mg_step sm steps ind0 B0 (L :: rest) x f = x.
Proof.
  intros sm steps ind0 B0 L rest n D x f G. apply mg_level_fixed; [exact G|apply mg_zero].
Qed.
Print Assumptions mg_fixed_point.

(* One level (numlevels = 1): the cycle is the direct solve on lv_inds[0]; x is returned
   unchanged exactly under the hypothesis the code needs: x already carries the solve's
   result there (true for the exact solution with homogeneous Dirichlet values). *)
Theorem mg_fixed_point_one_level : forall sm steps ind0 B0 x f,
  gather ind0 x = B0 (gather ind0 f) -> mg_step sm steps ind0 B0 [] x f = x.
Proof.
  intros sm steps ind0 B0 x f H. simpl. rewrite <- H. apply scatter_set_gather.
Qed.
Print Assumptions mg_fixed_point_one_level.

(* The cycle with exact subspace solves (smoother = exact) never increases the energy, for
   every number of levels >= 2, every number of smoothing steps, every prolongators.
   Hypotheses [goodE]: the operators of the coarser levels are the Galerkin products
   (P^T A) P as local_mg_step computes them, dimensions fit, the smoothing sets are
   repetition-free index lists in range, and each sub-solver B satisfies make_solver's contract
   A[idx][:,idx] (B r) = r.  A is symmetric positive semi-definite (dsym, dpsd).
   J form (no exact solution needed): J(x) = x^T A x - 2 x^T f. *)
Theorem mg_exact_J_monotone : forall steps ind0 B0 L rest n A x f,
  goodE ind0 B0 n A (L :: rest) -> dsym n A -> dpsd n A -> length x = n -> length f = n ->
  Jl A f (mg_step SmExact steps ind0 B0 (L :: rest) x f) <= Jl A f x.
Proof.
  intros steps ind0 B0 L rest n A x f G Hs Hp Hx Hf.
  apply (mg_J steps ind0 B0 (L :: rest) n A G Hs Hp x f); [discriminate|assumption..].
Qed.
Print Assumptions mg_exact_J_monotone.

(* energy-norm error form: xs solves the unconstrained rows (Dirichlet dofs kept in the matrix, as
   solve_hmultigrid does) and the iterate vanishes on the other rows before and after the cycle;
   there the energy error is J up to a constant *)
Theorem mg_exact_energy_monotone_dirichlet : forall steps ind0 B0 L rest n A x f xs,
  goodE ind0 B0 n A (L :: rest) -> dsym n A -> dpsd n A ->
  length x = n -> length f = n ->
  let y := mg_step SmExact steps ind0 B0 (L :: rest) x f in
  (forall k, (k < n)%nat -> vget x k = 0 \/ mv n (dentry A) (vget xs) k = vget f k) ->
  (forall k, (k < n)%nat -> vget y k = 0 \/ mv n (dentry A) (vget xs) k = vget f k) ->
  energy n (dentry A) (vget xs) (vget y) <= energy n (dentry A) (vget xs) (vget x).
Proof.
  intros steps ind0 B0 L rest n A x f xs G Hs Hp Hx Hf y H1 H2.
  destruct (mg_J steps ind0 B0 (L :: rest) n A G Hs Hp x f ltac:(discriminate) Hx Hf) as [Ly HJ].
  fold y in Ly, HJ. unfold Jl in HJ. rewrite Ly, Hx in HJ.
  rewrite !(energy_J_supp n (dentry A) (vget f)) by assumption.
  apply Qcplus_le_compat; [exact HJ|apply Qcle_refl].
Qed.
Print Assumptions mg_exact_energy_monotone_dirichlet.

(* in particular when xs is an exact solution of the whole system *)
Theorem mg_exact_energy_monotone : forall steps ind0 B0 L rest n A x f xs,
  goodE ind0 B0 n A (L :: rest) -> dsym n A -> dpsd n A ->
  length x = n -> length f = n -> length xs = n -> dmv A xs = f ->
  energy n (dentry A) (vget xs) (vget (mg_step SmExact steps ind0 B0 (L :: rest) x f))
  <= energy n (dentry A) (vget xs) (vget x).
Proof.
  intros steps ind0 B0 L rest n A x f xs G Hs Hp Hx Hf Hxs Hsol.
  assert (E : forall k, (k < n)%nat -> mv n (dentry A) (vget xs) k = vget f k).
  { intros k _. rewrite <- Hsol. symmetry. apply (vget_dmv_mv A n n xs k); [apply G|exact Hxs]. }
  apply mg_exact_energy_monotone_dirichlet; auto.
Qed.
Print Assumptions mg_exact_energy_monotone.

(* the list-matrix algebra behind it: the operator local_mg_step forms, dmm (dmm (dtrans P) A) P,
   has the entries of P^T A P, is symmetric / positive semi-definite with A, and the coarse-grid
   correction splits J: J(x + P y) = J(x) + J_c(y) with the restricted residual as right-hand side *)
Theorem galerkin_product_entries : forall P A n nc a b,
  wfmat P n nc -> wfmat A n n -> (a < nc)%nat -> (b < nc)%nat ->
  dentry (galerkin P A) a b = fgal n (dentry P) (dentry A) a b.
Proof. exact dentry_galerkin. Qed.
Print Assumptions galerkin_product_entries.

Theorem coarse_correction_splits_J : forall A P n nc x f y,
  wfmat A n n -> wfmat P n nc -> dsym n A -> length x = n -> length f = n -> length y = nc ->
  Jl A f (vadd x (dmv P y)) =
  Jl A f x + Jl (galerkin P A) (dmv (dtrans P) (vsub f (dmv A x))) y.
Proof. exact coarse_correction_J. Qed.
Print Assumptions coarse_correction_splits_J.

(* a single exact subspace solve, in energy form (function level) *)
Theorem exact_subspace_solve_energy : forall n A b xs x d,
  symmetric n A -> psd n A ->
  (forall k, (k < n)%nat -> d k = 0 \/ (mv n A d k = b k - mv n A x k /\ mv n A xs k = b k)) ->
  energy n A xs (fun k => x k + d k) <= energy n A xs x.
Proof.
  intros n A b xs x d Hs Hp Hd. rewrite (subspace_correction_energy n A b xs x d Hs Hd).
  apply Qc_sub_nonneg_le, Hp.
Qed.
Print Assumptions exact_subspace_solve_energy.

(* iterative_solve (and with it solve_hmultigrid, which calls it with the local
   multigrid cycle as `step`) returns (x, k) only when x is the k-th iterate, the
   residual reduction res(x)/res(x0) < tol holds and did not hold for any earlier
   iterate; it returns (x, inf) only when x is the iterate number max(1,maxiter)
   and the reduction was never met.  For every step function and residual norm. *)
Theorem iterative_solve_stops : forall (X : Type) (step : X -> X) (res : X -> Qc) x0 tol maxiter x r,
  iterative_solve step res x0 tol maxiter = (x, r) ->
  let conv := fun y => res y / res x0 < tol in
  match r with
  | Finite k => (1 <= k <= Nat.max 1 maxiter)%nat /\ x = iter k step x0 /\ conv x /\
                (forall j, (1 <= j < k)%nat -> ~ conv (iter j step x0))
  | Inf => x = iter (Nat.max 1 maxiter) step x0 /\
           (forall j, (1 <= j <= Nat.max 1 maxiter)%nat -> ~ conv (iter j step x0))
  end.
Proof.
  intros X step res x0 tol maxiter x r H conv. unfold iterative_solve in H.
  apply it_loop_spec in H; try lia. destruct H as (m & Hm & Hx & Hb & Hr). simpl in Hb, Hr.
  destruct r as [k|].
  - destruct Hr as [-> Hc]. repeat split; try lia; auto. intros j Hj. apply Hb, Hj.
  - destruct Hr as [Hnc Hmx].
    assert (m = Nat.max 1 maxiter).
    { destruct (Nat.eq_dec m 1) as [E|E]; [lia|]. destruct (Hb (m - 1)%nat); lia. }
    subst m. split; [exact Hx|]. intros j Hj.
    destruct (Nat.eq_dec j (Nat.max 1 maxiter)) as [->|E]; [rewrite <- Hx; exact Hnc|apply Hb; lia].
Qed.
Print Assumptions iterative_solve_stops.

(* twogrid (with the repaired `u0 is not None` test) starts from the vector it is
   given -- any vector -- and leaves its loop after k <= maxiter+1 cycles for exactly
   one of the three stated reasons, judged on the residual after the smoothing steps. *)
Theorem twogrid_accepts_u0_and_stops : forall (X : Type) (smooth : X -> X) (res : X -> Qc) (correct : X -> X)
    zeros u0 tol maxiter ur k e,
  twogrid_loop smooth res correct zeros u0 tol maxiter = (ur, k, e) ->
  let start := match u0 with Some v => v | None => zeros end in
  exists m, (1 <= m <= S maxiter)%nat /\ k = m /\ ur = iter m (cycle smooth correct) start /\
    let r := res (smooth (iter (m - 1) (cycle smooth correct) start)) in
    match e with
    | Converged => r < tol * res start
    | Diverged => tol * res start <= r /\ Q2Qc 20 * res start < r
    | TooMany => tol * res start <= r /\ r <= Q2Qc 20 * res start /\ (maxiter < k)%nat
    end.
Proof.
  intros X smooth res correct zeros u0 tol maxiter ur k e H.
  exact (tg_loop_spec smooth res correct (S maxiter) _ 0%nat _ tol maxiter ur k e H
           (le_n_S _ _ (Nat.le_0_l _)) (Nat.lt_succ_diag_r _)).
Qed.
Print Assumptions twogrid_accepts_u0_and_stops.

(* Smoothing sets on the C04 model of HSpace (coq/C04/Model.v, Boundary.v: new_indices,
   cell_supp_indices, _dirichlet_indices, global_indices, raveled_to_virtual_canonical_indices
   with _position_index).  For EVERY hspace state st (no invariant needed), boundary
   specification, virtual level lv and both modelled strategies: whenever indices_to_smooth
   returns (Some S; None models the ValueError of list.index), every index of S is a valid
   position of the level's dof list vflat, none of them is a Dirichlet dof, and every function
   new on the level (active or deactivated on level lv) that is not on the Dirichlet boundary
   occupies a position that is in S. *)
Theorem smoothing_sets_spec : forall st bds lv S,
  (Boundary.smooth_new st bds lv = Some S \/ Boundary.smooth_cell_supp st bds lv = Some S) ->
  (forall p, In p S -> (p < length (vflat st lv))%nat) /\
  (forall D, Boundary.dirichlet_dofs st bds lv = Some D -> forall p, In p S -> ~ In p D) /\
  ((lv < Model.numlevels st)%nat ->
   forall x, (In x (Model.lv_actfun (Model.lvl st lv)) \/ In x (Model.lv_deactfun (Model.lvl st lv))) ->
             ~ In x (Boundary.index_dirichlet st bds lv lv) ->
   exists p, In p S /\ nth_error (vflat st lv) p = Some (lv, x)).
Proof.
  intros st bds lv S [H|H]; revert H; apply smoothing_family_spec.
  - apply new_family.
  - apply cell_supp_family.
Qed.
Print Assumptions smoothing_sets_spec.

(* The same for ALL FOUR strategies.  func_supp and trunc are modelled in coq/C11/SmoothSets2.v
   on top of C04's model of HMesh.function_children / function_grandparents (coq/C04/Children.v)
   and are compared exactly with indices_to_smooth('func_supp'/'trunc') on every run. *)
Theorem smoothing_sets_spec_all : forall st bds lv S,
  (Boundary.smooth_new st bds lv = Some S \/ smooth_trunc st bds lv = Some S \/
   smooth_func_supp st bds lv = Some S \/ Boundary.smooth_cell_supp st bds lv = Some S) ->
  (forall p, In p S -> (p < length (vflat st lv))%nat) /\
  (forall D, Boundary.dirichlet_dofs st bds lv = Some D -> forall p, In p S -> ~ In p D) /\
  ((lv < Model.numlevels st)%nat ->
   forall x, (In x (Model.lv_actfun (Model.lvl st lv)) \/ In x (Model.lv_deactfun (Model.lvl st lv))) ->
             ~ In x (Boundary.index_dirichlet st bds lv lv) ->
   exists p, In p S /\ nth_error (vflat st lv) p = Some (lv, x)).
Proof.
  intros st bds lv S [H|[H|[H|H]]]; revert H; apply smoothing_family_spec.
  - apply new_family.
  - apply trunc_family.
  - apply func_supp_family.
  - apply cell_supp_family.
Qed.
Print Assumptions smoothing_sets_spec_all.

(* what func_supp / trunc add on a coarser level i < lv inside the disparity window: exactly the
   non-Dirichlet active functions of level i that are (grand)parents of active functions of level
   lv, resp. whose not yet absorbed descendants meet the functions of level lv *)
Theorem func_supp_coarse_part : forall st bds disp lv i x,
  (i < lv)%nat -> Boundary.in_window disp lv i = true ->
  (In x (func_supp_indices st bds disp lv i) <->
   In x (Children.function_grandparents st (lv - i) lv (Model.lv_actfun (Model.lvl st lv))) /\
   In x (Model.lv_actfun (Model.lvl st i)) /\ ~ In x (Boundary.index_dirichlet st bds lv i)).
Proof.
  intros st bds disp lv i x Hi Hw. unfold func_supp_indices.
  apply Nat.ltb_lt in Hi. rewrite Hi, Hw. simpl.
  rewrite FinSet.diff_In, FinSet.inter_In, FinSet.of_list_In. tauto.
Qed.
Print Assumptions func_supp_coarse_part.

Theorem trunc_coarse_part : forall st bds disp lv i x,
  (i < lv)%nat -> Boundary.in_window disp lv i = true ->
  (In x (trunc_indices st bds disp lv i) <->
   In x (Model.lv_actfun (Model.lvl st i)) /\ trunc_selected st i (lv - i - 1) x = true /\
   ~ In x (Boundary.index_dirichlet st bds lv i)).
Proof.
  intros st bds disp lv i x Hi Hw. unfold trunc_indices.
  apply Nat.ltb_lt in Hi. rewrite Hi, Hw. simpl. rewrite FinSet.diff_In, filter_In. tauto.
Qed.
Print Assumptions trunc_coarse_part.

(* dirichlet_dofs(lv) are positions holding functions of the Dirichlet index sets *)
Theorem dirichlet_dofs_spec : forall st bds lv D, Boundary.dirichlet_dofs st bds lv = Some D ->
  forall p, In p D -> exists l x, nth_error (vflat st lv) p = Some (l, x) /\
                                   In x (Boundary.index_dirichlet st bds lv l).
Proof.
  intros st bds lv D H p Hp. apply virtual_canonical_spec in H.
  destruct (Forall2_In_l _ _ _ _ _ p H Hp) as ([l x] & I & E). exists l, x. split; [exact E|].
  apply selected_In in I. apply list_dirichlet_index. tauto.
Qed.
Print Assumptions dirichlet_dofs_spec.

(* The position search of raveled_to_virtual_canonical_indices (_position_index: list.index
   from the last hit) SUCCEEDS -- for the four strategies and for dirichlet_dofs, on every virtual
   level -- whenever the level sets of the state are sorted (C04.all_sorted) ... *)
Theorem position_search_succeeds : forall st bds lv, Proofs.all_sorted st ->
  (exists S, Boundary.smooth_new st bds lv = Some S) /\ (exists S, smooth_trunc st bds lv = Some S) /\
  (exists S, smooth_func_supp st bds lv = Some S) /\ (exists S, Boundary.smooth_cell_supp st bds lv = Some S) /\
  (exists D, Boundary.dirichlet_dofs st bds lv = Some D).
Proof.
  intros st bds lv srt.
  unfold Boundary.smooth_new, smooth_trunc, smooth_func_supp, Boundary.smooth_cell_supp,
    Boundary.dirichlet_dofs, Boundary.virtual_canonical.
  repeat split; apply canonical_aux_succeeds.
  - apply new_subl.
  - apply trunc_subl.
  - apply func_supp_subl, srt.
  - apply cell_supp_subl, srt.
  - apply dirichlet_subl.
Qed.
Print Assumptions position_search_succeeds.

(* ... and every dof of the virtual level has exactly ONE position when, in addition, the active
   and deactivated functions of level lv are disjoint ... *)
Theorem dof_position_unique : forall st lv, Proofs.all_sorted st ->
  (forall x, In x (Model.lv_actfun (Model.lvl st lv)) -> ~ In x (Model.lv_deactfun (Model.lvl st lv))) ->
  forall p q d, nth_error (vflat st lv) p = Some d -> nth_error (vflat st lv) q = Some d -> p = q.
Proof.
  intros st lv srt disj p q d. apply NoDup_nth_error_inj, vflat_NoDup; assumption.
Qed.
Print Assumptions dof_position_unique.

(* ... both of which hold on every state reachable from a valid tensor-product mesh by valid
   refinement calls (C04: all_sorted_run, activity_characterisation).  Together with
   smoothing_sets_spec_all: on reachable states indices_to_smooth(strategy)[lv] is defined for all
   four strategies, consists of valid indices, contains THE index of every new non-Dirichlet dof
   and the index of no Dirichlet dof. *)
Theorem reachable_positions : forall axes disp ops bds lv,
  Forall ProofsMesh.axis_ok axes -> (forall d, disp = Some d -> 1 <= d)%nat ->
  Proofs.ops_valid (Model.hs_init axes disp) ops ->
  let st := Model.run (Model.hs_init axes disp) ops in
  ((exists S, Boundary.smooth_new st bds lv = Some S) /\ (exists S, smooth_trunc st bds lv = Some S) /\
   (exists S, smooth_func_supp st bds lv = Some S) /\ (exists S, Boundary.smooth_cell_supp st bds lv = Some S) /\
   (exists D, Boundary.dirichlet_dofs st bds lv = Some D)) /\
  NoDup (vflat st lv) /\
  (forall p q d, nth_error (vflat st lv) p = Some d -> nth_error (vflat st lv) q = Some d -> p = q).
Proof.
  intros axes disp ops bds lv Hax Hd Hv st.
  destruct (reachable_sorted_disjoint axes disp ops lv Hax Hd Hv) as [srt disj]. fold st in srt, disj.
  assert (nd := vflat_NoDup st lv srt disj).
  split; [exact (position_search_succeeds st bds lv srt)|]. split; [exact nd|].
  intros p q d. apply NoDup_nth_error_inj, nd.
Qed.
Print Assumptions reachable_positions.

(* For any further strategy, the set-level statement: for every disparity, sets act/deact of the
   level, candidate set F (whatever the strategy computes) and Dirichlet set: no Dirichlet function
   is smoothed, every non-Dirichlet function new on the level is, and nothing else than new
   functions and candidates is.  (The name notwithstanding, nothing about the smoothing sets is left
   unproved: see smoothing_sets_spec_all, position_search_succeeds, dof_position_unique,
   reachable_positions.)
   Not proved for C11 as a whole: convergence of twogrid / the multigrid drivers for SPD
   problems (an analytic fact; evaluated on the implementation on every run) and convergence rates. *)
Theorem smoothing_sets_spec_partial : forall st disp act deact F dir lv,
  (forall i k, In k (smoothing_set st disp act deact F dir lv i) -> ~ In k dir) /\
  (forall k, In k act \/ In k deact -> ~ In k dir -> In k (smoothing_set st disp act deact F dir lv lv)) /\
  (forall i k, In k (smoothing_set st disp act deact F dir lv i) ->
      (i = lv /\ (In k act \/ In k deact)) \/ (i < lv /\ In k F)%nat).
Proof.
  intros. split; [|split].
  - intros i k H. apply smoothing_set_in in H. tauto.
  - intros k Hk Hd. apply smoothing_set_in. rewrite Nat.eqb_refl. tauto.
  - intros i k H. apply smoothing_set_in in H. destruct (Nat.eqb_spec i lv); tauto.
Qed.
Print Assumptions smoothing_sets_spec_partial.
