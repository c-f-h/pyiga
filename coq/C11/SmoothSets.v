(* C11 -- smoothing sets on the C04 model of HSpace (coq/C04/Model.v, Boundary.v):
   for a levelwise family of functions that avoids the Dirichlet functions and contains the new
   functions of a virtual level -- indices_to_smooth('new' / 'cell_supp') here, 'func_supp' / 'trunc'
   in SmoothSets2.v -- the canonical indices returned are valid positions of that level's dof list,
   contain no Dirichlet dof and contain every non-Dirichlet function new on the level.
   For EVERY hspace state (no invariant needed). *)
From Coq Require Import List Arith Bool Lia.
From Verif.lib Require Import FinSet ListFacts.
From Verif.C04 Require Import Model Boundary.
Import ListNotations.

Lemma skipn_app_exact : forall (A : Type) (l1 l2 : list A), skipn (length l1) (l1 ++ l2) = l2.
Proof. induction l1; simpl; auto. Qed.

Lemma skipn_add : forall (A : Type) a b (l : list A), skipn (a + b) l = skipn b (skipn a l).
Proof. induction a; intros b [|x l]; simpl; auto. destruct b; reflexivity. Qed.

Lemma Forall2_app_inv : forall (A B : Type) (R : A -> B -> Prop) a1 a2 b1 b2,
  Forall2 R a1 b1 -> Forall2 R a2 b2 -> Forall2 R (a1 ++ a2) (b1 ++ b2).
Proof. intros. apply Forall2_app; assumption. Qed.

Lemma Forall2_weaken : forall (A B : Type) (R R' : A -> B -> Prop) a b,
  (forall x y, R x y -> R' x y) -> Forall2 R a b -> Forall2 R' a b.
Proof. induction 2; constructor; auto. Qed.

Lemma Forall2_map_both : forall (A B C D : Type) (R : C -> D -> Prop) (f : A -> C) (g : B -> D) a b,
  Forall2 (fun x y => R (f x) (g y)) a b -> Forall2 R (map f a) (map g b).
Proof. induction 1; simpl; constructor; auto. Qed.

Lemma Forall2_In_l : forall (A B : Type) (R : A -> B -> Prop) a b x,
  Forall2 R a b -> In x a -> exists y, In y b /\ R x y.
Proof.
  induction 1; intros Hin; [contradiction|]. destruct Hin as [<-|Hin].
  - exists y. split; [left; reflexivity|assumption].
  - destruct (IHForall2 Hin) as (z & Hz & Rz). exists z. split; [right|]; assumption.
Qed.

Lemma Forall2_In_r : forall (A B : Type) (R : A -> B -> Prop) a b y,
  Forall2 R a b -> In y b -> exists x, In x a /\ R x y.
Proof.
  induction 1; intros Hin; [contradiction|]. destruct Hin as [<-|Hin].
  - exists x. split; [left; reflexivity|assumption].
  - destruct (IHForall2 Hin) as (z & Hz & Rz). exists z. split; [right|]; assumption.
Qed.

Lemma NoDup_nth_error_inj : forall (A : Type) (l : list A) p q d,
  NoDup l -> nth_error l p = Some d -> nth_error l q = Some d -> p = q.
Proof.
  intros A l p q d H Hp Hq. apply (proj1 (NoDup_nth_error l) H).
  - apply nth_error_Some. congruence.
  - congruence.
Qed.

(* the dofs of virtual level lv in matrix order: (space level, multi-index) *)
Definition flat_levels (st : hspace) (lv : nat) (ls : list nat) : list (nat * mi) :=
  concat (map (fun l => map (pair l) (global_indices st lv l)) ls).
Definition vflat (st : hspace) (lv : nat) : list (nat * mi) := flat_levels st lv (seq 0 (numlevels st)).
(* the functions a levelwise index family selects *)
Definition selected (indices : nat -> list mi) (ls : list nat) : list (nat * mi) :=
  concat (map (fun l => map (pair l) (indices l)) ls).

Lemma index_from_spec : forall x l pos p, index_from x l pos = Some p ->
  (pos <= p)%nat /\ nth_error l (p - pos) = Some x.
Proof.
  induction l as [|y l IH]; intros pos p H; simpl in H; [discriminate|].
  destruct (mi_eqb x y) eqn:E.
  - inversion H; subst. apply mi_eqb_eq in E. subst. split; [lia|]. rewrite Nat.sub_diag. reflexivity.
  - apply IH in H. destruct H as [H1 H2]. split; [lia|].
    replace (p - pos)%nat with (S (p - S pos)) by lia. exact H2.
Qed.

Lemma position_index_spec : forall sup sub k r, position_index sup k sub = Some r ->
  Forall2 (fun p x => nth_error sup p = Some x) r sub.
Proof.
  induction sub as [|x sub IH]; intros k r H; simpl in H.
  - inversion H. constructor.
  - destruct (index_from x (skipn k sup) k) as [k'|] eqn:E; [|discriminate].
    destruct (position_index sup k' sub) as [r'|] eqn:E2; [|discriminate].
    inversion H; subst. constructor; [|eapply IH; eauto].
    apply index_from_spec in E. destruct E as [E1 E3]. rewrite nth_error_skipn_add in E3.
    replace (k + (k' - k))%nat with k' in E3 by lia. exact E3.
Qed.

Lemma canonical_aux_spec : forall st lv indices ls n0 S,
  canonical_aux st lv indices ls n0 = Some S ->
  Forall2 (fun p lx => (n0 <= p)%nat /\ nth_error (flat_levels st lv ls) (p - n0) = Some lx)
          S (selected indices ls).
Proof.
  induction ls as [|l ls IH]; intros n0 S H; simpl in H.
  - inversion H. constructor.
  - destruct (position_index (global_indices st lv l) 0 (indices l)) as [r|] eqn:E1; [|discriminate].
    destruct (canonical_aux st lv indices ls (n0 + length (global_indices st lv l))) as [rest|] eqn:E2; [|discriminate].
    inversion H; subst. unfold selected, flat_levels. simpl. apply Forall2_app.
    + apply position_index_spec in E1. apply Forall2_map_both.
      eapply Forall2_weaken; [|exact E1]. intros p x Hp. simpl in Hp.
      split; [lia|]. replace (n0 + p - n0)%nat with p by lia.
      rewrite nth_error_app1 by (rewrite map_length; apply nth_error_Some; congruence).
      apply map_nth_error. exact Hp.
    + apply IH in E2. unfold selected, flat_levels in E2.
      eapply Forall2_weaken; [|exact E2]. intros p lx [H1 H2]. simpl in *.
      split; [lia|].
      rewrite nth_error_app2 by (rewrite map_length; lia). rewrite map_length.
      replace (p - n0 - length (global_indices st lv l))%nat with (p - (n0 + length (global_indices st lv l)))%nat by lia.
      exact H2.
Qed.

Lemma virtual_canonical_spec : forall st lv indices S,
  virtual_canonical st lv indices = Some S ->
  Forall2 (fun p lx => nth_error (vflat st lv) p = Some lx) S (selected indices (seq 0 (numlevels st))).
Proof.
  intros. apply canonical_aux_spec in H. unfold vflat.
  eapply Forall2_weaken; [|exact H]. intros p lx [_ E]. simpl in E. rewrite Nat.sub_0_r in E. exact E.
Qed.

Lemma selected_In : forall indices ls l x, In (l, x) (selected indices ls) <-> In l ls /\ In x (indices l).
Proof.
  intros. unfold selected. rewrite in_concat. split.
  - intros (s & Hs & Hx). apply in_map_iff in Hs. destruct Hs as (l' & <- & Hl').
    apply in_map_iff in Hx. destruct Hx as (x' & E & Hx'). inversion E; subst. auto.
  - intros [Hl Hx]. exists (map (pair l) (indices l)). split.
    + apply in_map_iff. exists l. auto.
    + apply in_map. exact Hx.
Qed.

Lemma list_dirichlet_index : forall st bds lv i x,
  In x (list_dirichlet st bds lv i) <-> In x (index_dirichlet st bds lv i).
Proof.
  intros. unfold list_dirichlet, index_dirichlet.
  destruct (i <? lv); [tauto|]. destruct (i =? lv); [|tauto].
  rewrite in_app_iff, union_In. tauto.
Qed.

Lemma new_indices_spec : forall st bds lv i x,
  In x (new_indices st bds lv i) <->
  i = lv /\ (In x (lv_actfun (lvl st i)) \/ In x (lv_deactfun (lvl st i))) /\ ~ In x (index_dirichlet st bds lv i).
Proof.
  intros. unfold new_indices. destruct (Nat.eqb_spec i lv).
  - rewrite in_app_iff, !diff_In. tauto.
  - simpl. tauto.
Qed.

(* what the statement below needs of a strategy: a levelwise family for the virtual level lv that
   avoids the Dirichlet functions and contains the new functions of level lv *)
Definition smoothing_family (st : hspace) (bds : list bdspec) (lv : nat) (indices : nat -> list mi) : Prop :=
  (forall i x, In x (indices i) -> ~ In x (index_dirichlet st bds lv i)) /\
  (forall x, In x (new_indices st bds lv lv) -> In x (indices lv)).

Lemma new_family : forall st bds lv, smoothing_family st bds lv (new_indices st bds lv).
Proof. intros. split; [|auto]. intros i x H. apply new_indices_spec in H. tauto. Qed.

(* cell_supp, func_supp and trunc all have this shape: on the coarser levels inside the disparity
   window some set of functions minus the Dirichlet ones, elsewhere (so on level lv) the new functions *)
Lemma windowed_family : forall st bds lv disp (F : nat -> list mi),
  smoothing_family st bds lv
    (fun i => if (i <? lv) && in_window disp lv i then diff (F i) (index_dirichlet st bds lv i)
              else new_indices st bds lv i).
Proof.
  intros. split.
  - intros i x H. destruct ((i <? lv) && in_window disp lv i).
    + apply diff_In in H. tauto.
    + apply new_indices_spec in H. tauto.
  - intros x H. rewrite Nat.ltb_irrefl. exact H.
Qed.

Lemma cell_supp_family : forall st bds disp lv,
  smoothing_family st bds lv (cell_supp_indices st bds true disp lv).
Proof. intros. exact (windowed_family st bds lv disp _). Qed.

(* whenever the position search succeeds for such a family, the positions found are valid, hold no
   Dirichlet dof, and hold every non-Dirichlet function new on the level *)
Lemma smoothing_family_spec : forall st bds lv indices S,
  smoothing_family st bds lv indices -> virtual_canonical st lv indices = Some S ->
  (forall p, In p S -> (p < length (vflat st lv))%nat) /\
  (forall D, dirichlet_dofs st bds lv = Some D -> forall p, In p S -> ~ In p D) /\
  ((lv < numlevels st)%nat ->
   forall x, (In x (lv_actfun (lvl st lv)) \/ In x (lv_deactfun (lvl st lv))) ->
             ~ In x (index_dirichlet st bds lv lv) ->
   exists p, In p S /\ nth_error (vflat st lv) p = Some (lv, x)).
Proof.
  intros st bds lv indices S [no_dir has_new] HS. apply virtual_canonical_spec in HS.
  split; [|split].
  - intros p Hp. destruct (Forall2_In_l _ _ _ _ _ p HS Hp) as (lx & _ & E).
    apply nth_error_Some. congruence.
  - intros D HD p Hp Hd. apply virtual_canonical_spec in HD.
    destruct (Forall2_In_l _ _ _ _ _ p HS Hp) as ([l x] & I1 & E1).
    destruct (Forall2_In_l _ _ _ _ _ p HD Hd) as ([l' x'] & I2 & E2).
    rewrite E1 in E2. inversion E2; subst.
    apply selected_In in I1. apply selected_In in I2.
    apply (no_dir l' x'); [tauto|]. apply list_dirichlet_index. tauto.
  - intros Hlv x Hx Hnd. apply (Forall2_In_r _ _ _ _ _ (lv, x) HS). apply selected_In. split.
    + apply in_seq. lia.
    + apply has_new. apply new_indices_spec. tauto.
Qed.
