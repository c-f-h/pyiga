(* C11 -- the strategies func_supp and trunc of HSpace.indices_to_smooth on top of C04's model of
   HMesh.function_children / function_grandparents (coq/C04/Children.v); both
   are families in the sense of SmoothSets.v.
     func_supp_indices  pyiga/hierarchical.py:704-714
     trunc_indices      pyiga/hierarchical.py:682-702 *)
From Coq Require Import List Arith Bool.
From Verif.lib Require Import FinSet.
From Verif.C04 Require Import Model Boundary Children.
From Verif.C11 Require Import SmoothSets.
Import ListNotations.

(* func_supp_indices()[lv][i]  (:710-712):
   sorted((set(function_grandparents(lv, actfun[lv], i)) & actfun[i]) - index_dirichlet[lv][i]) *)
Definition func_supp_indices (st : hspace) (bds : list bdspec) (disp : option nat) (lv i : nat) : list mi :=
  if (i <? lv) && in_window disp lv i then
    diff (inter (of_list (function_grandparents st (lv - i) lv (lv_actfun (lvl st lv)))) (lv_actfun (lvl st i)))
         (index_dirichlet st bds lv i)
  else new_indices st bds lv i.

(* trunc_indices (:685-702).  aux_dict[i][j] for an active function j of level i, after the passes
   lv = i+1, ..., i+n of the outer loop (all inside the disparity window, which is an initial segment
   of these levels): start {j}; each pass takes the children on the next level and, when they meet
   actfun[lv] | deactfun[lv], removes those (and j is selected for that lv). *)
Definition lv_funcs (st : hspace) (lv : nat) : set := union (lv_actfun (lvl st lv)) (lv_deactfun (lvl st lv)).

Fixpoint trunc_desc (st : hspace) (i : nat) (j : mi) (n : nat) : set :=
  match n with
  | 0 => [j]
  | S n' =>
      let D := function_children st (i + n') (trunc_desc st i j n') in            (* :697 *)
      if is_empty (inter D (lv_funcs st (i + n))) then D else diff D (lv_funcs st (i + n))   (* :698-699 *)
  end.

Definition trunc_selected (st : hspace) (i n : nat) (j : mi) : bool :=          (* :698, :700 ; lv = i + S n *)
  negb (is_empty (inter (function_children st (i + n) (trunc_desc st i j n)) (lv_funcs st (i + S n)))).

Definition trunc_indices (st : hspace) (bds : list bdspec) (disp : option nat) (lv i : nat) : list mi :=
  if (i <? lv) && in_window disp lv i then
    diff (filter (trunc_selected st i (lv - i - 1)) (lv_actfun (lvl st i))) (index_dirichlet st bds lv i)   (* :701 *)
  else new_indices st bds lv i.

(* indices_to_smooth('func_supp') / ('trunc') for virtual level lv *)
Definition smooth_func_supp (st : hspace) (bds : list bdspec) (lv : nat) : option (list nat) :=
  virtual_canonical st lv (func_supp_indices st bds (hs_disparity st) lv).
Definition smooth_trunc (st : hspace) (bds : list bdspec) (lv : nat) : option (list nat) :=
  virtual_canonical st lv (trunc_indices st bds (hs_disparity st) lv).

Lemma func_supp_family : forall st bds disp lv,
  smoothing_family st bds lv (func_supp_indices st bds disp lv).
Proof. intros. exact (windowed_family st bds lv disp _). Qed.

Lemma trunc_family : forall st bds disp lv,
  smoothing_family st bds lv (trunc_indices st bds disp lv).
Proof. intros. exact (windowed_family st bds lv disp _). Qed.
