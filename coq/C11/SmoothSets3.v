(* C11 -- raveled_to_virtual_canonical_indices on well-formed states: the position search
   (_position_index, list.index from the last hit) succeeds for the four smoothing strategies and
   for dirichlet_dofs, and every dof of a virtual level has exactly one position.  The hypotheses
   (level sets sorted, active and deactivated functions disjoint) hold on every reachable state by
   C04's all_sorted_run / activity_characterisation. *)
From Coq Require Import List Arith Bool Lia.
From Verif.lib Require Import FinSet ListFacts.
From Verif.C04 Require Import Model Boundary Children Proofs ProofsFun.
From Verif.C04 Require ProofsMesh.
From Verif.C11 Require Import SmoothSets SmoothSets2.
Import ListNotations.

(* ordered sublist *)
Inductive subl : list mi -> list mi -> Prop :=
| subl_nil : forall l, subl [] l
| subl_skip : forall y s l, subl s l -> subl s (y :: l)
| subl_take : forall x s l, subl s l -> subl (x :: s) (x :: l).

Lemma subl_refl : forall l, subl l l.
Proof. induction l; [apply subl_nil|apply subl_take; auto]. Qed.

Lemma subl_tail : forall x s l, subl (x :: s) l -> subl s l.
Proof.
  intros x s l H. remember (x :: s) as xs eqn:E. revert x s E.
  induction H; intros x0 s0 E; try discriminate.
  - apply subl_skip. eapply IHsubl; eauto.
  - inversion E; subst. apply subl_skip. assumption.
Qed.

Lemma subl_filter : forall f l, subl (filter f l) l.
Proof. induction l; simpl; [apply subl_nil|]. destruct (f a); [apply subl_take|apply subl_skip]; auto. Qed.

Lemma subl_trans : forall a b c, subl a b -> subl b c -> subl a c.
Proof.
  intros a b c H1 H2. revert a H1. induction H2; intros a H1.
  - inversion H1; subst. apply subl_nil.
  - apply subl_skip. apply IHsubl. exact H1.
  - inversion H1; subst.
    + apply subl_nil.
    + apply subl_skip. apply IHsubl. assumption.
    + apply subl_take. apply IHsubl. assumption.
Qed.

Lemma subl_app : forall a b c d, subl a b -> subl c d -> subl (a ++ c) (b ++ d).
Proof.
  intros a b c d H. induction H; simpl; intros Hc.
  - induction l; simpl; [exact Hc|apply subl_skip; auto].
  - apply subl_skip. auto.
  - apply subl_take. auto.
Qed.

Lemma subl_app_l : forall a b d, subl a b -> subl a (b ++ d).
Proof. intros. rewrite <- (app_nil_r a). apply subl_app; [assumption|apply subl_nil]. Qed.

Lemma subl_In : forall s l x, subl s l -> In x s -> In x l.
Proof. induction 1; simpl; intros; [contradiction|right; auto|destruct H0; [left|right]; auto]. Qed.

Lemma sorted_subset_subl : forall t s, sorted s -> sorted t -> (forall x, In x s -> In x t) -> subl s t.
Proof.
  induction t as [|y t IH]; intros s Ss St Hsub.
  - destruct s; [apply subl_nil|]. exfalso. apply (Hsub m). left. reflexivity.
  - destruct s as [|x s]; [apply subl_nil|].
    assert (St' : sorted t) by (inversion St; assumption).
    assert (Ss' : sorted s) by (inversion Ss; assumption).
    assert (Yt : forall z, In z t -> mi_lt y z).
    { apply sorted_strong in St. inversion St; subst. rewrite Forall_forall in H2. exact H2. }
    assert (Xs : forall z, In z s -> mi_lt x z).
    { apply sorted_strong in Ss. inversion Ss; subst. rewrite Forall_forall in H2. exact H2. }
    destruct (Hsub x (or_introl eq_refl)) as [E|Hx].
    + subst y. apply subl_take. apply IH; auto.
      intros z Hz. destruct (Hsub z (or_intror Hz)) as [E|Hzt]; [|exact Hzt].
      subst z. exfalso. apply (mi_lt_irrefl x). apply Xs. exact Hz.
    + apply subl_skip. apply IH; auto.
      intros z [E|Hz]; [subst; exact Hx|].
      destruct (Hsub z (or_intror Hz)) as [E|Hzt]; [|exact Hzt].
      subst z. exfalso. apply (mi_lt_irrefl y).
      apply mi_lt_trans with x; [apply Yt; exact Hx|apply Xs; exact Hz].
Qed.

Lemma index_from_found : forall x s l pos, subl (x :: s) l ->
  exists l1 l2, index_from x l pos = Some (pos + length l1) /\ l = l1 ++ x :: l2 /\ subl s (x :: l2).
Proof.
  intros x s l pos H. remember (x :: s) as xs eqn:E. revert x s E pos.
  induction H; intros x0 s0 E pos; try discriminate.
  - simpl. destruct (mi_eqb x0 y) eqn:Q.
    + apply mi_eqb_eq in Q. subst y. exists [], l. simpl. split; [f_equal; lia|]. split; [reflexivity|].
      apply subl_skip. eapply subl_tail. rewrite <- E. exact H.
    + destruct (IHsubl x0 s0 E (S pos)) as (l1 & l2 & H1 & H2 & H3).
      exists (y :: l1), l2. simpl. split; [rewrite H1; f_equal; lia|]. split; [rewrite H2; reflexivity|exact H3].
  - inversion E; subst. simpl. rewrite (proj2 (mi_eqb_eq x0 x0) eq_refl).
    exists [], l. simpl. split; [f_equal; lia|]. split; [reflexivity|]. apply subl_skip. exact H.
Qed.

Lemma position_index_succeeds : forall sub sup k, subl sub (skipn k sup) ->
  exists r, position_index sup k sub = Some r.
Proof.
  induction sub as [|x sub IH]; intros sup k H; simpl; [eexists; reflexivity|].
  destruct (index_from_found x sub (skipn k sup) k H) as (l1 & l2 & H1 & H2 & H3).
  rewrite H1.
  assert (E : skipn (k + length l1) sup = x :: l2).
  { rewrite skipn_add, H2. apply skipn_app_exact. }
  destruct (IH sup (k + length l1)) as [r Hr]; [rewrite E; exact H3|].
  rewrite Hr. eexists. reflexivity.
Qed.

Lemma canonical_aux_succeeds : forall st lv indices ls n0,
  (forall l, subl (indices l) (global_indices st lv l)) ->
  exists S, canonical_aux st lv indices ls n0 = Some S.
Proof.
  induction ls as [|l ls IH]; intros n0 H; simpl; [eexists; reflexivity|].
  destruct (position_index_succeeds (indices l) (global_indices st lv l) 0 (H l)) as [r Hr].
  rewrite Hr. destruct (IH (n0 + length (global_indices st lv l)) H) as [rest Hrest]. rewrite Hrest.
  eexists. reflexivity.
Qed.

Lemma fold_union_sorted : forall (A : Type) (g : A -> set) cs acc,
  sorted acc -> (forall c, sorted (g c)) -> sorted (fold_left (fun a c => union a (g c)) cs acc).
Proof. induction cs; intros acc Ha Hg; simpl; auto. apply IHcs; auto. apply union_sorted; auto. Qed.

Section Families.
  Variable st : hspace.
  Variable bds : list bdspec.
  Variable lv : nat.
  Hypothesis srt : all_sorted st.

  Lemma new_subl : forall l, subl (new_indices st bds lv l) (global_indices st lv l).
  Proof.
    intros l. unfold new_indices, global_indices. destruct (Nat.eqb_spec l lv).
    - subst. rewrite Nat.ltb_irrefl. apply subl_app; apply subl_filter.
    - apply subl_nil.
  Qed.

  Lemma dirichlet_subl : forall l, subl (list_dirichlet st bds lv l) (global_indices st lv l).
  Proof.
    intros l. unfold list_dirichlet, global_indices. destruct (l <? lv).
    - apply subl_filter.
    - destruct (l =? lv); [apply subl_app; apply subl_filter|apply subl_nil].
  Qed.

  (* a coarse-level part diff (inter X act) dir with X sorted *)
  Lemma coarse_subl : forall X dir l, sorted X ->
    subl (diff (inter X (lv_actfun (lvl st l))) dir) (lv_actfun (lvl st l)).
  Proof.
    intros X dir l SX. apply sorted_subset_subl.
    - apply diff_sorted. apply inter_sorted. exact SX.
    - apply (ls_af _ (srt l)).
    - intros x Hx. apply diff_In in Hx. destruct Hx as [Hx _]. apply inter_In in Hx. tauto.
  Qed.

  (* the shape shared by cell_supp, func_supp and trunc: inside the window a sublist of the active
     functions of the coarser level, elsewhere the new functions *)
  Lemma windowed_subl : forall disp X l,
    subl X (lv_actfun (lvl st l)) ->
    subl (if (l <? lv) && in_window disp lv l then X else new_indices st bds lv l) (global_indices st lv l).
  Proof.
    intros disp X l HX. destruct (Nat.ltb_spec l lv) as [H|H]; simpl; [|apply new_subl].
    destruct (in_window disp lv l).
    - unfold global_indices. rewrite (proj2 (Nat.ltb_lt l lv) H). exact HX.
    - unfold new_indices. destruct (Nat.eqb_spec l lv); [lia|apply subl_nil].
  Qed.

  Lemma cell_supp_subl : forall disp l, subl (cell_supp_indices st bds true disp lv l) (global_indices st lv l).
  Proof.
    intros disp l. apply windowed_subl, coarse_subl.
    unfold supported_in. apply fold_union_sorted; [constructor|]. intros c. apply of_list_sorted.
  Qed.

  Lemma func_supp_subl : forall disp l, subl (func_supp_indices st bds disp lv l) (global_indices st lv l).
  Proof. intros disp l. apply windowed_subl, coarse_subl, of_list_sorted. Qed.

  Lemma trunc_subl : forall disp l, subl (trunc_indices st bds disp lv l) (global_indices st lv l).
  Proof. intros disp l. apply windowed_subl. eapply subl_trans; apply subl_filter. Qed.
End Families.

Section Unique.
  Variable st : hspace.
  Variable lv : nat.
  Hypothesis srt : all_sorted st.
  Hypothesis disj : forall x, In x (lv_actfun (lvl st lv)) -> ~ In x (lv_deactfun (lvl st lv)).

  Lemma global_NoDup : forall l, NoDup (global_indices st lv l).
  Proof.
    intros l. unfold global_indices. destruct (l <? lv).
    - apply sorted_NoDup. apply (ls_af _ (srt l)).
    - destruct (Nat.eqb_spec l lv); [|constructor]. subst.
      apply NoDup_app_intro; [apply sorted_NoDup, (ls_af _ (srt lv))|apply sorted_NoDup, (ls_df _ (srt lv))|exact disj].
  Qed.

  Lemma flat_levels_In : forall ls l x, In (l, x) (flat_levels st lv ls) -> In l ls.
  Proof.
    intros ls l x H. unfold flat_levels in H. apply in_concat in H. destruct H as (s & Hs & Hx).
    apply in_map_iff in Hs. destruct Hs as (l' & <- & Hl'). apply in_map_iff in Hx.
    destruct Hx as (y & E & _). inversion E; subst. exact Hl'.
  Qed.

  Lemma flat_levels_NoDup : forall ls, NoDup ls -> NoDup (flat_levels st lv ls).
  Proof.
    induction ls as [|l ls IH]; intros H; [constructor|]. inversion H; subst.
    unfold flat_levels. simpl. apply NoDup_app_intro.
    - apply NoDup_map_inj_on; [intros x y _ _ E; inversion E; reflexivity|apply global_NoDup].
    - apply IH. assumption.
    - intros [l' x] Ha Hb. apply in_map_iff in Ha. destruct Ha as (y & E & _). inversion E; subst.
      apply flat_levels_In in Hb. contradiction.
  Qed.

  Lemma vflat_NoDup : NoDup (vflat st lv).
  Proof. unfold vflat. apply flat_levels_NoDup. apply seq_NoDup. Qed.
End Unique.

Lemma reachable_sorted_disjoint : forall axes disp ops lv,
  Forall ProofsMesh.axis_ok axes -> (forall d, disp = Some d -> 1 <= d) ->
  ops_valid (hs_init axes disp) ops ->
  let st := run (hs_init axes disp) ops in
  all_sorted st /\ forall x, In x (lv_actfun (lvl st lv)) -> ~ In x (lv_deactfun (lvl st lv)).
Proof.
  intros axes disp ops lv Hax Hd Hv st. split; [apply all_sorted_run, all_sorted_init|].
  intros x Ha Hdf. destruct (Nat.lt_ge_cases lv (numlevels st)) as [Hl|Hl].
  - destruct (ProofsMesh.activity_characterisation_full axes disp ops Hax Hd Hv) as [FA FD]. fold st in FA, FD.
    apply (FA lv x Hl) in Ha. apply (FD lv x Hl) in Hdf. tauto.
  - unfold lvl in Ha. rewrite nth_overflow in Ha by exact Hl. simpl in Ha. contradiction.
Qed.
