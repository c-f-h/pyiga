(* C12 -- non-vacuity: concrete inputs meet the hypotheses of the theorems of Props.v,
   and the order-condition checker accepts/rejects what it should. *)
From Coq Require Import QArith Qabs ZArith List Bool Lia Ring_theory ZArithRing.
From Verif.C12 Require Import Model Props.
Import ListNotations.
Open Scope nat_scope.

(* ---- the ring Z, M = 2*, F z = 3 - z, a (bad) solver that does one fixed-point sweep ---- *)
Definition zM (z : Z) : Z := (2 * z)%Z.
Definition zF (z : Z) : Z := (3 - z)%Z.
Definition zMinv (v : Z) : Z := (v / 2)%Z.            (* only used on even arguments below *)
Definition zsolve (c rhs x0 : Z) : Z * Z := let y := (rhs + c * zF x0)%Z in (y, zF y).
Definition zisz (a : Z) : bool := Z.eqb a 0.

Lemma zisz_spec : forall a, zisz a = true -> a = 0%Z.
Proof. intros a H. apply Z.eqb_eq. exact H. Qed.
Lemma zsolve_Fz : forall c rhs x0, snd (zsolve c rhs x0) = zF (fst (zsolve c rhs x0)).
Proof. reflexivity. Qed.

(* a 3-stage tableau with explicit first stage (integer coefficients; tau = 2) *)
Definition zA : list (list Z) := [[0;0;0]; [1;1;0]; [1;-1;2]]%Z.
Definition zb : list Z := [1;-1;2]%Z.
Definition zbh : list Z := [2;0;1]%Z.

Example ex_dirk_runs :
  exists xn xe Fxn ys Fy rs,
    dirk_step Z 0%Z Z.add Z.mul Z.sub zisz zM zF zMinv zsolve 5%Z 2%Z None zA zb (Some zbh) true
    = Some (xn, xe, Fxn, (ys, Fy, rs)) /\ length ys = 3 /\ exists r, In r rs /\ r <> 0%Z.
Proof.
  vm_compute. do 6 eexists. split; [reflexivity|]. split; [reflexivity|].
  eexists. split; [right; left; reflexivity|]. discriminate.
Qed.

(* the hypotheses of dirk_stage_equations / dirk_stiffly_accurate_shortcut hold here, and its
   conclusion is a non-trivial statement about the numbers computed above *)
Example ex_dirk_stage_equations :
  forall xn xe Fxn ys Fy rs,
    dirk_step Z 0%Z Z.add Z.mul Z.sub zisz zM zF zMinv zsolve 5%Z 2%Z None zA zb (Some zbh) true
    = Some (xn, xe, Fxn, (ys, Fy, rs)) ->
    zM xn = (zM 5 + 2 * lin Z 0%Z Z.add Z.mul zb (map zF ys) + last rs 0)%Z /\ Fxn = Some (zF xn).
Proof.
  intros. eapply (dirk_stiffly_accurate_shortcut Z 0%Z 1%Z Z.add Z.mul Z.sub Z.opp Zth zisz zM zF zMinv zsolve
                   5%Z 2%Z None zisz_spec zsolve_Fz); try eassumption.
  - discriminate.
  - discriminate.
  - reflexivity.
Qed.

(* exact solves: F = const 1, M = id *)
Definition cF (_ : Z) : Z := 1%Z.
Definition csolve (c rhs x0 : Z) : Z * Z := ((rhs + c)%Z, 1%Z).
Example ex_dirk_const_rhs :
  match dirk_step Z 0%Z Z.add Z.mul Z.sub zisz (fun z => z) cF (fun z => z) csolve 7%Z 2%Z None
                  zA zb None false with
  | Some (xn, _, _, (_, _, rs)) => xn = (7 + 2 * ((1 - 1 + 2) * 1))%Z /\ rs = [0;0;0]%Z
  | None => False
  end.
Proof. vm_compute. split; reflexivity. Qed.

(* ---- Rosenbrock over Z: M = 3*, J = identity, tau*gamma = 2, so C = 3 - 2 = 1 and Cinv = id ---- *)
Definition rG : list (list Z) := [[1;0;0]; [2;1;0]; [-1;3;1]]%Z.
Definition rA : list (list Z) := [[0;0;0]; [1;0;0]; [2;1;0]]%Z.
Lemma rCinv_ok : forall v : Z, (3 * v - 2 * 1 * v = v)%Z.
Proof. intros; ring. Qed.
Example ex_ros_runs :
  let '(xn, xe, ks) := ros_step Z 0%Z Z.add Z.mul zF 1%Z 2%Z (fun v => v) (fun v => v) rA rG zb (Some zbh) in
  length ks = 3 /\ (3 * nth 2 ks 0 = zF (1 + 2 * lin Z 0 Z.add Z.mul [2;1;0] (firstn 2 ks))
                                     + 2 * lin Z 0 Z.add Z.mul [-1;3;1] (firstn 3 ks))%Z.
Proof. vm_compute. split; reflexivity. Qed.

(* ---- newton over Q: F x = x^2 - 2, J(x) = 2 if x < 2 else 4 (frozen every 2 iterations) ---- *)
Open Scope Q_scope.
Definition nF (x : Q) : Q := Qred (x * x - 2).
Definition nJ (p : Q) : Q := if Qle_bool 2 p then 4 else 2.
Definition nsolve (p r : Q) : Q := Qred (r / nJ p).
Definition nsub (a b : Q) : Q := Qred (a - b).

Example ex_newton_converges :
  exists y res, newton Q nF nsolve nsub Qabs (1#10) (1#1000) 2 20 3 = Some (y, res)
                /\ Qabs (nF y) < 1#10 /\ ~ y == 3.
Proof. do 2 eexists. split; [vm_compute; reflexivity|]. vm_compute. split; [reflexivity|discriminate]. Qed.

Example ex_newton_raises : newton Q nF nsolve nsub Qabs (1#1000000) 0 2 2 3 = None.
Proof. vm_compute. reflexivity. Qed.

(* ---- drivers ---- *)
Example ex_const_times : const_times 1 (1#4) ((2 - 1) / (1#4)) (fun _ => false) = [1; 1 + 1 * (1#4); 1 + 2 * (1#4); 1 + 3 * (1#4); 1 + 4 * (1#4)].
Proof. vm_compute. reflexivity. Qed.

Example ex_const_hyps : 0 < (1#4) /\ (2 - 1) / (1#4) == (2 - 1) / (1#4) /\ 1 <= 2 /\ const_num_iter ((2 - 1) / (1#4)) = 4%nat.
Proof. repeat split; try reflexivity; discriminate. Qed.

Example ex_const_partial : const_times 1 (1#4) 4 (fun i => Nat.eqb i 2) = [1; 1 + 1 * (1#4); 1 + 2 * (1#4)].
Proof. vm_compute. reflexivity. Qed.

(* accepted, rejected (r > 1), Newton failure, accepted with the factor clipped to 5, ... *)
Definition ex_events : list event :=
  [Stepped (1#2) (6#5); Stepped 3 (1#10); NewtonFail; Stepped (1#1000) 40; Stepped 1 (9#10); Stepped 0 1000].

Example ex_adaptive_runs :
  exists ts, adaptive_times 0 (1#8) (1#4) ex_events = Some ts /\ length ts = 5%nat /\ (1#4) <= last ts 0.
Proof. vm_compute. eexists. split; [reflexivity|]. split; [reflexivity|]. discriminate. Qed.

Example ex_adaptive_taus : (length (adaptive_taus (1#4) (adaptive_init 0 (1#8)) ex_events) = 6)%nat.
Proof. vm_compute. reflexivity. Qed.

Example ex_adaptive_not_enough_events : adaptive_times 0 (1#8) 1 [Stepped 3 (1#10); NewtonFail] = None.
Proof. vm_compute. reflexivity. Qed.

(* ---- order conditions: exact tables ---- *)
(* implicit midpoint has order 2 exactly, not 3 *)
Example ex_midpoint_order2 : failing 0 [[1#2]] [[1#2]] [1] 2 = [] /\ failing 0 [[1#2]] [[1#2]] [1] 3 <> [].
Proof. vm_compute. split; [reflexivity|discriminate]. Qed.

(* Crank-Nicolson (trapezoidal rule, explicit first stage) meets the conditions up to order 2 exactly *)
Example ex_cn_order2 : failing 0 [[0;0];[1#2;1#2]] [[0;0];[1#2;1#2]] [1#2;1#2] 2 = [].
Proof. vm_compute. reflexivity. Qed.

(* the classical RK4 tableau satisfies all eight conditions up to order 4 exactly *)
Definition rk4A : list (list Q) := [[0;0;0;0];[1#2;0;0;0];[0;1#2;0;0];[0;0;1;0]].
Example ex_rk4_order4 : failing 0 rk4A rk4A [1#6;1#3;1#3;1#6] 4 = [] /\ conds_upto 4 = [0;1;2;3;4;5;6;7]%nat.
Proof. vm_compute. split; reflexivity. Qed.

(* weights that sum to 1.02 are rejected already by the consistency condition, with a
   tolerance of 1e-10 (the situation of a mistyped coefficient) *)
Example ex_inconsistent_rejected :
  failing (1#10000000000) [[0;0];[1#2;1#2]] [[0;0];[1#2;1#2]] [1#2;(52#100)] 1 = [0%nat].
Proof. vm_compute. reflexivity. Qed.

(* a one-digit change in the 10th decimal of a weight is rejected at the tolerance used for
   16-digit tables (64 eps) *)
Example ex_small_typo_rejected :
  failing (64 # 4503599627370496) [[0;0];[1#2;1#2]] [[0;0];[1#2;1#2]] [1#2;(5000000001#10000000000)] 2 <> [].
Proof. vm_compute. discriminate. Qed.
