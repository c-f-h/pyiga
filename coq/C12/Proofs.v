(* C12 -- lemmas about Model.v: one step (DIRK, Rosenbrock), newton, the two drivers. *)
From Coq Require Import QArith Qround List Bool Lia Lqa Ring.
From Verif.lib Require Import ListFacts.
From Verif.C12 Require Import Model.
Import ListNotations.

Lemma last_in {A} (l : list A) (d : A) : l <> [] -> In (last l d) l.
Proof.
  induction l as [|a l IH]; intros H; [congruence|].
  destruct l as [|b l']; [left; reflexivity|]. right. apply IH. discriminate.
Qed.

Lemma app_cons_snoc {A} (l : list A) (a : A) (m : list A) : l ++ a :: m = (l ++ [a]) ++ m.
Proof. rewrite <- app_assoc. reflexivity. Qed.

Lemma firstn_snoc_le {A} (l : list A) (a : A) (n : nat) :
  n <= length l -> firstn n (l ++ [a]) = firstn n l.
Proof.
  intros H. rewrite firstn_app. replace (n - length l) with 0 by lia. simpl. apply app_nil_r.
Qed.

Lemma firstn_length_app {A} (l l' : list A) : firstn (length l) (l ++ l') = l.
Proof. rewrite firstn_app, firstn_all, Nat.sub_diag. apply app_nil_r. Qed.

Lemma firstn_S_snoc {A} (d : A) : forall (l : list A) (i : nat),
  i < length l -> firstn (S i) l = firstn i l ++ [nth i l d].
Proof.
  induction l as [|h t IH]; intros i H; simpl in *; [lia|].
  destruct i; simpl; [reflexivity|]. f_equal. apply IH. lia.
Qed.

(* a property of the entries by position survives appending an entry that has it *)
Lemma nth_snoc_all {A} (P : nat -> A -> Prop) (l : list A) (a d : A) :
  (forall k, k < length l -> P k (nth k l d)) -> P (length l) a ->
  forall k, k <= length l -> P k (nth k (l ++ [a]) d).
Proof.
  intros Hl Ha k Hk. destruct (Nat.eq_dec k (length l)) as [->|Hne].
  - rewrite nth_middle. exact Ha.
  - rewrite app_nth1 by lia. apply Hl. lia.
Qed.

Lemma Forall_snoc {A} (P : A -> Prop) (l : list A) (a : A) : Forall P l -> P a -> Forall P (l ++ [a]).
Proof. intros Hl Ha. apply Forall_app. split; [exact Hl|]. constructor; [exact Ha|constructor]. Qed.

Open Scope Q_scope.
Lemma Qle_bool_false_iff a b : Qle_bool a b = false <-> b < a.
Proof.
  destruct (Qle_bool a b) eqn:E.
  - apply Qle_bool_iff in E. split; [discriminate|lra].
  - split; [|reflexivity]. intros _. apply Qnot_le_lt. intros L. apply Qle_bool_iff in L. congruence.
Qed.
(* the two directions that evaluate a test by rewriting *)
Lemma qle_true a b : a <= b -> Qle_bool a b = true.
Proof. apply Qle_bool_iff. Qed.
Lemma qle_false a b : b < a -> Qle_bool a b = false.
Proof. apply Qle_bool_false_iff. Qed.

Lemma qlt_true a b : qlt a b = true -> a < b.
Proof. unfold qlt. intros H. apply negb_true_iff in H. apply Qle_bool_false_iff. exact H. Qed.
Lemma qlt_false a b : qlt a b = false -> b <= a.
Proof. unfold qlt. intros H. apply negb_false_iff in H. apply Qle_bool_iff. exact H. Qed.

Lemma qmax_spec a b : a <= qmax a b /\ b <= qmax a b /\ (qmax a b == a \/ qmax a b == b).
Proof.
  unfold qmax. destruct (Qle_bool a b) eqn:E.
  - apply Qle_bool_iff in E. split; [lra|]. split; [lra|]. right; reflexivity.
  - apply Qle_bool_false_iff in E. split; [lra|]. split; [lra|]. left; reflexivity.
Qed.
Lemma qmin_spec a b : qmin a b <= a /\ qmin a b <= b /\ (qmin a b == a \/ qmin a b == b).
Proof.
  unfold qmin. destruct (Qle_bool a b) eqn:E.
  - apply Qle_bool_iff in E. split; [lra|]. split; [lra|]. left; reflexivity.
  - apply Qle_bool_false_iff in E. split; [lra|]. split; [lra|]. right; reflexivity.
Qed.
Close Scope Q_scope.

Section StepProofs.
  Variable R : Type.
  Variables (rO rI : R) (radd rmul rsub : R -> R -> R) (ropp : R -> R).
  Hypothesis Rth : ring_theory rO rI radd rmul rsub ropp eq.
  Add Ring Rring : Rth.
  Variable isz : R -> bool.
  Variables (M F Minv : R -> R) (solve : R -> R -> R -> R * R).
  Variables (x tau : R) (Fx : option R).

  Notation "a + b" := (radd a b).
  Notation "a * b" := (rmul a b).
  Notation "a - b" := (rsub a b).
  Notation lin := (lin R rO radd rmul).
  Notation rsum := (fold_right radd rO).

  Lemma radd_0_r a : a + rO = a.
  Proof. ring. Qed.

  Lemma lin_nil_r c : lin c [] = rO.
  Proof. destruct c; reflexivity. Qed.

  Lemma lin_snoc : forall (c v : list R) (z : R),
    lin c (v ++ [z]) = lin c v + nth (length v) c rO * z.
  Proof.
    unfold Model.lin. induction c as [|a c IH]; intros v z.
    - simpl. destruct (v ++ [z]); destruct v; simpl; ring.
    - destruct v as [|b v]; simpl.
      + destruct c; simpl; ring.
      + rewrite IH. ring.
  Qed.

  Lemma lin_firstn_len : forall (c v : list R), lin c (firstn (length v) v) = lin c v.
  Proof. intros. rewrite firstn_all. reflexivity. Qed.

  Lemma lin_map_const {Y} (f : Y -> R) (c : R) : forall (b : list R) (ys : list Y),
    length b = length ys -> (forall y, In y ys -> f y = c) -> lin b (map f ys) = rsum b * c.
  Proof.
    unfold Model.lin. induction b as [|h b IH]; intros [|y ys] Hl Hc; simpl in *; try discriminate; try ring.
    rewrite (Hc y), IH by (auto with datatypes; lia). ring.
  Qed.

  (* an additive map commutes with [lin] when it is homogeneous for the coefficients *)
  Lemma additive_lin : (forall u v, M (u + v) = M u + M v) -> forall (b ks : list R),
    (forall c v, In c b -> M (c * v) = c * M v) -> M (lin b ks) = lin b (map M ks).
  Proof.
    intros M_add.
    assert (M_zero : M rO = rO).
    { pose proof (M_add rO rO) as H. replace (rO + rO) with rO in H by ring.
      transitivity (M rO + M rO - M rO); [ring|]. rewrite <- H. ring. }
    unfold Model.lin. induction b as [|h b IH]; intros [|k ks] Hs; simpl; auto.
    rewrite M_add, Hs, IH by auto with datatypes. reflexivity.
  Qed.

  Notation dirk_stages := (dirk_stages R rO radd rmul rsub isz M F solve x tau Fx).
  Notation dirk_step := (dirk_step R rO radd rmul rsub isz M F Minv solve x tau Fx).
  Notation newton_F := (newton_F R rmul rsub M F).

  Hypothesis isz_spec : forall a, isz a = true -> a = rO.
  (* Newton returns, next to y_i, the last evaluation F(y_i) *)
  Hypothesis solve_Fz : forall c rhs x0, snd (solve c rhs x0) = F (fst (solve c rhs x0)).
  (* the cached value handed over from the previous step is F(x) *)
  Hypothesis Fx_ok : forall f, Fx = Some f -> f = F x.

  (* what holds of stage k once it has been computed: the stage equation up to the residual r_k,
     and where r_k comes from: it is the value, at the returned y_k, of the function handed to
     Newton in stage k; an explicit stage has y_0 = x and no residual *)
  Definition stage_ok (row : list R) (k : nat) (ys rs : list R) : Prop :=
    let a_kk := nth k row rO in
    let rhs := M x + tau * lin row (firstn k (map F ys)) in
    M (nth k ys rO) = M x + tau * lin row (firstn (S k) (map F ys)) + nth k rs rO
    /\ ((isz a_kk = true /\ k = 0 /\ nth k ys rO = x /\ nth k rs rO = rO)
        \/ (isz a_kk = false
            /\ nth k rs rO = newton_F (tau * a_kk) rhs (nth k ys rO)
            /\ exists x0, fst (solve (tau * a_kk) rhs x0) = nth k ys rO)).

  Definition dirk_inv (done : list (list R)) (ys rs : list R) : Prop :=
    length ys = length done /\ length rs = length done /\
    forall k, k < length done -> stage_ok (nth k done []) k ys rs.

  (* The stage just computed.  Its residual is [newton_F] at the returned point; this also
     describes the explicit stage (a_kk = 0, y = x), whose residual vanishes. *)
  Lemma stage_ok_last row ys rs y r :
    length rs = length ys ->
    let a := nth (length ys) row rO in
    let rhs := M x + tau * lin row (map F ys) in
    r = newton_F (tau * a) rhs y ->
    (isz a = true /\ length ys = 0 /\ y = x /\ r = rO) \/
    (isz a = false /\ exists x0, fst (solve (tau * a) rhs x0) = y) ->
    stage_ok row (length ys) (ys ++ [y]) (rs ++ [r]).
  Proof.
    intros Hl a rhs Hr Hcase. unfold stage_ok.
    rewrite map_last, nth_middle, <- Hl, nth_middle, Hl.
    rewrite <- (map_length F ys), firstn_length_app.
    rewrite firstn_all2, lin_snoc, map_length by (rewrite last_length; lia).
    fold a rhs. split.
    - rewrite Hr. unfold Model.newton_F, rhs. ring.
    - destruct Hcase as [(? & ? & ? & ?)|(? & ?)]; [left|right]; auto.
  Qed.

  Lemma dirk_inv_snoc done row ys rs y r :
    dirk_inv done ys rs -> stage_ok row (length ys) (ys ++ [y]) (rs ++ [r]) ->
    dirk_inv (done ++ [row]) (ys ++ [y]) (rs ++ [r]).
  Proof.
    intros (Hly & Hlr & Hst) Hnew. unfold dirk_inv. rewrite !last_length.
    split; [congruence|]. split; [congruence|].
    intros k Hk. destruct (Nat.eq_dec k (length done)) as [->|Hne].
    - rewrite nth_middle, <- Hly. exact Hnew.
    - unfold stage_ok. rewrite map_last, !firstn_snoc_le by (rewrite map_length; lia).
      rewrite !app_nth1 by lia. apply Hst. lia.
  Qed.

  Lemma dirk_stages_inv : forall rows done ys rs ys' Fy' rs',
    dirk_inv done ys rs ->
    dirk_stages (length ys) rows ys (map F ys) rs = Some (ys', Fy', rs') ->
    dirk_inv (done ++ rows) ys' rs' /\ Fy' = map F ys'.
  Proof.
    induction rows as [|row rest IH]; intros done ys rs ys' Fy' rs' Hinv Hrun; simpl in Hrun.
    - injection Hrun as <- <- <-. rewrite app_nil_r. auto.
    - rewrite (app_cons_snoc done).
      assert (Hlr : length rs = length ys) by (destruct Hinv as (? & ? & _); congruence).
      destruct (isz (nth (length ys) row rO)) eqn:Hz.
      + (* explicit stage: only as stage 0, with y_0 = x and the cached F(x) *)
        destruct ys as [|? ?]; [|discriminate]. simpl in Hrun, Hz.
        replace (match Fx with Some f => f | None => F x end) with (F x) in Hrun
          by (destruct Fx as [f|]; [symmetry; apply Fx_ok|]; reflexivity).
        apply (IH (done ++ [row]) [x]) in Hrun; [exact Hrun|].
        apply (dirk_inv_snoc done row [] rs); [exact Hinv|]. apply stage_ok_last; auto.
        unfold Model.newton_F. simpl. rewrite (isz_spec _ Hz), lin_nil_r. ring.
      + (* implicit stage *)
        destruct (solve _ _ _) as [y Fz] eqn:Hs in Hrun.
        pose proof (solve_Fz (tau * nth (length ys) row rO) (M x + tau * lin row (map F ys))) as HF.
        specialize (HF (match length ys with 0 => x | S _ => last ys x end)).
        rewrite Hs in HF. simpl in HF. subst Fz.
        rewrite <- map_last, <- (last_length ys y) in Hrun.
        apply (IH (done ++ [row])) in Hrun; [exact Hrun|].
        apply dirk_inv_snoc; [exact Hinv|]. apply stage_ok_last; auto.
        right. split; [exact Hz|]. eexists. rewrite Hs. reflexivity.
  Qed.

  Lemma dirk_step_some A b bhat is_sa xn xe Fxn ys Fy rs :
    dirk_step A b bhat is_sa = Some (xn, xe, Fxn, (ys, Fy, rs)) ->
    dirk_inv A ys rs /\ Fy = map F ys /\
    xn = (if is_sa then last ys x else Minv (M x + tau * lin b Fy)) /\
    xe = option_map (fun bh => Minv (M x + tau * lin bh Fy)) bhat /\
    Fxn = (if is_sa then Some (last Fy rO) else None).
  Proof.
    unfold Model.dirk_step.
    destruct (dirk_stages 0 A [] [] []) as [[[ys' Fy'] rs']|] eqn:E; [|discriminate].
    intros H. injection H as <- <- <- <- <- <-.
    apply (dirk_stages_inv A [] [] []) in E; [|unfold dirk_inv; simpl; repeat split; lia].
    destruct E. auto.
  Qed.

  (* the last stage, read at the last row: what the stiffly accurate shortcut returns *)
  Lemma dirk_inv_last A ys rs : A <> [] -> dirk_inv A ys rs ->
    M (last ys x) = M x + tau * lin (last A []) (map F ys) + last rs rO /\
    last (map F ys) rO = F (last ys x).
  Proof.
    intros HA (H1 & H2 & H4).
    assert (Hs : length A > 0) by (destruct A; simpl; [congruence|lia]).
    split.
    - rewrite !last_nth_len, H1, H2.
      destruct (H4 (length A - 1)%nat) as [Heq _]; [lia|].
      rewrite (nth_indep ys x rO), Heq by lia.
      rewrite firstn_all2 by (rewrite map_length; lia). reflexivity.
    - rewrite !last_nth_len, map_length. apply nth_map_lt. lia.
  Qed.

  Variables (Jx Cinv : R -> R) (gam : R).
  Notation ros_stages := (ros_stages R rO radd rmul F x tau Jx Cinv).
  Notation ros_step := (ros_step R rO radd rmul F x tau Jx Cinv).
  (* C = M - tau*gamma*jac and C_inv = make_solver(C) *)
  Hypothesis Cinv_ok : forall v, M (Cinv v) - (tau * gam) * Jx (Cinv v) = v.

  Definition ros_ok (ra rg : list R) (k : nat) (ks : list R) : Prop :=
    let y := x + tau * lin ra (firstn k ks) in
    let w := match k with 0 => rO | S _ => Jx (lin rg (firstn k ks)) end in
    M (nth k ks rO) = F y + tau * w + (tau * gam) * Jx (nth k ks rO).

  Lemma ros_ok_last ra rg ks :
    let y := x + tau * lin ra ks in
    let rhs := match ks with [] => F y | _ :: _ => F y + tau * Jx (lin rg ks) end in
    ros_ok ra rg (length ks) (ks ++ [Cinv rhs]).
  Proof.
    intros y rhs. unfold ros_ok. rewrite firstn_length_app, nth_middle. fold y.
    replace (F y + tau * match length ks with 0 => rO | S _ => Jx (lin rg ks) end) with rhs
      by (unfold rhs; destruct ks; simpl; ring).
    rewrite <- (Cinv_ok rhs) at 2. ring.
  Qed.

  Lemma ros_stages_inv : forall rowsA rowsG doneA doneG ks,
    length rowsA = length rowsG -> length doneA = length ks -> length doneG = length ks ->
    (forall k, k < length ks -> ros_ok (nth k doneA []) (nth k doneG []) k ks) ->
    let ks' := ros_stages rowsA rowsG ks in
    length ks' = length (doneA ++ rowsA) /\
    forall k, k < length ks' -> ros_ok (nth k (doneA ++ rowsA) []) (nth k (doneG ++ rowsG) []) k ks'.
  Proof.
    induction rowsA as [|ra resta IH]; intros [|rg restg] doneA doneG ks HAG HA HG Hok; try discriminate; simpl.
    - rewrite !app_nil_r. auto.
    - rewrite (app_cons_snoc doneA), (app_cons_snoc doneG).
      apply IH; rewrite ?last_length; auto.
      intros k Hk. destruct (Nat.eq_dec k (length ks)) as [->|Hne].
      + rewrite <- HA, nth_middle, HA, <- HG, nth_middle, HG. apply ros_ok_last.
      + unfold ros_ok. rewrite !app_nth1, !firstn_snoc_le by lia. apply Hok. lia.
  Qed.

  Lemma ros_stages_ok A G ks : length A = length G -> ros_stages A G [] = ks ->
    length ks = length A /\ forall i, i < length A -> ros_ok (nth i A []) (nth i G []) i ks.
  Proof.
    intros HAG <-.
    destruct (ros_stages_inv A G [] [] [] HAG eq_refl eq_refl) as [H1 H2]; [simpl; intros; lia|].
    simpl in H1, H2. rewrite H1 in H2. auto.
  Qed.

  (* with a linear Jacobian product and Gamma[k,k] = gamma the two J terms of a stage combine
     into the usual form  M k_i = F(y_i) + tau J sum_{j<=i} gamma_ij k_j *)
  Hypothesis Jx_lin : forall u v, Jx (u + gam * v) = Jx u + gam * Jx v.
  Hypothesis Jx_zero : Jx rO = rO.

  Lemma ros_ok_combined ra rg k ks :
    k < length ks -> nth k rg rO = gam -> ros_ok ra rg k ks ->
    M (nth k ks rO) = F (x + tau * lin ra (firstn k ks)) + tau * Jx (lin rg (firstn (S k) ks)).
  Proof.
    intros Hk Hg Hok. unfold ros_ok in Hok.
    rewrite Hok, (firstn_S_snoc rO), lin_snoc, firstn_length_le, Hg, Jx_lin by lia.
    destruct k; [|ring].
    change (firstn 0 ks) with (@nil R). rewrite !lin_nil_r, Jx_zero. ring.
  Qed.

  Lemma ros_ok_const (c : R) ra rg k ks :
    (forall z, Jx z = rO) -> (forall z, F z = c) -> ros_ok ra rg k ks -> M (nth k ks rO) = c.
  Proof.
    intros HJ HF Hok. unfold ros_ok in Hok. rewrite Hok, HF. destruct k; rewrite !HJ; ring.
  Qed.
End StepProofs.

Section NewtonProofs.
  Variable V : Type.
  Variable Fn : V -> V.
  Variable Jsolve : V -> V -> V.
  Variable vsub : V -> V -> V.
  Variable norm : V -> Q.
  Variable freeze : nat.
  Notation newton_loop := (newton_loop V Fn Jsolve vsub norm freeze).
  Notation newton_iterates := (newton_iterates V Fn Jsolve vsub freeze).

  Lemma newton_loop_some : forall fuel k target x jp y res,
    newton_loop fuel k target x (Fn x) jp = Some (y, res) ->
    res = Fn y /\ (norm (Fn y) < target)%Q /\ In y (newton_iterates fuel k x jp).
  Proof.
    induction fuel as [|fuel IH]; intros k target x jp y res H; simpl in H; [discriminate|].
    destruct (qlt (norm (Fn x)) target) eqn:E.
    - injection H as <- <-. split; [reflexivity|]. split; [apply qlt_true; exact E|]. left. reflexivity.
    - apply IH in H. destruct H as (H1 & H2 & H3). repeat split; auto. right. exact H3.
  Qed.

  Lemma newton_loop_none : forall fuel k target x jp,
    newton_loop fuel k target x (Fn x) jp = None ->
    length (newton_iterates fuel k x jp) = fuel /\
    forall y, In y (newton_iterates fuel k x jp) -> (target <= norm (Fn y))%Q.
  Proof.
    induction fuel as [|fuel IH]; intros k target x jp H; simpl in *.
    - split; [reflexivity|]. intros y [].
    - destruct (qlt (norm (Fn x)) target) eqn:E; [discriminate|].
      apply IH in H. destruct H as [H1 H2]. split; [simpl; lia|].
      intros y [<-|Hy]; [apply qlt_false; exact E|]. apply H2. exact Hy.
  Qed.
End NewtonProofs.

(* stays open to the end of the file: importing this file opens Q_scope, and the files of
   statements that import it are read with Q_scope below their own nat_scope *)
Open Scope Q_scope.

Lemma const_times_from_length : forall n t0 tau i,
  length (const_times_from t0 tau i n (fun _ => false)) = n.
Proof. induction n; intros; simpl; auto. Qed.

Lemma const_times_from_nth : forall n t0 tau i k, (k < n)%nat ->
  nth k (const_times_from t0 tau i n (fun _ => false)) 0 = t0 + inject_Z (Z.of_nat (S (i + k))) * tau.
Proof.
  induction n; intros t0 tau i k Hk; [lia|]. simpl const_times_from.
  destruct k.
  - rewrite Nat.add_0_r. reflexivity.
  - simpl nth. rewrite IHn by lia. replace (S i + k)%nat with (i + S k)%nat by lia. reflexivity.
Qed.

(* a Newton failure in iteration i returns the first i+1 times (partial results) *)
Lemma const_times_from_prefix : forall n t0 tau i fails,
  exists m, (m <= n)%nat /\
    const_times_from t0 tau i n fails = firstn m (const_times_from t0 tau i n (fun _ => false)).
Proof.
  induction n; intros; simpl.
  - exists 0%nat. split; [lia|reflexivity].
  - destruct (fails i).
    + exists 0%nat. split; [lia|reflexivity].
    + destruct (IHn t0 tau (S i) fails) as (m & Hm & E). exists (S m). split; [lia|]. simpl. rewrite E. reflexivity.
Qed.

(* num_iter = ceil(quot): the smallest number of steps that is >= quot *)
Lemma const_num_iter_bounds quot : 0 <= quot ->
  let n := const_num_iter quot in
  quot <= inject_Z (Z.of_nat n) /\ ((1 <= n)%nat -> inject_Z (Z.of_nat (n - 1)) < quot).
Proof.
  intros Hq0 n.
  assert (Hn : Z.of_nat n = Qceiling quot).
  { apply Z2Nat.id. rewrite Zle_Qle. change (inject_Z 0) with 0. pose proof (Qle_ceiling quot). lra. }
  split.
  - rewrite Hn. apply Qle_ceiling.
  - intros H1. rewrite Nat2Z.inj_sub, Hn by lia. apply Qceiling_lt.
Qed.

Lemma clip_fac_bounds p : (1#5) <= clip_fac p /\ clip_fac p <= 5.
Proof.
  unfold clip_fac.
  destruct (qmax_spec (1#5) p) as (A1 & A2 & A3).
  destruct (qmin_spec 5 (qmax (1#5) p)) as (B1 & B2 & B3).
  split; [|exact B1]. destruct B3 as [B3|B3]; rewrite B3; lra.
Qed.

Lemma adaptive_loop_cons t_end st e evs : Qle_bool t_end (a_t st) = false ->
  adaptive_loop t_end st (e :: evs) = adaptive_loop t_end (astep st e) evs.
Proof. intros H. simpl. rewrite H. reflexivity. Qed.
Lemma adaptive_taus_cons t_end st e evs : Qle_bool t_end (a_t st) = false ->
  adaptive_taus t_end st (e :: evs) = a_tau st :: adaptive_taus t_end (astep st e) evs.
Proof. intros H. simpl. rewrite H. reflexivity. Qed.

Fixpoint increasing (l : list Q) : Prop :=
  match l with
  | [] => True
  | a :: l' => match l' with [] => True | b :: _ => a < b end /\ increasing l'
  end.

(* the times are the partial sums of the accepted step sizes *)
Fixpoint psums (t : Q) (taus : list Q) : list Q :=
  match taus with [] => [t] | h :: r => t :: psums (t + h) r end.

Lemma psums_snoc : forall l t h, psums t (l ++ [h]) = psums t l ++ [last (psums t l) 0 + h].
Proof.
  induction l as [|a l IH]; intros t h; simpl; [reflexivity|].
  rewrite IH. f_equal. f_equal. f_equal.
  destruct (psums (t + a) l) eqn:E; [destruct l; discriminate|reflexivity].
Qed.

Lemma increasing_psums : forall taus t, Forall (fun h => 0 < h) taus -> increasing (psums t taus).
Proof.
  induction taus as [|h r IH]; intros t H; simpl; [auto|].
  apply Forall_cons_iff in H as [Hh Hr]. split; [|apply IH; exact Hr].
  destruct r; simpl; lra.
Qed.

(* state invariant: positive step; every accepted step passed the test with a positive size; the
   (reversed) list of times starts with the current time, has one entry per accepted step beside
   t0, and is the list of partial sums of the accepted step sizes *)
Definition ainv (t0 : Q) (st : astate) : Prop :=
  0 < a_tau st /\
  Forall (fun p => snd p <= 1 /\ 0 < fst p) (a_log st) /\
  a_times st = a_t st :: tl (a_times st) /\
  length (a_times st) = S (length (a_log st)) /\
  rev (a_times st) = psums t0 (rev (map fst (a_log st))).

Lemma astep_inv t0 st e : ainv t0 st -> ainv t0 (astep st e).
Proof.
  intros (Htau & Hlog & Hhd & Hlen & Hsum).
  assert (Hc : forall p, 0 < a_tau st * clip_fac p).
  { intros p. destruct (clip_fac_bounds p). apply Qmult_lt_0_compat; lra. }
  destruct e as [|r praw]; unfold astep.
  - repeat split; auto. simpl. lra.
  - destruct (Qle_bool _ 1) eqn:E; repeat split; simpl; auto.
    + constructor; [split; [apply Qle_bool_iff; exact E|exact Htau]|exact Hlog].
    + rewrite psums_snoc, <- Hsum, Hhd. simpl. rewrite last_last. reflexivity.
Qed.

Lemma adaptive_init_inv t0 tau0 : 0 < tau0 -> ainv t0 (adaptive_init t0 tau0).
Proof. intros. repeat split; [assumption|constructor]. Qed.

Lemma adaptive_loop_ainv t0 t_end : forall evs st st',
  ainv t0 st -> adaptive_loop t_end st evs = Some st' -> ainv t0 st' /\ t_end <= a_t st'.
Proof.
  induction evs as [|e evs IH]; intros st st' Hinv H; simpl in H;
    destruct (Qle_bool t_end (a_t st)) eqn:E; try discriminate.
  1, 2: injection H as <-; split; [exact Hinv|apply Qle_bool_iff; exact E].
  apply (IH (astep st e)); [apply astep_inv; exact Hinv|exact H].
Qed.

(* partial sums of positive steps: strictly increasing from t0 to the current time *)
Lemma ainv_times t0 st : ainv t0 st ->
  let ts := rev (a_times st) in increasing ts /\ hd 0 ts = t0 /\ last ts 0 = a_t st.
Proof.
  intros (_ & Hlog & Hhd & _ & Hsum). simpl. split; [|split].
  - rewrite Hsum. apply increasing_psums, Forall_rev, Forall_map.
    revert Hlog. apply Forall_impl. intros p [_ H]. exact H.
  - rewrite Hsum. destruct (rev (map fst (a_log st))); reflexivity.
  - rewrite Hhd. simpl. apply last_last.
Qed.

(* consecutive step sizes handed to the stepper are those of a state and of its successor, which
   differ by a factor in [1/5, 5] (0.5 after a Newton failure, min(5, max(0.2, .)) otherwise) *)
Lemma astep_factor st e : exists f, a_tau (astep st e) == a_tau st * f /\ (1#5) <= f /\ f <= 5.
Proof.
  destruct e as [|r praw]; unfold astep.
  - exists (1#2). simpl. repeat split; try lra; reflexivity.
  - destruct (clip_fac_bounds praw) as [C1 C2]. exists (clip_fac praw).
    destruct (Qle_bool _ 1); simpl; repeat split; try lra; reflexivity.
Qed.

Lemma adaptive_taus_succ : forall evs t_end st k,
  (S k < length (adaptive_taus t_end st evs))%nat ->
  exists st' e, nth k (adaptive_taus t_end st evs) 0 = a_tau st' /\
                nth (S k) (adaptive_taus t_end st evs) 0 = a_tau (astep st' e).
Proof.
  induction evs as [|e evs IH]; intros t_end st k Hk; simpl in *;
    destruct (Qle_bool t_end (a_t st)); simpl in Hk; try lia.
  destruct k; [|apply IH; lia].
  exists st, e. split; [reflexivity|].
  destruct evs; simpl in *; destruct (Qle_bool t_end (a_t (astep st e))); simpl in Hk; try lia; reflexivity.
Qed.

Lemma adaptive_taus_positive : forall evs t0 t_end st,
  ainv t0 st -> Forall (fun tau => 0 < tau) (adaptive_taus t_end st evs).
Proof.
  induction evs as [|e evs IH]; intros t0 t_end st Hinv; simpl;
    destruct (Qle_bool t_end (a_t st)); constructor.
  - destruct Hinv as (H & _). exact H.
  - apply (IH t0). apply astep_inv. exact Hinv.
Qed.
