(* C12 -- lemmas about Model2.v: the drivers with their state. *)
From Coq Require Import QArith List Lia.
From Verif.C12 Require Import Model Proofs Model2.
Import ListNotations.

Section DriverStateProofs.
  Variables X FX : Type.
  Variable stepper : X -> Q -> option FX -> sres X FX.
  Variable Fof : X -> FX.                       (* x |-> F(x) *)

  Notation Fx_inv := (Fx_inv X FX Fof).
  Notation call_ok := (call_ok X FX Fof).
  Notation stepper_ok := (stepper_ok X FX stepper Fof).
  (* the binder types are those [cpost] elaborates to: [call X FX] unfolded in the first only *)
  Notation state_of := (fun c : X * Q * option FX => fst (fst c)).
  Notation tau_of := (fun c : call X FX => snd (fst c)).

  Lemma Fx_inv_none x : Fx_inv x None.
  Proof. intros f H; discriminate. Qed.

  Lemma Fx_inv_step x tau Fx xn xh Fxn :
    stepper_ok -> Fx_inv x Fx -> stepper x tau Fx = SDone xn xh Fxn -> Fx_inv xn Fxn.
  Proof. intros Hs Hi E f Hf. subst Fxn. eapply Hs; eauto. Qed.

  Section Const.
    Variables (G : Type) (gadd : G -> G -> G) (phi : X -> G) (d : G).
    Notation step_adds := (step_adds X FX stepper Fof G gadd phi d).
    Notation cpost := (cpost X FX stepper Fof G gadd phi d).
    Notation crun := (crun X FX stepper).

    (* loop invariant: the postcondition holds of the lists so far, the solutions are the states
       the calls started from followed by the current state, whose cached value is sound *)
    Definition cinv (x0 : X) (t0 tau : Q) (n : nat) (x : X) (Fx : option FX)
               (times : list Q) (sols : list X) (calls : list (call X FX)) : Prop :=
      Fx_inv x Fx /\ sols = map state_of calls ++ [x] /\ cpost x0 t0 tau n times sols calls.

    Lemma cinv_init x0 t0 tau n : cinv x0 t0 tau n x0 None [t0] [x0] [].
    Proof.
      split; [apply Fx_inv_none|]. split; [reflexivity|].
      unfold cpost. simpl. repeat split; auto; try lia.
      intros _ k Hk. replace k with 0 by lia. reflexivity.
    Qed.

    (* a failing call ends the run: it is recorded, nothing else changes *)
    Lemma cinv_fail x0 t0 tau n x Fx times sols calls :
      cinv x0 t0 tau n x Fx times sols calls -> stepper x tau Fx = SFail ->
      cpost x0 t0 tau n times sols (calls ++ [(x, tau, Fx)]).
    Proof.
      intros (I1 & I2 & P1 & P2 & P3 & P4 & _ & _ & P7) E. unfold call in *.
      assert (Hl : length sols = S (length calls)) by (rewrite I2, last_length, map_length; reflexivity).
      split; [exact P1|]. split; [exact P2|].
      split; [apply Forall_snoc; assumption|]. split; [apply Forall_snoc; auto|].
      rewrite last_length, map_last. cbn [fst]. rewrite <- I2, <- Hl, firstn_all.
      split; [reflexivity|]. split; [|exact P7].
      right. split; [reflexivity|]. exists (x, tau, Fx).
      split; [apply last_last|]. split; [apply in_or_app; right; left; reflexivity|exact E].
    Qed.

    Lemma cinv_step x0 t0 tau n x Fx times sols calls xn xh Fxn :
      stepper_ok -> cinv x0 t0 tau n x Fx times sols calls -> length sols <= n ->
      stepper x tau Fx = SDone xn xh Fxn ->
      cinv x0 t0 tau n xn Fxn (times ++ [(t0 + inject_Z (Z.of_nat (S (length calls))) * tau)%Q])
           (sols ++ [xn]) (calls ++ [(x, tau, Fx)]).
    Proof.
      intros Hok (I1 & I2 & P1 & P2 & P3 & P4 & _ & _ & P7 & P8 & P9) Hn E. unfold call in *.
      assert (Hl : S (length calls) = length sols) by (rewrite I2, last_length, map_length; reflexivity).
      assert (I2' : sols ++ [xn] = map state_of (calls ++ [(x, tau, Fx)]) ++ [xn])
        by (rewrite map_last; cbn [fst]; rewrite <- I2; reflexivity).
      split; [eapply Fx_inv_step; eauto|]. split; [exact I2'|].
      unfold cpost. rewrite !last_length, Hl.
      split; [congruence|]. split; [lia|].
      split; [apply Forall_snoc; assumption|]. split; [apply Forall_snoc; auto|].
      split; [rewrite firstn_length_app, map_last; cbn [fst]; auto|].
      split; [left; lia|]. split; [rewrite app_nth1 by lia; exact P7|]. split.
      - intros k [H1 H2]. revert H1.
        apply (nth_snoc_all (fun k v => 1 <= k -> v = (t0 + inject_Z (Z.of_nat k) * tau)%Q)); [| |lia].
        + intros j Hj H1. apply P8. lia.
        + rewrite P1. reflexivity.
      - intros Ha k Hk.
        apply (nth_snoc_all (fun k v => phi v = Nat.iter k (fun u => gadd u d) (phi x0))); [| |lia].
        + intros j Hj. apply P9; assumption.
        + rewrite <- Hl. simpl. rewrite <- (P9 Ha (length calls)) by lia.
          rewrite I2, <- (map_length state_of calls), nth_middle. eapply Ha; eauto.
    Qed.

    Lemma crun_inv : stepper_ok -> forall n m x0 t0 tau x Fx times sols calls times' sols' calls',
      cinv x0 t0 tau m x Fx times sols calls -> length sols + n <= S m ->
      crun n (length calls) t0 tau x Fx times sols calls = (times', sols', calls') ->
      cpost x0 t0 tau m times' sols' calls'.
    Proof.
      intros Hok. induction n as [|n IH]; intros * Hinv Hn H; simpl in H.
      - injection H as <- <- <-. apply Hinv.
      - destruct (stepper x tau Fx) as [|xn xh Fxn] eqn:E.
        + injection H as <- <- <-. apply cinv_fail; assumption.
        + rewrite <- (last_length calls (x, tau, Fx)) in H.
          apply (IH m x0) in H; [exact H| |rewrite last_length; lia].
          apply cinv_step with xh; auto. lia.
    Qed.
  End Const.

  Variable ratio : X -> X -> X -> Q.
  Variable powf : Q -> Q.
  Notation arun := (arun X FX stepper ratio powf).

  Definition acall_ok (sols : list X) (c : call X FX) : Prop := call_ok c /\ In (fst (fst c)) sols.

  Lemma acall_ok_mono sols xn calls : Forall (acall_ok sols) calls -> Forall (acall_ok (sols ++ [xn])) calls.
  Proof.
    apply Forall_impl. intros c [H1 H2]. split; [exact H1|]. apply in_or_app. left. exact H2.
  Qed.

  (* every call of the stepper receives the current state (one of the accepted solutions) together
     with a cached value that is None or F(that state) -- also after rejected and failed attempts *)
  Lemma arun_inv : stepper_ok -> forall fuel t_end t tau x Fx times sols calls evs times' sols' calls' evs',
    Fx_inv x Fx -> length times = length sols -> In x sols ->
    Forall (acall_ok sols) calls -> length evs = length calls ->
    arun fuel t_end t tau x Fx times sols calls evs = Some (times', sols', calls', evs') ->
    length times' = length sols' /\ Forall (acall_ok sols') calls' /\ length evs' = length calls'.
  Proof.
    intros Hok. induction fuel as [|fuel IH]; intros * I1 I2 I3 I4 I5 H; simpl in H;
      destruct (Qle_bool t_end t); try discriminate; try (injection H as <- <- <- <-; auto).
    assert (Hc : Forall (acall_ok sols) (calls ++ [(x, tau, Fx)])).
    { apply Forall_snoc; [exact I4|]. split; assumption. }
    assert (He : forall e, length (evs ++ [e]) = length (calls ++ [(x, tau, Fx)])).
    { intros e. rewrite !last_length. f_equal. exact I5. }
    destruct (stepper x tau Fx) as [|xn [xh|] Fxn] eqn:E; [| |discriminate].
    - revert H. apply IH; auto.
    - destruct (Qle_bool _ 1); revert H; apply IH; auto.
      + eapply Fx_inv_step; eauto.
      + rewrite !last_length. congruence.
      + apply in_or_app. right. left. reflexivity.
      + apply acall_ok_mono. exact Hc.
  Qed.

  (* The stepper-driven loop refines the outcome-list model of Model.v, part 4: the events it
     appends drive [adaptive_loop], started in any state that agrees with the loop variables, to
     the same times and through the same step sizes. *)
  Definition sim (st : astate) (t tau : Q) (times : list Q) : Prop :=
    a_t st = t /\ a_tau st = tau /\ rev (a_times st) = times.

  Definition refines (t_end t tau : Q) (times : list Q) (calls : list (call X FX)) (evs : list event)
             (times' : list Q) (calls' : list (call X FX)) (evs' : list event) : Prop :=
    exists evs2, evs' = evs ++ evs2 /\
      forall st, sim st t tau times ->
        exists st', adaptive_loop t_end st evs2 = Some st' /\ rev (a_times st') = times' /\
                    map tau_of calls' = map tau_of calls ++ adaptive_taus t_end st evs2.

  Lemma refines_stop t_end t tau times calls evs :
    Qle_bool t_end t = true -> refines t_end t tau times calls evs times calls evs.
  Proof.
    intros Et. exists []. split; [symmetry; apply app_nil_r|]. intros st (H1 & _ & H3). exists st.
    simpl. rewrite H1, Et. split; [reflexivity|]. split; [exact H3|]. symmetry. apply app_nil_r.
  Qed.

  Lemma refines_step t_end t tau times calls evs e t1 tau1 times1 x Fx times' calls' evs' :
    Qle_bool t_end t = false ->
    (forall st, sim st t tau times -> sim (astep st e) t1 tau1 times1) ->
    refines t_end t1 tau1 times1 (calls ++ [(x, tau, Fx)]) (evs ++ [e]) times' calls' evs' ->
    refines t_end t tau times calls evs times' calls' evs'.
  Proof.
    intros Et Hsim (evs2 & He & Hst). exists (e :: evs2). split; [rewrite He, <- app_assoc; reflexivity|].
    intros st Hs. destruct (Hst _ (Hsim st Hs)) as (st' & A & B & C). destruct Hs as (H1 & H2 & _).
    exists st'. rewrite adaptive_loop_cons, adaptive_taus_cons by (rewrite H1; exact Et).
    split; [exact A|]. split; [exact B|]. rewrite C, map_last, <- app_assoc, H2. reflexivity.
  Qed.

  Lemma arun_refines : forall fuel t_end t tau x Fx times sols calls evs times' sols' calls' evs',
    arun fuel t_end t tau x Fx times sols calls evs = Some (times', sols', calls', evs') ->
    refines t_end t tau times calls evs times' calls' evs'.
  Proof.
    induction fuel as [|fuel IH]; intros * H; simpl in H;
      destruct (Qle_bool t_end t) eqn:Et; try discriminate;
      try (injection H as <- <- <- <-; apply refines_stop; exact Et).
    destruct (stepper x tau Fx) as [|xn [xh|] Fxn]; [| |discriminate].
    - apply IH in H. revert H. apply refines_step; [exact Et|].
      intros st (<- & <- & <-). repeat split.
    - set (r0 := ratio x xn xh) in *.
      destruct (Qle_bool (fix_r r0) 1) eqn:Er; apply IH in H; revert H; apply refines_step; try exact Et;
        intros st (<- & <- & <-); unfold astep; fold (fix_r r0); rewrite Er; repeat split.
  Qed.
End DriverStateProofs.
