(* C12 -- lemmas about Model3.v (controller and newton on extended values). *)
From Coq Require Import QArith List Lia Lqa.
From Verif.C12 Require Import Model Proofs Model3.
Import ListNotations.
Open Scope Q_scope.

(* min(5.0, max(0.2, q)) on a finite q, by where q lies *)
Lemma xclip_fin q :
  (q <= 1#5 /\ xclip (XFin q) = XFin (1#5)) \/
  ((1#5) < q /\ q < 5 /\ xclip (XFin q) = XFin q) \/
  (5 <= q /\ xclip (XFin q) = XFin 5).
Proof.
  unfold xclip, pymax, pymin. simpl.
  destruct (qlt (1#5) q) eqn:E1; simpl; [destruct (qlt q 5) eqn:E2|].
  - right; left. auto using qlt_true.
  - right; right. auto using qlt_false.
  - left. auto using qlt_false.
Qed.

(* the clamp: always a finite number in [1/5, 5]; and it is a fixed point of the finite clamp *)
Lemma xclip_total p :
  xclip p = XFin (xfac p) /\ (1#5) <= xfac p /\ xfac p <= 5 /\ clip_fac (xfac p) = xfac p.
Proof.
  destruct p as [q| | |]; [|vm_compute; repeat split; discriminate ..].
  unfold xfac.
  destruct (xclip_fin q) as [(H & ->)|[(H1 & H2 & ->)|(H & ->)]]; repeat split; try lra.
  unfold clip_fac, qmax, qmin. rewrite (qle_true (1#5) q), (qle_false 5 q) by lra. reflexivity.
Qed.

(* the extended controller takes exactly the steps of the finite one on the lowered outcomes *)
Lemma xastep_lower : forall st e, xastep st e = astep st (lower e).
Proof.
  intros st [|r praw]; [reflexivity|].
  destruct (xclip_total praw) as (_ & _ & _ & FP).
  unfold xastep, astep, lower, xaccepts, xfix_r. rewrite FP.
  destruct r as [q| | |]; simpl; try reflexivity.
  destruct (Qeq_bool q 0); reflexivity.
Qed.

Lemma xloop_lower : forall evs t_end st,
  xadaptive_loop t_end st evs = adaptive_loop t_end st (map lower evs).
Proof.
  induction evs as [|e evs IH]; intros; simpl; [reflexivity|].
  destruct (Qle_bool t_end (a_t st)); [reflexivity|]. rewrite xastep_lower. apply IH.
Qed.

Lemma xtaus_lower : forall evs t_end st,
  xadaptive_taus t_end st evs = adaptive_taus t_end st (map lower evs).
Proof.
  induction evs as [|e evs IH]; intros; simpl; [reflexivity|].
  destruct (Qle_bool t_end (a_t st)); [reflexivity|]. rewrite xastep_lower. f_equal. apply IH.
Qed.

Lemma xtimes_lower : forall t0 tau0 t_end evs,
  xadaptive_times t0 tau0 t_end evs = adaptive_times t0 tau0 t_end (map lower evs).
Proof. intros. unfold xadaptive_times, adaptive_times. rewrite xloop_lower. reflexivity. Qed.

(* one accepted/rejected flag per step size handed to the stepper *)
Lemma xaccepts_length_l : forall evs t_end st,
  length (xadaptive_accepts t_end st evs) = length (xadaptive_taus t_end st evs).
Proof.
  induction evs as [|e evs IH]; intros; simpl.
  - destruct (Qle_bool t_end (a_t st)); reflexivity.
  - destruct (Qle_bool t_end (a_t st)); [reflexivity|]. simpl. f_equal. apply IH.
Qed.

Fixpoint count_true (l : list bool) : nat :=
  match l with [] => 0%nat | b :: l' => ((if b then 1 else 0) + count_true l')%nat end.

(* every attempt flagged accepted appends one time, no other does *)
Lemma xadaptive_loop_times_length : forall evs t_end st st',
  xadaptive_loop t_end st evs = Some st' ->
  length (a_times st') = (length (a_times st) + count_true (xadaptive_accepts t_end st evs))%nat.
Proof.
  induction evs as [|e evs IH]; intros t_end st st' H; simpl in *;
    destruct (Qle_bool t_end (a_t st)); try discriminate; try (injection H as <-; simpl; lia).
  rewrite (IH _ _ _ H). destruct e as [|r praw]; simpl; [lia|].
  destruct (xaccepts r); simpl; lia.
Qed.

Lemma xlt_true_operands : forall a b, xlt a b = true -> a <> XNaN /\ a <> XPInf /\ b <> XNaN.
Proof. intros a b H. destruct a, b; simpl in H; try discriminate; repeat split; discriminate. Qed.

Lemma pymax_ge_first : forall a b, pymax (XFin a) b <> XNaN.
Proof.
  intros a b. unfold pymax. destruct (xlt (XFin a) b) eqn:E; [|discriminate].
  apply xlt_true_operands in E. tauto.
Qed.

Lemma xnewton_loop_result {V} (Fn : V -> V) Jsolve vsub xnorm freeze :
  forall fuel num_it target x jp y r,
  xnewton_loop V Fn Jsolve vsub xnorm freeze fuel num_it target x (Fn x) jp = Some (y, r) ->
  r = Fn y /\ xlt (xnorm (Fn y)) target = true.
Proof.
  induction fuel as [|fuel IH]; intros num_it target x jp y r H; simpl in H; [discriminate|].
  destruct (xlt (xnorm (Fn x)) target) eqn:E.
  - injection H as <- <-. split; [reflexivity|exact E].
  - eapply IH. exact H.
Qed.
Close Scope Q_scope.
