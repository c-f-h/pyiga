(* C12 -- property theorems only, each followed by Print Assumptions; the lemmas they rest on
   are in Proofs.v.

   Reading guide.  R is any commutative ring (Leibniz equality); the intended instance is the
   coordinate ring K^n with componentwise operations and the scalars (tau, a_ij, b_i) embedded
   as constant vectors, so that every vector operation of solvers.py is a ring operation.
   M, F, Minv, solve (Newton on one stage system), Jx (v |-> J(x) v) and Cinv are arbitrary
   functions; what is assumed of them is written as a premise of each theorem.
   [lin c v] is sum_j c_j v_j over the common length of c and v.

   The conjunct "each shipped tableau satisfies the order conditions of its documented order"
   is not in this file: it is re-proved on every run, by vm_compute, on the tables translated
   from the current solvers.py (coq/gen/C12_tab_<method>.v, see translate/tableaux.py), with
   the rounding allowance max(64 eps, 8*10^-d) * sum|terms|. *)
From Coq Require Import QArith List Ring_theory Lia Lqa.
From Verif.C12 Require Import Model Proofs.
Import ListNotations.
Open Scope nat_scope.

(* --- dirk_step: the stages satisfy the stage equations of the tableau, for every number of
   stages, every tableau (explicit first stage allowed), M, F, step size and solver:
     M y_i = M x + tau sum_{j<=i} a_ij F(y_j) + r_i ,   Fy_i = F(y_i),
   where r_i is the Newton residual of stage i (next theorem). *)
Theorem dirk_stage_equations :
  forall (R : Type) (rO rI : R) (radd rmul rsub : R -> R -> R) (ropp : R -> R),
  ring_theory rO rI radd rmul rsub ropp eq ->
  forall (isz : R -> bool) (M F Minv : R -> R) (solve : R -> R -> R -> R * R) (x tau : R) (Fx : option R),
  (forall a, isz a = true -> a = rO) ->
  (forall c rhs x0, snd (solve c rhs x0) = F (fst (solve c rhs x0))) ->
  (forall f, Fx = Some f -> f = F x) ->
  forall (A : list (list R)) (b : list R) (bhat : option (list R)) (is_sa : bool)
         (xn : R) (xe Fxn : option R) (ys Fy rs : list R),
  dirk_step R rO radd rmul rsub isz M F Minv solve x tau Fx A b bhat is_sa = Some (xn, xe, Fxn, (ys, Fy, rs)) ->
  length ys = length A /\ length rs = length A /\ Fy = map F ys /\
  forall i, i < length A ->
    M (nth i ys rO) =
    radd (radd (M x) (rmul tau (lin R rO radd rmul (nth i A []) (firstn (S i) (map F ys))))) (nth i rs rO).
Proof.
  intros * Rth * Hz Hs HFx * H.
  eapply dirk_step_some in H as ((Hly & Hlr & Hst) & HFy & _); eauto.
  repeat split; auto. intros i Hi. apply (Hst i Hi).
Qed.
Print Assumptions dirk_stage_equations.

(* r_i is exactly the value at the returned y_i of the function handed to Newton in stage i
   (so |r_i| < Newton's target by newton_result); the explicit stage has y_0 = x, r_0 = 0. *)
Theorem dirk_residual_is_newton_residual :
  forall (R : Type) (rO rI : R) (radd rmul rsub : R -> R -> R) (ropp : R -> R),
  ring_theory rO rI radd rmul rsub ropp eq ->
  forall (isz : R -> bool) (M F Minv : R -> R) (solve : R -> R -> R -> R * R) (x tau : R) (Fx : option R),
  (forall a, isz a = true -> a = rO) ->
  (forall c rhs x0, snd (solve c rhs x0) = F (fst (solve c rhs x0))) ->
  (forall f, Fx = Some f -> f = F x) ->
  forall (A : list (list R)) (b : list R) (bhat : option (list R)) (is_sa : bool)
         (xn : R) (xe Fxn : option R) (ys Fy rs : list R),
  dirk_step R rO radd rmul rsub isz M F Minv solve x tau Fx A b bhat is_sa = Some (xn, xe, Fxn, (ys, Fy, rs)) ->
  forall i, i < length A ->
    let a_ii := nth i (nth i A []) rO in
    let rhs := radd (M x) (rmul tau (lin R rO radd rmul (nth i A []) (firstn i (map F ys)))) in
    (isz a_ii = true /\ i = 0 /\ nth i ys rO = x /\ nth i rs rO = rO)
    \/ (isz a_ii = false
        /\ nth i rs rO = newton_F R rmul rsub M F (rmul tau a_ii) rhs (nth i ys rO)
        /\ exists x0, fst (solve (rmul tau a_ii) rhs x0) = nth i ys rO).
Proof.
  intros * Rth * Hz Hs HFx * H i Hi.
  eapply dirk_step_some in H as ((_ & _ & Hst) & _); eauto. apply (Hst i Hi).
Qed.
Print Assumptions dirk_residual_is_newton_residual.

(* the update without the stiffly-accurate shortcut:  M x_new = M x + tau sum b_i F(y_i) *)
Theorem dirk_update_equation :
  forall (R : Type) (rO rI : R) (radd rmul rsub : R -> R -> R) (ropp : R -> R),
  ring_theory rO rI radd rmul rsub ropp eq ->
  forall (isz : R -> bool) (M F Minv : R -> R) (solve : R -> R -> R -> R * R) (x tau : R) (Fx : option R),
  (forall a, isz a = true -> a = rO) ->
  (forall c rhs x0, snd (solve c rhs x0) = F (fst (solve c rhs x0))) ->
  (forall f, Fx = Some f -> f = F x) ->
  (forall v, M (Minv v) = v) ->
  forall (A : list (list R)) (b : list R) (bhat : option (list R)) (xn : R) (xe Fxn : option R) (ys Fy rs : list R),
  dirk_step R rO radd rmul rsub isz M F Minv solve x tau Fx A b bhat false = Some (xn, xe, Fxn, (ys, Fy, rs)) ->
  M xn = radd (M x) (rmul tau (lin R rO radd rmul b (map F ys))) /\ Fxn = None.
Proof.
  intros * Rth * Hz Hs HFx HM * H.
  eapply dirk_step_some in H as (_ & -> & -> & _ & ->); eauto.
Qed.
Print Assumptions dirk_update_equation.

(* the embedded estimate:  M x_est = M x + tau sum bhat_i F(y_i) *)
Theorem dirk_embedded_equation :
  forall (R : Type) (rO rI : R) (radd rmul rsub : R -> R -> R) (ropp : R -> R),
  ring_theory rO rI radd rmul rsub ropp eq ->
  forall (isz : R -> bool) (M F Minv : R -> R) (solve : R -> R -> R -> R * R) (x tau : R) (Fx : option R),
  (forall a, isz a = true -> a = rO) ->
  (forall c rhs x0, snd (solve c rhs x0) = F (fst (solve c rhs x0))) ->
  (forall f, Fx = Some f -> f = F x) ->
  (forall v, M (Minv v) = v) ->
  forall (A : list (list R)) (b bh : list R) (is_sa : bool) (xn : R) (xe Fxn : option R) (ys Fy rs : list R),
  dirk_step R rO radd rmul rsub isz M F Minv solve x tau Fx A b (Some bh) is_sa = Some (xn, xe, Fxn, (ys, Fy, rs)) ->
  exists xh, xe = Some xh /\ M xh = radd (M x) (rmul tau (lin R rO radd rmul bh (map F ys))).
Proof.
  intros * Rth * Hz Hs HFx HM * H.
  eapply dirk_step_some in H as (_ & -> & _ & -> & _); eauto. simpl. eauto.
Qed.
Print Assumptions dirk_embedded_equation.

(* the stiffly-accurate shortcut x_new = y_s: when b is the last row of A it satisfies the
   same update equation up to the last Newton residual, and the value handed to the next
   step as Fx is F(x_new) (so the premise on Fx is re-established for the next step). *)
Theorem dirk_stiffly_accurate_shortcut :
  forall (R : Type) (rO rI : R) (radd rmul rsub : R -> R -> R) (ropp : R -> R),
  ring_theory rO rI radd rmul rsub ropp eq ->
  forall (isz : R -> bool) (M F Minv : R -> R) (solve : R -> R -> R -> R * R) (x tau : R) (Fx : option R),
  (forall a, isz a = true -> a = rO) ->
  (forall c rhs x0, snd (solve c rhs x0) = F (fst (solve c rhs x0))) ->
  (forall f, Fx = Some f -> f = F x) ->
  forall (A : list (list R)) (b : list R) (bhat : option (list R)) (xn : R) (xe Fxn : option R) (ys Fy rs : list R),
  A <> [] -> b = last A [] ->
  dirk_step R rO radd rmul rsub isz M F Minv solve x tau Fx A b bhat true = Some (xn, xe, Fxn, (ys, Fy, rs)) ->
  M xn = radd (radd (M x) (rmul tau (lin R rO radd rmul b (map F ys)))) (last rs rO) /\ Fxn = Some (F xn).
Proof.
  intros * Rth * Hz Hs HFx * HA -> H.
  eapply dirk_step_some in H as (Hinv & -> & -> & _ & ->); eauto.
  eapply dirk_inv_last in Hinv as [E1 E2]; eauto. rewrite E2. auto.
Qed.
Print Assumptions dirk_stiffly_accurate_shortcut.

(* y' = M^-1 c: one step adds tau (sum b) M^-1 c, i.e. it is exact iff sum b = 1 *)
Theorem dirk_const_rhs_exact_iff_consistent :
  forall (R : Type) (rO rI : R) (radd rmul rsub : R -> R -> R) (ropp : R -> R),
  ring_theory rO rI radd rmul rsub ropp eq ->
  forall (isz : R -> bool) (M F Minv : R -> R) (solve : R -> R -> R -> R * R) (x tau : R) (Fx : option R),
  (forall a, isz a = true -> a = rO) ->
  (forall c rhs x0, snd (solve c rhs x0) = F (fst (solve c rhs x0))) ->
  (forall f, Fx = Some f -> f = F x) ->
  (forall v, M (Minv v) = v) ->
  forall (c : R) (A : list (list R)) (b : list R) (bhat : option (list R)) (xn : R) (xe Fxn : option R) (ys Fy rs : list R),
  (forall z, F z = c) -> length b = length A ->
  dirk_step R rO radd rmul rsub isz M F Minv solve x tau Fx A b bhat false = Some (xn, xe, Fxn, (ys, Fy, rs)) ->
  M xn = radd (M x) (rmul tau (rmul (fold_right radd rO b) c)).
Proof.
  intros * Rth * Hz Hs HFx HM * Hc Hl H.
  eapply dirk_step_some in H as ((Hly & _) & -> & -> & _); eauto.
  rewrite HM. erewrite lin_map_const; eauto. congruence.
Qed.
Print Assumptions dirk_const_rhs_exact_iff_consistent.

(* --- rosenbrock_step, as the code computes it:
     M k_i = F(x + tau sum_{j<i} a_ij k_j) + tau J w_i + tau gamma J k_i,
     w_i = sum_{j<i} gamma_ij k_j (absent for i = 0),  x_new = x + tau sum b_i k_i, x_est likewise *)
Theorem rosenbrock_stage_equations :
  forall (R : Type) (rO rI : R) (radd rmul rsub : R -> R -> R) (ropp : R -> R),
  ring_theory rO rI radd rmul rsub ropp eq ->
  forall (M F : R -> R) (x tau : R) (Jx Cinv : R -> R) (gam : R),
  (forall v, rsub (M (Cinv v)) (rmul (rmul tau gam) (Jx (Cinv v))) = v) ->
  forall (A G : list (list R)) (b : list R) (bhat : option (list R)) (xn : R) (xe : option R) (ks : list R),
  length A = length G ->
  ros_step R rO radd rmul F x tau Jx Cinv A G b bhat = (xn, xe, ks) ->
  length ks = length A /\
  (forall i, i < length A ->
     M (nth i ks rO) =
     radd (radd (F (radd x (rmul tau (lin R rO radd rmul (nth i A []) (firstn i ks)))))
                (rmul tau (match i with 0 => rO | S _ => Jx (lin R rO radd rmul (nth i G []) (firstn i ks)) end)))
          (rmul (rmul tau gam) (Jx (nth i ks rO)))) /\
  xn = radd x (rmul tau (lin R rO radd rmul b ks)) /\
  match bhat with
  | Some bh => xe = Some (radd x (rmul tau (lin R rO radd rmul bh ks)))
  | None => xe = None
  end.
Proof.
  intros * Rth * HC * HAG H. unfold ros_step in H. injection H as Hxn Hxe Hks.
  rewrite Hks in Hxn, Hxe. subst xn xe.
  eapply ros_stages_ok in Hks as [Hl Hok]; eauto.
  repeat split; auto. destruct bhat; reflexivity.
Qed.
Print Assumptions rosenbrock_stage_equations.

(* with a linear Jacobian product and Gamma[i,i] = gamma (the assumption written in the code)
   this is the textbook form  M k_i = F(y_i) + tau J sum_{j<=i} gamma_ij k_j *)
Theorem rosenbrock_stage_equations_combined :
  forall (R : Type) (rO rI : R) (radd rmul rsub : R -> R -> R) (ropp : R -> R),
  ring_theory rO rI radd rmul rsub ropp eq ->
  forall (M F : R -> R) (x tau : R) (Jx Cinv : R -> R) (gam : R),
  (forall v, rsub (M (Cinv v)) (rmul (rmul tau gam) (Jx (Cinv v))) = v) ->
  (forall u v, Jx (radd u (rmul gam v)) = radd (Jx u) (rmul gam (Jx v))) ->
  Jx rO = rO ->
  forall (A G : list (list R)) (b : list R) (bhat : option (list R)) (xn : R) (xe : option R) (ks : list R),
  length A = length G ->
  (forall i, i < length G -> nth i (nth i G []) rO = gam) ->
  ros_step R rO radd rmul F x tau Jx Cinv A G b bhat = (xn, xe, ks) ->
  forall i, i < length A ->
    M (nth i ks rO) =
    radd (F (radd x (rmul tau (lin R rO radd rmul (nth i A []) (firstn i ks)))))
         (rmul tau (Jx (lin R rO radd rmul (nth i G []) (firstn (S i) ks)))).
Proof.
  intros * Rth * HC HJl HJ0 * HAG Hdiag H i Hi.
  eapply rosenbrock_stage_equations in H as (Hl & Hok & _); eauto.
  eapply ros_ok_combined; eauto; [congruence| |apply Hok; exact Hi]. apply Hdiag. congruence.
Qed.
Print Assumptions rosenbrock_stage_equations_combined.

(* y' = M^-1 c (J = 0): every stage has M k_i = c, x_new = x + tau sum b_i k_i *)
Theorem rosenbrock_const_rhs :
  forall (R : Type) (rO rI : R) (radd rmul rsub : R -> R -> R) (ropp : R -> R),
  ring_theory rO rI radd rmul rsub ropp eq ->
  forall (M F : R -> R) (x tau : R) (Jx Cinv : R -> R) (gam : R),
  (forall v, rsub (M (Cinv v)) (rmul (rmul tau gam) (Jx (Cinv v))) = v) ->
  forall (c : R) (A G : list (list R)) (b : list R) (bhat : option (list R)) (xn : R) (xe : option R) (ks : list R),
  length A = length G -> length b = length A ->
  ros_step R rO radd rmul F x tau Jx Cinv A G b bhat = (xn, xe, ks) ->
  (forall z, Jx z = rO) -> (forall z, F z = c) ->
  (forall i, i < length ks -> M (nth i ks rO) = c) /\ xn = radd x (rmul tau (lin R rO radd rmul b ks)).
Proof.
  intros * Rth * HC * HAG Hb H HJ HF.
  eapply rosenbrock_stage_equations in H as (Hl & Hok & Hx & _); eauto.
  split; [|exact Hx]. intros i Hi. eapply ros_ok_const; eauto. apply Hok. congruence.
Qed.
Print Assumptions rosenbrock_const_rhs.

(* --- newton: a returned point is the last point at which the residual was evaluated, its
   residual norm is below max(atol, rtol*|F(x0)|), and it is one of the maxiter iterates *)
Theorem newton_result :
  forall (V : Type) (Fn : V -> V) (Jsolve vsub : V -> V -> V) (norm : V -> Q) (atol rtol : Q)
         (freeze maxiter : nat) (x0 y res : V),
  newton V Fn Jsolve vsub norm atol rtol freeze maxiter x0 = Some (y, res) ->
  res = Fn y /\ (norm (Fn y) < newton_target V Fn norm atol rtol x0)%Q /\
  In y (newton_iterates V Fn Jsolve vsub freeze maxiter 0 x0 x0).
Proof. intros *. apply newton_loop_some. Qed.
Print Assumptions newton_result.

(* ... otherwise it raises, and then none of the maxiter iterates met the tolerance *)
Theorem newton_raises_otherwise :
  forall (V : Type) (Fn : V -> V) (Jsolve vsub : V -> V -> V) (norm : V -> Q) (atol rtol : Q)
         (freeze maxiter : nat) (x0 : V),
  newton V Fn Jsolve vsub norm atol rtol freeze maxiter x0 = None ->
  length (newton_iterates V Fn Jsolve vsub freeze maxiter 0 x0 x0) = maxiter /\
  forall y, In y (newton_iterates V Fn Jsolve vsub freeze maxiter 0 x0 x0) ->
            (newton_target V Fn norm atol rtol x0 <= norm (Fn y))%Q.
Proof. intros *. apply newton_loop_none. Qed.
Print Assumptions newton_raises_otherwise.

Theorem newton_target_is_max :
  forall (V : Type) (Fn : V -> V) (norm : V -> Q) (atol rtol : Q) (x0 : V),
  (atol <= newton_target V Fn norm atol rtol x0)%Q /\
  (rtol * norm (Fn x0) <= newton_target V Fn norm atol rtol x0)%Q.
Proof.
  intros. destruct (qmax_spec atol (rtol * norm (Fn x0))) as (A & B & _). split; [exact A|exact B].
Qed.
Print Assumptions newton_target_is_max.

(* --- constant-step driver: one time per state, times t0 + k tau, k = 0..ceil((t_end-t0)/tau) *)
Theorem constant_driver_times :
  forall t0 tau quot,
  length (const_times t0 tau quot (fun _ => false)) = S (const_num_iter quot) /\
  forall k, k <= const_num_iter quot ->
    (nth k (const_times t0 tau quot (fun _ => false)) 0%Q == t0 + inject_Z (Z.of_nat k) * tau)%Q.
Proof.
  intros t0 tau quot. unfold const_times. split.
  - simpl. rewrite const_times_from_length. reflexivity.
  - intros [|k] Hk; simpl nth; [ring|]. rewrite const_times_from_nth by lia. reflexivity.
Qed.
Print Assumptions constant_driver_times.

(* a Newton failure returns a non-empty prefix of those times (partial results) *)
Theorem constant_driver_partial :
  forall t0 tau quot fails,
  exists m, 1 <= m <= S (const_num_iter quot) /\
    const_times t0 tau quot fails = firstn m (const_times t0 tau quot (fun _ => false)).
Proof.
  intros. destruct (const_times_from_prefix (const_num_iter quot) t0 tau 0 fails) as (m & Hm & E).
  exists (S m). split; [lia|]. unfold const_times. simpl. rewrite E. reflexivity.
Qed.
Print Assumptions constant_driver_partial.

(* in exact arithmetic the last time reaches t_end and the one before it does not *)
Theorem constant_driver_reaches_end :
  forall t0 tau t_end quot,
  (0 < tau)%Q -> (quot == (t_end - t0) / tau)%Q -> (t0 <= t_end)%Q ->
  let n := const_num_iter quot in
  (t_end <= t0 + inject_Z (Z.of_nat n) * tau)%Q /\
  (1 <= n -> (t0 + inject_Z (Z.of_nat (n - 1)) * tau < t_end)%Q).
Proof.
  intros * Htau Hq Hle n. subst n.
  destruct (const_num_iter_bounds quot) as [B1 B2].
  { rewrite Hq. apply Qle_shift_div_l; [exact Htau|lra]. }
  assert (Hmul : (quot * tau == t_end - t0)%Q) by (rewrite Hq; field; lra).
  split; [|intros H1; specialize (B2 H1)].
  - apply (Qmult_le_compat_r _ _ tau) in B1; lra.
  - apply (Qmult_lt_compat_r _ _ tau) in B2; lra.
Qed.
Print Assumptions constant_driver_reaches_end.

(* --- adaptive driver, for every sequence of stepper outcomes (error ratios, Newton failures)
   and every value of the real power step_factor * r^(-1/q): if the loop terminates, the times
   are strictly increasing, start at t0 and the last one is >= t_end *)
Theorem adaptive_driver_times :
  forall t0 tau0 t_end evs ts,
  (0 < tau0)%Q -> adaptive_times t0 tau0 t_end evs = Some ts ->
  increasing ts /\ hd 0%Q ts = t0 /\ (t_end <= last ts 0)%Q.
Proof.
  unfold adaptive_times. intros * Htau H.
  destruct (adaptive_loop _ _ _) as [st|] eqn:E; [|discriminate]. injection H as <-.
  apply (adaptive_loop_ainv t0) in E as [Hinv Hend]; [|apply adaptive_init_inv; exact Htau].
  destruct (ainv_times _ _ Hinv) as (A & B & C). rewrite C. auto.
Qed.
Print Assumptions adaptive_driver_times.

(* only steps that pass the scaled error test r <= 1 are accepted (with a positive step),
   one returned time per accepted step, and the times are the partial sums of those steps *)
Theorem adaptive_driver_accepts_only_passing :
  forall t0 tau0 t_end evs st,
  (0 < tau0)%Q -> adaptive_loop t_end (adaptive_init t0 tau0) evs = Some st ->
  Forall (fun p => (snd p <= 1)%Q /\ (0 < fst p)%Q) (a_log st) /\
  length (a_times st) = S (length (a_log st)) /\
  rev (a_times st) = psums t0 (rev (map fst (a_log st))).
Proof.
  intros * Htau H. apply (adaptive_loop_ainv t0) in H as [(_ & A & _ & B & C) _]; [auto|apply adaptive_init_inv; exact Htau].
Qed.
Print Assumptions adaptive_driver_accepts_only_passing.

(* consecutive step sizes handed to the stepper differ by a factor within [0.2, 5] *)
Theorem adaptive_driver_step_factor_bounds :
  forall evs t_end st k,
  S k < length (adaptive_taus t_end st evs) ->
  exists f, (nth (S k) (adaptive_taus t_end st evs) 0%Q == nth k (adaptive_taus t_end st evs) 0%Q * f)%Q
            /\ ((1#5) <= f)%Q /\ (f <= 5)%Q.
Proof.
  intros * Hk. destruct (adaptive_taus_succ _ _ _ _ Hk) as (st' & e & -> & ->). apply astep_factor.
Qed.
Print Assumptions adaptive_driver_step_factor_bounds.

(* NOT PROVED -- clause-by-clause account of the property text (properties.jsonl, C12).  Theorems
   are in this file, in Props2.v and in Props3.v.

   1. "one step of each DIRK and Rosenbrock integrator satisfies the stage equations of its
      coefficient tableau (to the Newton tolerance for nonlinear problems)"
      THEOREMS: dirk_stage_equations, dirk_residual_is_newton_residual, dirk_update_equation,
      dirk_embedded_equation, dirk_stiffly_accurate_shortcut, rosenbrock_stage_equations[_combined];
      through the drivers: constant_driver_states, adaptive_driver_states (Props2.v: every call gets
      the current state and Fx = None or F(state)).
      WITHOUT THEOREM: (a) that the stage solver of the model IS newton applied to newton_F -- the
      two are separate models; the link "solve returns (y, F(y)) with |newton_F(y)| < target" is
      the premise solve_Fz plus newton_result, composed on paper, and checked on the implementation
      by recording every Newton call of every stage (stage residual oracle);  (b) the premise
      b = last row of A of the shortcut is what np.allclose tests only up to 1e-8 relative: for a
      user tableau with b within that distance of, but different from, the last row the shortcut
      is taken and the update equation holds only up to tau*|b - A_s|*|F|; not bounded by a theorem;
      (c) floating point: all theorems are over an exact ring; rounding is bounded in the tie.
   2. "each shipped tableau satisfies the algebraic order conditions for the order it is documented
      to have, for main and embedded weights"
      BOUNDED ONLY: vm_compute on the 12 translated tables on every run (coq/gen/C12_tab_*.v), up to
      the allowance max(64 eps, 8*10^-d) sum|terms| for the truncated literals, orders <= 4.  No
      theorem that the order conditions imply the order of convergence (the B-series argument), and
      dirk34 is refuted (open finding, generated refutation obligation).
   3. "so that y' = const is integrated exactly"
      THEOREMS: dirk_const_rhs_exact_iff_consistent, dirk_const_rhs_exact (both code paths),
      rosenbrock_const_rhs, rosenbrock_const_rhs_update, rosenbrock_const_rhs_exact, and over a whole
      constant-step run constant_driver_states (last conjunct).  Premise: exact stage solves
      (Newton residuals zero); with Newton's tolerance the statement holds up to the residuals
      (dirk_stage_equations), not stated as a separate theorem.
   4. "Constant-step drivers return times t0+k*tau with one state per time"
      THEOREMS: constant_driver_times, constant_driver_partial, constant_driver_reaches_end,
      constant_driver_states.  WITHOUT THEOREM: num_iter is ceil of the FLOAT quotient (may add one
      step); the tie passes the float quotient to the model.
   5. "adaptive drivers return strictly increasing times that reach the end time, accept only steps
      passing the scaled error test and change the step by factors within the safety bounds"
      THEOREMS: adaptive_driver_times, adaptive_driver_accepts_only_passing,
      adaptive_driver_step_factor_bounds (for every outcome sequence), adaptive_driver_states (the
      stepper-driven loop refines the outcome-list model); for outcomes with NaN/inf error ratio or
      raw factor their *_nonfinite counterparts (Props3.v).
      WITHOUT THEOREM: adaptive_driver_terminates -- that the while loop terminates.  It needs a
      lower bound on the accepted step sizes, which depends on the error estimator of the concrete
      problem (r <= 1 must eventually hold when tau shrinks); the code has no iteration cap, so
      termination is not a property of the driver alone.  All adaptive theorems are stated for runs
      that return.  Also without theorem: the value of r (norm of the scaled difference) and of
      step_factor * r**(-1/q) are inputs of the model (a real power), and "strictly increasing" is
      over Q: in floating point t + tau = t is possible for tau < ulp(t) (not excluded by the code).
   6. "Newton's method returns only points whose residual meets its tolerance and otherwise raises"
      THEOREMS: newton_result, newton_raises_otherwise, newton_target_is_max; with a residual norm
      that may be NaN/inf (every comparison false: never returned, runs to maxiter and raises)
      newton_result_nonfinite, newton_target_of_nan_is_atol, newton_all_nan_raises (Props3.v).
      Nothing open for the model. *)
