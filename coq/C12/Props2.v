(* C12 -- property theorems, second file, each followed by Print Assumptions; lemmas in Proofs.v
   and Proofs2.v.  Reading guide as in Props.v.

   A. "so that y' = const is integrated exactly": every tableau with sum b = 1, on every code
      path of dirk_step (with and without the stiffly-accurate shortcut) and for rosenbrock_step.
   B. The drivers WITH their state (Model2.v): what every call of the step function receives --
      in particular the cached right-hand side Fx, which dirk_step uses as F(x) in an explicit
      first stage -- for every step function, every outcome sequence, accepted, rejected and failed
      attempts alike; and the stepper-driven adaptive loop refines the outcome-list model of
      Model.v, so that the theorems adaptive_driver_* of Props.v hold of it. *)
From Coq Require Import QArith List Ring_theory Lia.
From Verif.C12 Require Import Model Model2 Proofs Props Proofs2.
Import ListNotations.
Open Scope nat_scope.

(* A1. dirk_step, any is_sa: a consistent tableau (sum b = 1) whose stage systems are solved exactly
   (all Newton residuals zero) integrates y' = M^-1 c exactly: M x_new = M x + tau c.  On the
   shortcut path the premise is the one the code tests (b is the last row of A). *)
Theorem dirk_const_rhs_exact :
  forall (R : Type) (rO rI : R) (radd rmul rsub : R -> R -> R) (ropp : R -> R),
  ring_theory rO rI radd rmul rsub ropp eq ->
  forall (isz : R -> bool) (M F Minv : R -> R) (solve : R -> R -> R -> R * R) (x tau : R) (Fx : option R),
  (forall a, isz a = true -> a = rO) ->
  (forall c rhs x0, snd (solve c rhs x0) = F (fst (solve c rhs x0))) ->
  (forall f, Fx = Some f -> f = F x) ->
  (forall v, M (Minv v) = v) ->
  forall (c : R) (A : list (list R)) (b : list R) (bhat : option (list R)) (is_sa : bool)
         (xn : R) (xe Fxn : option R) (ys Fy rs : list R),
  (forall z, F z = c) -> length b = length A -> fold_right radd rO b = rI ->
  (is_sa = true -> A <> [] /\ b = last A []) ->
  (forall r, In r rs -> r = rO) ->
  dirk_step R rO radd rmul rsub isz M F Minv solve x tau Fx A b bhat is_sa = Some (xn, xe, Fxn, (ys, Fy, rs)) ->
  M xn = radd (M x) (rmul tau c).
Proof.
  intros * Rth * Hz Hs HFx HM * Hc Hl Hsum Hsa Hres H.
  eapply dirk_step_some in H as (Hinv & -> & -> & _); eauto.
  (* with F = c and sum b = 1 the weighted stage sum is c; the shortcut path adds the last
     residual, which vanishes *)
  assert (Hlin : lin R rO radd rmul b (map F ys) = c).
  { erewrite lin_map_const; eauto; [|destruct Hinv; congruence]. rewrite Hsum. apply (Rmul_1_l Rth). }
  destruct is_sa; [|rewrite HM, Hlin; reflexivity].
  destruct (Hsa eq_refl) as [HA ->]. eapply dirk_inv_last in Hinv as [-> _]; eauto.
  replace (last rs rO) with rO; [rewrite Hlin; eapply radd_0_r; eauto|].
  destruct rs; [reflexivity|]. symmetry. apply Hres, last_in. discriminate.
Qed.
Print Assumptions dirk_const_rhs_exact.

(* A2. rosenbrock_step with a linearly acting mass matrix, constant F (so J = 0):
   M x_new = M x + tau (sum b) c for any weights ... *)
Theorem rosenbrock_const_rhs_update :
  forall (R : Type) (rO rI : R) (radd rmul rsub : R -> R -> R) (ropp : R -> R),
  ring_theory rO rI radd rmul rsub ropp eq ->
  forall (M F : R -> R) (x tau : R) (Jx Cinv : R -> R) (gam : R),
  (forall v, rsub (M (Cinv v)) (rmul (rmul tau gam) (Jx (Cinv v))) = v) ->
  (forall u v, M (radd u v) = radd (M u) (M v)) ->
  forall (c : R) (A G : list (list R)) (b : list R) (bhat : option (list R)) (xn : R) (xe : option R) (ks : list R),
  length A = length G -> length b = length A ->
  (forall v, M (rmul tau v) = rmul tau (M v)) ->
  (forall s v, In s b -> M (rmul s v) = rmul s (M v)) ->
  ros_step R rO radd rmul F x tau Jx Cinv A G b bhat = (xn, xe, ks) ->
  (forall z, Jx z = rO) -> (forall z, F z = c) ->
  M xn = radd (M x) (rmul tau (rmul (fold_right radd rO b) c)).
Proof.
  intros * Rth * HC Madd * HAG Hb Mtau Mb H HJ HF.
  eapply rosenbrock_stage_equations in H as (Hl & Hok & -> & _); eauto.
  rewrite Madd, Mtau. erewrite additive_lin, lin_map_const; eauto; [congruence|].
  intros k Hk. destruct (In_nth _ _ rO Hk) as (i & Hi & <-).
  eapply ros_ok_const; eauto. apply Hok. congruence.
Qed.
Print Assumptions rosenbrock_const_rhs_update.

(* ... hence exactly M x + tau c for a consistent tableau *)
Theorem rosenbrock_const_rhs_exact :
  forall (R : Type) (rO rI : R) (radd rmul rsub : R -> R -> R) (ropp : R -> R),
  ring_theory rO rI radd rmul rsub ropp eq ->
  forall (M F : R -> R) (x tau : R) (Jx Cinv : R -> R) (gam : R),
  (forall v, rsub (M (Cinv v)) (rmul (rmul tau gam) (Jx (Cinv v))) = v) ->
  (forall u v, M (radd u v) = radd (M u) (M v)) ->
  forall (c : R) (A G : list (list R)) (b : list R) (bhat : option (list R)) (xn : R) (xe : option R) (ks : list R),
  length A = length G -> length b = length A -> fold_right radd rO b = rI ->
  (forall v, M (rmul tau v) = rmul tau (M v)) ->
  (forall s v, In s b -> M (rmul s v) = rmul s (M v)) ->
  ros_step R rO radd rmul F x tau Jx Cinv A G b bhat = (xn, xe, ks) ->
  (forall z, Jx z = rO) -> (forall z, F z = c) ->
  M xn = radd (M x) (rmul tau c).
Proof.
  intros * Rth * HC Madd * HAG Hb Hsum Mtau Mb H HJ HF.
  erewrite rosenbrock_const_rhs_update; eauto. rewrite Hsum, (Rmul_1_l Rth). reflexivity.
Qed.
Print Assumptions rosenbrock_const_rhs_exact.

(* B1. _constant_step_method with its state, for every step function that returns F(x_new) or
   None as third component: one state per time; every call starts from the previously returned
   state (call k from solutions[k]) with the step size tau and a cached Fx that is None or
   F(that state); a failing call ends the run with the states so far; times t0 + k tau; and if
   every step adds d to phi (A1/A2: phi = M ., d = tau c) then phi(solutions[k]) = phi(x0) + k d:
   y' = M^-1 c is integrated exactly over the whole run. *)
Theorem constant_driver_states :
  forall (X FX : Type) (stepper : X -> Q -> option FX -> sres X FX) (Fof : X -> FX)
         (G : Type) (gadd : G -> G -> G) (phi : X -> G) (d : G),
  stepper_ok X FX stepper Fof ->
  forall (t0 tau quot : Q) (x0 : X) (times : list Q) (sols : list X) (calls : list (call X FX)),
  const_run X FX stepper t0 tau quot x0 = (times, sols, calls) ->
  length times = length sols /\ 1 <= length sols <= S (const_num_iter quot) /\
  Forall (fun c => Fx_inv X FX Fof (fst (fst c)) (snd c)) calls /\
  Forall (fun c => snd (fst c) = tau) calls /\
  map (fun c => fst (fst c)) calls = firstn (length calls) sols /\
  (length calls = length sols - 1 \/
   (length calls = length sols /\
    exists c, last calls c = c /\ In c calls /\ stepper (fst (fst c)) tau (snd c) = SFail)) /\
  nth 0 times 0%Q = t0 /\
  (forall k, 1 <= k < length times -> nth k times 0%Q = (t0 + inject_Z (Z.of_nat k) * tau)%Q) /\
  (step_adds X FX stepper Fof G gadd phi d ->
   forall k, k < length sols -> phi (nth k sols x0) = Nat.iter k (fun u => gadd u d) (phi x0)).
Proof.
  intros * Hok * H.
  eapply crun_inv with (calls := []) (m := const_num_iter quot); [exact Hok|apply cinv_init| |exact H].
  simpl. lia.
Qed.
Print Assumptions constant_driver_states.

(* B2. _adaptive_step_method with its state, for every step function (contract as above), error
   ratio function, value of the real power, and every number of loop iterations: if the loop
   returns, there is one state per time; EVERY call of the step function -- also after rejected
   steps and Newton failures -- received one of the returned states together with a cached Fx
   that is None or F(that state); and the run is an instance of the outcome-list model: its
   times are [adaptive_times] and its step sizes [adaptive_taus] of the outcomes it produced, so
   adaptive_driver_times / _accepts_only_passing / _step_factor_bounds (Props.v) apply to it. *)
Theorem adaptive_driver_states :
  forall (X FX : Type) (stepper : X -> Q -> option FX -> sres X FX) (Fof : X -> FX)
         (ratio : X -> X -> X -> Q) (powf : Q -> Q),
  stepper_ok X FX stepper Fof ->
  forall (fuel : nat) (t0 tau0 t_end : Q) (x0 : X) (times : list Q) (sols : list X)
         (calls : list (call X FX)) (evs : list event),
  adaptive_run X FX stepper ratio powf fuel t0 tau0 t_end x0 = Some (times, sols, calls, evs) ->
  length times = length sols /\
  Forall (fun c : call X FX => Fx_inv X FX Fof (fst (fst c)) (snd c) /\ In (fst (fst c)) sols) calls /\
  length evs = length calls /\
  adaptive_times t0 tau0 t_end evs = Some times /\
  map (fun c : call X FX => snd (fst c)) calls = adaptive_taus t_end (adaptive_init t0 tau0) evs.
Proof.
  intros * Hok * H. unfold adaptive_run in H.
  pose proof H as Hr. apply arun_refines in Hr as (evs2 & He & Hst). simpl in He. subst evs2.
  destruct (Hst (adaptive_init t0 tau0)) as (st' & L & T & U); [repeat split|].
  eapply arun_inv in H as (A & B & C); eauto; [|apply Fx_inv_none|left; reflexivity].
  unfold adaptive_times. rewrite L, T. auto.
Qed.
Print Assumptions adaptive_driver_states.
