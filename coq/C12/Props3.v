(* C12 -- property theorems, third file: the adaptive step-size controller and Newton's test on
   NON-FINITE values (Model3.v).  Each theorem is followed by Print Assumptions; lemmas in
   Proofs3.v.  C7-C10 are the theorems of Props.v carried over along the refinement C6.

   A trial step of an adaptive method may return NaN/inf (right-hand side outside its domain, e.g.
   h' = -k sqrt(h) with a far too large tau0; overflow).  Then the error ratio r and the raw factor
   step_factor * r**(-1/q) are NaN/inf.  [xq] = finite rational | +inf | -inf | NaN; the
   comparisons [xlt], [xle], [xeq] are False on NaN; [pymax]/[pymin] transcribe Python's BUILTIN
   max/min ("the first argument unless the second is strictly greater/smaller"), which is what
   solvers.py:526 calls.  The theorems hold for EVERY outcome list, NaN/inf outcomes included. *)
From Coq Require Import QArith List Lqa.
From Verif.C12 Require Import Model Proofs Props Model3 Proofs3.
Import ListNotations.
Open Scope nat_scope.

(* C1. fac = min(5.0, max(0.2, fac)) is a finite number in [0.2, 5] for EVERY raw factor, NaN and
   +-inf included *)
Theorem controller_clamp_total_bounds :
  forall p : xq, exists f : Q, xclip p = XFin f /\ ((1#5) <= f)%Q /\ (f <= 5)%Q.
Proof. intros p. destruct (xclip_total p) as (A & B & C & _). exists (xfac p). auto. Qed.
Print Assumptions controller_clamp_total_bounds.

(* C2. ... namely 0.2 for NaN (max(0.2, nan) = 0.2) and for -inf, 5 for +inf *)
Theorem controller_clamp_nonfinite :
  xclip XNaN = XFin (1#5) /\ xclip XPInf = XFin 5 /\ xclip XNInf = XFin (1#5).
Proof. repeat split. Qed.
Print Assumptions controller_clamp_nonfinite.

(* C3. on finite raw factors it is the clamp of Model.v *)
Theorem controller_clamp_finite_agrees :
  forall q : Q, (xfac (XFin q) == clip_fac q)%Q.
Proof.
  intros q. unfold xfac, clip_fac.
  destruct (qmax_spec (1#5) q) as (A1 & A2 & A3), (qmin_spec 5 (qmax (1#5) q)) as (B1 & B2 & B3).
  (* both clamps pick one of 1/5, q, 5; where q lies rules out the picks that disagree *)
  destruct (xclip_fin q) as [(H & ->)|[(H1 & H2 & ->)|(H & ->)]]; destruct A3, B3; lra.
Qed.
Print Assumptions controller_clamp_finite_agrees.

(* C4. the accept test `if r == 0: r = 1e-15; if r <= 1:` passes exactly for finite ratios that are
   0 or <= 1 (and for -inf, which a norm never is): NaN and +inf never pass *)
Theorem controller_accepts_iff :
  forall r : xq,
  xaccepts r = true <-> ((exists q, r = XFin q /\ (q == 0 \/ q <= 1)%Q) \/ r = XNInf).
Proof.
  intros r. unfold xaccepts, xfix_r. destruct r as [q| | |]; simpl.
  - destruct (Qeq_bool q 0) eqn:E; simpl.
    + apply Qeq_bool_iff in E. split; [|reflexivity]. intros _. left. exists q. auto.
    + split.
      * intros H. apply Qle_bool_iff in H. left; exists q; auto.
      * intros [(q' & Hq & [H|H])|H]; try discriminate; injection Hq as <-.
        -- apply Qeq_bool_iff in H. congruence.
        -- apply Qle_bool_iff; exact H.
  - split; [discriminate|]. intros [(q & H & _)|H]; discriminate.
  - split; [intros _; right; reflexivity|reflexivity].
  - split; [discriminate|]. intros [(q & H & _)|H]; discriminate.
Qed.
Print Assumptions controller_accepts_iff.

(* C5. a trial step with NaN or +inf error ratio is rejected: time, times and log unchanged, the
   step multiplied by the clamped factor; with a NaN raw factor: by 0.2 *)
Theorem nonfinite_ratio_is_rejected :
  forall (st : astate) (r praw : xq),
  r = XNaN \/ r = XPInf ->
  xastep st (XStepped r praw) =
  {| a_t := a_t st; a_tau := (a_tau st * xfac praw)%Q; a_times := a_times st; a_log := a_log st |}.
Proof. intros st r praw [->| ->]; reflexivity. Qed.
Print Assumptions nonfinite_ratio_is_rejected.

Theorem nan_step_shrinks_by_fifth :
  forall st : astate,
  xastep st (XStepped XNaN XNaN) =
  {| a_t := a_t st; a_tau := (a_tau st * (1#5))%Q; a_times := a_times st; a_log := a_log st |}.
Proof. reflexivity. Qed.
Print Assumptions nan_step_shrinks_by_fifth.

(* C6. the controller on extended outcomes takes exactly the steps of the outcome-list model of
   Model.v on the finite shadows of the outcomes *)
Theorem extended_controller_refines_finite :
  forall (evs : list xevent) (t0 tau0 t_end : Q) (st : astate),
  xadaptive_loop t_end st evs = adaptive_loop t_end st (map lower evs) /\
  xadaptive_taus t_end st evs = adaptive_taus t_end st (map lower evs) /\
  xadaptive_times t0 tau0 t_end evs = adaptive_times t0 tau0 t_end (map lower evs).
Proof. intros. split; [apply xloop_lower|]. split; [apply xtaus_lower|apply xtimes_lower]. Qed.
Print Assumptions extended_controller_refines_finite.

(* C7. for every outcome list incl. NaN/inf outcomes: if the loop returns, the times strictly
   increase from t0 and the last one is >= t_end *)
Theorem adaptive_driver_times_nonfinite :
  forall t0 tau0 t_end (evs : list xevent) ts,
  (0 < tau0)%Q -> xadaptive_times t0 tau0 t_end evs = Some ts ->
  increasing ts /\ hd 0%Q ts = t0 /\ (t_end <= last ts 0)%Q.
Proof. intros *. rewrite xtimes_lower. apply adaptive_driver_times. Qed.
Print Assumptions adaptive_driver_times_nonfinite.

(* C8. ... consecutive step sizes handed to the stepper differ by a factor within [0.2, 5] *)
Theorem adaptive_driver_step_factor_bounds_nonfinite :
  forall (evs : list xevent) t_end st k,
  S k < length (xadaptive_taus t_end st evs) ->
  exists f, (nth (S k) (xadaptive_taus t_end st evs) 0%Q == nth k (xadaptive_taus t_end st evs) 0%Q * f)%Q
            /\ ((1#5) <= f)%Q /\ (f <= 5)%Q.
Proof. intros *. rewrite xtaus_lower. apply adaptive_driver_step_factor_bounds. Qed.
Print Assumptions adaptive_driver_step_factor_bounds_nonfinite.

(* C9. ... every step size handed to the stepper is a (finite) positive number *)
Theorem adaptive_driver_taus_positive_nonfinite :
  forall t0 tau0 t_end (evs : list xevent),
  (0 < tau0)%Q -> Forall (fun tau => (0 < tau)%Q) (xadaptive_taus t_end (adaptive_init t0 tau0) evs).
Proof.
  intros * H. rewrite xtaus_lower. apply (adaptive_taus_positive _ t0), adaptive_init_inv. exact H.
Qed.
Print Assumptions adaptive_driver_taus_positive_nonfinite.

(* C10. ... only steps that pass the error test are accepted, one time per accepted step, the times
   are the partial sums of the accepted steps, and the number of times is 1 + the number of
   attempts whose ratio passed [xaccepts] (so by C4 no NaN/inf attempt contributes a time) *)
Theorem adaptive_driver_accepts_only_passing_nonfinite :
  forall t0 tau0 t_end (evs : list xevent) st,
  (0 < tau0)%Q -> xadaptive_loop t_end (adaptive_init t0 tau0) evs = Some st ->
  Forall (fun p => (snd p <= 1)%Q /\ (0 < fst p)%Q) (a_log st) /\
  length (a_times st) = S (length (a_log st)) /\
  rev (a_times st) = psums t0 (rev (map fst (a_log st))).
Proof. intros *. rewrite xloop_lower. apply adaptive_driver_accepts_only_passing. Qed.
Print Assumptions adaptive_driver_accepts_only_passing_nonfinite.

Theorem adaptive_driver_one_time_per_accepted_attempt :
  forall t0 tau0 t_end (evs : list xevent) ts,
  xadaptive_times t0 tau0 t_end evs = Some ts ->
  length ts = S (count_true (xadaptive_accepts t_end (adaptive_init t0 tau0) evs)).
Proof.
  unfold xadaptive_times. intros * H.
  destruct (xadaptive_loop _ _ _) as [st|] eqn:E; [|discriminate]. injection H as <-.
  rewrite rev_length. apply (xadaptive_loop_times_length _ _ _ _ E).
Qed.
Print Assumptions adaptive_driver_one_time_per_accepted_attempt.

(* C11. newton with a residual norm that may be NaN/inf (`if np.linalg.norm(res) < target`): a
   returned point has a FINITE residual norm strictly below the target -- a NaN residual is never
   returned -- and the target max(atol, rtol*nan) is atol *)
Theorem newton_result_nonfinite :
  forall (V : Type) (Fn : V -> V) (Jsolve vsub : V -> V -> V) (xnorm : V -> xq) (scale : xq -> xq)
         (atol : Q) (freeze maxiter : nat) (x0 y r : V),
  xnewton V Fn Jsolve vsub xnorm scale atol freeze maxiter x0 = Some (y, r) ->
  r = Fn y /\
  xlt (xnorm (Fn y)) (xnewton_target V Fn xnorm scale atol x0) = true /\
  xnorm (Fn y) <> XNaN /\ xnorm (Fn y) <> XPInf.
Proof.
  unfold xnewton. intros * H. apply xnewton_loop_result in H as [A B].
  split; [exact A|]. split; [exact B|]. apply xlt_true_operands in B. tauto.
Qed.
Print Assumptions newton_result_nonfinite.

Theorem newton_target_of_nan_is_atol :
  forall (V : Type) (Fn : V -> V) (xnorm : V -> xq) (scale : xq -> xq) (atol : Q) (x0 : V),
  scale (xnorm (Fn x0)) = XNaN -> xnewton_target V Fn xnorm scale atol x0 = XFin atol.
Proof. intros * H. unfold xnewton_target. rewrite H. reflexivity. Qed.
Print Assumptions newton_target_of_nan_is_atol.

(* ... and if all residual norms are NaN it raises after maxiter iterations *)
Theorem newton_all_nan_raises :
  forall (V : Type) (Fn : V -> V) (Jsolve vsub : V -> V -> V) (xnorm : V -> xq) (freeze fuel num_it : nat)
         (target : xq) (x res jp : V),
  (forall v, xnorm v = XNaN) ->
  xnewton_loop V Fn Jsolve vsub xnorm freeze fuel num_it target x res jp = None.
Proof.
  induction fuel as [|fuel IH]; intros * H; simpl; [reflexivity|]. rewrite H. apply IH. exact H.
Qed.
Print Assumptions newton_all_nan_raises.
