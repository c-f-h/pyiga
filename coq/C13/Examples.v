(* C13 -- non-vacuity: concrete tables, trees, forms, request sequences and runs that meet
   the hypotheses of the theorems in Props.v (by computation). *)
From Coq Require Import String.
From Coq Require Import List ZArith Bool.
From Verif.C13 Require Import Model Proofs.
Import ListNotations.
Open Scope string_scope.
Open Scope Z_scope.

(* the table of vform.py with the three repairs applied (what the translator produces then) *)
Definition ex_table : table := [
  ("BuiltinFuncExpr", mk_cspec [("funcname", EHash)] [("funcname", TStr)]);
  ("ConstExpr", mk_cspec [("value", ERepr)] [("value", TFloat)]);
  ("GaussWeightExpr", mk_cspec [("axis", EHash)] [("axis", TNat)]);
  ("NegExpr", mk_cspec [] []);
  ("PartialDerivExpr", mk_cspec [("basisfun", EHash); ("D", EHash); ("physical", EHash)]
                                [("basisfun", TBfun); ("D", TNatTup); ("physical", TBool)]);
  ("ScalarOperExpr", mk_cspec [("oper", EHash)] [("oper", TStr)]);
  ("VarRefExpr", mk_cspec [("var", EHash); ("I", EHash); ("D", EHash); ("parametric", EHash)]
                          [("var", TStr); ("I", TNatTup); ("D", TNatTup); ("parametric", TBool)]);
  ("VolumeMeasureExpr", mk_cspec [] [])].

Example ex_covers : covers ex_table = true.
Proof. vm_compute. reflexivity. Qed.

(* the tables of the unrepaired source do not satisfy the hypothesis *)
Definition old_table : table := [
  ("BuiltinFuncExpr", mk_cspec [] [("funcname", TStr)]);
  ("ConstExpr", mk_cspec [("value", EHash)] [("value", TFloat)])].
Example old_not_covers : covers old_table = false.
Proof. vm_compute. reflexivity. Qed.

Definition scal := ATup [].
Definition bf (n : string) := ATup [AStr n; ANone; ANone; AInt 0].
Definition pd (n : string) := Node "PartialDerivExpr" scal [("basisfun", bf n); ("D", ATup [AInt 0; AInt 0]); ("physical", AInt 0)] [].
Definition mul a b := Node "ScalarOperExpr" scal [("oper", AStr "*")] [a; b].
Definition geo0 := Node "VarRefExpr" scal [("var", AStr "geo_a"); ("I", ATup [AInt 0]); ("D", ATup [AInt 0; AInt 0]); ("parametric", AInt 0)] [].
Definition fn (f : string) x := Node "BuiltinFuncExpr" scal [("funcname", AStr f)] [x].
Definition const (bits : Z) := Node "ConstExpr" scal [("value", AFloat bits)] [].
Definition dxm := Node "VolumeMeasureExpr" scal [] [].

Definition e_sin := mul (mul (mul (fn "sin" geo0) (pd "u")) (pd "v")) dxm.
Definition e_cos := mul (mul (mul (fn "cos" geo0) (pd "u")) (pd "v")) dxm.
Definition e_m1 := mul (mul (mul (const bits_m1) (pd "u")) (pd "v")) dxm.
Definition e_m2 := mul (mul (mul (const bits_m2) (pd "u")) (pd "v")) dxm.

Example ex_well_typed : forallb (well_typed ex_table) [e_sin; e_cos; e_m1; e_m2] = true.
Proof. vm_compute. reflexivity. Qed.

(* with the repaired table the neighbours get different keys ... *)
Example ex_sin_cos_separated : hval_eqb (key ex_table e_sin) (key ex_table e_cos) = false.
Proof. vm_compute. reflexivity. Qed.
Example ex_m1_m2_separated : hval_eqb (key ex_table e_m1) (key ex_table e_m2) = false.
Proof. vm_compute. reflexivity. Qed.
(* ... with the unrepaired one they collide although the trees differ in code-relevant content *)
Example old_sin_cos_collide : key old_table e_sin = key old_table e_cos /\ strip old_table e_sin <> strip old_table e_cos.
Proof. split; [vm_compute; reflexivity | discriminate]. Qed.
Example old_m1_m2_collide : key old_table e_m1 = key old_table e_m2 /\ strip old_table e_m1 <> strip old_table e_m2.
Proof. split; [vm_compute; reflexivity | discriminate]. Qed.

(* forms: u*v*dx style forms over a 2-D space, volume and boundary variant *)
Definition ubf := mk_bfun "u" None None 0.
Definition vbf := mk_bfun "v" None None 0.
Definition geo_in := mk_inputf "geo" [2] false false.
Definition geo_var := mk_avar "geo_a" (SInput geo_in) [2] false (Some 0).
Definition mk (bd : bool) (e : node) := mk_form 2 2 0 false bd [ubf; vbf] [geo_in] [geo_var] [e].

Example ex_wf_forms : forallb (wf_form ex_table) [mk false e_sin; mk false e_cos; mk true e_sin] = true.
Proof. vm_compute. reflexivity. Qed.
Example ex_boundary_separated : hval_eqb (form_key ex_table (mk false e_sin)) (form_key ex_table (mk true e_sin)) = false.
Proof. vm_compute. reflexivity. Qed.

(* a request sequence with repetitions and both on_demand modes over a seeded cache: the
   hypotheses of cache_returns_requested hold and the conclusion is observed by computation *)
Definition gen (od : bool) (f : form) : bool * form := (od, f).
Definition build (r : form * bool) := gen (snd r) (strip_form ex_table (fst r)).
Definition seed := [((mk false e_sin, false), build (mk false e_sin, false))].
Definition reqs := [(mk false e_cos, false); (mk false e_sin, false); (mk false e_cos, true); (mk true e_sin, false); (mk false e_cos, false)].
Example ex_cache :
  snd (serve _ _ _ keq1 (keyof1 ex_table) build (preseed _ _ _ (keyof1 ex_table) seed) reqs) = map build reqs.
Proof. vm_compute. reflexivity. Qed.
Example ex_cache_trace :
  trace _ _ _ keq1 (keyof1 ex_table) build (preseed _ _ _ (keyof1 ex_table) seed) reqs = [false; true; false; false; true].
Proof. vm_compute. reflexivity. Qed.
(* with the unrepaired table the same machine hands out sin's class for cos *)
Definition build_old (r : form * bool) := gen (snd r) (strip_form old_table (fst r)).
Example old_cache_substitutes :
  snd (serve _ _ _ keq1 (keyof1 old_table) build_old [] [(mk false e_sin, false); (mk false e_cos, false)])
  <> map build_old [(mk false e_sin, false); (mk false e_cos, false)].
Proof. vm_compute. discriminate. Qed.

(* reordering certificate: independent statements may be exchanged, dependent ones not *)
Definition s1 := mk_stmt 0 [0%nat] [].            (* a = 1    *)
Definition s2 := mk_stmt 1 [1%nat] [].            (* b = 2    *)
Definition s3 := mk_stmt 2 [2%nat] [0%nat; 1%nat].  (* c = a+b  *)
Example ex_reorder_ok : reorder_ok [s1; s2; s3] [s2; s1; s3] = true.
Proof. vm_compute. reflexivity. Qed.
Example ex_reorder_rejects : reorder_ok [s1; s2; s3] [s1; s3; s2] = false.
Proof. vm_compute. reflexivity. Qed.
Example ex_reorder_rejects_missing : reorder_ok [s1; s2; s3] [s1; s2] = false.
Proof. vm_compute. reflexivity. Qed.

(* histories on one form object over a cache seeded with the mass form:
   add(u*v*dx); hash(); add(grad.grad); compile *)
Definition e_mass := mul (mul (pd "u") (pd "v")) dxm.
Definition e_stiff := mul (mul (fn "sqrt" geo0) (pd "v")) dxm.
Definition empty2 := mk_form 2 2 0 false false [ubf; vbf] [geo_in] [geo_var] [].
Definition hseed := [((add_expr empty2 e_mass, false), build (add_expr empty2 e_mass, false))].
Definition hops := [OAdd 0 e_mass; OHash 0; OAdd 0 e_stiff; OCompile 0 false].

Example ex_hist_hyps : wf_form ex_table empty2 = true /\ Forall (op_ok ex_table) hops.
Proof. split; [vm_compute; reflexivity | repeat constructor]. Qed.

(* with the guard on the memoised hash the second add() raises and the compile returns the class of
   the content the object has (the mass form) ... *)
Example ex_hist_guard_hash :
  hrun GHash ex_table _ gen (preseed _ _ _ (keyof1 ex_table) hseed, [mk_obj empty2 None false]) hops
  = [RAdded; RHashed (form_key ex_table (add_expr empty2 e_mass)); RRaised;
     RClass true (gen false (strip_form ex_table (add_expr empty2 e_mass)))].
Proof. vm_compute. reflexivity. Qed.

(* ... with the guard on __is_finalized (seeded change C13-1) the add is accepted, the stale
   hash is used as the cache key and the class of the OTHER form is returned: the property fails *)
Example hist_guard_finalized_refuted :
  ~ hrun_good GFinal ex_table _ gen (preseed _ _ _ (keyof1 ex_table) hseed, [mk_obj empty2 None false]) hops.
Proof.
  intros H. unfold hops in H.
  do 3 (apply hrun_good_cons in H; destruct H as [_ H]). apply hrun_good_cons in H. destruct H as [G _].
  match type of G with good_outcome _ _ _ ?s _ _ => set (st := s) in G end.
  (* the compile is answered with the seeded class of the mass form ... *)
  assert (E : snd (hstep GFinal ex_table _ gen st (OCompile 0 false))
              = RClass true (build (add_expr empty2 e_mass, false))) by (vm_compute; reflexivity).
  (* ... while the object holds two expressions *)
  assert (N : option_map (fun ob => length (f_exprs (o_form ob))) (nth_error (snd st) 0) = Some 2%nat)
    by (vm_compute; reflexivity).
  rewrite E in G. destruct G as [ob [E1 E2]]. rewrite E1 in N.
  apply (f_equal (fun c => length (f_exprs (snd c)))) in E2. simpl in E2, N. rewrite map_length in E2. congruence.
Qed.
