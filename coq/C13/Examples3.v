(* C13 -- non-vacuity of Props3.v: a read table that is within a key table, a tree with an attribute the
   generator does not read, and a generator (here: restrict itself) that meets the reads-only hypothesis. *)
From Coq Require Import String.
From Coq Require Import List ZArith Bool.
From Verif.C13 Require Import Model Spec Proofs ReadSets.
Import ListNotations.
Open Scope string_scope.

Definition T0 : table := [("BuiltinFuncExpr", mk_cspec [("funcname", EHash)] [("funcname", TStr)]);
                          ("ConstExpr", mk_cspec [("value", ERepr)] [("value", TFloat)])].
Definition R0 : rtable := [("BuiltinFuncExpr", ["children"; "funcname"; "shape"]); ("ConstExpr", ["children"; "shape"; "value"])].
Example ex_covers : covers T0 = true. Proof. vm_compute. reflexivity. Qed.
Example ex_reads_within : reads_within R0 T0 = true. Proof. vm_compute. reflexivity. Qed.
Example ex_same_classes : same_classes R0 T0 = true. Proof. vm_compute. reflexivity. Qed.
(* a read of an attribute that is not code-relevant in the key table is rejected *)
Example ex_reads_rejected : reads_within [("ConstExpr", ["value"; "comment"])] T0 = false. Proof. vm_compute. reflexivity. Qed.
(* a missing / extra class is rejected *)
Example ex_classes_rejected : same_classes [("ConstExpr", ["value"])] T0 = false. Proof. vm_compute. reflexivity. Qed.

Definition n0 : node := Node "BuiltinFuncExpr" (ATup []) [("funcname", AStr "sin"); ("cache", AInt 7)]
                             [Node "ConstExpr" (ATup []) [("value", AFloat 4607182418800017408)] []].
(* the generator g := restrict R0 meets the reads-only equation g n = g (restrict R0 n) at n0 and is not constant *)
Example ex_reads_only : restrict R0 n0 = restrict R0 (restrict R0 n0). Proof. vm_compute. reflexivity. Qed.
Example ex_drops_unread : restrict R0 n0 <> n0. Proof. vm_compute. discriminate. Qed.
Example ex_not_constant : restrict R0 n0 <> restrict R0 (Node "ConstExpr" (ATup []) [] []). Proof. vm_compute. discriminate. Qed.
Example ex_well_typed : well_typed T0 n0 = true. Proof. vm_compute. reflexivity. Qed.
(* record level: reads of BasisFun inside key ++ derived *)
Example ex_subset : subset ["name"; "scope"; "space"] (model_bf_key ++ ["scope"; "vform"]) = true. Proof. vm_compute. reflexivity. Qed.
Example ex_subset_rejected : subset ["name"; "tag"] (model_bf_key ++ ["scope"; "vform"]) = false. Proof. vm_compute. reflexivity. Qed.
