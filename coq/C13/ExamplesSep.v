(* C13 -- non-vacuity of the separation theorems and of the two-level theorem: the hypotheses are
   met by concrete forms (the conclusions are obtained from the theorems, not by computation). *)
From Coq Require Import String.
From Coq Require Import List ZArith Bool.
From Verif.C13 Require Import Props.
From Verif.C13 Require Import Model Proofs Examples Separation.
Import ListNotations.
Open Scope string_scope.
Open Scope Z_scope.

Lemma differs_mul_l T a a' b : differs T a a' -> differs T (mul a b) (mul a' b).
Proof. exact (d_child T _ _ _ _ _ _ [] [] a a' [b] [b] eq_refl). Qed.

(* function name three levels deep in the kernel expression *)
Example ex_differs_sin_cos : differs ex_table e_sin e_cos.
Proof.
  unfold e_sin, e_cos. do 3 apply differs_mul_l. unfold fn. apply d_attr with (n := "funcname") (t := TStr).
  - vm_compute. auto.
  - vm_compute. discriminate.
Qed.

Example ex_sin_cos_keys : form_key ex_table (mk false e_sin) <> form_key ex_table (mk false e_cos).
Proof.
  apply (expr_token_separates ex_table ex_covers (mk false e_sin) (mk false e_cos)) with
    (pre := []) (pre' := []) (x := e_sin) (y := e_cos) (post := []) (post' := []); try reflexivity.
  exact ex_differs_sin_cos.
Qed.

(* constant: -1.0 / -2.0 *)
Example ex_differs_m1_m2 : differs ex_table e_m1 e_m2.
Proof.
  unfold e_m1, e_m2. do 3 apply differs_mul_l. unfold const. apply d_attr with (n := "value") (t := TFloat).
  - vm_compute. auto.
  - vm_compute. discriminate.
Qed.

(* measure: dx / ds are different classes *)
Definition dsm := Node "SurfaceMeasureExpr" scal [] [].
Example ex_differs_measure : differs ex_table (mul (pd "u") dxm) (mul (pd "u") dsm).
Proof.
  unfold mul. apply (d_child ex_table _ _ _ _ _ _ [pd "u"] [pd "u"] _ _ [] []); [reflexivity|].
  apply d_class. discriminate.
Qed.

(* derivative tuple of a basis function *)
Definition pdD (n : string) (D : list atom) :=
  Node "PartialDerivExpr" scal [("basisfun", bf n); ("D", ATup D); ("physical", AInt 0)] [].
Example ex_differs_derivative : differs ex_table (pdD "u" [AInt 1; AInt 0]) (pdD "u" [AInt 0; AInt 1]).
Proof.
  unfold pdD. apply d_attr with (n := "D") (t := TNatTup).
  - vm_compute. auto.
  - vm_compute. discriminate.
Qed.

(* operator of an elementwise operation inside a let-bound matrix variable *)
Definition ex_table2 : table := ("TensorOperExpr", mk_cspec [("oper", EHash)] [("oper", TStr)]) :: ex_table.
Example ex_covers2 : covers ex_table2 = true.
Proof. vm_compute. reflexivity. Qed.
Definition mat22 := ATup [AInt 2; AInt 2].
Definition pref (n : string) (i j : Z) :=
  Node "VarRefExpr" scal [("var", AStr n); ("I", ATup [AInt i; AInt j]); ("D", ATup [AInt 0; AInt 0]); ("parametric", AInt 0)] [].
Definition matlit (n : string) := Node "LiteralMatrixExpr" mat22 [] [pref n 0 0; pref n 0 1; pref n 1 0; pref n 1 1].
Definition tens (o : string) := Node "TensorOperExpr" mat22 [("oper", AStr o)] [matlit "A"; matlit "B"].
Definition letK (o : string) := mk_avar "K" (SExpr (tens o)) [2; 2] false None.
Definition formK (o : string) := mk_form 2 2 0 false false [ubf; vbf] [geo_in] [geo_var; letK o] [mul (mul (pd "u") (pd "v")) dxm].

Example ex_wf_formK : wf_form ex_table2 (formK "+") = true /\ wf_form ex_table2 (formK "-") = true.
Proof. split; vm_compute; reflexivity. Qed.

Example ex_let_operator_separated : form_key ex_table2 (formK "+") <> form_key ex_table2 (formK "-").
Proof.
  destruct ex_wf_formK as [W1 W2].
  apply (let_token_separates ex_table2 ex_covers2 (formK "+") (formK "-") W1 W2
           [geo_var] [geo_var] (letK "+") (letK "-") [] [] (tens "+") (tens "-")); try reflexivity.
  unfold tens. apply d_attr with (n := "oper") (t := TStr).
  - vm_compute. auto.
  - vm_compute. discriminate.
Qed.

(* boundary flag, through the form-field theorem *)
Example ex_boundary_keys : form_key ex_table (mk false e_sin) <> form_key ex_table (mk true e_sin).
Proof.
  apply form_field_difference_separates; try (vm_compute; reflexivity).
  do 4 right. left. simpl. discriminate.
Qed.

(* the two levels composed: hypotheses met with the identity as (injective) digest *)
Definition gen2 (od : bool) (f : form) : string :=
  if od then (if f_boundary f then "od-b" else "od") else (if f_boundary f then "b" else "v").
Example ex_two_level :
  snd (serve2 string string ex_table gen2 (fun s => s) (fun s => s) (fun m => m)
         (preseed _ _ _ (keyof1 ex_table) [((mk false e_sin, false), "v")], preseed _ _ _ (modname (fun s => s)) [("b", "b")])
         [(mk true e_sin, false); (mk false e_sin, false); (mk false e_cos, true); (mk true e_sin, false)])
  = ["b"; "v"; "od"; "b"].
Proof.
  rewrite (two_level_returns_requested string string ex_table gen2 (fun s => s) (fun s => s) (fun m => m)
             ex_covers (fun _ => True)).
  - reflexivity.
  - intros a b _ _ E. exact E.
  - intros r _. exact I.
  - intros r c [E|[]]. injection E as <- <-. split; vm_compute; reflexivity.
  - intros s m [E|[]]. injection E as <- <-. split; auto.
  - repeat constructor; vm_compute; reflexivity.
Qed.
