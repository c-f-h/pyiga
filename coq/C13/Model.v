(* C13 -- executable model of pyiga's two compilation caches.
   Definitions only; proofs are in Proofs.v.

   Sources mirrored (paths relative to /repo):
     pyiga/vform.py:882-887    Expr.hash_key / Expr.hash
     pyiga/vform.py:99-110     AsmVar.hash
     pyiga/vform.py:130-131    BasisFun.hash
     pyiga/vform.py:148-149    InputField.hash
     pyiga/vform.py:159-160    Parameter.hash   (called [param] here)
     pyiga/vform.py:254-268    VForm.hash
     pyiga/compile.py:171-204  __vform_asm_cache, compile_vform
     pyiga/compile.py:126-145  compile_cython_module (module name = digest of the source)
   and CPython's numeric hash (Objects/longobject.c long_hash, Python/pyhash.c
   _Py_HashDouble) for the leaves, because [hash((..., self.value, ...))] is what
   the keys are made of.

   The per-class tables (which attributes an expression class has, which of them its
   hash_key returns and how) are NOT written here: they are regenerated from vform.py
   on every run by translate/exprclasses.py (coq/gen/C13_ExprKeys.v) and the
   theorems below are parametric in the table.  *)
From Coq Require Import List ZArith Bool String Lia.
Import ListNotations.
Open Scope Z_scope.

(* ------------------------------------------------------------------ *)
(* Python values that occur as attributes of expression nodes *)

Inductive atom :=
| AInt (z : Z)        (* int; bool is an int: True == 1, hash(True) == 1 *)
| AFloat (bits : Z)   (* a binary64 given by its bit pattern (so 0.0 and -0.0 differ, as their repr does) *)
| AStr (s : string)
| ANone
| ATup (l : list atom).

(* Hash values.  Numbers are hashed exactly as CPython does; str / type / tuple
   hashing is idealised as injective (free constructors), as is repr() of a float
   followed by str hashing (HRepr).  Accidental 64-bit collisions are outside the model. *)
Inductive hval :=
| HNum (z : Z)
| HStr (s : string)
| HNone
| HType (s : string)
| HRepr (a : atom)
| HTup (l : list hval).

Definition P61 : Z := 2 ^ 61 - 1.          (* _PyHASH_MODULUS *)

(* long_hash: sign * (|n| mod P), and -1 is replaced by -2 *)
Definition fix_m1 (h : Z) : Z := if h =? -1 then -2 else h.
Definition inthash (z : Z) : Z :=
  let h := Z.abs z mod P61 in fix_m1 (if z <? 0 then - h else h).

(* _Py_HashDouble for a finite double: with v = (-1)^s * m * 2^e (m, e integers)
   the result is sign * (m * 2^(e mod 61) mod P) because 2^61 = 1 (mod P); -1 -> -2.
   inf -> +-314159; nan is not modelled (hash by identity since 3.10) and returns 0. *)
Definition floathash (bits : Z) : Z :=
  let s := bits / 2 ^ 63 in
  let ex := (bits / 2 ^ 52) mod 2048 in
  let man := bits mod 2 ^ 52 in
  if ex =? 2047 then (if man =? 0 then (if s =? 0 then 314159 else -314159) else 0)
  else
    let m := if ex =? 0 then man else man + 2 ^ 52 in
    let e := if ex =? 0 then -1074 else ex - 1075 in
    let h := ((m mod P61) * 2 ^ (e mod 61)) mod P61 in
    fix_m1 (if s =? 0 then h else - h).

Fixpoint pyhash (a : atom) : hval :=
  match a with
  | AInt z => HNum (inthash z)
  | AFloat b => HNum (floathash b)
  | AStr s => HStr s
  | ANone => HNone
  | ATup l => HTup (map pyhash l)
  end.

(* How an attribute enters hash_key: as the value itself (hashed by the enclosing
   tuple hash), or through repr()/float.hex() (a string). *)
(* EOther: some other rendering of the attribute (e.g. '%g' % value) about which nothing is known *)
Inductive enc := EHash | ERepr | EOther.

Definition encode (e : enc) (a : atom) : hval :=
  match e with EHash => pyhash a | ERepr => HRepr a | EOther => HNone end.

(* Domains of attributes (what the constructors coerce to). *)
Inductive ty := TNat | TBool | TStr | TFloat | TNatTup | TOptNat | TBfun.

Definition is_nat (a : atom) : bool :=
  match a with AInt z => (0 <=? z) && (z <? P61) | _ => false end.
Definition is_optnat (a : atom) : bool :=
  match a with ANone => true | _ => is_nat a end.

Definition has_ty (t : ty) (a : atom) : bool :=
  match t, a with
  | TNat, _ => is_nat a
  | TBool, AInt z => (z =? 0) || (z =? 1)
  | TStr, AStr _ => true
  | TFloat, AFloat b => (0 <=? b) && (b <? 2 ^ 64)
  | TNatTup, ATup l => forallb is_nat l
  | TOptNat, _ => is_optnat a
  | TBfun, ATup [AStr _; nc; comp; sp] => is_optnat nc && is_optnat comp && is_nat sp
  | _, _ => false
  end.

(* atoms on which the tuple hash is injective in the idealised model *)
Fixpoint hash_safe (a : atom) : bool :=
  match a with
  | AInt z => (- P61 <? z) && (z <? P61) && negb (z =? -1)
  | AFloat _ => false
  | AStr _ => true
  | ANone => true
  | ATup l => forallb hash_safe l
  end.

(* ------------------------------------------------------------------ *)
(* Expression trees and the per-class tables *)

Definition attrs := list (string * atom).

Fixpoint lookup (n : string) (l : attrs) : atom :=
  match l with
  | [] => ANone
  | (k, v) :: l' => if String.eqb n k then v else lookup n l'
  end.

Inductive node := Node (cls : string) (shape : atom) (a : attrs) (children : list node).

(* one class: the tuple hash_key() returns (attribute, encoding) in order, and the
   constructor attributes that influence generated code with their domains *)
Record cspec := mk_cspec { keyl : list (string * enc); seml : list (string * ty) }.
Definition table := list (string * cspec).

Fixpoint tlookup (T : table) (c : string) : cspec :=
  match T with
  | [] => mk_cspec [] []
  | (k, s) :: T' => if String.eqb c k then s else tlookup T' c
  end.

Definition key_attrs (cs : cspec) (a : attrs) : list hval :=
  map (fun ne => encode (snd ne) (lookup (fst ne) a)) (keyl cs).

(* Expr.hash: hash((type(self), self.shape) + self.hash_key() + child_hashes)  (vform.py:886-887) *)
Fixpoint key (T : table) (n : node) : hval :=
  match n with
  | Node c sh a ch =>
      HTup (HType c :: pyhash sh :: key_attrs (tlookup T c) a ++ map (key T) ch)
  end.

(* what the code generator can see of a node: class, shape, code-relevant attributes, children *)
Definition sem_attrs (cs : cspec) (a : attrs) : attrs :=
  map (fun nt => (fst nt, lookup (fst nt) a)) (seml cs).

Fixpoint strip (T : table) (n : node) : node :=
  match n with
  | Node c sh a ch => Node c sh (sem_attrs (tlookup T c) a) (map (strip T) ch)
  end.

Fixpoint well_typed (T : table) (n : node) : bool :=
  match n with
  | Node c sh a ch =>
      has_ty TNatTup sh
      && forallb (fun nt => has_ty (snd nt) (lookup (fst nt) a)) (seml (tlookup T c))
      && forallb (well_typed T) ch
  end.

(* the obligations on a table (evaluated by vm_compute on the regenerated table) *)
Fixpoint assoc_enc (n : string) (l : list (string * enc)) : option enc :=
  match l with
  | [] => None
  | (k, e) :: l' => if String.eqb n k then Some e else assoc_enc n l'
  end.

(* every code-relevant attribute is keyed, and floats are keyed through repr *)
Definition field_ok (cs : cspec) (nt : string * ty) : bool :=
  match assoc_enc (fst nt) (keyl cs) with
  | None => false
  | Some EHash => match snd nt with TFloat => false | _ => true end
  | Some ERepr => true
  | Some EOther => false
  end.
Definition class_ok (cs : cspec) : bool := forallb (field_ok cs) (seml cs).
Definition covers (T : table) : bool := forallb (fun kc => class_ok (snd kc)) T.
(* for a class that is not in the table tlookup gives the empty spec, which is ok *)

(* ------------------------------------------------------------------ *)
(* Records hashed without a type tag (vform.py:130-131, 148-149, 159-160, 99-110) *)

Record bfun := mk_bfun { bf_name : string; bf_numcomp : option Z; bf_component : option Z; bf_space : Z }.
Record inputf := mk_inputf { in_name : string; in_shape : list Z; in_physical : bool; in_updatable : bool }.
Record param := mk_param { pa_name : string; pa_shape : list Z }.
Inductive vsrc := SExpr (n : node) | SInput (i : inputf) | SParam (p : param).
Record avar := mk_avar { v_name : string; v_src : vsrc; v_shape : list Z; v_symmetric : bool; v_deriv : option Z }.

Definition hnum (z : Z) : hval := HNum (inthash z).
Definition hbool (b : bool) : hval := hnum (if b then 1 else 0).
Definition hopt (o : option Z) : hval := match o with None => HNone | Some z => hnum z end.
Definition hshape (l : list Z) : hval := HTup (map hnum l).

(* hash((self.name, self.numcomp, self.component, self.space)) *)
Definition bf_key (b : bfun) : hval :=
  HTup [HStr (bf_name b); hopt (bf_numcomp b); hopt (bf_component b); hnum (bf_space b)].
(* hash((self.name, self.shape, self.physical, self.updatable)) *)
Definition in_key (i : inputf) : hval :=
  HTup [HStr (in_name i); hshape (in_shape i); hbool (in_physical i); hbool (in_updatable i)].
(* hash((self.name, self.shape)) *)
Definition pa_key (p : param) : hval := HTup [HStr (pa_name p); hshape (pa_shape p)].

Definition src_key (T : table) (s : vsrc) : hval :=
  match s with SExpr n => key T n | SInput i => in_key i | SParam p => pa_key p end.
(* hash((self.name, src_hash, self.shape, self.symmetric, self.deriv)) *)
Definition var_key (T : table) (v : avar) : hval :=
  HTup [HStr (v_name v); src_key T (v_src v); hshape (v_shape v); hbool (v_symmetric v); hopt (v_deriv v)].

(* VForm.  geo_dim, spacedims, timedim, params, Geo are functions of the fields below
   (translate/exprclasses_derived.json; the driver re-checks the derivations on every form). *)
Record form := mk_form {
  f_dim : Z; f_arity : Z; f_vec : Z; f_spacetime : bool; f_boundary : bool;
  f_bfs : list bfun; f_inputs : list inputf; f_vars : list avar; f_exprs : list node }.

(* VForm.hash (vform.py:263-267) WITH the repair fixes/C13-vform-hash-boundary.patch:
   hash((dim, arity, vec, spacetime, is_boundary) + bf hashes + input hashes + var hashes + expr hashes) *)
Definition form_key (T : table) (f : form) : hval :=
  HTup ([hnum (f_dim f); hnum (f_arity f); hnum (f_vec f); hbool (f_spacetime f); hbool (f_boundary f)]
        ++ map bf_key (f_bfs f) ++ map in_key (f_inputs f)
        ++ map (var_key T) (f_vars f) ++ map (key T) (f_exprs f)).

Definition strip_src (T : table) (s : vsrc) : vsrc :=
  match s with SExpr n => SExpr (strip T n) | _ => s end.
Definition strip_var (T : table) (v : avar) : avar :=
  mk_avar (v_name v) (strip_src T (v_src v)) (v_shape v) (v_symmetric v) (v_deriv v).
Definition strip_form (T : table) (f : form) : form :=
  mk_form (f_dim f) (f_arity f) (f_vec f) (f_spacetime f) (f_boundary f)
          (f_bfs f) (f_inputs f) (map (strip_var T) (f_vars f)) (map (strip T) (f_exprs f)).

Definition natZ (z : Z) : bool := (0 <=? z) && (z <? P61).
Definition optnatZ (o : option Z) : bool := match o with None => true | Some z => natZ z end.
Definition wf_bf (b : bfun) : bool := optnatZ (bf_numcomp b) && optnatZ (bf_component b) && natZ (bf_space b).
Definition wf_in (i : inputf) : bool := forallb natZ (in_shape i).
Definition wf_pa (p : param) : bool := forallb natZ (pa_shape p).
Definition wf_src (T : table) (s : vsrc) : bool :=
  match s with SExpr n => well_typed T n | SInput i => wf_in i | SParam p => wf_pa p end.
Definition wf_var (T : table) (v : avar) : bool :=
  wf_src T (v_src v) && forallb natZ (v_shape v) && optnatZ (v_deriv v).
Definition wf_form (T : table) (f : form) : bool :=
  natZ (f_dim f) && natZ (f_arity f) && natZ (f_vec f)
  && forallb wf_bf (f_bfs f) && forallb wf_in (f_inputs f)
  && forallb (wf_var T) (f_vars f) && forallb (well_typed T) (f_exprs f).

(* ------------------------------------------------------------------ *)
(* decidable equality of hash values, for the correspondence run *)

Fixpoint atom_eqb (a b : atom) : bool :=
  match a, b with
  | AInt x, AInt y => x =? y
  | AFloat x, AFloat y => x =? y
  | AStr x, AStr y => String.eqb x y
  | ANone, ANone => true
  | ATup l, ATup m =>
      (fix go (l m : list atom) : bool :=
         match l, m with
         | [], [] => true
         | x :: l', y :: m' => atom_eqb x y && go l' m'
         | _, _ => false
         end) l m
  | _, _ => false
  end.

Fixpoint hval_eqb (a b : hval) : bool :=
  match a, b with
  | HNum x, HNum y => x =? y
  | HStr x, HStr y => String.eqb x y
  | HNone, HNone => true
  | HType x, HType y => String.eqb x y
  | HRepr x, HRepr y => atom_eqb x y
  | HTup l, HTup m =>
      (fix go (l m : list hval) : bool :=
         match l, m with
         | [], [] => true
         | x :: l', y :: m' => hval_eqb x y && go l' m'
         | _, _ => false
         end) l m
  | _, _ => false
  end.

(* ------------------------------------------------------------------ *)
(* The caches as state machines.  One generic memo table serves both levels:
   level 1 (compile.py:171-204): key = (vf.hash(), (on_demand,)), build = generate + compile;
   level 2 (compile.py:126-145): key = 'mod' + shake_128(src).hexdigest(8), build = cythonize + gcc + import. *)
Section Memo.
  Variables (K R C : Type).
  Variable keq : K -> K -> bool.
  Variable keyof : R -> K.
  Variable build : R -> C.

  Definition memo := list (K * C).

  Fixpoint mlookup (k : K) (st : memo) : option C :=
    match st with
    | [] => None
    | (k', c) :: st' => if keq k k' then Some c else mlookup k st'
    end.

  (* compile_vform / compile_cython_module: return the cached object if there is one,
     otherwise build, store and return *)
  Definition request (st : memo) (r : R) : memo * C :=
    match mlookup (keyof r) st with
    | Some c => (st, c)
    | None => let c := build r in ((keyof r, c) :: st, c)
    end.

  Fixpoint serve (st : memo) (rs : list R) : memo * list C :=
    match rs with
    | [] => (st, [])
    | r :: rs' => let (st1, c) := request st r in
                  let (st2, cs) := serve st1 rs' in (st2, c :: cs)
    end.

  (* __add_to_vform_asm_cache: dict assignment (a later entry with an equal key shadows) *)
  Definition preseed (seed : list (R * C)) : memo :=
    fold_left (fun st rc => (keyof (fst rc), snd rc) :: st) seed [].

  (* hit/miss trace, compared with the implementation *)
  Fixpoint trace (st : memo) (rs : list R) : list bool :=
    match rs with
    | [] => []
    | r :: rs' => match mlookup (keyof r) st with
                  | Some _ => true :: trace st rs'
                  | None => false :: trace ((keyof r, build r) :: st) rs'
                  end
    end.
End Memo.

(* level 1 (compile.py:194): cache_key = (vf.hash(), (on_demand,)) *)
Definition keq1 (a b : hval * bool) : bool := hval_eqb (fst a) (fst b) && Bool.eqb (snd a) (snd b).
Definition keyof1 (T : table) (r : form * bool) : hval * bool := (form_key T (fst r), snd r).

(* ------------------------------------------------------------------ *)
(* Form OBJECTS: VForm.hash() memoises its value in self.__hash (vform.py:260-268) and
   VForm.add() refuses to extend the form once the guard fires (vform.py:397-400).
   Histories of add() / hash() / compile_vform() on several objects sharing the cache. *)
Inductive guard := GHash | GFinal | GNone.   (* `self.__hash is not None` | `self.__is_finalized` | no guard *)
Record obj := mk_obj { o_form : form; o_memo : option hval; o_final : bool }.

Definition blocked (g : guard) (o : obj) : bool :=
  match g with
  | GHash => match o_memo o with Some _ => true | None => false end
  | GFinal => o_final o
  | GNone => false
  end.

Definition add_expr (f : form) (e : node) : form :=
  mk_form (f_dim f) (f_arity f) (f_vec f) (f_spacetime f) (f_boundary f)
          (f_bfs f) (f_inputs f) (f_vars f) (f_exprs f ++ [e]).

(* VForm.hash(): compute once, then return the stored value *)
Definition obj_hash (T : table) (o : obj) : obj * hval :=
  match o_memo o with
  | Some k => (o, k)
  | None => let k := form_key T (o_form o) in (mk_obj (o_form o) (Some k) (o_final o), k)
  end.

Inductive op := OAdd (i : nat) (e : node) | OHash (i : nat) | OCompile (i : nat) (od : bool).
Inductive outcome (C : Type) := RAdded | RRaised | RHashed (k : hval) | RClass (hit : bool) (c : C).
Arguments RAdded {C}. Arguments RRaised {C}. Arguments RHashed {C} k. Arguments RClass {C} hit c.

Definition upd {A} (i : nat) (x : A) (l : list A) : list A := firstn i l ++ x :: skipn (S i) l.

Section History.
  Variable g : guard.
  Variable T : table.
  Variable C : Type.
  Variable gen : bool -> form -> C.       (* generate + compile of the CURRENT content of the object *)
  Definition hstate := (memo (hval * bool) C * list obj)%type.

  Definition hstep (st : hstate) (o : op) : hstate * outcome C :=
    let (cache, objs) := st in
    match o with
    | OAdd i e =>
        match nth_error objs i with
        | None => (st, RRaised)
        | Some ob =>
            if blocked g ob then (st, RRaised)
            else ((cache, upd i (mk_obj (add_expr (o_form ob) e) (o_memo ob) (o_final ob)) objs), RAdded)
        end
    | OHash i =>
        match nth_error objs i with
        | None => (st, RRaised)
        | Some ob => let (ob', k) := obj_hash T ob in ((cache, upd i ob' objs), RHashed k)
        end
    | OCompile i od =>
        match nth_error objs i with
        | None => (st, RRaised)
        | Some ob =>
            let (ob', k) := obj_hash T ob in
            match mlookup _ _ keq1 (k, od) cache with
            | Some c => ((cache, upd i ob' objs), RClass true c)
            | None =>
                (* generate() -> finalize(): raises when the form has been finalized before *)
                if o_final ob' then ((cache, upd i ob' objs), RRaised)
                else let c := gen od (strip_form T (o_form ob')) in
                     ((((k, od), c) :: cache, upd i (mk_obj (o_form ob') (o_memo ob') true) objs), RClass false c)
            end
        end
    end.

  Fixpoint hrun (st : hstate) (ops : list op) : list (outcome C) :=
    match ops with
    | [] => []
    | o :: ops' => let (st', r) := hstep st o in r :: hrun st' ops'
    end.

  (* the property along a history: a class handed out for object i is the one generated from
     the content object i has at that moment *)
  Definition good_outcome (st : hstate) (o : op) (r : outcome C) : Prop :=
    match o, r with
    | OCompile i od, RClass _ c =>
        exists ob, nth_error (snd st) i = Some ob /\ c = gen od (strip_form T (o_form ob))
    | _, _ => True
    end.

  Fixpoint hrun_good (st : hstate) (ops : list op) : Prop :=
    match ops with
    | [] => True
    | o :: ops' => let (st', r) := hstep st o in good_outcome st o r /\ hrun_good st' ops'
    end.
End History.

(* compile.py:136: modname = 'mod' + hashlib.shake_128(src.encode()).hexdigest(8) *)
Definition modname (digest : string -> string) (src : string) : string := ("mod" ++ digest src)%string.

(* ------------------------------------------------------------------ *)
(* Freshness certificate: a run of straight-line statements of the shipped file against
   the run the generator produces today.  A statement is its interned text [sid] with the
   variables it writes and reads. *)
Record stmt := mk_stmt { sid : nat; defs : list nat; uses : list nat }.

Definition memb (x : nat) (l : list nat) : bool := existsb (Nat.eqb x) l.
Definition disjoint (a b : list nat) : bool := forallb (fun x => negb (memb x b)) a.
Fixpoint list_eqb (a b : list nat) : bool :=
  match a, b with
  | [], [] => true
  | x :: a', y :: b' => Nat.eqb x y && list_eqb a' b'
  | _, _ => false
  end.
Definition stmt_eqb (s t : stmt) : bool :=
  Nat.eqb (sid s) (sid t) && list_eqb (defs s) (defs t) && list_eqb (uses s) (uses t).

(* s and t may be exchanged: neither writes what the other reads or writes *)
Definition indep (s t : stmt) : bool :=
  disjoint (defs s) (defs t) && disjoint (defs s) (uses t) && disjoint (defs t) (uses s).

(* take t out of a, provided everything in front of it is independent of t *)
Fixpoint pull (t : stmt) (a : list stmt) : option (list stmt) :=
  match a with
  | [] => None
  | s :: a' =>
      if stmt_eqb s t then Some a'
      else if indep s t then option_map (cons s) (pull t a') else None
  end.

Fixpoint reorder_ok (a b : list stmt) : bool :=
  match b with
  | [] => match a with [] => true | _ => false end
  | t :: b' => match pull t a with Some a' => reorder_ok a' b' | None => false end
  end.

(* semantics of a run, for an arbitrary meaning of the statements *)
Section Exec.
  Variable V : Type.
  Variable rhs : nat -> nat -> list V -> V.   (* statement id -> written variable -> values read -> value *)
  Definition env := nat -> V.
  Definition exec1 (s : stmt) (e : env) : env :=
    fun x => if memb x (defs s) then rhs (sid s) x (map e (uses s)) else e x.
  Definition exec (l : list stmt) (e : env) : env := fold_left (fun e s => exec1 s e) l e.
End Exec.
