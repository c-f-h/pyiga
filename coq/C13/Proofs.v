(* C13 -- proofs about the cache keys, the memo tables, the reordering certificate and histories on form objects. *)
From Coq Require Import String.
From Coq Require Import List ZArith Bool Lia ZifyBool Permutation.
From Verif.C13 Require Import Model.
Import ListNotations.
Open Scope Z_scope.

Lemma app_eq_length {A} (l1 l1' l2 l2' : list A) :
  length l1 = length l1' -> l1 ++ l2 = l1' ++ l2' -> l1 = l1' /\ l2 = l2'.
Proof.
  revert l1'. induction l1 as [|x l1 IH]; intros [|y l1'] L H; simpl in *; try discriminate.
  - auto.
  - injection H as -> H. injection L as L. destruct (IH _ L H) as [-> ->]. auto.
Qed.

Lemma map_eq_at {A B} (f : A -> B) pre pre' x y post post' :
  length pre = length pre' -> map f (pre ++ x :: post) = map f (pre' ++ y :: post') -> f x = f y.
Proof.
  intros L H. rewrite !map_app in H. simpl in H.
  apply app_eq_length in H as [_ H]; [|rewrite !map_length; exact L].
  injection H as H _. exact H.
Qed.

(* If equal [k] implies equal [st] on admissible elements, the same holds of lists under [map].  The
   premise is asked of the elements of [l] only, so that the induction hypothesis of a nested type fits. *)
Lemma map_sep_Forall {A B C} (k : A -> B) (st : A -> C) (ok : A -> bool) l :
  Forall (fun a => forall b, ok a = true -> ok b = true -> k a = k b -> st a = st b) l ->
  forall l', forallb ok l = true -> forallb ok l' = true -> map k l = map k l' -> map st l = map st l'.
Proof.
  induction 1 as [|x l Hx _ IH]; intros [|y l'] O O' H; simpl in *; try discriminate; auto.
  apply andb_true_iff in O as [Ox O]. apply andb_true_iff in O' as [Oy O'].
  injection H as H0 H. f_equal; auto.
Qed.

Lemma map_sep {A B C} (k : A -> B) (st : A -> C) (ok : A -> bool) :
  (forall a b, ok a = true -> ok b = true -> k a = k b -> st a = st b) ->
  forall l l', forallb ok l = true -> forallb ok l' = true -> map k l = map k l' -> map st l = map st l'.
Proof. intros H l. apply map_sep_Forall, Forall_forall. intros a _. apply H. Qed.

Lemma map_inj_on {A B} (k : A -> B) (ok : A -> bool) :
  (forall a b, ok a = true -> ok b = true -> k a = k b -> a = b) ->
  forall l l', forallb ok l = true -> forallb ok l' = true -> map k l = map k l' -> l = l'.
Proof.
  intros H l l' O O' E. rewrite <- (map_id l), <- (map_id l'). revert E. apply map_sep with (ok := ok); auto.
Qed.

Lemma Forall_upd {A} (P : A -> Prop) i x l : Forall P l -> P x -> Forall P (upd i x l).
Proof.
  intros F Px. revert i. induction F as [|y l Py F IH]; intros [|i]; unfold upd; simpl; auto.
  constructor; auto. apply IH.
Qed.

Lemma nth_error_Forall {A} (P : A -> Prop) l i x : Forall P l -> nth_error l i = Some x -> P x.
Proof. intros F H. rewrite Forall_forall in F. apply F. eapply nth_error_In; eauto. Qed.

Lemma append_inj_l (p a b : string) : (p ++ a = p ++ b)%string -> a = b.
Proof. induction p; simpl; intros H; auto. injection H as H. auto. Qed.

(* Induction principles for the nested types: the hypothesis for a list of children is [Forall P].
   [Forall_all] takes [f] outside its [fix], as [map] does, so that a recursive call may be passed for it. *)
Definition Forall_all {A} (P : A -> Prop) (f : forall a, P a) : forall l, Forall P l :=
  fix go l := match l with [] => Forall_nil P | x :: l' => Forall_cons x (f x) (go l') end.

Section AtomInd.
  Variable Pa : atom -> Prop.
  Hypothesis Hi : forall z, Pa (AInt z).
  Hypothesis Hf : forall b, Pa (AFloat b).
  Hypothesis Hs : forall s, Pa (AStr s).
  Hypothesis Hn : Pa ANone.
  Hypothesis Ht : forall l, Forall Pa l -> Pa (ATup l).
  Fixpoint atom_ind' (a : atom) : Pa a :=
    match a with
    | AInt z => Hi z
    | AFloat b => Hf b
    | AStr s => Hs s
    | ANone => Hn
    | ATup l => Ht l (Forall_all Pa atom_ind' l)
    end.
End AtomInd.

Section HvalInd.
  Variable Ph : hval -> Prop.
  Hypothesis H1 : forall z, Ph (HNum z).
  Hypothesis H2 : forall s, Ph (HStr s).
  Hypothesis H3 : Ph HNone.
  Hypothesis H4 : forall s, Ph (HType s).
  Hypothesis H5 : forall a, Ph (HRepr a).
  Hypothesis H6 : forall l, Forall Ph l -> Ph (HTup l).
  Fixpoint hval_ind' (h : hval) : Ph h :=
    match h with
    | HNum z => H1 z
    | HStr s => H2 s
    | HNone => H3
    | HType s => H4 s
    | HRepr a => H5 a
    | HTup l => H6 l (Forall_all Ph hval_ind' l)
    end.
End HvalInd.

Section NodeInd.
  Variable Pn : node -> Prop.
  Hypothesis Hn : forall c sh a ch, Forall Pn ch -> Pn (Node c sh a ch).
  Fixpoint node_ind' (n : node) : Pn n :=
    match n with Node c sh a ch => Hn c sh a ch (Forall_all Pn node_ind' ch) end.
End NodeInd.

Lemma P61_val : P61 = 2305843009213693951.
Proof. reflexivity. Qed.

Lemma inthash_id z : - P61 < z < P61 -> z <> -1 -> inthash z = z.
Proof.
  intros R N. unfold inthash, fix_m1. rewrite P61_val in *.
  rewrite Z.mod_small by lia.
  replace (if z <? 0 then - Z.abs z else Z.abs z) with z by (destruct (Z.ltb_spec z 0); lia).
  destruct (Z.eqb_spec z (-1)); [contradiction|reflexivity].
Qed.

(* why a float attribute has to be keyed through repr and an integer one kept away from -1:
   hash(-1) == hash(-2), hash(-1.0) == hash(-2.0), hash(1.0) == hash(2.0**61), hash(1.0) == hash(1) *)
Lemma int_collision : inthash (-1) = inthash (-2).
Proof. reflexivity. Qed.

Definition bits_m1 : Z := 13830554455654793216.   (* -1.0 = 0xBFF0000000000000 *)
Definition bits_m2 : Z := 13835058055282163712.   (* -2.0 = 0xC000000000000000 *)
Definition bits_1 : Z := 4607182418800017408.     (* 1.0 = 0x3FF0000000000000 *)
Definition bits_2p61 : Z := 4881901996069617664.  (* 2.0**61 = 0x43C0000000000000 *)

Lemma float_collision_m1_m2 : floathash bits_m1 = floathash bits_m2 /\ bits_m1 <> bits_m2.
Proof. split; [vm_compute; reflexivity | discriminate]. Qed.

Lemma float_collision_1_2p61 : floathash bits_1 = floathash bits_2p61 /\ bits_1 <> bits_2p61.
Proof. split; [vm_compute; reflexivity | discriminate]. Qed.

Lemma float_int_collision : pyhash (AFloat bits_1) = pyhash (AInt 1).
Proof. vm_compute. reflexivity. Qed.

Lemma pyhash_inj : forall a b, hash_safe a = true -> hash_safe b = true -> pyhash a = pyhash b -> a = b.
Proof.
  induction a as [z|bb|s| |l IH] using atom_ind'; intros [z'|bb'|s'| |l'] Sa Sb H;
    try discriminate; try reflexivity; cbn [pyhash hash_safe] in *.
  - injection H as H. rewrite !inthash_id in H by lia. congruence.
  - congruence.
  - injection H as H. f_equal. rewrite <- (map_id l), <- (map_id l').
    revert H. apply map_sep_Forall with (ok := hash_safe); assumption.
Qed.

Lemma encode_inj e a b : e <> EOther ->
  (e = EHash -> hash_safe a = true /\ hash_safe b = true) -> encode e a = encode e b -> a = b.
Proof.
  destruct e; simpl; intros NO S H.
  - destruct (S eq_refl). apply pyhash_inj; auto.
  - congruence.
  - congruence.
Qed.

Lemma is_nat_safe a : is_nat a = true -> hash_safe a = true.
Proof. destruct a; try discriminate. cbn [is_nat hash_safe]. rewrite P61_val. lia. Qed.

Lemma is_optnat_safe a : is_optnat a = true -> hash_safe a = true.
Proof. destruct a; simpl; try discriminate; auto. apply (is_nat_safe (AInt z)). Qed.

Lemma has_ty_safe t a : t <> TFloat -> has_ty t a = true -> hash_safe a = true.
Proof.
  intros NF H. destruct t; try congruence.
  - apply is_nat_safe; exact H.
  - destruct a; try discriminate. cbn [has_ty hash_safe] in *. rewrite P61_val. lia.
  - destruct a; try discriminate. reflexivity.
  - destruct a; try discriminate. cbn [has_ty hash_safe] in *.
    rewrite forallb_forall in *. intros x I. apply is_nat_safe, H, I.
  - apply is_optnat_safe; exact H.
  - destruct a as [| | | |l]; simpl in H; try discriminate.
    destruct l as [|[| |s| |] [|nc [|comp [|sp [|? ?]]]]]; try discriminate.
    apply andb_true_iff in H as [H C]. apply andb_true_iff in H as [A B].
    simpl. rewrite (is_optnat_safe _ A), (is_optnat_safe _ B), (is_nat_safe _ C). reflexivity.
Qed.

Lemma assoc_enc_in n l e : assoc_enc n l = Some e -> In (n, e) l.
Proof.
  induction l as [|[k e'] l IH]; simpl; try discriminate.
  destruct (String.eqb_spec n k) as [->|_]; auto.
  intros H; injection H as ->. auto.
Qed.

Lemma attrs_separate cs a a' :
  class_ok cs = true ->
  forallb (fun nt => has_ty (snd nt) (lookup (fst nt) a)) (seml cs) = true ->
  forallb (fun nt => has_ty (snd nt) (lookup (fst nt) a')) (seml cs) = true ->
  key_attrs cs a = key_attrs cs a' -> sem_attrs cs a = sem_attrs cs a'.
Proof.
  unfold class_ok, key_attrs, sem_attrs. intros OK W W' H.
  apply map_ext_in. intros [n t] I. simpl. f_equal.
  rewrite forallb_forall in OK, W, W'.
  specialize (OK _ I). specialize (W _ I). specialize (W' _ I). simpl in *.
  unfold field_ok in OK. simpl in OK.
  destruct (assoc_enc n (keyl cs)) as [e|] eqn:E; try discriminate.
  apply assoc_enc_in in E.
  pose proof (ext_in_map H _ E) as HE. simpl in HE.
  apply (encode_inj e); auto.
  - intros ->. discriminate.
  - intros ->. destruct t; try discriminate; split; eapply has_ty_safe; eauto; discriminate.
Qed.

Lemma covers_lookup T c : covers T = true -> class_ok (tlookup T c) = true.
Proof.
  induction T as [|[k s] T IH]; simpl; intros H.
  - reflexivity.
  - apply andb_true_iff in H as [A B]. destruct (String.eqb c k); auto.
Qed.

Lemma key_sep T : covers T = true ->
  forall a b, well_typed T a = true -> well_typed T b = true -> key T a = key T b -> strip T a = strip T b.
Proof.
  intros CV. induction a as [c sh a ch IH] using node_ind'. intros [c' sh' a' ch'] W W' H.
  simpl in H, W, W'. injection H as <- Hs Hk.
  apply andb_true_iff in W as [W Wc]. apply andb_true_iff in W as [Wsh Wa].
  apply andb_true_iff in W' as [W' Wc']. apply andb_true_iff in W' as [Wsh' Wa'].
  apply pyhash_inj in Hs; [subst sh'|eapply (has_ty_safe TNatTup); eauto; discriminate ..].
  (* the keyed attributes are as many on both sides, so the flat tuple splits where it should *)
  apply app_eq_length in Hk as [Ka Kc]; [|unfold key_attrs; rewrite !map_length; reflexivity].
  simpl. f_equal.
  - apply attrs_separate; auto using covers_lookup.
  - revert Kc. apply map_sep_Forall with (ok := well_typed T); assumption.
Qed.

Lemma inthash_inj a b : natZ a = true -> natZ b = true -> inthash a = inthash b -> a = b.
Proof.
  unfold natZ. rewrite P61_val. intros A B H.
  rewrite !inthash_id in H by (rewrite ?P61_val; lia). exact H.
Qed.

(* The three lemmas for the components of a record key are stated as [injection] leaves them: without the
   [HNum] of [hnum] / [hbool] and the [HTup] of [hshape]. *)
Lemma hbool_inj (a b : bool) : inthash (if a then 1 else 0) = inthash (if b then 1 else 0) -> a = b.
Proof. destruct a, b; intros H; try reflexivity; vm_compute in H; discriminate. Qed.

Lemma hopt_inj a b : optnatZ a = true -> optnatZ b = true -> hopt a = hopt b -> a = b.
Proof.
  destruct a, b; simpl; intros A B H; try discriminate; auto. f_equal. injection H as H. apply inthash_inj; auto.
Qed.

Lemma hshape_inj l l' : forallb natZ l = true -> forallb natZ l' = true -> map hnum l = map hnum l' -> l = l'.
Proof.
  apply map_inj_on. intros a b Na Nb E. injection E as E. apply inthash_inj; auto.
Qed.

Lemma bf_key_inj a b : wf_bf a = true -> wf_bf b = true -> bf_key a = bf_key b -> a = b.
Proof.
  destruct a as [n nc co sp], b as [n' nc' co' sp']. unfold wf_bf, bf_key; simpl.
  intros A B H.
  apply andb_true_iff in A as [A A3]. apply andb_true_iff in A as [A1 A2].
  apply andb_true_iff in B as [B B3]. apply andb_true_iff in B as [B1 B2].
  injection H as -> H1 H2 H3. f_equal; [apply hopt_inj|apply hopt_inj|apply inthash_inj]; assumption.
Qed.

Lemma in_key_inj a b : wf_in a = true -> wf_in b = true -> in_key a = in_key b -> a = b.
Proof.
  destruct a as [n sh ph up], b as [n' sh' ph' up']. unfold wf_in, in_key; simpl. intros A B H.
  injection H as -> H1 H2 H3. f_equal; [apply hshape_inj|apply hbool_inj|apply hbool_inj]; assumption.
Qed.

Lemma pa_key_inj a b : wf_pa a = true -> wf_pa b = true -> pa_key a = pa_key b -> a = b.
Proof.
  destruct a as [n sh], b as [n' sh']. unfold wf_pa, pa_key; simpl. intros A B H.
  injection H as -> H1. f_equal. apply hshape_inj; assumption.
Qed.

(* the keys of an expression, an input field and a parameter differ in head or in length *)
Lemma src_key_sep T : covers T = true -> forall a b, wf_src T a = true -> wf_src T b = true ->
  src_key T a = src_key T b -> strip_src T a = strip_src T b.
Proof.
  intros CV [[c sh a ch]|i|p] [[c' sh' a' ch']|i'|p'] A B H; try discriminate H;
    cbn [src_key strip_src wf_src] in *; f_equal.
  - apply key_sep; auto.
  - apply in_key_inj; auto.
  - apply pa_key_inj; auto.
Qed.

Lemma var_key_sep T : covers T = true -> forall a b, wf_var T a = true -> wf_var T b = true ->
  var_key T a = var_key T b -> strip_var T a = strip_var T b.
Proof.
  intros CV [n s sh sy de] [n' s' sh' sy' de']. unfold wf_var, var_key, strip_var; simpl.
  intros A B H.
  apply andb_true_iff in A as [A A3]. apply andb_true_iff in A as [A1 A2].
  apply andb_true_iff in B as [B B3]. apply andb_true_iff in B as [B1 B2].
  injection H as -> H1 H2 H3 H4.
  f_equal; [apply src_key_sep|apply hshape_inj|apply hbool_inj|apply hopt_inj]; assumption.
Qed.

(* Which segment of the flat VForm tuple an entry belongs to can be read off the entry itself: that is
   why the tuple determines its segments although it has no separators. *)
Definition seg (h : hval) : nat :=
  match h with
  | HTup (HType _ :: _) => 3
  | HTup [HStr _; HTup _; _; _] => 1
  | HTup [HStr _; _; _; _] => 0
  | HTup [HStr _; _; _; _; _] => 2
  | _ => 4
  end%nat.

Lemma seg_bf b : seg (bf_key b) = 0%nat.
Proof. destruct b as [n [z|] co sp]; reflexivity. Qed.
Lemma seg_in i : seg (in_key i) = 1%nat.
Proof. reflexivity. Qed.
Lemma seg_var T v : seg (var_key T v) = 2%nat.
Proof. destruct v as [n [[c sh a ch]|i|p] s sy de]; reflexivity. Qed.
Lemma seg_expr T n : seg (key T n) = 3%nat.
Proof. destruct n; reflexivity. Qed.

Lemma filter_seg {A} (f : A -> hval) j k l : (forall a, seg (f a) = j) ->
  filter (fun h => Nat.eqb (seg h) k) (map f l) = if Nat.eqb j k then map f l else [].
Proof.
  intros H. induction l as [|a l IH]; simpl.
  - destruct (Nat.eqb j k); reflexivity.
  - rewrite H, IH. destruct (Nat.eqb j k); reflexivity.
Qed.

Lemma flat_segment T k bfs ins vars es :
  filter (fun h => Nat.eqb (seg h) k) (map bf_key bfs ++ map in_key ins ++ map (var_key T) vars ++ map (key T) es)
  = nth k [map bf_key bfs; map in_key ins; map (var_key T) vars; map (key T) es] [].
Proof.
  rewrite !filter_app, (filter_seg _ _ k _ seg_bf), (filter_seg _ _ k _ seg_in),
    (filter_seg _ _ k _ (seg_var T)), (filter_seg _ _ k _ (seg_expr T)).
  destruct k as [|[|[|[|[|k]]]]]; simpl; rewrite ?app_nil_r; reflexivity.
Qed.

Lemma segments_inj T bfs bfs' ins ins' vars vars' es es' :
  map bf_key bfs ++ map in_key ins ++ map (var_key T) vars ++ map (key T) es
  = map bf_key bfs' ++ map in_key ins' ++ map (var_key T) vars' ++ map (key T) es' ->
  map bf_key bfs = map bf_key bfs' /\ map in_key ins = map in_key ins' /\
  map (var_key T) vars = map (var_key T) vars' /\ map (key T) es = map (key T) es'.
Proof.
  intros H.
  assert (S : forall k, nth k [map bf_key bfs; map in_key ins; map (var_key T) vars; map (key T) es] []
                      = nth k [map bf_key bfs'; map in_key ins'; map (var_key T) vars'; map (key T) es'] [])
    by (intros k; rewrite <- !flat_segment, H; reflexivity).
  exact (conj (S 0%nat) (conj (S 1%nat) (conj (S 2%nat) (S 3%nat)))).
Qed.

Lemma form_key_sep T : covers T = true ->
  forall f g, wf_form T f = true -> wf_form T g = true -> form_key T f = form_key T g ->
  strip_form T f = strip_form T g.
Proof.
  intros CV [d a v s b bfs ins vars es] [d' a' v' s' b' bfs' ins' vars' es'].
  unfold wf_form, form_key, strip_form; simpl. intros W W' H.
  do 6 (apply andb_true_iff in W as [W ?]). do 6 (apply andb_true_iff in W' as [W' ?]).
  injection H as Hd Ha Hv Hs Hb H.
  apply inthash_inj in Hd, Ha, Hv; auto. apply hbool_inj in Hs, Hb. subst.
  apply segments_inj in H as (Hbf & Hin & Hvar & Hex).
  f_equal.
  - revert Hbf. apply map_inj_on with (ok := wf_bf); auto using bf_key_inj.
  - revert Hin. apply map_inj_on with (ok := wf_in); auto using in_key_inj.
  - revert Hvar. apply map_sep with (ok := wf_var T); auto using var_key_sep.
  - revert Hex. apply map_sep with (ok := well_typed T); auto using key_sep.
Qed.

(* the list comparison nested in [atom_eqb] and [hval_eqb]; [list_eqb] is the same function at [Nat.eqb] *)
Lemma list_eqb_spec {A} (eqb : A -> A -> bool) l :
  Forall (fun x => forall y, eqb x y = true <-> x = y) l ->
  forall m, (fix go (l m : list A) : bool :=
               match l, m with
               | [], [] => true
               | x :: l', y :: m' => eqb x y && go l' m'
               | _, _ => false
               end) l m = true <-> l = m.
Proof.
  induction 1 as [|x l Hx _ IH]; intros [|y m]; try (split; [discriminate|congruence]).
  - split; reflexivity.
  - rewrite andb_true_iff, Hx, IH. split.
    + intros [-> ->]. reflexivity.
    + intros E. injection E as -> ->. auto.
Qed.

Lemma atom_eqb_eq : forall a b, atom_eqb a b = true <-> a = b.
Proof.
  induction a as [z|bb|s| |l IH] using atom_ind'; intros [z'|bb'|s'| |l']; simpl;
    try (split; [discriminate|congruence]).
  - rewrite Z.eqb_eq. split; congruence.
  - rewrite Z.eqb_eq. split; congruence.
  - rewrite String.eqb_eq. split; congruence.
  - split; reflexivity.
  - rewrite (list_eqb_spec atom_eqb l IH). split; congruence.
Qed.

Lemma hval_eqb_eq : forall a b, hval_eqb a b = true <-> a = b.
Proof.
  induction a as [z|s| |s|x|l IH] using hval_ind'; intros [z'|s'| |s'|x'|l']; simpl;
    try (split; [discriminate|congruence]).
  - rewrite Z.eqb_eq. split; congruence.
  - rewrite String.eqb_eq. split; congruence.
  - split; reflexivity.
  - rewrite String.eqb_eq. split; congruence.
  - rewrite atom_eqb_eq. split; congruence.
  - rewrite (list_eqb_spec hval_eqb l IH). split; congruence.
Qed.

Section MemoProofs.
  Variables (K R C : Type).
  Variable keq : K -> K -> bool.
  Variable keyof : R -> K.
  Variable build : R -> C.
  Hypothesis keq_spec : forall a b, keq a b = true <-> a = b.
  Variable ok : R -> Prop.
  Hypothesis key_sound : forall a b, ok a -> ok b -> keyof a = keyof b -> build a = build b.

  Definition inv (st : memo K C) : Prop :=
    forall r c, ok r -> mlookup K C keq (keyof r) st = Some c -> c = build r.

  Lemma inv_cons st r : ok r -> inv st -> inv ((keyof r, build r) :: st).
  Proof.
    intros Or I r' c Or' H. simpl in H. destruct (keq (keyof r') (keyof r)) eqn:E.
    - injection H as <-. apply keq_spec in E. symmetry. apply key_sound; auto.
    - apply I; auto.
  Qed.

  Lemma request_correct st r : ok r -> inv st ->
    inv (fst (request K R C keq keyof build st r)) /\ snd (request K R C keq keyof build st r) = build r.
  Proof.
    intros Or I. unfold request. destruct (mlookup K C keq (keyof r) st) as [c|] eqn:E; simpl.
    - split; auto.
    - split; auto. apply inv_cons; auto.
  Qed.

  Lemma serve_correct : forall rs st, inv st -> Forall ok rs ->
    snd (serve K R C keq keyof build st rs) = map build rs.
  Proof.
    induction rs as [|r rs IH]; intros st I F; simpl; auto.
    inversion F as [|? ? Or F']; subst.
    destruct (request_correct st r Or I) as [I1 E1].
    destruct (request K R C keq keyof build st r) as [st1 c] eqn:Rq. simpl in *.
    specialize (IH st1 I1 F').
    destruct (serve K R C keq keyof build st1 rs) as [st2 cs]. simpl in *. congruence.
  Qed.

  Lemma preseed_inv seed :
    (forall r c, In (r, c) seed -> ok r /\ c = build r) -> inv (preseed K R C keyof seed).
  Proof.
    unfold preseed. cut (inv []); [|intros r c _ E; discriminate E].
    generalize (@nil (K * C)). induction seed as [|[r c] seed IH]; intros st I H; simpl; auto.
    apply IH.
    - destruct (H r c (or_introl eq_refl)) as [Or ->]. apply inv_cons; auto.
    - intros r' c' In'. apply H. right; exact In'.
  Qed.

  Theorem memo_returns_requested seed rs :
    (forall r c, In (r, c) seed -> ok r /\ c = build r) -> Forall ok rs ->
    snd (serve K R C keq keyof build (preseed K R C keyof seed) rs) = map build rs.
  Proof. intros H F. apply serve_correct; auto. apply preseed_inv; auto. Qed.
End MemoProofs.

Lemma keq1_spec a b : keq1 a b = true <-> a = b.
Proof.
  destruct a as [h o], b as [h' o']. unfold keq1; simpl.
  rewrite andb_true_iff, hval_eqb_eq, Bool.eqb_true_iff. split; [intros [-> ->]; reflexivity|intros E; injection E; auto].
Qed.

(* level 1: (vf.hash(), (on_demand,)) -> whatever is built from the mode and the code-relevant content *)
Section Level1.
  Variable T : table.
  Hypothesis CV : covers T = true.
  Variable X : Type.
  Variable gen : bool -> form -> X.

  Definition build1 (r : form * bool) : X := gen (snd r) (strip_form T (fst r)).
  Definition ok1 (r : form * bool) : Prop := wf_form T (fst r) = true.
  Definition inv1 : memo (hval * bool) X -> Prop := inv _ _ _ keq1 (keyof1 T) build1 ok1.

  Lemma keyof1_sound a b : ok1 a -> ok1 b -> keyof1 T a = keyof1 T b -> build1 a = build1 b.
  Proof.
    destruct a as [f o], b as [g o']. unfold ok1, keyof1, build1; cbn [fst snd]. intros Wf Wg E.
    apply pair_equal_spec in E as [Ek <-]. f_equal. apply form_key_sep; auto.
  Qed.

  Lemma inv1_cons st r : ok1 r -> inv1 st -> inv1 ((keyof1 T r, build1 r) :: st).
  Proof. apply inv_cons; [exact keq1_spec|exact keyof1_sound]. Qed.

  Lemma inv1_preseed seed :
    (forall r c, In (r, c) seed -> ok1 r /\ c = build1 r) -> inv1 (preseed _ _ _ (keyof1 T) seed).
  Proof. apply preseed_inv; [exact keq1_spec|exact keyof1_sound]. Qed.
End Level1.

(* level 2: module name -> loaded module *)
Lemma modname_inj (digest : string -> string) (seen : string -> Prop) :
  (forall a b, seen a -> seen b -> digest a = digest b -> a = b) ->
  forall a b, seen a -> seen b -> modname digest a = modname digest b -> a = b.
Proof. intros Inj a b Sa Sb E. unfold modname in E. apply append_inj_l in E. auto. Qed.

Lemma modname_sound {M} digest (compile : string -> M) (seen : string -> Prop) :
  (forall a b, seen a -> seen b -> digest a = digest b -> a = b) ->
  forall a b, seen a -> seen b -> modname digest a = modname digest b -> compile a = compile b.
Proof. intros Inj a b Sa Sb E. f_equal. exact (modname_inj digest seen Inj a b Sa Sb E). Qed.

Lemma memb_in x l : memb x l = true <-> In x l.
Proof.
  unfold memb. rewrite existsb_exists. split.
  - intros [y [I E]]. apply Nat.eqb_eq in E. subst; auto.
  - intros I. exists x. split; auto. apply Nat.eqb_refl.
Qed.

Lemma disjoint_notin a b x : disjoint a b = true -> In x a -> memb x b = false.
Proof.
  unfold disjoint. rewrite forallb_forall. intros H I. apply negb_true_iff, H, I.
Qed.

Lemma list_eqb_eq a b : list_eqb a b = true <-> a = b.
Proof. apply (list_eqb_spec Nat.eqb a), Forall_all. exact Nat.eqb_eq. Qed.

Lemma stmt_eqb_eq s t : stmt_eqb s t = true <-> s = t.
Proof.
  destruct s, t. unfold stmt_eqb; simpl. rewrite !andb_true_iff, Nat.eqb_eq, !list_eqb_eq. split.
  - intros [[-> ->] ->]. reflexivity.
  - intros E. injection E; auto.
Qed.

(* the two ways in which [pull t] succeeds *)
Lemma pull_ind t (P : list stmt -> list stmt -> Prop) :
  (forall a, P (t :: a) a) ->
  (forall s a r, indep s t = true -> P a r -> P (s :: a) (s :: r)) ->
  forall a a', pull t a = Some a' -> P a a'.
Proof.
  intros Pt Ps. induction a as [|s a IH]; intros a' H; simpl in H; try discriminate.
  destruct (stmt_eqb s t) eqn:E.
  - apply stmt_eqb_eq in E. injection H as <-. subst. apply Pt.
  - destruct (indep s t) eqn:I; try discriminate.
    destruct (pull t a) as [r|]; try discriminate. injection H as <-. auto.
Qed.

Section ExecProofs.
  Variable V : Type.
  Variable rhs : nat -> nat -> list V -> V.

  Definition eqenv (e1 e2 : env V) : Prop := forall x, e1 x = e2 x.

  Lemma exec1_ext s e1 e2 : eqenv e1 e2 -> eqenv (exec1 V rhs s e1) (exec1 V rhs s e2).
  Proof.
    intros H x. unfold exec1. destruct (memb x (defs s)); auto.
    f_equal. apply map_ext. exact H.
  Qed.

  Lemma exec_ext l : forall e1 e2, eqenv e1 e2 -> eqenv (exec V rhs l e1) (exec V rhs l e2).
  Proof.
    induction l as [|s l IH]; intros e1 e2 H; simpl; auto.
    apply IH. apply exec1_ext. exact H.
  Qed.

  Lemma map_unchanged t e l : disjoint (defs t) l = true -> map (exec1 V rhs t e) l = map e l.
  Proof.
    intros D. apply map_ext_in. intros y I. unfold exec1.
    destruct (memb y (defs t)) eqn:M; auto.
    apply memb_in in M. pose proof (disjoint_notin _ _ _ D M) as N.
    apply memb_in in I. congruence.
  Qed.

  Lemma exec1_comm s t e : indep s t = true ->
    eqenv (exec1 V rhs s (exec1 V rhs t e)) (exec1 V rhs t (exec1 V rhs s e)).
  Proof.
    unfold indep. intros H. apply andb_true_iff in H as [H D3]. apply andb_true_iff in H as [D1 D2].
    intros x. unfold exec1 at 1 3.
    destruct (memb x (defs s)) eqn:Ms; destruct (memb x (defs t)) eqn:Mt.
    - apply memb_in in Ms. rewrite (disjoint_notin _ _ _ D1 Ms) in Mt. discriminate.
    - rewrite (map_unchanged t e _ D3). unfold exec1. rewrite Ms. reflexivity.
    - rewrite (map_unchanged s e _ D2). unfold exec1. rewrite Mt. reflexivity.
    - unfold exec1. rewrite Ms, Mt. reflexivity.
  Qed.

  Lemma pull_sound t : forall a a', pull t a = Some a' ->
    forall e, eqenv (exec V rhs a e) (exec V rhs (t :: a') e).
  Proof.
    apply (pull_ind t (fun a a' => forall e, eqenv (exec V rhs a e) (exec V rhs (t :: a') e))).
    - intros a e x. reflexivity.
    - intros s a r I IH e x. simpl. rewrite (IH (exec1 V rhs s e) x). simpl.
      apply exec_ext. intros y. symmetry. apply exec1_comm. exact I.
  Qed.
End ExecProofs.

Lemma pull_perm t : forall a a', pull t a = Some a' -> Permutation a (t :: a').
Proof.
  apply (pull_ind t (fun a a' => Permutation a (t :: a'))).
  - reflexivity.
  - intros s a r _ P. eapply Permutation_trans; [apply perm_skip, P|apply perm_swap].
Qed.

(* what the checker accepts lies in every relation that holds of the empty runs and is preserved by pulling
   the next statement of [b] to the front of [a] *)
Lemma reorder_ok_ind (Rel : list stmt -> list stmt -> Prop) :
  Rel [] [] -> (forall t a a' b, pull t a = Some a' -> Rel a' b -> Rel a (t :: b)) ->
  forall b a, reorder_ok a b = true -> Rel a b.
Proof.
  intros R0 RS. induction b as [|t b IH]; intros a H; simpl in H.
  - destruct a; [exact R0|discriminate].
  - destruct (pull t a) as [a'|] eqn:Pl; [|discriminate]. eauto.
Qed.

Lemma reorder_refl : forall a, reorder_ok a a = true.
Proof.
  induction a as [|s a IH]; simpl; auto.
  rewrite (proj2 (stmt_eqb_eq s s) eq_refl). exact IH.
Qed.

Lemma wf_add_expr T f e : wf_form T f = true -> well_typed T e = true -> wf_form T (add_expr f e) = true.
Proof.
  unfold wf_form, add_expr; cbn [f_dim f_arity f_vec f_bfs f_inputs f_vars f_exprs]. intros W We.
  rewrite forallb_app. cbn [forallb]. rewrite We. cbn [andb]. rewrite andb_true_r. exact W.
Qed.

Lemma hrun_good_cons g T C gen st o ops :
  hrun_good g T C gen st (o :: ops) <->
  good_outcome T C gen st o (snd (hstep g T C gen st o)) /\ hrun_good g T C gen (fst (hstep g T C gen st o)) ops.
Proof. simpl. destruct (hstep g T C gen st o). reflexivity. Qed.

Section HistoryProofs.
  Variable T : table.
  Variable C : Type.
  Variable gen : bool -> form -> C.
  Hypothesis CV : covers T = true.

  (* an object is consistent when its memoised hash (if any) is the key of its current content *)
  Definition obj_ok (o : obj) : Prop :=
    wf_form T (o_form o) = true /\ (forall k, o_memo o = Some k -> k = form_key T (o_form o)).

  Definition hinv (st : hstate C) : Prop := inv1 T C gen (fst st) /\ Forall obj_ok (snd st).

  Definition op_ok (o : op) : Prop := match o with OAdd _ e => well_typed T e = true | _ => True end.

  Lemma hinv_upd cache objs i ob :
    inv1 T C gen cache -> Forall obj_ok objs -> obj_ok ob -> hinv (cache, upd i ob objs).
  Proof. intros CI OI OK. split; simpl; auto using Forall_upd. Qed.

  Lemma obj_hash_ok o : obj_ok o ->
    obj_ok (fst (obj_hash T o)) /\ snd (obj_hash T o) = form_key T (o_form o)
    /\ o_form (fst (obj_hash T o)) = o_form o.
  Proof.
    intros [W M]. unfold obj_hash. destruct (o_memo o) as [k|] eqn:E; cbn [fst snd o_form o_memo].
    - rewrite (M k eq_refl). repeat split; auto. rewrite E. exact M.
    - repeat split; auto. cbn [o_memo o_form]. congruence.
  Qed.

  (* with the guard `self.__hash is not None` every step preserves the invariant and every class
     handed out is the one of the object's current content *)
  Lemma hstep_good st o : hinv st -> op_ok o ->
    hinv (fst (hstep GHash T C gen st o)) /\ good_outcome T C gen st o (snd (hstep GHash T C gen st o)).
  Proof.
    destruct st as [cache objs]. intros [CI OI] Oo. simpl in CI, OI.
    assert (Same : hinv (cache, objs)) by (split; assumption).
    (* an index without object raises and leaves the state as it is *)
    destruct o as [i e|i|i od]; simpl; (destruct (nth_error objs i) as [ob|] eqn:N; simpl; [|auto]);
      pose proof (nth_error_Forall _ _ _ _ OI N) as OK.
    - (* add: accepted only while no hash is memoised *)
      destruct OK as [W M]. unfold blocked. destruct (o_memo ob) as [k|] eqn:E; simpl; auto.
      split; auto. apply hinv_upd; auto. split; simpl; [apply wf_add_expr; auto|congruence].
    - destruct (obj_hash_ok ob OK) as [OK' _].
      destruct (obj_hash T ob) as [ob' k]; simpl in *. split; auto. apply hinv_upd; auto.
    - destruct (obj_hash_ok ob OK) as (OK' & Hk & Hf).
      destruct (obj_hash T ob) as [ob' k]; simpl in *. subst k.
      destruct (mlookup (hval * bool) C keq1 (form_key T (o_form ob), od) cache) as [c|] eqn:L; simpl.
      + (* hit: the entry was built from a form with the key of the object's content *)
        split; [apply hinv_upd; auto|]. exists ob. split; auto.
        apply (CI (o_form ob, od) c); [apply OK|exact L].
      + destruct (o_final ob'); simpl.
        * split; auto. apply hinv_upd; auto.
        * split; [|exists ob; rewrite Hf; auto].
          apply hinv_upd; [|assumption|exact OK'].
          rewrite <- Hf. apply (inv1_cons T CV C gen cache (o_form ob', od)); auto.
          unfold ok1; simpl. rewrite Hf. apply OK.
  Qed.

  Lemma hinv_hrun_good : forall ops st, hinv st -> Forall op_ok ops ->
    hrun_good GHash T C gen st ops.
  Proof.
    induction ops as [|o ops IH]; intros st Hst F; [exact I|].
    inversion F as [|? ? Oo F']; subst. apply hrun_good_cons.
    destruct (hstep_good st o Hst Oo) as [Hst' G]. auto.
  Qed.

  Lemma hinv_fresh seed forms :
    (forall r c, In (r, c) seed -> ok1 T r /\ c = build1 T C gen r) ->
    Forall (fun f => wf_form T f = true) forms ->
    hinv (preseed _ _ _ (keyof1 T) seed, map (fun f => mk_obj f None false) forms).
  Proof.
    intros HS HF. split; simpl.
    - apply inv1_preseed; assumption.
    - apply Forall_map. apply (Forall_impl _ (P := fun f => wf_form T f = true)); [|exact HF].
      intros f W. split; simpl; [exact W|discriminate].
  Qed.
End HistoryProofs.
