(* C13 -- property theorems: the cache theorems with the generator applied to the REQUESTED FORM ITSELF, for a
   generator that reads only the attributes in the read-set table R.  R is regenerated on every run by
   translate/c13_readsets.py from pyiga/codegen/cython.py and pyiga/vform.py (every `x.a` read, fail-closed) and
   [reads_within expr_reads current_table = true] is a generated obligation (coq/gen/C13_ReadSets.v). *)
From Coq Require Import String.
From Coq Require Import List ZArith Bool Permutation.
From Verif.C13 Require Import Props.
From Verif.C13 Require Import Model Spec Proofs ReadSets.
Import ListNotations.

(* a generator that reads only R does not distinguish a tree / a form from its code-relevant content *)
Theorem reads_only_factors_through_strip : forall R T, reads_within R T = true ->
  forall (Code : Type) (g : form -> Code), (forall f, g f = g (restrict_form R f)) -> forall f, g (strip_form T f) = g f.
Proof.
  intros R T H Code g G f. rewrite (G (strip_form T f)), (G f). f_equal. apply restrict_strip_form. exact H.
Qed.
Print Assumptions reads_only_factors_through_strip.

(* equal Expr.hash => equal generated code, for every generator that reads only R *)
Theorem same_key_same_code_reads : forall T R, covers T = true -> reads_within R T = true ->
  forall (Code : Type) (g : node -> Code), (forall n, g n = g (restrict R n)) ->
  forall a b, well_typed T a = true -> well_typed T b = true -> key T a = key T b -> g a = g b.
Proof.
  intros T R CV H Code g G a b Wa Wb K.
  rewrite <- (reads_only_strip R T H Code g G a), <- (reads_only_strip R T H Code g G b).
  f_equal. apply key_separates; auto.
Qed.
Print Assumptions same_key_same_code_reads.

(* equal VForm.hash => equal generated code *)
Theorem form_same_key_same_code_reads : forall T R, covers T = true -> reads_within R T = true ->
  forall (Code : Type) (g : form -> Code), (forall f, g f = g (restrict_form R f)) ->
  forall f f', wf_form T f = true -> wf_form T f' = true -> form_key T f = form_key T f' -> g f = g f'.
Proof.
  intros T R CV H Code g G f f' W W' K.
  rewrite <- (reads_only_factors_through_strip R T H Code g G f), <- (reads_only_factors_through_strip R T H Code g G f').
  f_equal. apply form_key_separates; auto.
Qed.
Print Assumptions form_same_key_same_code_reads.

(* every request sequence returns what generating from the requested form itself gives *)
Theorem cache_returns_requested_reads :
  forall (T : table) (R : rtable) (C : Type) (gen : bool -> form -> C)
         (seed : list ((form * bool) * C)) (reqs : list (form * bool)),
    covers T = true -> reads_within R T = true ->
    (forall od f, gen od f = gen od (restrict_form R f)) ->
    let build := fun r : form * bool => gen (snd r) (fst r) in
    (forall r c, In (r, c) seed -> wf_form T (fst r) = true /\ c = build r) ->
    Forall (fun r => wf_form T (fst r) = true) reqs ->
    snd (serve _ _ _ keq1 (keyof1 T) (fun r => gen (snd r) (strip_form T (fst r)))
           (preseed _ _ _ (keyof1 T) seed) reqs) = map build reqs.
Proof.
  intros T R C gen seed reqs CV H G build S F.
  assert (E : forall od f, gen od (strip_form T f) = gen od f)
    by (intros od f; apply (reads_only_factors_through_strip R T H C (gen od) (G od))).
  rewrite (cache_returns_requested T C gen seed reqs CV).
  - apply map_ext. intros r. apply E.
  - intros r c I. destruct (S r c I) as [W ->]. split; auto. symmetry. apply E.
  - exact F.
Qed.
Print Assumptions cache_returns_requested_reads.

(* record classes: reads inside key ++ derived, derived attributes functions of the keyed ones => anything computed
   from the read attributes is determined by the keyed ones *)
Theorem reads_determined : forall (V Code : Type) (R K D : list string) (g : store V -> Code)
    (defn : string -> store V -> V),
  subset R (K ++ D) = true -> reads_only V Code R g ->
  (forall d, In d D -> reads_only V V K (defn d)) ->
  forall s t, derived_by V K D defn s -> derived_by V K D defn t -> agree V K s t -> g s = g t.
Proof.
  intros V Code R K D g defn Sub RO DK s t Ds Dt A. apply RO. intros a I.
  apply (subset_in _ _ _ Sub) in I. apply in_app_or in I as [I|I]; auto.
  rewrite (Ds a I), (Dt a I). apply DK; auto.
Qed.
Print Assumptions reads_determined.

(* NOT PROVED: that the Python generator reads attributes ONLY through the syntactic forms the
   translator collects (x.a, getattr/hasattr with a literal name; __getattr__ of VForm as modelled) is the semantics
   of Python, trusted; by-name attribution over-approximates the receiver's class.  Attributes assigned after
   construction ("late": VForm.kernel_deps/linear_deps/precomp, AsmVar.is_global/expr) are allowed because they are
   assigned only inside the analysed code, whose own reads are subject to the same obligation -- that induction over
   the execution of finalize() is an argument in prose, not a theorem.  'Up to the order of independent statements'
   has no inductive definition of its own: reorder_ok (Props.reorder_sound, reorder_perm) is the only statement of it. *)
