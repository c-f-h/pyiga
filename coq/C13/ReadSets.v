(* C13 -- what the code generator READS, and why a generator that reads nothing else is a function of
   the key.  The read sets are regenerated on every run by translate/c13_readsets.py (ast walk of
   pyiga/codegen/cython.py and pyiga/vform.py, fail-closed) into coq/gen/C13_ReadSets.v together with the
   obligations [reads_within expr_reads current_table = true], [same_classes ..], [subset reads (key ++
   derived ++ late) = true] per record class and [unresolved = []]. *)
From Coq Require Import String.
From Coq Require Import List Bool.
From Verif.C13 Require Import Model Spec Proofs.
Import ListNotations.
Open Scope string_scope.

Definition rtable := list (string * list string).

Fixpoint rlookup (R : rtable) (c : string) : list string :=
  match R with
  | [] => []
  | (k, l) :: R' => if String.eqb c k then l else rlookup R' c
  end.

(* shape and children enter Expr.hash directly (Model.key) *)
Definition structural : list string := ["shape"; "children"].
Definition mem_str (x : string) (l : list string) : bool := existsb (String.eqb x) l.

(* every attribute read of class c is structural or one of the code-relevant attributes of the key table *)
Definition reads_ok (T : table) (rc : string * list string) : bool :=
  forallb (fun a => mem_str a structural || mem_str a (map fst (seml (tlookup T (fst rc))))) (snd rc).
Definition reads_within (R : rtable) (T : table) : bool := forallb (reads_ok T) R.
(* the two translators see the same expression classes, in the same (sorted) order *)
Fixpoint same_classes (R : rtable) (T : table) : bool :=
  match R, T with
  | [], [] => true
  | (c, _) :: R', (d, _) :: T' => String.eqb c d && same_classes R' T'
  | _, _ => false
  end.

(* what a generator that reads only R can see of a tree *)
Definition read_attrs (l : list string) (a : attrs) : attrs :=
  map (fun nm => (nm, lookup nm a)) (filter (fun nm => negb (mem_str nm structural)) l).
Fixpoint restrict (R : rtable) (n : node) : node :=
  match n with
  | Node c sh a ch => Node c sh (read_attrs (rlookup R c) a) (map (restrict R) ch)
  end.
Definition restrict_src (R : rtable) (s : vsrc) : vsrc :=
  match s with SExpr n => SExpr (restrict R n) | _ => s end.
Definition restrict_var (R : rtable) (v : avar) : avar :=
  mk_avar (v_name v) (restrict_src R (v_src v)) (v_shape v) (v_symmetric v) (v_deriv v).
Definition restrict_form (R : rtable) (f : form) : form :=
  mk_form (f_dim f) (f_arity f) (f_vec f) (f_spacetime f) (f_boundary f)
          (f_bfs f) (f_inputs f) (map (restrict_var R) (f_vars f)) (map (restrict R) (f_exprs f)).

Lemma mem_str_in x l : mem_str x l = true <-> In x l.
Proof.
  unfold mem_str. rewrite existsb_exists. split.
  - intros [y [I E]]. apply String.eqb_eq in E. subst; auto.
  - intros I. exists x. split; auto. apply String.eqb_refl.
Qed.

Lemma lookup_sem_attrs cs a nm : In nm (map fst (seml cs)) -> lookup nm (sem_attrs cs a) = lookup nm a.
Proof.
  unfold sem_attrs. induction (seml cs) as [|[k t] l IH]; simpl; intros H; [contradiction|].
  destruct (String.eqb nm k) eqn:E.
  - apply String.eqb_eq in E. subst. reflexivity.
  - destruct H as [H|H]; [subst; rewrite String.eqb_refl in E; discriminate|]. auto.
Qed.

Lemma rlookup_in R c : rlookup R c = [] \/ In (c, rlookup R c) R.
Proof.
  induction R as [|[k l] R IH]; simpl; auto.
  destruct (String.eqb c k) eqn:E.
  - apply String.eqb_eq in E. subst. right. left. reflexivity.
  - destruct IH as [IH|IH]; auto.
Qed.

Lemma read_attrs_strip R T c a : reads_within R T = true ->
  read_attrs (rlookup R c) (sem_attrs (tlookup T c) a) = read_attrs (rlookup R c) a.
Proof.
  intros H. destruct (rlookup_in R c) as [E|I].
  - rewrite E. reflexivity.
  - unfold reads_within in H. rewrite forallb_forall in H. specialize (H _ I).
    unfold reads_ok in H; cbn [fst snd] in H. rewrite forallb_forall in H.
    unfold read_attrs. apply map_ext_in. intros nm IN.
    apply filter_In in IN as [IN NS]. specialize (H _ IN). cbv beta in H.
    apply negb_true_iff in NS. apply orb_true_iff in H as [H|H]; [congruence|].
    apply mem_str_in in H. rewrite lookup_sem_attrs; auto.
Qed.

Lemma restrict_strip R T : reads_within R T = true -> forall n, restrict R (strip T n) = restrict R n.
Proof.
  intros H. induction n as [c sh a ch IH] using node_ind'. simpl. f_equal.
  - apply read_attrs_strip. exact H.
  - rewrite map_map. apply map_ext_Forall. exact IH.
Qed.

Lemma restrict_strip_form R T : reads_within R T = true ->
  forall f, restrict_form R (strip_form T f) = restrict_form R f.
Proof.
  intros H f. unfold restrict_form, strip_form; simpl. f_equal.
  - rewrite map_map. apply map_ext. intros v. unfold restrict_var, strip_var; simpl. f_equal.
    destruct (v_src v); simpl; auto. f_equal. apply restrict_strip. exact H.
  - rewrite map_map. apply map_ext. intros n. apply restrict_strip. exact H.
Qed.

Lemma reads_only_strip R T : reads_within R T = true ->
  forall (Code : Type) (g : node -> Code), (forall n, g n = g (restrict R n)) -> forall n, g (strip T n) = g n.
Proof. intros H Code g G n. rewrite (G (strip T n)), (G n). f_equal. apply restrict_strip. exact H. Qed.

(* Record classes (AsmVar, BasisFun, InputField, Parameter, VForm): attributes as a store.  If every attribute
   read lies in key ++ derived, the derived ones are functions of the keyed ones, and two objects agree on
   the keyed attributes, then anything computed from the read attributes agrees. *)
Section Stores.
  Variable V : Type.
  Definition store := string -> V.
  Definition agree (l : list string) (s t : store) : Prop := forall a, In a l -> s a = t a.
  Definition reads_only (Code : Type) (R : list string) (g : store -> Code) : Prop :=
    forall s t, agree R s t -> g s = g t.
  (* d is computed from the keyed attributes by [defn d] *)
  Definition derived_by (K D : list string) (defn : string -> store -> V) (s : store) : Prop :=
    forall d, In d D -> s d = defn d s.
End Stores.

Lemma subset_in a b x : subset a b = true -> In x a -> In x b.
Proof.
  unfold subset. rewrite forallb_forall. intros H I. apply mem_str_in, H, I.
Qed.
