(* C13 -- (1) every difference the property lists separates the cache keys, stated on the
   model of Expr.hash / VForm.hash / compile_vform's key for differences at ANY depth of the
   form (kernel expressions and let-bound variables);
   (2) the two cache levels composed (compile_cython_module called by compile_vform, pyiga/compile.py): for every
   request sequence the class returned is the one loaded from the module compiled from the
   source generated for the requested form.
   Definitions and lemmas; the property theorems are in Props.v. *)
From Coq Require Import String.
From Coq Require Import List ZArith Bool.
From Verif.C13 Require Import Model Proofs.
Import ListNotations.
Open Scope Z_scope.

Inductive differs (T : table) : node -> node -> Prop :=
| d_class : forall c c' sh sh' a a' ch ch', c <> c' ->
    differs T (Node c sh a ch) (Node c' sh' a' ch')                 (* e.g. dx / ds, vector / matrix literal *)
| d_shape : forall c c' sh sh' a a' ch ch', sh <> sh' ->
    differs T (Node c sh a ch) (Node c' sh' a' ch')
| d_attr : forall c sh sh' a a' ch ch' n t,
    In (n, t) (seml (tlookup T c)) -> lookup n a <> lookup n a' ->   (* operator, function name, constant, D, I, axis, ... *)
    differs T (Node c sh a ch) (Node c sh' a' ch')
| d_nchildren : forall c c' sh sh' a a' ch ch', length ch <> length ch' ->
    differs T (Node c sh a ch) (Node c' sh' a' ch')
| d_child : forall c c' sh sh' a a' pre pre' x y post post',
    length pre = length pre' -> differs T x y ->
    differs T (Node c sh a (pre ++ x :: post)) (Node c' sh' a' (pre' ++ y :: post')).

Lemma differs_strip T a b : differs T a b -> strip T a <> strip T b.
Proof.
  induction 1 as [c c' sh sh' a a' ch ch' N|c c' sh sh' a a' ch ch' N|c sh sh' a a' ch ch' n t I N
                 |c c' sh sh' a a' ch ch' N|c c' sh sh' a a' pre pre' x y post post' L _ IH];
    simpl; intros E.
  - injection E as Ec _ _ _. contradiction.
  - injection E as _ Es _ _. contradiction.
  - injection E as _ Ea _. pose proof (ext_in_map Ea _ I) as El. simpl in El. congruence.
  - injection E as _ _ _ Ech. apply N. rewrite <- (map_length (strip T) ch), Ech. apply map_length.
  - injection E as _ _ _ Ech. exact (IH (map_eq_at _ _ _ _ _ _ _ L Ech)).
Qed.

(* the k-th variable: name, shape, symmetric flag, derivative order, kind of source, parameter
   (name, shape), input field, or a token difference inside the expression of a let-bound variable *)
Lemma var_separates T : covers T = true ->
  forall f g, wf_form T f = true -> wf_form T g = true ->
  forall pre pre' v w post post',
    f_vars f = pre ++ v :: post -> f_vars g = pre' ++ w :: post' -> length pre = length pre' ->
    strip_var T v <> strip_var T w -> form_key T f <> form_key T g.
Proof.
  intros CV f g Wf Wg pre pre' v w post post' Ef Eg L D E.
  apply form_key_sep in E; auto. apply (f_equal f_vars) in E. simpl in E.
  rewrite Ef, Eg in E. exact (D (map_eq_at _ _ _ _ _ _ _ L E)).
Qed.

Lemma let_token_differs T v w x y :
  v_src v = SExpr x -> v_src w = SExpr y -> differs T x y -> strip_var T v <> strip_var T w.
Proof.
  intros Ev Ew D E. unfold strip_var in E. injection E as _ E _ _ _. rewrite Ev, Ew in E. simpl in E.
  injection E as E. exact (differs_strip T x y D E).
Qed.

Lemma var_field_differs T v w :
  v_name v <> v_name w \/ v_shape v <> v_shape w \/ v_symmetric v <> v_symmetric w \/ v_deriv v <> v_deriv w ->
  strip_var T v <> strip_var T w.
Proof.
  intros H E. unfold strip_var in E. injection E as E1 E2 E3 E4 E5. tauto.
Qed.

Lemma var_source_differs T v w :
  (forall i, v_src v = SInput i -> v_src w <> SInput i) ->
  (forall p, v_src v = SParam p -> v_src w <> SParam p) ->
  (forall x, v_src v <> SExpr x) ->
  strip_var T v <> strip_var T w.
Proof.
  intros HI HP HE E. unfold strip_var in E. injection E as _ E _ _ _.
  destruct (v_src v) as [x|i|p] eqn:Ev; destruct (v_src w) as [y|j|q] eqn:Ew; simpl in E; try discriminate.
  - exact (HE x eq_refl).
  - injection E as <-. exact (HI i eq_refl eq_refl).
  - injection E as <-. exact (HP p eq_refl eq_refl).
Qed.

Section TwoLevel.
  Variables (C M : Type).
  Variable T : table.
  Variable gen : bool -> form -> string.     (* compile.generate on the code-relevant content *)
  Variable digest : string -> string.
  Variable compile : string -> M.            (* cythonize + gcc + import of a source text *)
  Variable cls : M -> C.                     (* mod.CustomAssembler *)

  Definition state2 := (memo (hval * bool) C * memo string M)%type.

  (* compile_vform with compile_cython_module inlined *)
  Definition request2 (st : state2) (r : form * bool) : state2 * C :=
    let (m1, m2) := st in
    match mlookup _ _ keq1 (keyof1 T r) m1 with
    | Some c => (st, c)
    | None =>
        let src := gen (snd r) (strip_form T (fst r)) in
        let (m2', md) := request _ _ _ String.eqb (modname digest) compile m2 src in
        let c := cls md in
        (((keyof1 T r, c) :: m1, m2'), c)
    end.

  Fixpoint serve2 (st : state2) (rs : list (form * bool)) : state2 * list C :=
    match rs with
    | [] => (st, [])
    | r :: rs' => let (st1, c) := request2 st r in
                  let (st2, cs) := serve2 st1 rs' in (st2, c :: cs)
    end.

  Hypothesis CV : covers T = true.
  Variable seen : string -> Prop.
  Hypothesis digest_inj : forall a b, seen a -> seen b -> digest a = digest b -> a = b.
  Hypothesis gen_seen : forall r, wf_form T (fst r) = true -> seen (gen (snd r) (strip_form T (fst r))).

  Let h := fun od f => cls (compile (gen od f)).
  Let inv2 := inv string string M String.eqb (modname digest) compile seen.

  Lemma request2_correct st r : ok1 T r -> inv1 T C h (fst st) -> inv2 (snd st) ->
    inv1 T C h (fst (fst (request2 st r))) /\ inv2 (snd (fst (request2 st r))) /\ snd (request2 st r) = build1 T C h r.
  Proof.
    destruct st as [m1 m2]. intros Or I1 I2. simpl in I1, I2. unfold request2.
    destruct (mlookup (hval * bool) C keq1 (keyof1 T r) m1) as [c|] eqn:L; simpl.
    - repeat split; auto.
    - (* miss: the source goes to level 2, which returns the module compiled from it *)
      destruct (request_correct _ _ _ _ _ _ String.eqb_eq seen (modname_sound digest compile seen digest_inj)
                  m2 _ (gen_seen r Or) I2) as [I2' E2].
      destruct (request _ _ _ String.eqb (modname digest) compile m2 _) as [m2' md]. simpl in *. subst md.
      repeat split; auto. apply (inv1_cons T CV C h m1 r); auto.
  Qed.

  Lemma serve2_correct : forall rs st, inv1 T C h (fst st) -> inv2 (snd st) -> Forall (ok1 T) rs ->
    snd (serve2 st rs) = map (build1 T C h) rs.
  Proof.
    induction rs as [|r rs IH]; intros st I1 I2 F; simpl; auto.
    inversion F as [|? ? Or F']; subst.
    destruct (request2_correct st r Or I1 I2) as [I1' [I2' E]].
    destruct (request2 st r) as [st1 c]. simpl in *.
    specialize (IH st1 I1' I2' F').
    destruct (serve2 st1 rs) as [st2 cs]. simpl in *. congruence.
  Qed.
End TwoLevel.
