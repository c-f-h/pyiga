(* C14 -- non-vacuity for Props2.v. *)
From Coq Require Import List Arith Bool Lia QArith.
From Verif.lib Require Import Slice.
From Verif.C14 Require Import Model Spec ModelFin ModelGeo.
From Verif.C14 Require Proofs ProofsBd ProofsGeo.
Import ListNotations.
Close Scope Q_scope.

(* (a) four bilinear patches around a cross point; joins (0,1),(2,3),(0,2), finalize, (1,3), finalize.
   The class merge at the cross point is the last shared-dof event before the first finalize, which
   therefore really renumbers (5 slots -> 4), and the last join continues from the compacted state. *)
Definition ex_shapes := [[2;2];[2;2];[2;2];[2;2]].
Definition J a b c d e f g := HJoin (mk_bjoin a b c d e f g).
Definition ex_steps := [J 0 1 1 1 1 0 [false]; J 2 1 1 3 1 0 [false]; J 0 0 1 2 0 0 [false]; HFin;
                        J 1 0 1 3 0 0 [false]; HFin].

Example ex_fin_numdofs : map fst (observe_h ex_shapes ex_steps) = [10; 9].
Proof. vm_compute. reflexivity. Qed.

Example ex_fin_first_finalize_compacts :
  let st := run_h ex_shapes (firstn 3 ex_steps) in nsd st = 5 /\ nsd (finalize_st st) = 4.
Proof. vm_compute. split; reflexivity. Qed.

Example ex_fin_crosspoint_single_index :
  let st := run_h ex_shapes ex_steps in
  let Ns := map prod_list ex_shapes in
  glob st Ns (0, 3) = glob st Ns (1, 2) /\ glob st Ns (1, 2) = glob st Ns (2, 1) /\ glob st Ns (2, 1) = glob st Ns (3, 0).
Proof. vm_compute. auto. Qed.

Example ex_fin_joins_wellformed : forall j, In (HJoin j) ex_steps -> ProofsBd.bjoin_ok ex_shapes j.
Proof.
  intros j H. unfold ex_steps, J in H.
  repeat (destruct H as [H|H]; [try discriminate H; injection H as <-; repeat constructor; discriminate|]).
  destruct H.
Qed.

(* (b) three squares: patch 1 is the right neighbour of patch 0, parametrised upside down (flip), patch
   2 lies apart.  Samples on the 2x2 corner grid (index = 2*i_y + i_x), integer points. *)
Definition peqb (a b : nat * nat) : bool := Nat.eqb (fst a) (fst b) && Nat.eqb (snd a) (snd b).
Lemma peqb_spec a b : peqb a b = true <-> a = b.
Proof.
  destruct a as [a1 a2], b as [b1 b2]. unfold peqb. cbn [fst snd]. rewrite andb_true_iff, !Nat.eqb_eq.
  split; [intros [-> ->]; reflexivity|intros H; injection H; auto].
Qed.
Definition G0 := mk_gpatch (nat * nat) [2;2] [(0,0);(1,0);(0,1);(1,1)] [(0#1,1#1);(0#1,1#1)]%Q.
Definition G1 := mk_gpatch (nat * nat) [2;2] [(1,1);(2,1);(1,0);(2,0)] [(1#1,2#1);(0#1,1#1)]%Q.
Definition G2 := mk_gpatch (nat * nat) [2;2] [(3,0);(4,0);(3,1);(4,1)] [(3#1,4#1);(0#1,1#1)]%Q.

Example ex_detect : detect _ peqb [G0; G1; G2] = [(0, (1, 1), 1, (1, 0), [true])].
Proof. vm_compute. reflexivity. Qed.

Example ex_detect_connected :
  connected 3 (detect _ peqb [G0; G1; G2]) = false /\ connected 2 (detect _ peqb [G0; G1]) = true.
Proof. vm_compute. split; reflexivity. Qed.

(* the unflipped pattern does NOT match: the returned flip is forced *)
Example ex_flip_forced :
  ~ ProofsGeo.matches _ [2;2] (gp_samples _ G0) 1 1 [2;2] (gp_samples _ G1) 1 0 [false] /\
  ProofsGeo.matches _ [2;2] (gp_samples _ G0) 1 1 [2;2] (gp_samples _ G1) 1 0 [true].
Proof. split; [vm_compute; discriminate|vm_compute; reflexivity]. Qed.

(* hypotheses of detect_interfaces_complete are met by G0, G1 with the shared point (1, 0) *)
Example ex_boxes_share_point :
  ProofsGeo.inside_box [1#1; 0#1]%Q (gp_bb _ G0) /\ ProofsGeo.inside_box [1#1; 0#1]%Q (gp_bb _ G1) /\
  (0 < diam2 (gp_bb _ G0))%Q.
Proof.
  split; [|split]; [repeat constructor; cbn; discriminate|repeat constructor; cbn; discriminate|reflexivity].
Qed.

(* automatch end to end: the detected interface, joined with its flip, glues the two coinciding corners *)
Example ex_automatch : automatch_observe _ peqb [[2;2];[2;2];[2;2]] [G0; G1; G2] =
  (10, [[0; 8; 1; 9]; [9; 2; 8; 3]; [4; 5; 6; 7]]).
Proof. vm_compute. reflexivity. Qed.
