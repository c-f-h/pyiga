(* C14 -- executable model of pyiga.assemble.Multipatch (assemble.py, class Multipatch):
   join_dofs / join_boundaries / finalize / numdofs / patch_to_global_idx.
   Definitions only; proofs are in Proofs.v. *)
From Coq Require Import List Arith Bool Lia.
From Verif.lib Require Import Slice.
Import ListNotations.

Definition dof := (nat * nat)%type.   (* (patch, local tensor-product index) *)

Definition dof_eqb (a b : dof) : bool := (fst a =? fst b) && (snd a =? snd b).

(* shared_per_patch, all patches in one association list: (patch, local) -> shared dof.
   The first binding of a key is the current one (dict assignment = cons). *)
Definition smap := list (dof * nat).

Fixpoint lookup (m : smap) (k : dof) : option nat :=
  match m with
  | [] => None
  | (k', s) :: m' => if dof_eqb k k' then Some s else lookup m' k
  end.

Record state := mk_state { sm : smap; nsd : nat }.

Definition init : state := mk_state [] 0.

(* merging shared dof s2 into s1: every member of s2 is re-bound to s1 *)
Definition relabel (s2 s1 : nat) (m : smap) : smap :=
  map (fun e => (fst e, if snd e =? s2 then s1 else snd e)) m.

(* one iteration of the loop in join_dofs *)
Definition join1 (st : state) (ab : dof * dof) : state :=
  let (a, b) := ab in
  match lookup (sm st) a, lookup (sm st) b with
  | Some s1, Some s2 =>
      if s1 =? s2 then st else mk_state (relabel s2 s1 (sm st)) (nsd st)
  | Some s1, None => mk_state ((b, s1) :: sm st) (nsd st)
  | None, Some s2 => mk_state ((a, s2) :: sm st) (nsd st)
  | None, None => mk_state ((a, nsd st) :: (b, nsd st) :: sm st) (S (nsd st))
  end.

Definition join_dofs (st : state) (p1 : nat) (I1 : list nat) (p2 : nat) (I2 : list nat) : state :=
  fold_left join1 (combine (map (pair p1) I1) (map (pair p2) I2)) st.

(* a join_boundaries call: patches with their per-axis numdofs, (axis, side) per patch, flip *)
Record bjoin := mk_bjoin {
  bj_p1 : nat; bj_ax1 : nat; bj_side1 : nat;
  bj_p2 : nat; bj_ax2 : nat; bj_side2 : nat;
  bj_flip : list bool }.

Definition bjoin_pairs (shapes : list (list nat)) (j : bjoin) : list (dof * dof) :=
  let d1 := boundary_dofs (nth (bj_p1 j) shapes []) (bj_ax1 j) (bj_side1 j) [] in
  let d2 := boundary_dofs (nth (bj_p2 j) shapes []) (bj_ax2 j) (bj_side2 j) (bj_flip j) in
  combine (map (pair (bj_p1 j)) d1) (map (pair (bj_p2 j)) d2).

Definition join_boundaries (shapes : list (list nat)) (st : state) (j : bjoin) : state :=
  fold_left join1 (bjoin_pairs shapes j) st.

Definition all_pairs (shapes : list (list nat)) (js : list bjoin) : list (dof * dof) :=
  flat_map (bjoin_pairs shapes) js.

Definition run (shapes : list (list nat)) (js : list bjoin) : state :=
  fold_left (join_boundaries shapes) js init.

(* ---- finalize: compaction of the shared dofs emptied by merging, offsets ---- *)

Definition used (m : smap) (s : nat) : bool := existsb (fun e => snd e =? s) m.

(* join1 binds a key again only to the label it already has (Proofs.Inv2), so every
   binding in the list is a current one. *)
(* number of k < n with f k *)
Definition cnt (f : nat -> bool) (n : nat) : nat := length (filter f (seq 0 n)).

Definition rank (m : smap) (s : nat) : nat := cnt (used m) s.

Definition shared_in (m : smap) (p i : nat) : bool :=
  match lookup m (p, i) with Some _ => true | None => false end.

(* number of non-shared dofs of patch p among local indices < i *)
Definition pos (m : smap) (p i : nat) : nat :=
  cnt (fun k => negb (shared_in m p k)) i.

Definition Mloc (m : smap) (Ns : list nat) (p : nat) : nat := pos m p (nth p Ns 0).

Fixpoint M_ofs (m : smap) (Ns : list nat) (p : nat) : nat :=
  match p with
  | 0 => 0
  | S q => M_ofs m Ns q + Mloc m Ns q
  end.

Definition Mtot (m : smap) (Ns : list nat) : nat := M_ofs m Ns (length Ns).

Definition numdofs (st : state) (Ns : list nat) : nat :=
  Mtot (sm st) Ns + rank (sm st) (nsd st).

Definition glob (st : state) (Ns : list nat) (a : dof) : nat :=
  match lookup (sm st) a with
  | Some s => Mtot (sm st) Ns + rank (sm st) s
  | None => M_ofs (sm st) Ns (fst a) + pos (sm st) (fst a) (snd a)
  end.

Definition patch_to_global_idx (st : state) (Ns : list nat) (p : nat) : list nat :=
  map (fun i => glob st Ns (p, i)) (seq 0 (nth p Ns 0)).

Definition prod_list (l : list nat) : nat := fold_left Nat.mul l 1.

(* everything the correspondence run compares, for one history *)
Definition observe (shapes : list (list nat)) (js : list bjoin) : nat * list (list nat) :=
  let st := run shapes js in
  let Ns := map prod_list shapes in
  (numdofs st Ns, map (patch_to_global_idx st Ns) (seq 0 (length Ns))).
