(* C14 -- histories with finalize() BETWEEN the joins (assemble.py, Multipatch.finalize):
   join..., finalize(), further joins, finalize() ...  finalize() removes the shared dofs emptied
   by merging, renumbers shared_per_patch through  new_idx = cumsum(nonempty) - 1  and truncates
   shared_dofs; the compacted state is what later joins (and later merges) continue from.
   Definitions only; proofs are in Proofs.v and ProofsBd.v. *)
From Coq Require Import List Arith Bool.
From Verif.lib Require Import Slice.
From Verif.C14 Require Import Model.
Import ListNotations.

(* the renumbering branch of finalize *)
Definition compact (st : state) : state :=
  mk_state (map (fun e => (fst e, rank (sm st) (snd e))) (sm st)) (rank (sm st) (nsd st)).

(* finalize(): "if not all(self.shared_dofs): renumber" *)
Definition finalize_st (st : state) : state :=
  if forallb (used (sm st)) (seq 0 (nsd st)) then st else compact st.

(* histories of single dof identifications and finalize calls *)
Inductive pstep := PJoin (ab : dof * dof) | PFin.
Definition pstep_run (st : state) (s : pstep) : state :=
  match s with PJoin ab => join1 st ab | PFin => finalize_st st end.
Definition run_p (steps : list pstep) : state := fold_left pstep_run steps init.
Definition pairs_of (steps : list pstep) : list (dof * dof) :=
  flat_map (fun s => match s with PJoin ab => [ab] | PFin => [] end) steps.

(* histories of join_boundaries and finalize calls *)
Inductive hstep := HJoin (j : bjoin) | HFin.
Definition hstep_run (shapes : list (list nat)) (st : state) (s : hstep) : state :=
  match s with HJoin j => join_boundaries shapes st j | HFin => finalize_st st end.
Definition run_h (shapes : list (list nat)) (steps : list hstep) : state :=
  fold_left (hstep_run shapes) steps init.
Definition expand (shapes : list (list nat)) (s : hstep) : list pstep :=
  match s with HJoin j => map PJoin (bjoin_pairs shapes j) | HFin => [PFin] end.
Definition joins_of (steps : list hstep) : list bjoin :=
  flat_map (fun s => match s with HJoin j => [j] | HFin => [] end) steps.

(* what the correspondence run compares: numdofs and every patch_to_global_idx array after EVERY
   finalize of the history *)
Definition obs_t := (nat * list (list nat))%type.
Definition hstep_obs (shapes : list (list nat)) (Ns : list nat) (acc : state * list obs_t) (s : hstep)
  : state * list obs_t :=
  let st' := hstep_run shapes (fst acc) s in
  (st', match s with
        | HFin => snd acc ++ [(numdofs st' Ns, map (patch_to_global_idx st' Ns) (seq 0 (length Ns)))]
        | HJoin _ => snd acc
        end).
Definition observe_h (shapes : list (list nat)) (steps : list hstep) : list obs_t :=
  snd (fold_left (hstep_obs shapes (map prod_list shapes)) steps (init, [])).
