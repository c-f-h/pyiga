(* C14 -- the model's gluing is the equivalence closure of the joins: general list lemmas; lookup; the
   invariant Inv of join1 (class labels agree iff connected) and the numbering built on it; the second
   invariant Inv2 behind the gap-free numbering; finalize() preserves both. *)
From Coq Require Import List Arith Bool Lia.
From Verif.lib Require Import ListFacts.
From Verif.C14 Require Import Model Spec ModelFin.
Import ListNotations.

Lemma fold_left_flat_map {A B S : Type} (f : S -> B -> S) (g : A -> list B) (l : list A) (s : S) :
  fold_left (fun s a => fold_left f (g a) s) l s = fold_left f (flat_map g l) s.
Proof.
  revert s; induction l as [|a l IH]; intros s; simpl; [reflexivity|].
  rewrite fold_left_app. apply IH.
Qed.

(* an invariant indexed by the inputs consumed so far *)
Lemma fold_left_inv {S A : Type} (I : list A -> S -> Prop) (f : S -> A -> S) :
  (forall l0 s a, I l0 s -> I (l0 ++ [a]) (f s a)) ->
  forall l l0 s, I l0 s -> I (l0 ++ l) (fold_left f l s).
Proof.
  intros Hstep. induction l as [|a l IH]; intros l0 s H; simpl.
  - rewrite app_nil_r; exact H.
  - replace (l0 ++ a :: l) with ((l0 ++ [a]) ++ l) by (rewrite <- app_assoc; reflexivity).
    apply IH, Hstep, H.
Qed.

Lemma in_combine_map {A B A' B' : Type} (f : A -> A') (g : B -> B') l1 : forall l2 e,
  In e (combine (map f l1) (map g l2)) -> exists a b, e = (f a, g b) /\ In (a, b) (combine l1 l2).
Proof.
  induction l1 as [|a l1 IH]; intros [|b l2] e H; simpl in H; try contradiction.
  destruct H as [<-|H].
  - exists a, b. split; [reflexivity|left; reflexivity].
  - destruct (IH l2 e H) as [a' [b' [E Hin]]]. exists a', b'. split; [exact E|right; exact Hin].
Qed.

Lemma map_eq_combine {A B C : Type} (f : A -> C) (g : B -> C) l1 : forall l2,
  map f l1 = map g l2 -> forall a b, In (a, b) (combine l1 l2) -> f a = g b.
Proof.
  induction l1 as [|x l1 IH]; intros [|y l2] H a b Hin; simpl in *; try contradiction; try discriminate.
  injection H as H1 H2. destruct Hin as [E|Hin]; [injection E as <- <-; exact H1|eapply IH; eassumption].
Qed.

Lemma find_first {A : Type} (p : A -> bool) l x : find p l = Some x ->
  exists l1 l2, l = l1 ++ x :: l2 /\ p x = true /\ forall y, In y l1 -> p y = false.
Proof.
  induction l as [|a l IH]; cbn [find]; [discriminate|]. destruct (p a) eqn:E.
  - intros H; injection H as <-. exists [], l. repeat split; auto. intros y [].
  - intros H. destruct (IH H) as [l1 [l2 [-> [Hx Hl]]]]. exists (a :: l1), l2. repeat split; auto.
    intros y [<-|Hy]; auto.
Qed.

Lemma fold_mul_acc : forall l a, fold_left Nat.mul l a = a * fold_left Nat.mul l 1.
Proof.
  induction l as [|x l IH]; intros a; cbn [fold_left]; [lia|].
  rewrite (IH (a * x)). rewrite (IH (1 * x)). lia.
Qed.

Lemma dof_eqb_spec a b : reflect (a = b) (dof_eqb a b).
Proof.
  destruct a as [p i], b as [q j]; unfold dof_eqb; simpl.
  destruct (Nat.eqb_spec p q) as [->|N]; [destruct (Nat.eqb_spec i j) as [->|N]|];
    constructor; congruence.
Qed.

Lemma lookup_cons m k s x :
  lookup ((k, s) :: m) x = if dof_eqb x k then Some s else lookup m x.
Proof. reflexivity. Qed.

Lemma lookup_map_snd (h : nat -> nat) m x :
  lookup (map (fun e => (fst e, h (snd e))) m) x =
  match lookup m x with Some s => Some (h s) | None => None end.
Proof.
  induction m as [|[k s] m IH]; simpl; [reflexivity|].
  destruct (dof_eqb x k); [reflexivity|exact IH].
Qed.

Lemma lookup_relabel s2 s1 m x :
  lookup (relabel s2 s1 m) x =
  match lookup m x with Some s => Some (if s =? s2 then s1 else s) | None => None end.
Proof. apply (lookup_map_snd (fun s => if s =? s2 then s1 else s)). Qed.

Lemma lookup_in m x s : lookup m x = Some s -> In (x, s) m.
Proof.
  induction m as [|[k s'] m IH]; simpl; [discriminate|].
  destruct (dof_eqb_spec x k) as [->|_].
  - intros H; injection H as ->. left; reflexivity.
  - intros H; right; apply IH; exact H.
Qed.

Lemma lookup_used m x s : lookup m x = Some s -> used m s = true.
Proof.
  intros H. apply lookup_in in H. unfold used. apply existsb_exists.
  exists (x, s); split; [exact H|simpl; apply Nat.eqb_refl].
Qed.

Lemma used_in m s : used m s = true -> exists x, In (x, s) m.
Proof.
  unfold used. rewrite existsb_exists. intros [[x s'] [H1 H2]]. simpl in H2.
  apply Nat.eqb_eq in H2. subst. exists x; exact H1.
Qed.

Lemma conn_incl ps qs x y : incl ps qs -> conn ps x y -> conn qs x y.
Proof.
  intros Hi. induction 1 as [x|x y H|x y _ IH|x y z _ IH1 _ IH2].
  - apply conn_refl.
  - apply conn_edge; apply Hi; exact H.
  - apply conn_sym; exact IH.
  - eapply conn_trans; eassumption.
Qed.

Lemma conn_mono ps e x y : conn ps x y -> conn (ps ++ [e]) x y.
Proof. apply conn_incl, incl_appl, incl_refl. Qed.

Definition Inv (ps : list (dof * dof)) (st : state) : Prop :=
  (forall x y, cls st x = cls st y <-> conn ps x y) /\
  (forall x s, lookup (sm st) x = Some s -> s < nsd st).

Lemma Inv_init : Inv [] init.
Proof.
  split.
  - intros x y; unfold cls; simpl. split.
    + intros H; inversion H; apply conn_refl.
    + induction 1 as [x|x y H|x y _ IH|x y z _ IH1 _ IH2]; try congruence. destruct H.
  - intros x s; simpl; discriminate.
Qed.

Lemma join1_bound st ab :
  (forall x s, lookup (sm st) x = Some s -> s < nsd st) ->
  forall x s, lookup (sm (join1 st ab)) x = Some s -> s < nsd (join1 st ab).
Proof.
  intros Hb. destruct ab as [a b]. unfold join1.
  destruct (lookup (sm st) a) as [s1|] eqn:La; destruct (lookup (sm st) b) as [s2|] eqn:Lb.
  - destruct (s1 =? s2); [exact Hb|]. simpl. intros x s. rewrite lookup_relabel.
    destruct (lookup (sm st) x) as [sx|] eqn:Lx; [|discriminate].
    intros H; injection H as <-. destruct (sx =? s2); [exact (Hb _ _ La)|exact (Hb _ _ Lx)].
  - simpl. intros x s. destruct (dof_eqb x b); [intros H; injection H as <-|]; eauto.
  - simpl. intros x s. destruct (dof_eqb x a); [intros H; injection H as <-|]; eauto.
  - simpl. intros x s. destruct (dof_eqb x a); [intros H; injection H as <-; lia|].
    destruct (dof_eqb x b); [intros H; injection H as <-; lia|].
    intros H; apply Hb in H; lia.
Qed.

Lemma cls_eq_dec (c c' : nat + dof) : {c = c'} + {c <> c'}.
Proof. repeat decide equality. Qed.

(* the classes ca and cb are renamed to r, every other class keeps its name *)
Definition merge (ca cb r c : nat + dof) : nat + dof :=
  if cls_eq_dec c ca then r else if cls_eq_dec c cb then r else c.

(* equations and disequations between concrete class names decide both tests of merge *)
Ltac merge_cases := unfold merge; repeat destruct (cls_eq_dec _ _); congruence.

Lemma merge_in ca cb r c : c = ca \/ c = cb -> merge ca cb r c = r.
Proof. intros [->| ->]; merge_cases. Qed.

Lemma merge_out ca cb r c : c <> ca -> c <> cb -> merge ca cb r c = c.
Proof. intros; merge_cases. Qed.

(* when r is one of the two old names, or a name that neither c nor c' bears *)
Lemma merge_inj ca cb r c c' :
  r = ca \/ r = cb \/ (c <> r /\ c' <> r) ->
  merge ca cb r c = merge ca cb r c' ->
  c = c' \/ ((c = ca \/ c = cb) /\ (c' = ca \/ c' = cb)).
Proof.
  intros Hr E.
  assert (D : forall d, {d = ca \/ d = cb} + {d <> ca /\ d <> cb}).
  { intros d. destruct (cls_eq_dec d ca), (cls_eq_dec d cb); auto. }
  destruct (D c) as [I|[N1 N2]], (D c') as [I'|[N1' N2']].
  - right; auto.
  - exfalso. rewrite (merge_in _ _ _ c I), (merge_out _ _ _ c') in E by assumption.
    destruct Hr as [->|[->|[_ H]]]; congruence.
  - exfalso. rewrite (merge_out _ _ _ c), (merge_in _ _ _ c' I') in E by assumption.
    destruct Hr as [->|[->|[H _]]]; congruence.
  - left. rewrite !merge_out in E by assumption. exact E.
Qed.

(* join1 renames the classes of a and b to a common name: a's, b's, or a new shared dof *)
Lemma cls_join1 st a b :
  (forall x s, lookup (sm st) x = Some s -> s < nsd st) ->
  exists r, (r = cls st a \/ r = cls st b \/ forall x, cls st x <> r) /\
            forall x, cls (join1 st (a, b)) x = merge (cls st a) (cls st b) r (cls st x).
Proof.
  intros Hb. unfold cls, join1.
  destruct (lookup (sm st) a) as [s1|] eqn:La; destruct (lookup (sm st) b) as [s2|] eqn:Lb.
  - exists (inl s1). split; [left; reflexivity|]. intros x.
    destruct (Nat.eqb_spec s1 s2) as [<-|NE]; [merge_cases|]. simpl. rewrite lookup_relabel.
    destruct (lookup (sm st) x) as [s|]; [destruct (Nat.eqb_spec s s2)|]; merge_cases.
  - exists (inl s1). split; [left; reflexivity|]. intros x. simpl.
    destruct (dof_eqb_spec x b) as [->|N]; [rewrite Lb; merge_cases|].
    destruct (lookup (sm st) x); merge_cases.
  - exists (inl s2). split; [right; left; reflexivity|]. intros x. simpl.
    destruct (dof_eqb_spec x a) as [->|N]; [rewrite La; merge_cases|].
    destruct (lookup (sm st) x); merge_cases.
  - exists (inl (nsd st)). split.
    + right; right. intros x. destruct (lookup (sm st) x) as [s|] eqn:L; [|discriminate].
      apply Hb in L. intros E; injection E as E. lia.
    + intros x. simpl.
      destruct (dof_eqb_spec x a) as [->|Na]; [rewrite La; merge_cases|].
      destruct (dof_eqb_spec x b) as [->|Nb]; [rewrite Lb; merge_cases|].
      destruct (lookup (sm st) x); merge_cases.
Qed.

Lemma Inv_step ps st a b : Inv ps st -> Inv (ps ++ [(a, b)]) (join1 st (a, b)).
Proof.
  intros [Hc Hb]. split; [|apply join1_bound; exact Hb].
  destruct (cls_join1 st a b Hb) as [r [Hr E]].
  assert (Ha : forall x, cls st x = cls st a \/ cls st x = cls st b -> conn (ps ++ [(a, b)]) x a).
  { intros x [H|H]; apply Hc, (conn_mono _ (a, b)) in H; [exact H|].
    eapply conn_trans; [exact H|]. apply conn_sym, conn_edge, in_or_app. right; left; reflexivity. }
  intros x y. rewrite !E. split.
  - intros H. apply merge_inj in H; [|destruct Hr as [Hr|[Hr|Hr]]; auto].
    destruct H as [H|[Hx Hy]].
    + apply conn_mono, Hc, H.
    + eapply conn_trans; [apply Ha, Hx|apply conn_sym, Ha, Hy].
  - (* equality of the new names is an equivalence containing every declared pair *)
    induction 1 as [x|x y H|x y _ IH|x y z _ IH1 _ IH2]; [reflexivity| |congruence|congruence].
    apply in_app_or in H. destruct H as [H|[H|[]]].
    + f_equal. apply Hc, conn_edge, H.
    + injection H as <- <-. rewrite !merge_in by auto. reflexivity.
Qed.

Lemma reachable_Inv ps : Inv ps (fold_left join1 ps init).
Proof.
  apply (fold_left_inv Inv join1) with (l0 := []); [|exact Inv_init].
  intros l0 st [a b]. apply Inv_step.
Qed.

Lemma run_as_pairs shapes js : run shapes js = fold_left join1 (all_pairs shapes js) init.
Proof. unfold run, all_pairs, join_boundaries. apply fold_left_flat_map. Qed.

Lemma cls_eq_iff_conn ps x y :
  cls (fold_left join1 ps init) x = cls (fold_left join1 ps init) y <-> conn ps x y.
Proof. apply (proj1 (reachable_Inv ps)). Qed.

Lemma glue_is_closure_boundaries shapes js x y :
  cls (run shapes js) x = cls (run shapes js) y <-> conn (all_pairs shapes js) x y.
Proof. rewrite run_as_pairs. apply cls_eq_iff_conn. Qed.

(* the closure does not depend on the order (or repetition) of the joins *)
Lemma join_order_irrelevant_pairs ps qs x y :
  incl ps qs -> incl qs ps ->
  (cls (fold_left join1 ps init) x = cls (fold_left join1 ps init) y <->
   cls (fold_left join1 qs init) x = cls (fold_left join1 qs init) y).
Proof.
  intros H1 H2. rewrite !cls_eq_iff_conn.
  split; apply conn_incl; assumption.
Qed.

Lemma cnt_S f n : cnt f (S n) = cnt f n + (if f n then 1 else 0).
Proof.
  unfold cnt. rewrite seq_S, filter_app, app_length. simpl.
  destruct (f n); simpl; lia.
Qed.

Lemma cnt_mono f i j : i <= j -> cnt f i <= cnt f j.
Proof.
  induction 1 as [|j _ IH]; [lia|]. rewrite cnt_S. lia.
Qed.

Lemma cnt_strict f i j : f i = true -> i < j -> cnt f i < cnt f j.
Proof.
  intros Hf Hij. assert (H : cnt f (S i) <= cnt f j) by (apply cnt_mono; lia).
  rewrite cnt_S, Hf in H. lia.
Qed.

Lemma cnt_inj f i j : f i = true -> f j = true -> cnt f i = cnt f j -> i = j.
Proof.
  intros Hi Hj E. destruct (Nat.lt_trichotomy i j) as [L|[L|L]]; [|exact L|].
  - pose proof (cnt_strict f i j Hi L). lia.
  - pose proof (cnt_strict f j i Hj L). lia.
Qed.

Lemma cnt_le f n : cnt f n <= n.
Proof. induction n as [|n IH]; [reflexivity|]. rewrite cnt_S. destruct (f n); lia. Qed.

Lemma cnt_surj f n k : k < cnt f n -> exists i, i < n /\ f i = true /\ cnt f i = k.
Proof.
  induction n as [|n IH]; [unfold cnt; simpl; lia|].
  rewrite cnt_S. destruct (f n) eqn:E; intros H.
  - destruct (Nat.eq_dec k (cnt f n)) as [->|NE].
    + exists n; repeat split; auto.
    + destruct IH as [i [H1 [H2 H3]]]; [lia|]. exists i; repeat split; auto.
  - destruct IH as [i [H1 [H2 H3]]]; [lia|]. exists i; repeat split; auto.
Qed.

Lemma M_ofs_mono m Ns p q : p <= q -> M_ofs m Ns p <= M_ofs m Ns q.
Proof. induction 1 as [|q _ IH]; [lia|]. simpl. lia. Qed.

Lemma shared_in_lookup m p i : shared_in m p i = false <-> lookup m (p, i) = None.
Proof. unfold shared_in. destruct (lookup m (p, i)); split; congruence. Qed.

(* an unshared dof is numbered inside the block of its patch, and the blocks lie below Mtot *)
Lemma unshared_block m Ns p i :
  p < length Ns -> i < nth p Ns 0 -> lookup m (p, i) = None ->
  M_ofs m Ns p + pos m p i < M_ofs m Ns (S p) <= Mtot m Ns.
Proof.
  intros Hp Hi L. split; [|apply M_ofs_mono; lia].
  simpl. unfold Mloc, pos. apply Nat.add_lt_mono_l, cnt_strict; [|exact Hi].
  rewrite (proj2 (shared_in_lookup m p i) L). reflexivity.
Qed.

Lemma glob_eq_iff_cls st Ns x y :
  valid Ns x -> valid Ns y ->
  (glob st Ns x = glob st Ns y <-> cls st x = cls st y).
Proof.
  destruct x as [p i], y as [q j]. unfold valid; simpl. intros [Hp Hi] [Hq Hj].
  unfold glob, cls; simpl.
  destruct (lookup (sm st) (p, i)) as [s|] eqn:Lx; destruct (lookup (sm st) (q, j)) as [t|] eqn:Ly.
  - split; [|congruence]. intros H. f_equal. unfold rank in H.
    apply (cnt_inj (used (sm st))); [eapply lookup_used; eassumption..|lia].
  - pose proof (unshared_block _ Ns q j Hq Hj Ly). split; [intros E; lia|discriminate].
  - pose proof (unshared_block _ Ns p i Hp Hi Lx). split; [intros E; lia|discriminate].
  - pose proof (unshared_block _ Ns p i Hp Hi Lx) as B1.
    pose proof (unshared_block _ Ns q j Hq Hj Ly) as B2.
    split; [|congruence]. intros H.
    assert (p = q) as <-.
    { destruct (Nat.lt_trichotomy p q) as [L|[L|L]]; [|exact L|].
      - pose proof (M_ofs_mono (sm st) Ns (S p) q L). lia.
      - pose proof (M_ofs_mono (sm st) Ns (S q) p L). lia. }
    do 2 f_equal. apply shared_in_lookup in Lx, Ly.
    apply (cnt_inj (fun k => negb (shared_in (sm st) p k))); [rewrite Lx; reflexivity|rewrite Ly; reflexivity|].
    unfold pos in H. lia.
Qed.

Lemma glob_lt_numdofs st Ns x :
  valid Ns x -> (forall a s, lookup (sm st) a = Some s -> s < nsd st) ->
  glob st Ns x < numdofs st Ns.
Proof.
  destruct x as [p i]. unfold valid; simpl. intros [Hp Hi] Hb.
  unfold glob, numdofs; simpl.
  destruct (lookup (sm st) (p, i)) as [s|] eqn:Lx.
  - apply Nat.add_lt_mono_l, cnt_strict; [eapply lookup_used; exact Lx|eapply Hb; exact Lx].
  - pose proof (unshared_block _ Ns p i Hp Hi Lx). lia.
Qed.

Lemma M_ofs_locate m Ns g n :
  g < M_ofs m Ns n -> exists p, p < n /\ M_ofs m Ns p <= g < M_ofs m Ns (S p).
Proof.
  induction n as [|n IH]; simpl; [lia|]. intros H.
  destruct (Nat.lt_ge_cases g (M_ofs m Ns n)) as [L|L].
  - destruct (IH L) as [p [H1 H2]]. exists p; split; [lia|exact H2].
  - exists n; split; [lia|]. simpl. lia.
Qed.

Definition mentions (ps : list (dof * dof)) (x : dof) : Prop :=
  exists e, In e ps /\ (x = fst e \/ x = snd e).

Definition distinct_pairs (ps : list (dof * dof)) : Prop := forall e, In e ps -> fst e <> snd e.

(* second invariant, of the association list alone: every binding in it is the current one of its
   key, and the keys stem from the declared pairs *)
Definition Inv2 (ps : list (dof * dof)) (m : smap) : Prop :=
  forall x s, In (x, s) m -> lookup m x = Some s /\ mentions ps x.

Lemma mentions_mono ps e x : mentions ps x -> mentions (ps ++ [e]) x.
Proof. intros [e' [H1 H2]]. exists e'; split; [apply in_or_app; left; exact H1|exact H2]. Qed.

Lemma mentions_new ps a b : mentions (ps ++ [(a, b)]) a /\ mentions (ps ++ [(a, b)]) b.
Proof.
  split; exists (a, b); (split; [apply in_or_app; right; left; reflexivity|]); [left|right]; reflexivity.
Qed.

Lemma Inv2_nil : Inv2 [] [].
Proof. intros x s []. Qed.

Lemma Inv2_mono ps e m : Inv2 ps m -> Inv2 (ps ++ [e]) m.
Proof. intros H x s Hin. destruct (H x s Hin) as [L M]. split; [exact L|apply mentions_mono, M]. Qed.

(* a key may be bound again, to the label it has *)
Lemma Inv2_cons ps m k s :
  (forall s', lookup m k = Some s' -> s' = s) -> mentions ps k ->
  Inv2 ps m -> Inv2 ps ((k, s) :: m).
Proof.
  intros L M H x s' [E|Hin]; simpl.
  - injection E as <- <-. split; [destruct (dof_eqb_spec k k); congruence|exact M].
  - destruct (H x s' Hin) as [Lx Mx]. split; [|exact Mx].
    destruct (dof_eqb_spec x k) as [->|_]; [rewrite (L _ Lx); reflexivity|exact Lx].
Qed.

Lemma Inv2_map_snd (h : nat -> nat) ps m :
  Inv2 ps m -> Inv2 ps (map (fun e => (fst e, h (snd e))) m).
Proof.
  intros H x s Hin. apply in_map_iff in Hin. destruct Hin as [[x' s'] [E Hin]].
  injection E as <- <-. destruct (H x' s' Hin) as [L M]. split; [|exact M].
  rewrite lookup_map_snd, L. reflexivity.
Qed.

Lemma Inv2_step ps st a b : Inv2 ps (sm st) -> Inv2 (ps ++ [(a, b)]) (sm (join1 st (a, b))).
Proof.
  intros H. apply (Inv2_mono _ (a, b)) in H. destruct (mentions_new ps a b) as [Ma Mb].
  unfold join1.
  destruct (lookup (sm st) a) as [s1|] eqn:La; destruct (lookup (sm st) b) as [s2|] eqn:Lb; cbn [sm].
  - destruct (s1 =? s2); [exact H|]. exact (Inv2_map_snd (fun s => if s =? s2 then s1 else s) _ _ H).
  - apply Inv2_cons; [rewrite Lb; discriminate|assumption..].
  - apply Inv2_cons; [rewrite La; discriminate|assumption..].
  - apply Inv2_cons; [|exact Ma|].
    + simpl. destruct (dof_eqb a b); [congruence|rewrite La; discriminate].
    + apply Inv2_cons; [rewrite Lb; discriminate|assumption..].
Qed.

Lemma reachable_Inv2 ps : Inv2 ps (sm (fold_left join1 ps init)).
Proof.
  apply (fold_left_inv (fun l st => Inv2 l (sm st)) join1) with (l0 := []); [|exact Inv2_nil].
  intros l0 st [a b]. apply Inv2_step.
Qed.

(* gap-free: in a state with the second invariant every index below numdofs is the global index of
   an existing dof -- below Mtot of the unshared dof it counts, above of any key bound to the shared
   dof it counts *)
Lemma glob_surjective ps st Ns g :
  Inv2 ps (sm st) -> (forall x, mentions ps x -> valid Ns x) ->
  g < numdofs st Ns -> exists x, valid Ns x /\ glob st Ns x = g.
Proof.
  intros H Hv Hg.
  unfold numdofs in Hg.
  destruct (Nat.lt_ge_cases g (Mtot (sm st) Ns)) as [L|L].
  - unfold Mtot in L. destruct (M_ofs_locate _ _ _ _ L) as [p [Hp [B1 B2]]].
    simpl in B2. unfold Mloc, pos in B2.
    destruct (cnt_surj (fun k => negb (shared_in (sm st) p k)) (nth p Ns 0) (g - M_ofs (sm st) Ns p))
      as [i [Hi [Hf Hc]]]; [lia|].
    exists (p, i). split; [split; simpl; assumption|].
    unfold glob; simpl. apply negb_true_iff in Hf. apply shared_in_lookup in Hf. rewrite Hf.
    unfold pos. lia.
  - destruct (cnt_surj (used (sm st)) (nsd st) (g - Mtot (sm st) Ns)) as [s [Hs [Hu Hc]]];
      [unfold rank in Hg; lia|].
    destruct (used_in _ _ Hu) as [x Hx].
    destruct (H x s Hx) as [Lx Mx]. exists x. split; [apply Hv, Mx|].
    unfold glob. rewrite Lx. unfold rank. lia.
Qed.

Lemma glue_is_closure_l ps Ns x y :
  valid Ns x -> valid Ns y ->
  let st := fold_left join1 ps init in
  (glob st Ns x = glob st Ns y <-> conn ps x y).
Proof.
  intros Hx Hy st. rewrite (glob_eq_iff_cls st Ns x y Hx Hy). apply cls_eq_iff_conn.
Qed.

Lemma p2g_idx_nth st Ns p i : i < nth p Ns 0 ->
  nth i (patch_to_global_idx st Ns p) 0 = glob st Ns (p, i).
Proof.
  intros Hi. apply (nth_map_seq (fun i => glob st Ns (p, i)) 0), Hi.
Qed.

(* (P^T P)[i,j] = [glob(p,i) = glob(p,j)]: the transpose is a left inverse iff no two distinct
   local dofs of the patch are identified with each other; R is whatever relation characterises
   equal global indices on the patch *)
Lemma p2g_left_inverse_of (R : dof -> dof -> Prop) st Ns p :
  (forall i j, i < nth p Ns 0 -> j < nth p Ns 0 ->
     (glob st Ns (p, i) = glob st Ns (p, j) <-> R (p, i) (p, j))) ->
  ((forall i j, i < nth p Ns 0 -> j < nth p Ns 0 ->
      (nth i (patch_to_global_idx st Ns p) 0 = nth j (patch_to_global_idx st Ns p) 0 <-> i = j))
   <->
   (forall i j, i < nth p Ns 0 -> j < nth p Ns 0 -> R (p, i) (p, j) -> i = j)).
Proof.
  intros HR. split; intros H i j Hi Hj.
  - intros C. apply (H i j Hi Hj). rewrite !p2g_idx_nth by assumption. apply HR; assumption.
  - rewrite !p2g_idx_nth by assumption. split; [|intros ->; reflexivity].
    intros E. apply (H i j Hi Hj), HR; assumption.
Qed.

(* finalize() preserves both invariants, so the numbering theorems hold for histories with
   finalize calls at any positions *)
Lemma cls_compact st x y : cls (compact st) x = cls (compact st) y <-> cls st x = cls st y.
Proof.
  unfold cls, compact. cbn [sm]. rewrite !lookup_map_snd.
  destruct (lookup (sm st) x) as [s|] eqn:Lx; destruct (lookup (sm st) y) as [t|] eqn:Ly;
    try (split; intros H; discriminate H); [|tauto].
  split; intros H; [|congruence]. f_equal. injection H as H.
  apply (cnt_inj (used (sm st))); [eapply lookup_used; eassumption..|exact H].
Qed.

Lemma Inv_compact ps st : Inv ps st -> Inv ps (compact st).
Proof.
  intros [H1 H2]. split.
  - intros x y. rewrite cls_compact. apply H1.
  - intros x s'. unfold compact. cbn [sm nsd]. rewrite lookup_map_snd.
    destruct (lookup (sm st) x) as [s|] eqn:Lx; [|discriminate]. intros E. injection E as <-.
    unfold rank. apply cnt_strict; [eapply lookup_used; exact Lx|eapply H2; exact Lx].
Qed.

Lemma Inv_finalize ps st : Inv ps st -> Inv ps (finalize_st st).
Proof. intros H. unfold finalize_st. destruct (forallb _ _); [exact H|apply Inv_compact; exact H]. Qed.

Lemma Inv2_finalize ps st : Inv2 ps (sm st) -> Inv2 ps (sm (finalize_st st)).
Proof. intros H. unfold finalize_st. destruct (forallb _ _); [exact H|apply Inv2_map_snd; exact H]. Qed.

Lemma pairs_of_app a b : pairs_of (a ++ b) = pairs_of a ++ pairs_of b.
Proof. unfold pairs_of. apply flat_map_app. Qed.

Lemma reachable_Inv_p steps : Inv (pairs_of steps) (run_p steps).
Proof.
  apply (fold_left_inv (fun l => Inv (pairs_of l)) pstep_run) with (l0 := []); [|exact Inv_init].
  intros l0 st s H. rewrite pairs_of_app. destruct s as [[a b]|]; cbn.
  - apply Inv_step, H.
  - rewrite app_nil_r. apply Inv_finalize, H.
Qed.

Lemma reachable_Inv2_p steps : Inv2 (pairs_of steps) (sm (run_p steps)).
Proof.
  apply (fold_left_inv (fun l st => Inv2 (pairs_of l) (sm st)) pstep_run) with (l0 := []); [|exact Inv2_nil].
  intros l0 st s H. rewrite pairs_of_app. destruct s as [[a b]|]; cbn.
  - apply Inv2_step, H.
  - rewrite app_nil_r. apply Inv2_finalize, H.
Qed.
