(* C14 -- Multipatch.assemble_system:  A = sum_p X_p A_p X_p^T,  b = sum_p X_p b_p  with the 0/1
   matrices X_p = patch_to_global(p).  Theorem: the assembled matrix represents the SUM OF THE PATCH
   BILINEAR FORMS of the restrictions: for all global vectors u, v
       v^T A u = sum_p (v o glob_p)^T A_p (u o glob_p),        v^T b = sum_p (v o glob_p)^T b_p,
   for every number of patches, every join history and every patch matrices.  (That the patch forms
   add up to the form of the undivided domain is additivity of the integral over a conforming
   decomposition -- analysis, outside the model; the run compares the assembled systems.) *)
From Coq Require Import QArith Qcanon List Lia.
From Verif.C14 Require Import Model Proofs.
Import ListNotations.
Open Scope Qc_scope.

Fixpoint sumn (f : nat -> Qc) (n : nat) : Qc :=
  match n with O => 0 | S m => sumn f m + f m end.

Lemma sumn_ext f g n : (forall i, (i < n)%nat -> f i = g i) -> sumn f n = sumn g n.
Proof.
  induction n as [|n IH]; intros H; cbn [sumn]; [reflexivity|].
  rewrite IH by (intros i Hi; apply H; lia). rewrite (H n) by lia. reflexivity.
Qed.

Lemma sumn_add f g n : sumn (fun i => f i + g i) n = sumn f n + sumn g n.
Proof. induction n as [|n IH]; cbn [sumn]; [ring|]. rewrite IH. ring. Qed.

Lemma sumn_scale_l c f n : sumn (fun i => c * f i) n = c * sumn f n.
Proof. induction n as [|n IH]; cbn [sumn]; [ring|]. rewrite IH. ring. Qed.

Lemma sumn_scale_r c f n : sumn (fun i => f i * c) n = sumn f n * c.
Proof. induction n as [|n IH]; cbn [sumn]; [ring|]. rewrite IH. ring. Qed.

Lemma sumn_zero n : sumn (fun _ => 0) n = 0.
Proof. induction n as [|n IH]; cbn [sumn]; [reflexivity|]. rewrite IH. ring. Qed.

Lemma sumn_swap (f : nat -> nat -> Qc) n m :
  sumn (fun i => sumn (fun j => f i j) m) n = sumn (fun j => sumn (fun i => f i j) n) m.
Proof.
  induction n as [|n IH]; cbn [sumn].
  - rewrite sumn_zero. reflexivity.
  - rewrite IH. rewrite <- sumn_add. reflexivity.
Qed.

Definition delta (k g : nat) : Qc := if Nat.eqb k g then 1 else 0.

Lemma sumn_delta_none k f N : (N <= k)%nat -> sumn (fun g => delta k g * f g) N = 0.
Proof.
  induction N as [|N IH]; intros H; cbn [sumn]; [reflexivity|].
  rewrite IH by lia. unfold delta. destruct (Nat.eqb_spec k N); [lia|]. ring.
Qed.

Lemma sumn_delta k f N : (k < N)%nat -> sumn (fun g => delta k g * f g) N = f k.
Proof.
  induction N as [|N IH]; intros H; [lia|]. cbn [sumn].
  destruct (Nat.eq_dec k N) as [->|Hne].
  - rewrite sumn_delta_none by lia. unfold delta. rewrite Nat.eqb_refl. ring.
  - rewrite IH by lia. unfold delta. destruct (Nat.eqb_spec k N); [lia|]. ring.
Qed.

(* X[g, i] of patch_to_global: the unit entry of column i sits in row idx[i] *)
Definition Xent (idx : list nat) (g i : nat) : Qc := delta (nth i idx 0%nat) g.

(* entry (g, h) of  X A X^T  and entry g of  X b  for a patch with n local dofs *)
Definition xaxt (idx : list nat) (n : nat) (A : nat -> nat -> Qc) (g h : nat) : Qc :=
  sumn (fun i => sumn (fun j => Xent idx g i * A i j * Xent idx h j) n) n.
Definition xb (idx : list nat) (n : nat) (b : nat -> Qc) (g : nat) : Qc :=
  sumn (fun i => Xent idx g i * b i) n.

Lemma X_contract idx n N (w v : nat -> Qc) :
  (forall i, (i < n)%nat -> (nth i idx 0 < N)%nat) ->
  sumn (fun g => v g * sumn (fun i => Xent idx g i * w i) n) N = sumn (fun i => v (nth i idx 0%nat) * w i) n.
Proof.
  intros Hb.
  rewrite (sumn_ext _ (fun g => sumn (fun i => (delta (nth i idx 0%nat) g * v g) * w i) n)).
  2:{ intros g Hg. rewrite <- sumn_scale_l. apply sumn_ext. intros i Hi. unfold Xent. ring. }
  rewrite sumn_swap. apply sumn_ext. intros i Hi.
  rewrite sumn_scale_r. rewrite sumn_delta by (apply Hb; exact Hi). reflexivity.
Qed.

Lemma xaxt_apply idx n N A u g :
  (forall i, (i < n)%nat -> (nth i idx 0 < N)%nat) ->
  sumn (fun h => xaxt idx n A g h * u h) N =
  sumn (fun i => Xent idx g i * sumn (fun j => A i j * u (nth j idx 0%nat)) n) n.
Proof.
  intros Hb. unfold xaxt.
  rewrite (sumn_ext _ (fun h => sumn (fun i => Xent idx g i * (u h * sumn (fun j => Xent idx h j * A i j) n)) n)).
  2:{ intros h Hh. rewrite <- sumn_scale_r. apply sumn_ext. intros i Hi.
      rewrite <- sumn_scale_l. rewrite <- sumn_scale_l. rewrite <- sumn_scale_r.
      apply sumn_ext. intros j Hj. ring. }
  rewrite sumn_swap. apply sumn_ext. intros i Hi. rewrite sumn_scale_l. f_equal.
  rewrite (X_contract idx n N (fun j => A i j) u Hb). apply sumn_ext. intros j Hj. ring.
Qed.

Lemma xaxt_form idx n N A u v :
  (forall i, (i < n)%nat -> (nth i idx 0 < N)%nat) ->
  sumn (fun g => sumn (fun h => v g * xaxt idx n A g h * u h) N) N =
  sumn (fun i => sumn (fun j => v (nth i idx 0%nat) * A i j * u (nth j idx 0%nat)) n) n.
Proof.
  intros Hb.
  rewrite (sumn_ext _ (fun g => v g * sumn (fun i => Xent idx g i * sumn (fun j => A i j * u (nth j idx 0%nat)) n) n)).
  2:{ intros g Hg. rewrite <- (xaxt_apply idx n N A u g Hb). rewrite <- sumn_scale_l.
      apply sumn_ext. intros h Hh. ring. }
  rewrite (X_contract idx n N _ v Hb). apply sumn_ext. intros i Hi.
  rewrite <- sumn_scale_l. apply sumn_ext. intros j Hj. ring.
Qed.

(* the accumulation loop of assemble_system (assemble.py:1374-1386), entry by entry *)
Definition asm_mat (st : state) (Ns : list nat) (As : nat -> nat -> nat -> Qc) (g h : nat) : Qc :=
  fold_left (fun acc p => acc + xaxt (patch_to_global_idx st Ns p) (nth p Ns 0%nat) (As p) g h)
            (seq 0 (length Ns)) 0.
Definition asm_rhs (st : state) (Ns : list nat) (bs : nat -> nat -> Qc) (g : nat) : Qc :=
  fold_left (fun acc p => acc + xb (patch_to_global_idx st Ns p) (nth p Ns 0%nat) (bs p) g)
            (seq 0 (length Ns)) 0.

Lemma fold_seq_sumn (f : nat -> Qc) n : fold_left (fun acc p => acc + f p) (seq 0 n) 0 = sumn f n.
Proof. induction n as [|n IH]; [reflexivity|]. rewrite seq_S, fold_left_app, IH. reflexivity. Qed.

(* v^T A u  and  v^T b  for any state whose numbering stays below N *)
Lemma asm_mat_form st Ns As u v N :
  (forall p i, (p < length Ns)%nat -> (i < nth p Ns 0)%nat -> (glob st Ns (p, i) < N)%nat) ->
  sumn (fun g => sumn (fun h => v g * asm_mat st Ns As g h * u h) N) N =
  fold_left (fun acc p => acc +
     sumn (fun i => sumn (fun j => v (glob st Ns (p, i)) * As p i j * u (glob st Ns (p, j))) (nth p Ns 0%nat)) (nth p Ns 0%nat))
     (seq 0 (length Ns)) 0.
Proof.
  intros Hr. unfold asm_mat. rewrite fold_seq_sumn.
  set (T := fun p g h => xaxt (patch_to_global_idx st Ns p) (nth p Ns 0%nat) (As p) g h).
  rewrite (sumn_ext _ (fun g => sumn (fun p => sumn (fun h => v g * T p g h * u h) N) (length Ns))).
  2:{ intros g _. rewrite (sumn_swap (fun p h => v g * T p g h * u h)). apply sumn_ext. intros h _.
      rewrite fold_seq_sumn, <- sumn_scale_l, <- sumn_scale_r. reflexivity. }
  rewrite sumn_swap. apply sumn_ext. intros p Hp. unfold T. rewrite (xaxt_form _ _ N).
  - apply sumn_ext. intros i Hi. apply sumn_ext. intros j Hj. rewrite !p2g_idx_nth by assumption. reflexivity.
  - intros i Hi. rewrite p2g_idx_nth by exact Hi. apply Hr; assumption.
Qed.

Lemma asm_rhs_form st Ns bs v N :
  (forall p i, (p < length Ns)%nat -> (i < nth p Ns 0)%nat -> (glob st Ns (p, i) < N)%nat) ->
  sumn (fun g => v g * asm_rhs st Ns bs g) N =
  fold_left (fun acc p => acc + sumn (fun i => v (glob st Ns (p, i)) * bs p i) (nth p Ns 0%nat)) (seq 0 (length Ns)) 0.
Proof.
  intros Hr. unfold asm_rhs. rewrite fold_seq_sumn.
  set (T := fun p g => xb (patch_to_global_idx st Ns p) (nth p Ns 0%nat) (bs p) g).
  rewrite (sumn_ext _ (fun g => sumn (fun p => v g * T p g) (length Ns))).
  2:{ intros g _. rewrite fold_seq_sumn, <- sumn_scale_l. reflexivity. }
  rewrite sumn_swap. apply sumn_ext. intros p Hp. unfold T, xb. rewrite (X_contract _ _ N).
  - apply sumn_ext. intros i Hi. rewrite p2g_idx_nth by assumption. reflexivity.
  - intros i Hi. rewrite p2g_idx_nth by exact Hi. apply Hr; assumption.
Qed.
