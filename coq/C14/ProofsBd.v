(* C14 -- the dofs paired by join_boundaries exist: every raveled index produced by
   slice_indices / boundary_dofs lies below the number of dofs of its patch, so that the
   hypotheses of glob_gapfree about the declared identifications are met by histories of
   join_boundaries calls on valid faces; with finalize calls in between, such a history is the
   history of its dof identifications. *)
From Coq Require Import List Arith Lia.
From Verif.lib Require Import Slice ListFacts.
From Verif.C14 Require Import Model Spec Proofs ModelFin.
Import ListNotations.

Lemma prod_list_cons n l : prod_list (n :: l) = n * prod_list l.
Proof. unfold prod_list. cbn [fold_left]. rewrite (fold_mul_acc l (1 * n)). lia. Qed.

Lemma ravel_aux_bound shape idx : Forall2 (fun n i => i < n) shape idx ->
  forall acc, ravel_aux acc shape idx < (acc + 1) * prod_list shape.
Proof.
  induction 1 as [|n i shape idx Hi _ IH]; intros acc; simpl.
  - unfold prod_list; simpl. lia.
  - rewrite prod_list_cons. specialize (IH (acc * n + i)). nia.
Qed.

Lemma ravel_bound shape idx : Forall2 (fun n i => i < n) shape idx -> ravel shape idx < prod_list shape.
Proof. intros H. unfold ravel. pose proof (ravel_aux_bound shape idx H 0). lia. Qed.

Lemma product_inside shape ls :
  Forall2 (fun n l => forall x, In x l -> x < n) shape ls ->
  forall idx, In idx (product ls) -> Forall2 (fun n i => i < n) shape idx.
Proof.
  induction 1 as [|n l shape ls Hl _ IH]; intros idx Hin; simpl in Hin.
  - destruct Hin as [<-|[]]. constructor.
  - apply in_flat_map in Hin. destruct Hin as [x [Hx Hm]].
    apply in_map_iff in Hm. destruct Hm as [rest [<- Hrest]].
    constructor; [apply Hl, Hx|apply IH, Hrest].
Qed.

Lemma axdofs_ranges_ok : forall shape k ax idx flip,
  (forall n, nth_error shape (ax - k) = Some n -> k <= ax -> idx < n) ->
  Forall2 (fun n l => forall x, In x l -> x < n) shape (axdofs_aux k ax idx shape flip).
Proof.
  induction shape as [|n shape IH]; intros k ax idx flip H; simpl; constructor.
  - intros x Hx. destruct (Nat.eqb_spec k ax) as [E|NE].
    + destruct Hx as [<-|[]]. apply H; [subst; rewrite Nat.sub_diag; reflexivity|lia].
    + destruct (match flip with [] => false | f :: _ => f end).
      * apply in_rev in Hx. apply in_seq in Hx. lia.
      * apply in_seq in Hx. lia.
  - apply IH. intros m Hm Hk. apply H; [|lia].
    replace (ax - k) with (S (ax - S k)) by lia. simpl. exact Hm.
Qed.

(* boundary_dofs of a valid face (its axis exists and is not empty) lists existing dofs only *)
Lemma boundary_dofs_valid shape ax side flip i :
  0 < nth ax shape 0 -> In i (boundary_dofs shape ax side flip) -> i < prod_list shape.
Proof.
  intros Hpos Hin. unfold boundary_dofs, slice_indices in Hin.
  apply in_map_iff in Hin. destruct Hin as [idx [<- Hidx]].
  apply ravel_bound. unfold slice_multi in Hidx.
  eapply product_inside; [|exact Hidx].
  apply axdofs_ranges_ok. intros n Hn _. rewrite Nat.sub_0_r in Hn.
  assert (nth ax shape 0 = n) by (apply nth_error_nth; exact Hn). subst n.
  destruct (Nat.eqb side 0); lia.
Qed.

(* a well-formed join_boundaries call: existing patches, valid faces with at least one dof,
   two different patches *)
Definition bjoin_ok (shapes : list (list nat)) (j : bjoin) : Prop :=
  bj_p1 j < length shapes /\ bj_p2 j < length shapes /\ bj_p1 j <> bj_p2 j /\
  bj_ax1 j < length (nth (bj_p1 j) shapes []) /\ 0 < nth (bj_ax1 j) (nth (bj_p1 j) shapes []) 0 /\
  bj_ax2 j < length (nth (bj_p2 j) shapes []) /\ 0 < nth (bj_ax2 j) (nth (bj_p2 j) shapes []) 0.

Lemma bjoin_pairs_ok shapes j e :
  bjoin_ok shapes j -> In e (bjoin_pairs shapes j) ->
  fst e <> snd e /\ valid (map prod_list shapes) (fst e) /\ valid (map prod_list shapes) (snd e).
Proof.
  intros [H1 [H2 [Hne [Ha1 [Hp1 [Ha2 Hp2]]]]]] Hin. unfold bjoin_pairs in Hin.
  apply in_combine_map in Hin. destruct Hin as [i1 [i2 [-> Hin]]]. simpl.
  pose proof (in_combine_l _ _ _ _ Hin) as Hi1. pose proof (in_combine_r _ _ _ _ Hin) as Hi2.
  split; [intros E; inversion E; contradiction|].
  split; unfold valid; simpl; rewrite map_length; (split; [assumption|]).
  - rewrite (nth_map_lt prod_list _ _ 0 []) by assumption. eapply boundary_dofs_valid; eassumption.
  - rewrite (nth_map_lt prod_list _ _ 0 []) by assumption. eapply boundary_dofs_valid; eassumption.
Qed.

(* histories of well-formed join_boundaries calls meet the hypothesis of glob_surjective *)
Lemma all_pairs_valid shapes js x : Forall (bjoin_ok shapes) js ->
  mentions (all_pairs shapes js) x -> valid (map prod_list shapes) x.
Proof.
  intros H [e [He Hx]]. unfold all_pairs in He. apply in_flat_map in He. destruct He as [j [Hj Hin]].
  rewrite Forall_forall in H. destruct (bjoin_pairs_ok shapes j e (H j Hj) Hin) as [_ [V1 V2]].
  destruct Hx as [->| ->]; assumption.
Qed.

(* a history of join_boundaries and finalize calls is the history of its dof identifications *)
Lemma hstep_run_expand shapes s st :
  hstep_run shapes st s = fold_left pstep_run (expand shapes s) st.
Proof.
  destruct s as [j|]; [|reflexivity]. cbn [hstep_run expand]. unfold join_boundaries.
  revert st. induction (bjoin_pairs shapes j) as [|e l IH]; intros st; [reflexivity|apply IH].
Qed.

Lemma run_h_as_p shapes steps : run_h shapes steps = run_p (flat_map (expand shapes) steps).
Proof.
  unfold run_h, run_p. generalize init.
  induction steps as [|s steps IH]; intros st; cbn [flat_map fold_left]; [reflexivity|].
  rewrite fold_left_app, <- hstep_run_expand. apply IH.
Qed.

Lemma pairs_of_map_PJoin l : pairs_of (map PJoin l) = l.
Proof. induction l as [|e l IH]; [reflexivity|]. cbn. f_equal. exact IH. Qed.

Lemma pairs_of_expand shapes steps : pairs_of (flat_map (expand shapes) steps) = all_pairs shapes (joins_of steps).
Proof.
  induction steps as [|s steps IH]; [reflexivity|]. cbn [flat_map]. rewrite pairs_of_app, IH.
  destruct s as [j|]; cbn [expand]; [rewrite pairs_of_map_PJoin|]; reflexivity.
Qed.

Lemma expand_pairs_valid shapes steps x :
  (forall j, In (HJoin j) steps -> bjoin_ok shapes j) ->
  mentions (pairs_of (flat_map (expand shapes) steps)) x -> valid (map prod_list shapes) x.
Proof.
  intros Hok. rewrite pairs_of_expand. apply all_pairs_valid, Forall_forall.
  intros j Hj. apply in_flat_map in Hj. destruct Hj as [[j'|] [Hs Hin]]; [|destruct Hin].
  destruct Hin as [<-|[]]. apply Hok, Hs.
Qed.
