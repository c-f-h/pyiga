(* C14 -- proofs about the model of detect_interfaces (ModelGeo.v): soundness and completeness of
   _check_geo_match with respect to geometric coincidence of the sampled faces, determinism of the
   returned flip, the link to the dof pairs that join_boundaries identifies, membership in
   _find_matching_boundaries, and completeness of the bounding-box pre-filter. *)
From Coq Require Import List Bool Lia QArith Lqa.
From Verif.lib Require Import Slice.
From Verif.C14 Require Import Proofs ModelGeo.
Import ListNotations.
Close Scope Q_scope.

Lemma list_eqb_spec {A : Type} (e : A -> A -> bool) :
  (forall x y, e x y = true <-> x = y) -> forall a b, list_eqb e a b = true <-> a = b.
Proof.
  intros He. induction a as [|x a IH]; destruct b as [|y b]; cbn [list_eqb];
    try (split; intros H; discriminate H).
  - split; intros; reflexivity.
  - rewrite andb_true_iff, He, IH. split; [intros [-> ->]; reflexivity | intros E; injection E; auto].
Qed.

Lemma all_flips_length k : forall f, In f (all_flips k) -> length f = k.
Proof.
  induction k as [|k IH]; intros f H; cbn [all_flips] in H.
  - destruct H as [<-|[]]; reflexivity.
  - apply in_app_or in H. destruct H as [H|H]; apply in_map_iff in H; destruct H as [g [<- Hg]];
      cbn [length]; f_equal; apply IH; exact Hg.
Qed.

Lemma all_flips_complete f : In f (all_flips (length f)).
Proof.
  induction f as [|b f IH]; cbn [length all_flips]; [left; reflexivity|].
  apply in_or_app. destruct b; [right|left]; apply in_map; exact IH.
Qed.

Lemma in_all_bds d ax s : In (ax, s) (all_bds d) <-> ax < d /\ (s = 0 \/ s = 1).
Proof.
  unfold all_bds. rewrite in_flat_map. split.
  - intros [a [Ha H]]. apply in_seq in Ha. destruct H as [H|[H|[]]]; injection H as <- <-; split; auto; lia.
  - intros [Ha Hs]. exists ax. split; [apply in_seq; lia|]. destruct Hs as [->| ->]; [left|right; left]; reflexivity.
Qed.

(* the range of the inner loop  for p2 in range(p1 + 1, n) *)
Lemma in_seq_between p n q : In q (seq (S p) (n - S p)) <-> p < q /\ q < n.
Proof. rewrite in_seq. lia. Qed.

Section MatchProofs.
Variable P : Type.
Variable peqb : P -> P -> bool.
Hypothesis peqb_spec : forall a b, peqb a b = true <-> a = b.

Lemma opt_eqb_spec a b : opt_eqb P peqb a b = true <-> a = b.
Proof.
  destruct a, b; cbn [opt_eqb]; try (split; intros H; discriminate H).
  - rewrite peqb_spec. split; [intros ->; reflexivity|intros H; injection H; auto].
  - split; intros; reflexivity.
Qed.

(* the two sampled faces coincide point by point when the grid of the second is flipped by f *)
Definition matches sh1 (S1 : list P) ax1 s1 sh2 (S2 : list P) ax2 s2 (f : list bool) : Prop :=
  face_pts P sh1 S1 ax1 s1 [] = face_pts P sh2 S2 ax2 s2 f.
(* same dimension, faces with the same sample grid *)
Definition comparable (sh1 : list nat) ax1 (sh2 : list nat) ax2 : Prop :=
  length sh1 = length sh2 /\ face_shape sh1 ax1 = face_shape sh2 ax2.

Lemma check_sound sh1 S1 ax1 s1 sh2 S2 ax2 s2 f :
  check_geo_match P peqb sh1 S1 ax1 s1 sh2 S2 ax2 s2 = Some f ->
  comparable sh1 ax1 sh2 ax2 /\ length f = length sh2 - 1 /\
  matches sh1 S1 ax1 s1 sh2 S2 ax2 s2 f /\
  (exists l1 l2, all_flips (length sh2 - 1) = l1 ++ f :: l2 /\
                 forall g, In g l1 -> ~ matches sh1 S1 ax1 s1 sh2 S2 ax2 s2 g).
Proof.
  unfold check_geo_match.
  destruct (Nat.eqb_spec (length sh1) (length sh2)) as [EL|]; cbn [negb]; [|discriminate].
  destruct (list_eqb Nat.eqb (face_shape sh1 ax1) (face_shape sh2 ax2)) eqn:EF; cbn [negb]; [|discriminate].
  intros H. apply find_first in H. destruct H as [l1 [l2 [E [Hf Hl]]]].
  apply (list_eqb_spec _ Nat.eqb_eq) in EF.
  split; [split; assumption|]. split.
  { apply all_flips_length. rewrite E. apply in_or_app; right; left; reflexivity. }
  split. { apply (list_eqb_spec _ opt_eqb_spec). exact Hf. }
  exists l1, l2. split; [exact E|]. intros g Hg M. specialize (Hl g Hg). cbv beta in Hl.
  unfold matches in M. rewrite (proj2 (list_eqb_spec _ opt_eqb_spec _ _) M) in Hl. discriminate.
Qed.

Lemma check_complete sh1 S1 ax1 s1 sh2 S2 ax2 s2 f :
  comparable sh1 ax1 sh2 ax2 -> length f = length sh2 - 1 ->
  matches sh1 S1 ax1 s1 sh2 S2 ax2 s2 f ->
  exists f', check_geo_match P peqb sh1 S1 ax1 s1 sh2 S2 ax2 s2 = Some f'.
Proof.
  intros [EL EF] Hl M. unfold check_geo_match. rewrite EL, Nat.eqb_refl. cbn [negb].
  rewrite (proj2 (list_eqb_spec _ Nat.eqb_eq _ _) EF). cbn [negb].
  match goal with |- exists f', find ?p ?l = Some f' => destruct (find p l) eqn:E end; [eexists; reflexivity|].
  exfalso. pose proof (find_none _ _ E f) as N. rewrite <- Hl in N. specialize (N (all_flips_complete f)).
  cbv beta in N. unfold matches in M. rewrite (proj2 (list_eqb_spec _ opt_eqb_spec _ _) M) in N. discriminate.
Qed.

(* the dof pairs that join_boundaries(p1, bd1, p2, bd2, flip=f) identifies carry coinciding points *)
Lemma match_pairs_coincide sh1 S1 ax1 s1 sh2 S2 ax2 s2 f :
  check_geo_match P peqb sh1 S1 ax1 s1 sh2 S2 ax2 s2 = Some f ->
  forall i j, In (i, j) (combine (boundary_dofs sh1 ax1 s1 []) (boundary_dofs sh2 ax2 s2 f)) ->
  nth_error S1 i = nth_error S2 j.
Proof.
  intros H. apply check_sound in H as [_ [_ [M _]]].
  apply map_eq_combine. exact M.
Qed.

Lemma find_matching_iff sh1 S1 sh2 S2 bd1 bd2 f :
  In (bd1, bd2, f) (find_matching P peqb sh1 S1 sh2 S2) <->
  In bd1 (all_bds (length sh1)) /\ In bd2 (all_bds (length sh2)) /\
  check_geo_match P peqb sh1 S1 (fst bd1) (snd bd1) sh2 S2 (fst bd2) (snd bd2) = Some f.
Proof.
  unfold find_matching. rewrite in_flat_map. split.
  - intros [b1 [H1 H]]. rewrite in_flat_map in H. destruct H as [b2 [H2 H]].
    destruct (check_geo_match P peqb sh1 S1 (fst b1) (snd b1) sh2 S2 (fst b2) (snd b2)) as [g|] eqn:E; [|destruct H].
    destruct H as [H|[]]. injection H as <- <- <-. auto.
  - intros [H1 [H2 H]]. exists bd1. split; [exact H1|]. rewrite in_flat_map. exists bd2. split; [exact H2|].
    rewrite H. left; reflexivity.
Qed.

End MatchProofs.

(* Bounding boxes: two boxes that share a point touch.  The converse (boxes farther apart than the
   tolerance do not touch) is not proved: the pre-filter can only remove candidates, so soundness of
   the interface list does not depend on it. *)
Open Scope Q_scope.

Lemma qmax_le a b c : a <= c -> b <= c -> qmax a b <= c.
Proof. intros. unfold qmax. destruct (Qle_bool a b); assumption. Qed.
Lemma qmax_ge_l a b : a <= qmax a b.
Proof.
  unfold qmax. destruct (Qle_bool a b) eqn:E; [apply Qle_bool_iff; exact E|apply Qle_refl].
Qed.
Lemma qmax_ge_r a b : b <= qmax a b.
Proof.
  unfold qmax. destruct (Qle_bool a b) eqn:E; [apply Qle_refl|].
  apply Qlt_le_weak. apply Qnot_le_lt. intros H. apply Qle_bool_iff in H. congruence.
Qed.

Definition inside_box (x : list Q) (b : list (Q * Q)) : Prop :=
  Forall2 (fun xi bi => fst bi <= xi /\ xi <= snd bi) x b.

Lemma gap_zero a b x : fst a <= x /\ x <= snd a -> fst b <= x /\ x <= snd b -> gap a b == 0.
Proof.
  intros [A1 A2] [B1 B2]. unfold gap. apply Qle_antisym; [|apply qmax_ge_l].
  apply qmax_le; [apply Qle_refl|]. apply qmax_le; lra.
Qed.

Lemma mind2_zero x : forall b1 b2, inside_box x b1 -> inside_box x b2 -> mind2 b1 b2 == 0.
Proof.
  induction x as [|xi x IH]; intros b1 b2 H1 H2; inversion H1; inversion H2; subst; cbn [mind2]; [reflexivity|].
  rewrite (gap_zero _ _ xi) by assumption. rewrite IH by assumption. ring.
Qed.

Lemma touch_complete b1 b2 x :
  inside_box x b1 -> inside_box x b2 -> (0 < diam2 b1 \/ 0 < diam2 b2) -> touch b1 b2 = true.
Proof.
  intros H1 H2 Hd. unfold touch, qltb. apply negb_true_iff.
  destruct (Qle_bool _ _) eqn:E; [|reflexivity]. exfalso. apply Qle_bool_iff in E.
  rewrite (mind2_zero x b1 b2 H1 H2) in E.
  pose proof (qmax_ge_l (diam2 b1) (diam2 b2)). pose proof (qmax_ge_r (diam2 b1) (diam2 b2)).
  destruct Hd; lra.
Qed.

Close Scope Q_scope.
