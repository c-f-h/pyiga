(* C14 -- property theorems only, each followed by Print Assumptions; the lemmas are in
   Proofs.v, ProofsBd.v and ProofsAsm.v. *)
From Coq Require Import List Arith.
From Verif.C14 Require Import Model Spec Proofs.
Import ListNotations.

(* Two existing local dofs receive the same global index iff they are connected
   by a chain of declared identifications -- for every number of patches, every
   patch size and every list of dof identifications in any order, with repetitions. *)
Theorem glue_is_closure : forall ps Ns x y,
  valid Ns x -> valid Ns y ->
  let st := fold_left join1 ps init in
  (glob st Ns x = glob st Ns y <-> conn ps x y).
Proof. exact glue_is_closure_l. Qed.
Print Assumptions glue_is_closure.

(* The same for histories of join_boundaries calls (any faces, any flips). *)
Theorem glue_is_closure_boundaries : forall shapes js Ns x y,
  valid Ns x -> valid Ns y ->
  (glob (run shapes js) Ns x = glob (run shapes js) Ns y <-> conn (all_pairs shapes js) x y).
Proof.
  intros shapes js Ns x y Hx Hy. rewrite (glob_eq_iff_cls _ Ns x y Hx Hy).
  apply Proofs.glue_is_closure_boundaries.
Qed.
Print Assumptions glue_is_closure_boundaries.

(* Any reordering / repetition of the identifications gives the same partition. *)
Theorem join_order_irrelevant : forall ps qs Ns x y,
  valid Ns x -> valid Ns y -> incl ps qs -> incl qs ps ->
  (glob (fold_left join1 ps init) Ns x = glob (fold_left join1 ps init) Ns y <->
   glob (fold_left join1 qs init) Ns x = glob (fold_left join1 qs init) Ns y).
Proof.
  intros ps qs Ns x y Hx Hy H1 H2. rewrite !(glob_eq_iff_cls _ Ns x y Hx Hy).
  apply join_order_irrelevant_pairs; assumption.
Qed.
Print Assumptions join_order_irrelevant.

(* The numbering maps into range(numdofs) ... *)
Theorem glob_in_range : forall ps Ns x,
  valid Ns x -> glob (fold_left join1 ps init) Ns x < numdofs (fold_left join1 ps init) Ns.
Proof.
  intros ps Ns x Hx. apply glob_lt_numdofs; [exact Hx|]. apply (proj2 (reachable_Inv ps)).
Qed.
Print Assumptions glob_in_range.

(* ... and onto it (gap-free), when the joined dofs exist and no dof is joined to itself. *)
Theorem glob_gapfree : forall ps Ns g,
  distinct_pairs ps -> (forall x, mentions ps x -> valid Ns x) ->
  let st := fold_left join1 ps init in
  g < numdofs st Ns -> exists x, valid Ns x /\ glob st Ns x = g.
Proof.
  intros ps Ns g _ Hv st. apply (glob_surjective ps); [apply reachable_Inv2|exact Hv].
Qed.
Print Assumptions glob_gapfree.

(* patch_to_global has exactly one unit entry per local dof (row = the listed global
   index), and its transpose is its left inverse iff no two local dofs of the patch are
   identified with one another. *)
Theorem p2g_one_entry_per_dof : forall st Ns p, length (patch_to_global_idx st Ns p) = nth p Ns 0.
Proof. intros st Ns p. unfold patch_to_global_idx. rewrite map_length, seq_length. reflexivity. Qed.
Print Assumptions p2g_one_entry_per_dof.

Theorem p2g_left_inverse : forall ps Ns p,
  p < length Ns ->
  let st := fold_left join1 ps init in
  ((forall i j, i < nth p Ns 0 -> j < nth p Ns 0 ->
      (nth i (patch_to_global_idx st Ns p) 0 = nth j (patch_to_global_idx st Ns p) 0 <-> i = j))
   <->
   (forall i j, i < nth p Ns 0 -> j < nth p Ns 0 -> conn ps (p, i) (p, j) -> i = j)).
Proof.
  intros ps Ns p Hp st. apply p2g_left_inverse_of. intros i j Hi Hj.
  apply glue_is_closure_l; split; assumption.
Qed.
Print Assumptions p2g_left_inverse.

(* Histories of join_boundaries calls on valid faces of two different existing patches (any
   flips, any order, repetitions): every paired dof exists, no dof is paired with itself, and
   therefore the numbering is a gap-free bijection onto the classes -- no hypothesis on the
   identifications is left. *)
From Verif.C14 Require Import ProofsBd.

Theorem boundary_joins_pair_existing_dofs : forall shapes j e,
  bjoin_ok shapes j -> In e (bjoin_pairs shapes j) ->
  fst e <> snd e /\ valid (map prod_list shapes) (fst e) /\ valid (map prod_list shapes) (snd e).
Proof. exact bjoin_pairs_ok. Qed.
Print Assumptions boundary_joins_pair_existing_dofs.

Theorem glob_in_range_boundaries : forall shapes js x,
  valid (map prod_list shapes) x ->
  glob (run shapes js) (map prod_list shapes) x < numdofs (run shapes js) (map prod_list shapes).
Proof. intros shapes js x Hx. rewrite run_as_pairs. apply glob_in_range; exact Hx. Qed.
Print Assumptions glob_in_range_boundaries.

Theorem glob_gapfree_boundaries : forall shapes js g,
  Forall (bjoin_ok shapes) js ->
  g < numdofs (run shapes js) (map prod_list shapes) ->
  exists x, valid (map prod_list shapes) x /\ glob (run shapes js) (map prod_list shapes) x = g.
Proof.
  intros shapes js g H. rewrite run_as_pairs.
  apply (glob_surjective (all_pairs shapes js)); [apply reachable_Inv2|].
  intros x. apply all_pairs_valid, H.
Qed.
Print Assumptions glob_gapfree_boundaries.

(* Multipatch.assemble_system (A += X_p A_p X_p^T, b += X_p b_p, entry by entry in loop order):
   the assembled matrix is the sum of the patch bilinear forms of the restrictions u o glob_p, and
   the assembled vector the sum of the patch functionals -- for every join history, every number of
   patches and all patch matrices/vectors and global vectors.  Together with glue_is_closure this is
   the algebraic half of "the same system as the undivided domain up to renumbering"; the other half
   (the patch forms add up to the form of the undivided domain) is additivity of the integral and is
   compared on the implementation by the run. *)
From Coq Require Import QArith Qcanon.
From Verif.C14 Require Import ProofsAsm.
Close Scope Q_scope.

Theorem assemble_system_bilinear_form : forall ps Ns As u v,
  let st := fold_left join1 ps init in
  let N := numdofs st Ns in
  sumn (fun g => sumn (fun h => v g * asm_mat st Ns As g h * u h)%Qc N) N =
  fold_left (fun acc p => acc +
     sumn (fun i => sumn (fun j => v (glob st Ns (p, i)) * As p i j * u (glob st Ns (p, j))) (nth p Ns 0%nat)) (nth p Ns 0%nat))%Qc
     (seq 0 (length Ns)) 0%Qc.
Proof.
  intros ps Ns As u v st N. apply asm_mat_form. intros p i Hp Hi. apply glob_in_range. split; assumption.
Qed.
Print Assumptions assemble_system_bilinear_form.

Theorem assemble_system_rhs_functional : forall ps Ns bs v,
  let st := fold_left join1 ps init in
  let N := numdofs st Ns in
  sumn (fun g => v g * asm_rhs st Ns bs g)%Qc N =
  fold_left (fun acc p => acc + sumn (fun i => v (glob st Ns (p, i)) * bs p i) (nth p Ns 0%nat))%Qc (seq 0 (length Ns)) 0%Qc.
Proof.
  intros ps Ns bs v st N. apply asm_rhs_form. intros p i Hp Hi. apply glob_in_range. split; assumption.
Qed.
Print Assumptions assemble_system_rhs_functional.

(* entry form of one patch contribution: (X A X^T)[g, h] collects exactly the entries A[i, j] whose
   local dofs are numbered g and h *)
Theorem p2g_congruence_entry : forall idx n A g h,
  xaxt idx n A g h =
  sumn (fun i => sumn (fun j => if (Nat.eqb (nth i idx 0%nat) g && Nat.eqb (nth j idx 0%nat) h)%bool then A i j else 0%Qc) n) n.
Proof.
  intros idx n A g h. unfold xaxt, Xent, delta. apply sumn_ext. intros i Hi. apply sumn_ext. intros j Hj.
  destruct (Nat.eqb (nth i idx 0%nat) g), (Nat.eqb (nth j idx 0%nat) h); cbn [andb]; ring.
Qed.
Print Assumptions p2g_congruence_entry.
