(* C14 -- property theorems, second part: (a) histories with finalize() between the joins,
   (b) automatic interface detection (detect_interfaces).  Each theorem is followed by
   Print Assumptions; the lemmas are in Proofs.v, ProofsBd.v and ProofsGeo.v. *)
From Coq Require Import List Arith QArith.
From Verif.lib Require Import Slice.
From Verif.C14 Require Import Model Spec ModelFin ModelGeo.
From Verif.C14 Require Proofs ProofsBd ProofsGeo.
Import ListNotations.
Close Scope Q_scope.

(* ---------------- (a) finalize() at arbitrary positions of the history ---------------- *)

(* For every history of dof identifications and finalize() calls (any number of finalize calls, at
   any positions, also directly after a merge of two existing classes and followed by further
   joins and merges): two existing local dofs receive the same global index iff they are connected
   by a chain of the identifications declared so far. *)
Theorem glue_is_closure_interleaved_finalize : forall steps Ns x y,
  valid Ns x -> valid Ns y ->
  (glob (run_p steps) Ns x = glob (run_p steps) Ns y <-> conn (pairs_of steps) x y).
Proof.
  intros steps Ns x y Hx Hy. rewrite (Proofs.glob_eq_iff_cls _ Ns x y Hx Hy).
  apply (proj1 (Proofs.reachable_Inv_p steps)).
Qed.
Print Assumptions glue_is_closure_interleaved_finalize.

(* the same for histories of join_boundaries and finalize calls (any faces, any flips, 2D/3D) *)
Theorem glue_is_closure_boundaries_interleaved_finalize : forall shapes steps Ns x y,
  valid Ns x -> valid Ns y ->
  (glob (run_h shapes steps) Ns x = glob (run_h shapes steps) Ns y <->
   conn (all_pairs shapes (joins_of steps)) x y).
Proof.
  intros shapes steps Ns x y Hx Hy. rewrite ProofsBd.run_h_as_p, <- ProofsBd.pairs_of_expand.
  apply glue_is_closure_interleaved_finalize; assumption.
Qed.
Print Assumptions glue_is_closure_boundaries_interleaved_finalize.

(* where (and how often) finalize was called does not influence the partition *)
Theorem finalize_positions_irrelevant : forall steps steps' Ns x y,
  valid Ns x -> valid Ns y -> pairs_of steps = pairs_of steps' ->
  (glob (run_p steps) Ns x = glob (run_p steps) Ns y <-> glob (run_p steps') Ns x = glob (run_p steps') Ns y).
Proof.
  intros steps steps' Ns x y Hx Hy E. rewrite !glue_is_closure_interleaved_finalize by assumption.
  rewrite E. reflexivity.
Qed.
Print Assumptions finalize_positions_irrelevant.

(* into range(numdofs) ... *)
Theorem glob_in_range_interleaved_finalize : forall steps Ns x,
  valid Ns x -> glob (run_p steps) Ns x < numdofs (run_p steps) Ns.
Proof.
  intros steps Ns x Hx. apply Proofs.glob_lt_numdofs; [exact Hx|].
  apply (proj2 (Proofs.reachable_Inv_p steps)).
Qed.
Print Assumptions glob_in_range_interleaved_finalize.

(* ... and onto it (gap-free: numdofs = number of classes) *)
Theorem glob_gapfree_interleaved_finalize : forall steps Ns g,
  Proofs.distinct_pairs (pairs_of steps) -> (forall x, Proofs.mentions (pairs_of steps) x -> valid Ns x) ->
  g < numdofs (run_p steps) Ns -> exists x, valid Ns x /\ glob (run_p steps) Ns x = g.
Proof. intros steps Ns g _. apply Proofs.glob_surjective, Proofs.reachable_Inv2_p. Qed.
Print Assumptions glob_gapfree_interleaved_finalize.

(* join_boundaries/finalize histories on valid faces of different patches: a gap-free bijection onto
   the classes, without any hypothesis on the identifications *)
Theorem glob_numbering_boundaries_interleaved_finalize : forall shapes steps,
  (forall j, In (HJoin j) steps -> ProofsBd.bjoin_ok shapes j) ->
  let Ns := map prod_list shapes in
  let st := run_h shapes steps in
  (forall x, valid Ns x -> glob st Ns x < numdofs st Ns) /\
  (forall g, g < numdofs st Ns -> exists x, valid Ns x /\ glob st Ns x = g).
Proof.
  intros shapes steps Hok Ns st. unfold st. rewrite ProofsBd.run_h_as_p.
  split.
  - intros x. apply glob_in_range_interleaved_finalize.
  - intros g. apply (Proofs.glob_surjective _ _ _ _ (Proofs.reachable_Inv2_p _)).
    intros x. apply ProofsBd.expand_pairs_valid, Hok.
Qed.
Print Assumptions glob_numbering_boundaries_interleaved_finalize.

(* patch_to_global^T patch_to_global = I iff no two local dofs of the patch are identified, after
   any history with interleaved finalize calls *)
Theorem p2g_left_inverse_interleaved_finalize : forall steps Ns p,
  p < length Ns ->
  let st := run_p steps in
  ((forall i j, i < nth p Ns 0 -> j < nth p Ns 0 ->
      (nth i (patch_to_global_idx st Ns p) 0 = nth j (patch_to_global_idx st Ns p) 0 <-> i = j))
   <->
   (forall i j, i < nth p Ns 0 -> j < nth p Ns 0 -> conn (pairs_of steps) (p, i) (p, j) -> i = j)).
Proof.
  intros steps Ns p Hp st. apply Proofs.p2g_left_inverse_of. intros i j Hi Hj.
  apply glue_is_closure_interleaved_finalize; split; assumption.
Qed.
Print Assumptions p2g_left_inverse_interleaved_finalize.

(* ---------------- (b) detect_interfaces ---------------- *)

(* _check_geo_match finds a match iff the two faces are comparable (same dimension, same sample
   grid) and their samples coincide point by point under SOME flip pattern of the second grid --
   for every point type with a decidable equality, every sample arrays, faces and grid shapes. *)
Theorem geo_match_iff_faces_coincide : forall (P : Type) (peqb : P -> P -> bool),
  (forall a b, peqb a b = true <-> a = b) ->
  forall sh1 S1 ax1 s1 sh2 S2 ax2 s2,
  (exists f, check_geo_match P peqb sh1 S1 ax1 s1 sh2 S2 ax2 s2 = Some f) <->
  (ProofsGeo.comparable sh1 ax1 sh2 ax2 /\
   exists f, length f = length sh2 - 1 /\ ProofsGeo.matches P sh1 S1 ax1 s1 sh2 S2 ax2 s2 f).
Proof.
  intros P peqb Hp sh1 S1 ax1 s1 sh2 S2 ax2 s2. split.
  - intros [f H]. apply (ProofsGeo.check_sound P peqb Hp) in H as [C [L [M _]]].
    split; [exact C|]. exists f; auto.
  - intros [C [f [L M]]]. eapply ProofsGeo.check_complete; eassumption.
Qed.
Print Assumptions geo_match_iff_faces_coincide.

(* the returned flip is determined: it makes the faces coincide and it is the FIRST such pattern in
   the order of itertools.product((False, True), ...) *)
Theorem geo_match_flip_determined : forall (P : Type) (peqb : P -> P -> bool),
  (forall a b, peqb a b = true <-> a = b) ->
  forall sh1 S1 ax1 s1 sh2 S2 ax2 s2 f,
  check_geo_match P peqb sh1 S1 ax1 s1 sh2 S2 ax2 s2 = Some f ->
  ProofsGeo.comparable sh1 ax1 sh2 ax2 /\ length f = length sh2 - 1 /\
  ProofsGeo.matches P sh1 S1 ax1 s1 sh2 S2 ax2 s2 f /\
  (exists l1 l2, all_flips (length sh2 - 1) = l1 ++ f :: l2 /\
                 forall g, In g l1 -> ~ ProofsGeo.matches P sh1 S1 ax1 s1 sh2 S2 ax2 s2 g).
Proof. exact ProofsGeo.check_sound. Qed.
Print Assumptions geo_match_flip_determined.

(* the flip returned maps one face's grid onto the other's: every dof pair that
   join_boundaries(p1, bd1, p2, bd2, flip) identifies (C14.Model.bjoin_pairs -- the same index
   function) carries coinciding points of the two patches *)
Theorem automatch_joins_coinciding_dofs : forall (P : Type) (peqb : P -> P -> bool),
  (forall a b, peqb a b = true <-> a = b) ->
  forall shapes p1 ax1 s1 p2 ax2 s2 f S1 S2 e,
  check_geo_match P peqb (nth p1 shapes []) S1 ax1 s1 (nth p2 shapes []) S2 ax2 s2 = Some f ->
  In e (bjoin_pairs shapes (mk_bjoin p1 ax1 s1 p2 ax2 s2 f)) ->
  fst (fst e) = p1 /\ fst (snd e) = p2 /\ nth_error S1 (snd (fst e)) = nth_error S2 (snd (snd e)).
Proof.
  intros P peqb Hp shapes p1 ax1 s1 p2 ax2 s2 f S1 S2 e H Hin.
  apply Proofs.in_combine_map in Hin. destruct Hin as [i [j [-> Hij]]].
  split; [reflexivity|]. split; [reflexivity|].
  exact (ProofsGeo.match_pairs_coincide P peqb Hp _ _ _ _ _ _ _ _ _ H i j Hij).
Qed.
Print Assumptions automatch_joins_coinciding_dofs.

(* exact characterisation of the interface list *)
Theorem detect_interfaces_iff : forall (P : Type) (peqb : P -> P -> bool) ps p1 bd1 p2 bd2 f,
  In (p1, bd1, p2, bd2, f) (detect P peqb ps) <->
  p1 < p2 /\ p2 < length ps /\
  touch (gp_bb P (nth p1 ps (gp_none P))) (gp_bb P (nth p2 ps (gp_none P))) = true /\
  In (bd1, bd2, f) (find_matching P peqb (gp_shape P (nth p1 ps (gp_none P))) (gp_samples P (nth p1 ps (gp_none P)))
                                         (gp_shape P (nth p2 ps (gp_none P))) (gp_samples P (nth p2 ps (gp_none P)))).
Proof.
  intros P peqb ps p1 bd1 p2 bd2 f. unfold detect. split.
  - intros H. apply in_flat_map in H. destruct H as [q1 [_ H]].
    apply in_flat_map in H. destruct H as [q2 [H2 H]].
    apply ProofsGeo.in_seq_between in H2. destruct H2 as [L1 L2].
    destruct (touch (gp_bb P (nth q1 ps (gp_none P))) (gp_bb P (nth q2 ps (gp_none P)))) eqn:T; [|destruct H].
    apply in_map_iff in H. destruct H as [[[b1 b2] g] [E Hm]].
    injection E as <- <- <- <- <-. auto.
  - intros [H1 [H2 [T Hm]]]. apply in_flat_map. exists p1.
    split; [apply in_seq; split; [apply Nat.le_0_l|apply (Nat.lt_trans _ p2); assumption]|].
    apply in_flat_map. exists p2. split; [apply ProofsGeo.in_seq_between; auto|].
    rewrite T. apply in_map_iff. exists (bd1, bd2, f). split; [reflexivity|exact Hm].
Qed.
Print Assumptions detect_interfaces_iff.

(* soundness: every reported interface joins two different existing patches (p1 < p2) along valid
   faces that coincide under the reported flip *)
Theorem detect_interfaces_sound : forall (P : Type) (peqb : P -> P -> bool),
  (forall a b, peqb a b = true <-> a = b) ->
  forall ps p1 bd1 p2 bd2 f,
  In (p1, bd1, p2, bd2, f) (detect P peqb ps) ->
  let G1 := nth p1 ps (gp_none P) in let G2 := nth p2 ps (gp_none P) in
  p1 < p2 /\ p2 < length ps /\
  fst bd1 < length (gp_shape P G1) /\ (snd bd1 = 0 \/ snd bd1 = 1) /\
  fst bd2 < length (gp_shape P G2) /\ (snd bd2 = 0 \/ snd bd2 = 1) /\
  ProofsGeo.comparable (gp_shape P G1) (fst bd1) (gp_shape P G2) (fst bd2) /\
  length f = length (gp_shape P G2) - 1 /\
  ProofsGeo.matches P (gp_shape P G1) (gp_samples P G1) (fst bd1) (snd bd1)
                      (gp_shape P G2) (gp_samples P G2) (fst bd2) (snd bd2) f.
Proof.
  intros P peqb Hp ps p1 [a1 s1] p2 [a2 s2] f H G1 G2.
  apply detect_interfaces_iff in H. destruct H as [H1 [H2 [_ Hm]]].
  apply ProofsGeo.find_matching_iff in Hm. destruct Hm as [B1 [B2 C]].
  apply ProofsGeo.in_all_bds in B1, B2. destruct B1 as [A1 S1], B2 as [A2 S2].
  apply (ProofsGeo.check_sound P peqb Hp) in C as [Cm [L [M _]]].
  cbn [fst snd] in *. repeat (split; [assumption|]). exact M.
Qed.
Print Assumptions detect_interfaces_sound.

(* completeness: every pair of coinciding faces of two patches is reported (with some flip, which by
   geo_match_flip_determined is the first matching one), provided the bounding boxes used by the
   pre-filter share a point -- they do when each contains the samples of its patch -- and are not
   both degenerate *)
Theorem detect_interfaces_complete : forall (P : Type) (peqb : P -> P -> bool),
  (forall a b, peqb a b = true <-> a = b) ->
  forall ps p1 ax1 s1 p2 ax2 s2 f x,
  let G1 := nth p1 ps (gp_none P) in let G2 := nth p2 ps (gp_none P) in
  p1 < p2 -> p2 < length ps ->
  ax1 < length (gp_shape P G1) -> (s1 = 0 \/ s1 = 1) -> ax2 < length (gp_shape P G2) -> (s2 = 0 \/ s2 = 1) ->
  ProofsGeo.comparable (gp_shape P G1) ax1 (gp_shape P G2) ax2 -> length f = length (gp_shape P G2) - 1 ->
  ProofsGeo.matches P (gp_shape P G1) (gp_samples P G1) ax1 s1 (gp_shape P G2) (gp_samples P G2) ax2 s2 f ->
  ProofsGeo.inside_box x (gp_bb P G1) -> ProofsGeo.inside_box x (gp_bb P G2) ->
  (0 < diam2 (gp_bb P G1) \/ 0 < diam2 (gp_bb P G2))%Q ->
  exists f', In (p1, (ax1, s1), p2, (ax2, s2), f') (detect P peqb ps).
Proof.
  intros P peqb Hp ps p1 ax1 s1 p2 ax2 s2 f x G1 G2 H1 H2 A1 Hs1 A2 Hs2 C L M X1 X2 D.
  destruct (ProofsGeo.check_complete P peqb Hp _ _ _ _ _ _ _ _ f C L M) as [f' Hf].
  exists f'. apply detect_interfaces_iff. split; [exact H1|]. split; [exact H2|].
  split; [eapply ProofsGeo.touch_complete; eassumption|].
  apply ProofsGeo.find_matching_iff. cbn [fst snd].
  split; [apply ProofsGeo.in_all_bds; auto|]. split; [apply ProofsGeo.in_all_bds; auto|]. exact Hf.
Qed.
Print Assumptions detect_interfaces_complete.
