(* C15 -- non-vacuity and concrete instances. *)
From Coq Require Import ZArith List Bool Lia Sorted.
From Verif.C15 Require Import Model Spec Proofs Proofs2 Proofs3 Proofs4.
Import ListNotations.
Open Scope Z_scope.

(* the input of DESIGN.md section 5: four levels, level 1 has its first non-zero in column 1 *)
Definition ex_bs : list (Z * Z) := [(2, 2); (2, 2); (1, 1); (1, 1)].
Definition ex_bidx : list pat := [[(0, 0); (1, 1)]; [(0, 1); (1, 0)]; [(0, 0)]; [(0, 0)]].

Example ex_nd_repaired : ml_nonzero_nd ex_bidx ex_bs false = [(0, 1); (1, 0); (2, 3); (3, 2)].
Proof. vm_compute. reflexivity. Qed.

Example ex_nd_is_kron : ml_nonzero_nd ex_bidx ex_bs false = kron_pattern ex_bs ex_bidx.
Proof. vm_compute. reflexivity. Qed.

(* the routine as it stood before fixes/C15-nonzero-nd-block-j-init.patch (block_j
   initialised from level 0) reports (0,0) instead of (0,1): it violates the property *)
Example ex_nd_level0_init_refuted :
  ml_nonzero_nd_level0 ex_bidx ex_bs false <> kron_pattern ex_bs ex_bidx.
Proof. vm_compute. discriminate. Qed.

(* rectangular blocks (2x3) (x) (2x2): 4 rows, 6 columns *)
Definition ex_rbs : list (Z * Z) := [(2, 3); (2, 2)].
Definition ex_rbidx : list pat := [compute_dense_ij 2 3; compute_dense_ij 2 2].
Definition ex_rdata : list Z := map Z.of_nat (seq 0 24).

Example ex_matvec_rect : matvec ex_rbs ex_rbidx ex_rdata [1; 1; 1; 1; 1; 1] = Some [27; 39; 99; 111].
Proof. vm_compute. reflexivity. Qed.

(* allocation by len(x) (before fixes/C15-matvec-rectangular.patch): wrong length *)
Example ex_matvec_lenx_wrong_length :
  matvec_lenx ex_rbs ex_rbidx ex_rdata [1; 1; 1; 1; 1; 1] = Some [27; 39; 99; 111; 0; 0].
Proof. vm_compute. reflexivity. Qed.
(* ... and an out-of-range write when there are more rows than columns *)
Example ex_matvec_lenx_overflow :
  matvec_lenx (transpose_bs ex_rbs) (transpose_bidx ex_rbidx) ex_rdata [1; 1; 1; 1] = None.
Proof. vm_compute. reflexivity. Qed.

(* hypotheses of the bijection theorems are satisfiable *)
Example ex_dims_pos : dims_pos [3; 4; 5].
Proof. repeat constructor. Qed.
Example ex_valid_mi : valid_mi [2; 0; 4] [3; 4; 5].
Proof. repeat constructor; lia. Qed.
Example ex_to_seq : to_seq [2; 0; 4] [3; 4; 5] = 44 /\ from_seq 44 [3; 4; 5] = [2; 0; 4].
Proof. vm_compute. auto. Qed.

(* hypotheses of kron_pattern_is_kronecker / rows_spec / cols_spec / matvec_spec hold for the
   example structures *)
Example ex_wf : wf_structure ex_bs ex_bidx.
Proof. unfold wf_structure, ex_bs, ex_bidx, pat_in_block. repeat constructor; simpl; lia. Qed.
Example ex_wf_rect : wf_structure ex_rbs ex_rbidx.
Proof. unfold wf_structure, ex_rbs, ex_rbidx, pat_in_block. vm_compute. repeat constructor; discriminate. Qed.
Example ex_dims_pos_rect : dims_pos (rowdims ex_rbs) /\ dims_pos (coldims ex_rbs).
Proof. split; repeat constructor. Qed.

(* a three-level rectangular structure with shuffled entries and first non-zeros off column 0 *)
Definition ex3_bs : list (Z * Z) := [(3, 2); (2, 2); (1, 2)].
Definition ex3_bidx : list pat := [[(2, 1); (0, 1)]; [(1, 0); (0, 1)]; [(0, 1)]].
Example ex3_nonzero : nonzero ex3_bs ex3_bidx false = Some [(5, 5); (4, 7); (1, 5); (0, 7)].
Proof. vm_compute. reflexivity. Qed.
Example ex3_lower : nonzero ex3_bs ex3_bidx true = Some [(5, 5)].
Proof. vm_compute. reflexivity. Qed.
Example ex3_rows : nonzeros_for_rows ex3_bs ex3_bidx [4; 0; 3] = Some [(4, 7, 0); (0, 7, 1)].
Proof. vm_compute. reflexivity. Qed.
Example ex3_rows_refused : nonzeros_for_rows ex3_bs ex3_bidx [6] = None.
Proof. vm_compute. reflexivity. Qed.
Example ex3_cols : nonzeros_for_columns ex3_bs ex3_bidx [7; 5] = Some [(4, 7); (0, 7); (5, 5); (1, 5)].
Proof. vm_compute. reflexivity. Qed.
Example ex3_kron_nonzero : kron_nonzero ex3_bs ex3_bidx 4 7.
Proof.
  unfold kron_nonzero. split; [vm_compute; split; [discriminate|reflexivity]|].
  split; [vm_compute; split; [discriminate|reflexivity]|].
  vm_compute. repeat constructor; simpl; tauto.
Qed.

(* multilevel index *)
Example ex_valid_ml : valid_ml [5; 3] [(3, 2); (2, 2)].
Proof. repeat constructor; simpl; lia. Qed.
Example ex_reindex : reindex_to_multilevel 5 3 [(3, 2); (2, 2)] = [5; 3]
  /\ reindex_from_multilevel [5; 3] [(3, 2); (2, 2)] = (5, 3).
Proof. vm_compute. auto. Qed.

(* compute_sparsity_ij on nested meshes (knot values scaled by 4): p=2 on {0,2,4} against its
   uniform refinement; rows = functions of the second knot vector *)
Example ex_sparsity_nested :
  compute_sparsity_ij (supports [0; 0; 0; 2; 4; 4; 4] 2) (supports [0; 0; 0; 1; 2; 3; 4; 4; 4] 2)
  = [(0,0);(0,1);(0,2); (1,0);(1,1);(1,2); (2,0);(2,1);(2,2);(2,3); (3,0);(3,1);(3,2);(3,3);
     (4,1);(4,2);(4,3); (5,1);(5,2);(5,3)].
Proof. vm_compute. reflexivity. Qed.

(* asmatrix / reorder / kron_partial instances *)
Example ex3_asmatrix : asmatrix ex3_bs ex3_bidx [1; -2; 3; 2] = [((0, 7), 2); ((1, 5), 3); ((4, 7), -2); ((5, 5), 1)].
Proof. vm_compute. reflexivity. Qed.
Example ex_kron_partial :
  kron_partial [[[0; 2; 0]; [3; 0; 1]; [0; 7; 0]]; [[2; 9; 0; 0]; [0; 2; 9; 0]; [0; 0; 2; 9]]] [4] true
  = Some [((0, 1), 6); ((0, 2), 27); ((0, 9), 2); ((0, 10), 9)].
Proof. vm_compute. reflexivity. Qed.

(* the hypotheses of sparsity_ij_spec hold for the supports of a knot vector with a repeated knot *)
Definition ex_kv : list Z := [0; 0; 0; 1; 2; 2; 3; 4; 4; 4].
Example ex_supports_sorted :
  StronglySorted Z.le (map fst (supports ex_kv 2)) /\ StronglySorted Z.le (map snd (supports ex_kv 2))
  /\ Forall nonempty_supp (supports ex_kv 2).
Proof.
  vm_compute. repeat split; repeat constructor; discriminate.
Qed.

(* one level: lower_tri is the J<=I sub-list of the level pattern *)
Example ex1_lower : nonzero [(3, 3)] [[(0, 1); (1, 0); (2, 2); (1, 2)]] true = Some [(1, 0); (2, 2)].
Proof. vm_compute. reflexivity. Qed.

(* a history: query, assign, query -- the hypotheses of history_last_assignment are met *)
Example ex_history :
  set_ok ex3_bidx [5; 6; 7; 8] = true /\
  hist_run ex3_bs ex3_bidx [1; -2; 3; 2] [OpQuery; OpSet [9; 9; 9]; OpQuery; OpSet [5; 6; 7; 8]; OpQuery] = [5; 6; 7; 8] /\
  asmatrix ex3_bs ex3_bidx [5; 6; 7; 8] <> asmatrix ex3_bs ex3_bidx [1; -2; 3; 2].
Proof. vm_compute. repeat split; discriminate. Qed.

(* hypotheses of supports_monotone, transpose_idx_involution/_defined and kron_partial_spec are
   satisfiable *)
Example ex_knot_vector : knot_vector ex_kv 2.
Proof.
  split. - vm_compute. repeat constructor; discriminate.
  - intros i Hi. simpl in Hi. do 7 (destruct i as [|i]; [vm_compute; reflexivity|]). lia.
Qed.
Example ex_transpose_idx : NoDup [(0, 1); (1, 0); (2, 2); (1, 2); (2, 1)] /\
  transpose_idx [(0, 1); (1, 0); (2, 2); (1, 2); (2, 1)] = Some [1; 0; 2; 4; 3] /\
  transpose_idx [(0, 1); (2, 2)] = None.
Proof.
  split; [|vm_compute; auto].
  repeat constructor; simpl; intros H; repeat (destruct H as [H|H]; [discriminate|]); auto.
Qed.
Definition ex_As : list (list (list Z)) := [[[0; 2; 0]; [3; 0; 1]; [0; 7; 0]]; [[2; 9; 0; 0]; [0; 2; 9; 0]; [0; 0; 2; 9]]].
Example ex_rect : Forall rect ex_As.
Proof. repeat constructor; simpl; lia. Qed.
Example ex_kron_rec : kron_rec ex_As 4 9 = 2 /\ kron_rec ex_As 4 0 = 0 /\
  kron_partial ex_As [4; 1] false = Some [((1, 5), 4); ((1, 6), 18); ((4, 1), 6); ((4, 2), 27); ((4, 9), 2); ((4, 10), 9)].
Proof. vm_compute. auto. Qed.

(* reorder_spec: its hypotheses hold for the three-level example and axes (2,0,1); the datum
   data[K] for K = (1,0,0) (position 2 of the layout, value 3) moves to the permuted digits *)
Example ex_reorder_hyps :
  Forall (@NoDup (Z * Z)) ex3_bidx /\ cvalid ex3_bidx [1; 0; 0]%nat /\
  Forall (fun a => (a < length ex3_bidx)%nat) [2; 0; 1]%nat /\
  (forall j, (j < length ex3_bidx)%nat -> In j [2; 0; 1]%nat).
Proof.
  split; [|split; [|split]].
  - repeat constructor; simpl; intros H; repeat (destruct H as [H|H]; [discriminate|]); auto.
  - simpl. lia.
  - repeat constructor.
  - intros j Hj. simpl in *. destruct j as [|[|[|j]]]; auto; lia.
Qed.
Example ex_reorder_instance :
  let sel := sel_of (0, 0) ex3_bidx [1; 0; 0]%nat in
  sel = [(0, 1); (1, 0); (0, 1)] /\ pos_of ex3_bidx [1; 0; 0]%nat = 2%nat /\
  entry_of ex3_bs sel = (1, 5) /\
  entry_of (reorder_bs ex3_bs [2; 0; 1]%nat) (pick (0, 0) sel [2; 0; 1]%nat) = (1, 6) /\
  dense_entry (reorder_asmatrix ex3_bs ex3_bidx [1; -2; 3; 2] [2; 0; 1]%nat) 1 6 = 3.
Proof. vm_compute. repeat split; reflexivity. Qed.

Example ex_kron_partial_restrict :
  kron_partial ex_As [4; 1; 4] true
  = Some [((0, 1), 6); ((0, 2), 27); ((0, 9), 2); ((0, 10), 9); ((1, 5), 4); ((1, 6), 18);
          ((2, 1), 6); ((2, 2), 27); ((2, 9), 2); ((2, 10), 9)].
Proof. vm_compute. reflexivity. Qed.
