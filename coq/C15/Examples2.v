(* C15 -- non-vacuity for Props2.v *)
From Coq Require Import ZArith List Bool Lia.
From Verif.C15 Require Import Model Spec Proofs Proofs3 Proofs4 Model2 Props2.
Import ListNotations.
Open Scope Z_scope.

Definition bs2 : list (Z * Z) := [(2, 3); (2, 2)].
Definition bidx2 : list pat := [[(0, 2); (1, 0); (1, 1)]; [(1, 0); (0, 1)]].
Definition data2 : list Z := [1; 2; 3; 4; 5; 6].

(* reorder: a position inside the permuted pattern is non-zero, one outside is zero *)
Example reorder_inside : dense_entry (reorder_asmatrix bs2 bidx2 data2 [1; 0]%nat) 2 2 = 1.
Proof. vm_compute. reflexivity. Qed.
Example reorder_outside_hyp : ~ In (0, 0) (kron_pattern (reorder_bs bs2 [1; 0]%nat) (reorder_bidx bidx2 [1; 0]%nat)).
Proof. vm_compute. intuition congruence. Qed.
Example reorder_outside : dense_entry (reorder_asmatrix bs2 bidx2 data2 [1; 0]%nat) 0 0 = 0.
Proof. apply reorder_zero_outside. exact reorder_outside_hyp. Qed.

(* kron_partial with a repeated row: the row is doubled *)
Definition As2 : list (list (list Z)) := [[[1; 2]; [0; 3]]; [[1; -1; 2]]].
Example kp_rect : Forall rect As2.
Proof. repeat constructor; simpl; lia. Qed.
Example kp_dup : exists ts, kron_partial As2 [1; 0; 1] false = Some ts /\
  dense_entry ts 1 3 = 2 * kron_rec As2 1 3 /\ kron_rec As2 1 3 = 3 /\ dense_entry ts 0 3 = 2.
Proof. eexists. split; [vm_compute; reflexivity|]. vm_compute. auto. Qed.

(* tensor generator on a rectangular structure: hypotheses hold, the answer is the layout position *)
Example tg_wf : wf_structure bs2 bidx2.
Proof. repeat constructor; simpl; lia. Qed.
Example tg_cvalid : cvalid bidx2 [1; 1]%nat.
Proof. simpl. lia. Qed.
Example tg_value : tensor_gen_index bs2 bidx2 [1; 1]%nat = (2, 1) /\
  nth (pos_of bidx2 [1; 1]%nat) (kron_pattern bs2 bidx2) (0, 0) = (2, 1) /\
  tensor_gen_index_as_written bs2 bidx2 [1; 1]%nat = (0, 5).
Proof. vm_compute. auto. Qed.
Example tg_all : tensor_gen_all bs2 bidx2 = kron_pattern bs2 bidx2.
Proof. vm_compute. reflexivity. Qed.
