(* C15 -- the mixed-radix index maps, the odometer, the Kronecker pattern and the queries on it
   (nonzero, rows/columns, transposition), matvec, asmatrix, histories. *)
From Coq Require Import ZArith List Bool Lia Arith.
From Verif.lib Require Import ListFacts.
From Verif.C15 Require Import Model Spec.
Import ListNotations.
Open Scope Z_scope.

(* generic list and arithmetic facts *)

Lemma flat_map_single : forall {A B : Type} (f : A -> B) (l : list A),
  flat_map (fun x => [f x]) l = map f l.
Proof. induction l; simpl; congruence. Qed.

Lemma filter_flat_map : forall {A B : Type} (p : B -> bool) (f : A -> list B) (l : list A),
  filter p (flat_map f l) = flat_map (fun x => filter p (f x)) l.
Proof. induction l; simpl; auto. rewrite filter_app, IHl. reflexivity. Qed.

Lemma filter_map_comm : forall {A B : Type} (p : B -> bool) (f : A -> B) (l : list A),
  filter p (map f l) = map f (filter (fun x => p (f x)) l).
Proof. induction l; simpl; auto. destruct (p (f a)); simpl; rewrite IHl; reflexivity. Qed.

Lemma combine_fst_snd : forall {A B : Type} (l : list (A * B)), combine (map fst l) (map snd l) = l.
Proof. induction l as [|[a b] l IH]; simpl; congruence. Qed.

Lemma map_snd_combine : forall {A B : Type} (a : list A) (b : list B), length a = length b ->
  map snd (combine a b) = b.
Proof. induction a; destruct b; simpl; intros; try discriminate; auto. f_equal. auto. Qed.

Lemma Forall2_nth_rel : forall {A B : Type} (R : A -> B -> Prop) l1 l2 d1 d2 a,
  Forall2 R l1 l2 -> (a < length l1)%nat -> R (nth a l1 d1) (nth a l2 d2).
Proof.
  intros A B R l1 l2 d1 d2 a H. revert a. induction H; intros a Ha; simpl in Ha; [lia|].
  destruct a; simpl; auto. apply IHForall2. lia.
Qed.

Lemma flat_map_uniform_length : forall {A B : Type} (g : A -> list B) (len : nat) (l : list A),
  (forall x, length (g x) = len) -> length (flat_map g l) = (length l * len)%nat.
Proof. induction l; intros H; simpl; auto. rewrite app_length, H, IHl; auto. Qed.

Lemma NoDup_flat_map_disjoint : forall {A B : Type} (f : A -> list B) (l : list A),
  NoDup l -> (forall x, In x l -> NoDup (f x)) ->
  (forall x y e, In x l -> In y l -> In e (f x) -> In e (f y) -> x = y) ->
  NoDup (flat_map f l).
Proof.
  induction l as [|a l IH]; intros ND Hf Ht; simpl; [constructor|].
  inversion ND; subst. apply NoDup_app_intro.
  - apply Hf. left; auto.
  - apply IH; auto. + intros; apply Hf; right; auto. + intros; eapply Ht; eauto; right; auto.
  - intros e He He'. apply in_flat_map in He'. destruct He' as (y & Hy & Hey).
    assert (a = y) by (eapply Ht; eauto; [left; auto|right; auto]). subst. contradiction.
Qed.

Lemma existsb_eqb_In : forall rows r, existsb (Z.eqb r) rows = true <-> In r rows.
Proof.
  intros. rewrite existsb_exists. split.
  - intros (x & Hx & E). apply Z.eqb_eq in E. subst; auto.
  - intros H. exists r. split; auto. apply Z.eqb_refl.
Qed.

(* one mixed-radix digit: j is the last digit of x * n + j in radix n *)
Lemma div_mod_digit : forall x n j, 0 <= j < n -> (x * n + j) / n = x /\ (x * n + j) mod n = j.
Proof.
  intros x n j Hj.
  split; symmetry; [apply (Z.div_unique_pos _ n x j)|apply (Z.mod_unique_pos _ n x j)]; lia.
Qed.

Lemma div_range : forall i m P, 0 < m -> 0 <= i < P * m -> 0 <= i / m < P.
Proof. intros. split; [apply Z.div_pos|apply Z.div_lt_upper_bound]; lia. Qed.

Lemma keep_false : forall l, filter (keep false) l = l.
Proof. induction l; simpl; congruence. Qed.

Lemma keep_true_lower : forall e, keep true e = lower e.
Proof. reflexivity. Qed.

Lemma to_seq_acc_shift : forall dims I acc, length I = length dims ->
  to_seq_acc acc I dims = acc * prodZ dims + to_seq_acc 0 I dims.
Proof.
  induction dims as [|m dims IH]; intros I acc Hl; destruct I as [|i I]; simpl in Hl; try lia.
  - simpl. lia.
  - cbn [to_seq_acc prodZ fold_right].
    rewrite (IH I (acc * m + i)) by lia. rewrite (IH I (0 * m + i)) by lia.
    fold (prodZ dims). ring.
Qed.

Lemma to_seq_cons : forall i I m dims, length I = length dims ->
  to_seq (i :: I) (m :: dims) = i * prodZ dims + to_seq I dims.
Proof.
  intros. unfold to_seq. simpl. rewrite to_seq_acc_shift by auto. ring.
Qed.

Lemma to_seq_nil : to_seq [] [] = 0.
Proof. reflexivity. Qed.

Lemma prodZ_pos : forall dims, dims_pos dims -> 0 < prodZ dims.
Proof. induction 1; simpl; lia. Qed.

Lemma valid_mi_length : forall I dims, valid_mi I dims -> length I = length dims.
Proof. apply Forall2_length. Qed.

Lemma to_seq_range : forall I dims, valid_mi I dims -> 0 <= to_seq I dims < prodZ dims.
Proof.
  induction 1 as [|i m I dims Him HF IH]; simpl.
  - unfold to_seq; simpl; lia.
  - rewrite to_seq_cons by (eapply valid_mi_length; eauto).
    change (prodZ (m :: dims)) with (m * prodZ dims). nia.
Qed.

(* snoc view: to_seq reads the digits left to right, from_seq produces them right to left *)
Lemma to_seq_snoc : forall I dims i m, length I = length dims ->
  to_seq (I ++ [i]) (dims ++ [m]) = to_seq I dims * m + i.
Proof.
  unfold to_seq. generalize 0. intros acc I. revert acc.
  induction I; destruct dims; simpl; intros; try discriminate; auto.
Qed.

Lemma from_seq_length : forall i dims, length (from_seq i dims) = length dims.
Proof.
  intros. unfold from_seq. rewrite rev_length, <- (rev_length dims).
  generalize (rev dims) i. induction l; simpl; auto.
Qed.

Lemma from_seq_snoc : forall i dims m,
  from_seq i (dims ++ [m]) = from_seq (i / m) dims ++ [i mod m].
Proof. intros. unfold from_seq. rewrite rev_app_distr. simpl. reflexivity. Qed.

Lemma prodZ_app : forall a b, prodZ (a ++ b) = prodZ a * prodZ b.
Proof.
  induction a as [|x a IH]; intros.
  - change (prodZ ([] ++ b)) with (prodZ b). change (prodZ []) with 1. ring.
  - change (prodZ ((x :: a) ++ b)) with (x * prodZ (a ++ b)).
    change (prodZ (x :: a)) with (x * prodZ a). rewrite IH. ring.
Qed.

Lemma dims_pos_app : forall a b, dims_pos (a ++ b) <-> dims_pos a /\ dims_pos b.
Proof. intros. unfold dims_pos. rewrite Forall_app. tauto. Qed.

Lemma from_seq_spec : forall dims i, dims_pos dims -> 0 <= i < prodZ dims ->
  valid_mi (from_seq i dims) dims /\ to_seq (from_seq i dims) dims = i.
Proof.
  induction dims as [|m dims IH] using rev_ind; intros i Hp Hi.
  - change (prodZ []) with 1 in Hi. split; [constructor|]. unfold to_seq, from_seq. simpl. lia.
  - apply dims_pos_app in Hp. destruct Hp as [Hp Hm]. inversion Hm as [|? ? Hm0 _]; subst.
    rewrite prodZ_app in Hi. change (prodZ [m]) with (m * 1) in Hi. rewrite Z.mul_1_r in Hi.
    destruct (IH (i / m) Hp (div_range _ _ _ Hm0 Hi)) as [V E].
    rewrite from_seq_snoc. split.
    + apply Forall2_app; auto. repeat constructor; apply Z.mod_pos_bound; lia.
    + rewrite to_seq_snoc, E by apply from_seq_length.
      rewrite Z.mul_comm. symmetry. apply Z.div_mod. lia.
Qed.

Lemma to_seq_from_seq : forall dims i, dims_pos dims -> 0 <= i < prodZ dims ->
  to_seq (from_seq i dims) dims = i.
Proof. apply from_seq_spec. Qed.

Lemma from_seq_valid : forall dims i, dims_pos dims -> 0 <= i < prodZ dims ->
  valid_mi (from_seq i dims) dims.
Proof. apply from_seq_spec. Qed.

Lemma from_seq_to_seq : forall dims I, valid_mi I dims -> from_seq (to_seq I dims) dims = I.
Proof.
  induction dims as [|m dims IH] using rev_ind; intros I HI.
  - inversion HI; subst. reflexivity.
  - apply Forall2_app_inv_r in HI. destruct HI as (I' & I2 & HI' & H2 & ->).
    inversion H2 as [|i ? ? ? Hi H3]; subst. inversion H3; subst.
    rewrite to_seq_snoc by (eapply valid_mi_length; eauto). rewrite from_seq_snoc.
    destruct (div_mod_digit (to_seq I' dims) m i Hi) as [-> ->]. rewrite IH; auto.
Qed.

(* head view, a consequence of the bijection *)
Lemma from_seq_cons : forall m dims r, dims_pos (m :: dims) -> 0 <= r < prodZ (m :: dims) ->
  from_seq r (m :: dims) = r / prodZ dims :: from_seq (r mod prodZ dims) dims.
Proof.
  intros m dims r Hp Hr. inversion Hp as [|? ? Hm Hd]; subst.
  pose proof (prodZ_pos dims Hd) as HP.
  change (prodZ (m :: dims)) with (m * prodZ dims) in Hr.
  destruct (from_seq_spec dims (r mod prodZ dims) Hd) as [V E]; [apply Z.mod_pos_bound; lia|].
  rewrite <- (from_seq_to_seq (m :: dims) (r / prodZ dims :: from_seq (r mod prodZ dims) dims)).
  - rewrite to_seq_cons, E by apply from_seq_length.
    rewrite Z.mul_comm, <- Z.div_mod by lia. reflexivity.
  - constructor; auto. apply div_range; lia.
Qed.

Lemma product_single : forall {A : Type} (l : list A), product [l] = map (fun x => [x]) l.
Proof. intros. apply (flat_map_single (fun x => [x])). Qed.

Lemma map_product_cons : forall {A B : Type} (f : list A -> B) (l : list A) (ls : list (list A)),
  map f (product (l :: ls)) = flat_map (fun x => map (fun sel => f (x :: sel)) (product ls)) l.
Proof.
  intros. cbn [product]. rewrite map_flat_map. apply flat_map_ext. intros x. apply map_map.
Qed.

Lemma product_length : forall {A : Type} (ls : list (list A)), length (product ls) = total_len ls.
Proof.
  induction ls as [|l ls IH]; simpl; auto.
  unfold total_len in *. simpl. rewrite <- IH. clear IH.
  induction l; simpl; auto. rewrite app_length, map_length, IHl. reflexivity.
Qed.

Lemma product_In : forall {A : Type} (ls : list (list A)) (sel : list A),
  In sel (product ls) <-> Forall2 (fun x l => In x l) sel ls.
Proof.
  induction ls as [|l ls IH]; intros sel; simpl.
  - split. + intros [<-|[]]. constructor. + intros H; inversion H; auto.
  - rewrite in_flat_map. split.
    + intros (x & Hx & Hs). apply in_map_iff in Hs. destruct Hs as (s' & <- & Hs').
      constructor; auto. apply IH; auto.
    + intros H. inversion H; subst. exists x. split; auto.
      apply in_map. apply IH; auto.
Qed.

Lemma product_NoDup : forall {B : Type} (ls : list (list B)),
  Forall (@NoDup B) ls -> NoDup (product ls).
Proof.
  induction 1 as [|l ls Hl HF IH]; simpl; [repeat constructor; intros []|].
  apply NoDup_flat_map_disjoint; auto.
  - intros x _. apply NoDup_map_inj_on; auto. intros a b _ _ E. inversion E; auto.
  - intros x y e _ _ Hx Hy. apply in_map_iff in Hx. apply in_map_iff in Hy.
    destruct Hx as (a & <- & _). destruct Hy as (b & E & _). inversion E; auto.
Qed.

Lemma product_map : forall {A B : Type} (f : A -> B) (ls : list (list A)),
  product (map (map f) ls) = map (map f) (product ls).
Proof.
  induction ls as [|l ls IH]; simpl; auto. rewrite IH. clear IH.
  induction l as [|a l IHl]; simpl; auto. rewrite map_app, IHl. f_equal.
  rewrite !map_map. reflexivity.
Qed.

Fixpoint all2 {A : Type} (ps : list (A -> bool)) (sel : list A) : bool :=
  match ps, sel with
  | p :: ps', x :: sel' => p x && all2 ps' sel'
  | _, _ => true
  end.

Lemma product_filter : forall {A : Type} (ls : list (list A)) (ps : list (A -> bool)),
  length ps = length ls ->
  product (map (fun pl => filter (fst pl) (snd pl)) (combine ps ls)) = filter (all2 ps) (product ls).
Proof.
  induction ls as [|l ls IH]; intros ps Hl; destruct ps as [|p ps]; simpl in Hl; try discriminate.
  - reflexivity.
  - cbn [combine map product fst snd]. rewrite IH by lia. rewrite filter_flat_map.
    clear IH.
    assert (E : forall (L : list (list A)), filter (fun _ => false) L = []) by (induction L; auto).
    induction l as [|a l IHl]; [reflexivity|].
    cbn [filter flat_map]. rewrite filter_map_comm. cbn [all2].
    destruct (p a) eqn:Epa; cbn [flat_map andb].
    + rewrite IHl. reflexivity.
    + rewrite IHl, E. reflexivity.
Qed.

Lemma ml_nonzero_2d_kron : forall b1 b2 m1 n1 m2 n2 lt,
  ml_nonzero_2d b1 b2 [(m1, n1); (m2, n2)] lt
  = filter (keep lt) (kron_pattern [(m1, n1); (m2, n2)] [b1; b2]).
Proof.
  intros. unfold ml_nonzero_2d, nz2, kron_pattern, pat. cbn [nth]. f_equal.
  rewrite map_product_cons. apply flat_map_ext. intros x.
  rewrite product_single, map_map. reflexivity.
Qed.

Lemma ml_nonzero_3d_kron : forall b1 b2 b3 m1 n1 m2 n2 m3 n3 lt,
  ml_nonzero_3d b1 b2 b3 [(m1, n1); (m2, n2); (m3, n3)] lt
  = filter (keep lt) (kron_pattern [(m1, n1); (m2, n2); (m3, n3)] [b1; b2; b3]).
Proof.
  intros. unfold ml_nonzero_3d, nz3, kron_pattern, pat. cbn [nth]. f_equal.
  rewrite map_product_cons. apply flat_map_ext. intros x.
  rewrite map_product_cons. apply flat_map_ext. intros y.
  rewrite product_single, map_map. reflexivity.
Qed.

(* the odometer enumerates the Cartesian product in lexicographic order *)
Section Odometer.
Context {A : Type} (d : A).

(* counters only: the successor of a counter vector, with the overflow flag *)
Fixpoint succ (ls : list (list A)) (cs : list nat) : bool * list nat :=
  match ls, cs with
  | l :: ls', c :: cs' =>
      let (carry, cs'') := succ ls' cs' in
      if carry then
        if Nat.ltb (S c) (length l) then (false, S c :: cs'') else (true, O :: cs'')
      else (false, c :: cs'')
  | _, _ => (true, [])
  end.

Fixpoint state (ls : list (list A)) (cs : list nat) : list (nat * A) :=
  match ls, cs with
  | l :: ls', c :: cs' => (c, nth c l d) :: state ls' cs'
  | _, _ => []
  end.

Definition zeros_of (ls : list (list A)) : list nat := map (fun _ => O) ls.

Fixpoint cvalid (ls : list (list A)) (cs : list nat) : Prop :=
  match ls, cs with
  | [], [] => True
  | l :: ls', c :: cs' => (c < length l)%nat /\ cvalid ls' cs'
  | _, _ => False
  end.

(* what remains to be enumerated from counter vector cs (inclusive) *)
Fixpoint suffix (ls : list (list A)) (cs : list nat) : list (list A) :=
  match ls, cs with
  | l :: ls', c :: cs' =>
      map (cons (nth c l d)) (suffix ls' cs')
      ++ flat_map (fun x => map (cons x) (product ls')) (skipn (S c) l)
  | _, _ => [[]]
  end.

Lemma suffix_cons : forall l ls c cs,
  suffix (l :: ls) (c :: cs) =
  map (cons (nth c l d)) (suffix ls cs)
  ++ flat_map (fun x => map (cons x) (product ls)) (skipn (S c) l).
Proof. reflexivity. Qed.

Lemma state_init : forall ls, state ls (zeros_of ls) = odo_init d ls.
Proof. induction ls; simpl; auto. rewrite IHls. reflexivity. Qed.

Lemma odo_incr_state : forall ls cs, length cs = length ls ->
  odo_incr d ls (state ls cs) = (fst (succ ls cs), state ls (snd (succ ls cs))).
Proof.
  induction ls as [|l ls IH]; intros cs Hl; destruct cs as [|c cs]; simpl in *; try discriminate; auto.
  rewrite IH by lia. destruct (succ ls cs) as [carry cs'']. simpl.
  destruct carry; auto. destruct (Nat.ltb (S c) (length l)); reflexivity.
Qed.

Lemma succ_length : forall ls cs, length cs = length ls -> length (snd (succ ls cs)) = length ls.
Proof.
  induction ls as [|l ls IH]; intros cs Hl; destruct cs as [|c cs]; simpl in *; try discriminate; auto.
  specialize (IH cs ltac:(lia)). destruct (succ ls cs) as [carry cs'']. simpl in *.
  destruct carry; [destruct (Nat.ltb (S c) (length l))|]; simpl; lia.
Qed.

Lemma cvalid_length : forall ls cs, cvalid ls cs -> length cs = length ls.
Proof.
  induction ls; destruct cs; simpl; intros; try tauto. destruct H. f_equal. auto.
Qed.

Lemma suffix_zeros : forall ls, cvalid ls (zeros_of ls) -> suffix ls (zeros_of ls) = product ls.
Proof.
  induction ls as [|l ls IH]; simpl; intros H; auto. destruct H as [Hl H].
  rewrite IH by auto. destruct l as [|a l]; [simpl in Hl; lia|]. reflexivity.
Qed.

(* one step: the head of the remaining enumeration is the current selection, the
   rest is the enumeration from the successor; on overflow nothing remains *)
Lemma suffix_step : forall ls cs, cvalid ls cs ->
  let r := succ ls cs in
  suffix ls cs = map snd (state ls cs) :: (if fst r then [] else suffix ls (snd r))
  /\ (fst r = true -> snd r = zeros_of ls)
  /\ cvalid ls (snd r).
Proof.
  induction ls as [|l ls IH]; intros cs Hv; destruct cs as [|c cs]; simpl in Hv; try tauto.
  - simpl. auto.
  - destruct Hv as [Hc Hv]. specialize (IH cs Hv). cbv zeta in IH.
    destruct IH as (IH1 & IH2 & IH3).
    cbv zeta. rewrite suffix_cons. cbn [succ state map snd fst zeros_of cvalid].
    destruct (succ ls cs) as [carry cs''] eqn:E. cbn [fst snd] in *.
    destruct carry.
    + specialize (IH2 eq_refl). subst cs''.
      destruct (Nat.ltb (S c) (length l)) eqn:Hlt; cbn [fst snd].
      * apply Nat.ltb_lt in Hlt. split; [|split; [discriminate|split; auto]].
        rewrite IH1. rewrite suffix_cons.
        rewrite (skipn_cons_nth d l (S c)) by lia.
        rewrite suffix_zeros by auto. reflexivity.
      * apply Nat.ltb_ge in Hlt. split; [|split; [reflexivity|split; [lia|auto]]].
        rewrite IH1. rewrite skipn_all2 by lia. reflexivity.
    + cbn [fst snd]. split; [|split; [discriminate|split; auto]].
      rewrite IH1. rewrite suffix_cons. reflexivity.
Qed.

Lemma odo_loop_suffix : forall ls fuel cs, cvalid ls cs ->
  (length (suffix ls cs) <= fuel)%nat ->
  odo_loop d ls fuel (state ls cs) = suffix ls cs.
Proof.
  induction fuel as [|f IH]; intros cs Hv Hf;
    destruct (suffix_step ls cs Hv) as (E & Hz & Hv'); rewrite E in Hf |- *; simpl in Hf.
  - lia.
  - simpl. rewrite odo_incr_state by (apply cvalid_length; auto). f_equal.
    destruct (fst (succ ls cs)); auto.
    apply IH; auto. lia.
Qed.

Lemma zeros_valid_or_empty : forall ls : list (list A),
  cvalid ls (zeros_of ls) \/ total_len ls = O.
Proof.
  induction ls as [|l ls IH]; simpl; auto.
  destruct IH as [IH|IH].
  - destruct l as [|a l]; [right; reflexivity|]. left. split; auto. simpl. lia.
  - right. unfold total_len in *. simpl. rewrite IH. lia.
Qed.

Lemma odo_enum_product : forall ls : list (list A), odo_enum d ls = product ls.
Proof.
  intros ls. unfold odo_enum. destruct (zeros_valid_or_empty ls) as [Hv|He].
  - rewrite <- state_init. rewrite odo_loop_suffix; auto.
    + apply suffix_zeros; auto.
    + rewrite suffix_zeros by auto. rewrite product_length. lia.
  - rewrite He. simpl. pose proof (product_length ls) as Hp. rewrite He in Hp.
    destruct (product ls); [reflexivity|discriminate].
Qed.
End Odometer.

Lemma ml_nonzero_nd_kron : forall bidx bs lt,
  ml_nonzero_nd bidx bs lt = filter (keep lt) (kron_pattern bs bidx).
Proof. intros. unfold ml_nonzero_nd, kron_pattern. rewrite odo_enum_product. reflexivity. Qed.

Lemma kron_pattern_1 : forall m n b, kron_pattern [(m, n)] [b] = b.
Proof.
  intros. unfold kron_pattern, pat. rewrite product_single, map_map. rewrite <- (map_id b) at 2.
  apply map_ext. intros [i j]. reflexivity.
Qed.

Lemma nonzero_kron : forall bs bidx lt, length bs = length bidx ->
  nonzero bs bidx lt = Some (filter (keep lt) (kron_pattern bs bidx)).
Proof.
  intros bs bidx lt Hl.
  destruct bidx as [|b1 [|b2 [|b3 [|b4 rest]]]]; simpl in Hl.
  - unfold nonzero. rewrite ml_nonzero_nd_kron. reflexivity.
  - destruct bs as [|[m n] [|? ?]]; try discriminate. unfold nonzero.
    rewrite kron_pattern_1. reflexivity.
  - destruct bs as [|[m1 n1] [|[m2 n2] [|? ?]]]; try discriminate. unfold nonzero.
    rewrite ml_nonzero_2d_kron. reflexivity.
  - destruct bs as [|[m1 n1] [|[m2 n2] [|[m3 n3] [|? ?]]]]; try discriminate. unfold nonzero.
    rewrite ml_nonzero_3d_kron. reflexivity.
  - unfold nonzero. rewrite ml_nonzero_nd_kron. reflexivity.
Qed.

Lemma sel_valid : forall bidx bs sel, wf_structure bs bidx ->
  Forall2 (fun x l => In x l) sel bidx ->
  valid_mi (map fst sel) (rowdims bs) /\ valid_mi (map snd sel) (coldims bs).
Proof.
  intros bidx bs sel Hwf. revert sel. unfold wf_structure in Hwf.
  induction Hwf as [|b mn bidx bs Hb Hwf IH]; intros sel Hs; inversion Hs as [|x b' sel' l' Hx Hs']; subst; simpl.
  - split; constructor.
  - destruct (IH _ Hs') as [IH1 IH2]. unfold pat_in_block in Hb.
    rewrite Forall_forall in Hb. specialize (Hb _ Hx).
    split; constructor; auto; tauto.
Qed.

Lemma kron_pattern_mem : forall bs bidx I J,
  wf_structure bs bidx -> dims_pos (rowdims bs) -> dims_pos (coldims bs) ->
  (In (I, J) (kron_pattern bs bidx) <-> kron_nonzero bs bidx I J).
Proof.
  intros bs bidx I J Hwf Hr Hc. unfold kron_pattern, kron_nonzero, shape. simpl fst. simpl snd.
  rewrite in_map_iff. split.
  - intros (sel & He & Hs). apply product_In in Hs.
    destruct (sel_valid _ _ _ Hwf Hs) as [V1 V2].
    unfold entry_of in He. inversion He; subst I J.
    split; [apply to_seq_range; auto|]. split; [apply to_seq_range; auto|].
    rewrite !from_seq_to_seq by auto. rewrite combine_fst_snd. auto.
  - intros (HI & HJ & HF).
    exists (combine (from_seq I (rowdims bs)) (from_seq J (coldims bs))). split.
    + unfold entry_of.
      assert (length (from_seq I (rowdims bs)) = length (from_seq J (coldims bs))).
      { rewrite !from_seq_length. unfold rowdims, coldims. rewrite !map_length. auto. }
      rewrite map_fst_combine, map_snd_combine by auto.
      rewrite !to_seq_from_seq by auto. reflexivity.
    + apply product_In. auto.
Qed.

Lemma kron_pattern_NoDup : forall bs bidx, wf_structure bs bidx -> Forall (@NoDup (Z * Z)) bidx ->
  NoDup (kron_pattern bs bidx).
Proof.
  intros bs bidx Hwf HN. unfold kron_pattern. apply NoDup_map_inj_on; [|apply product_NoDup; auto].
  intros s1 s2 H1 H2 E. apply product_In in H1. apply product_In in H2.
  destruct (sel_valid _ _ _ Hwf H1) as [A1 B1]. destruct (sel_valid _ _ _ Hwf H2) as [A2 B2].
  unfold entry_of in E. inversion E as [[E1 E2]].
  assert (F1 : map fst s1 = map fst s2).
  { rewrite <- (from_seq_to_seq _ _ A1), <- (from_seq_to_seq _ _ A2). congruence. }
  assert (F2 : map snd s1 = map snd s2).
  { rewrite <- (from_seq_to_seq _ _ B1), <- (from_seq_to_seq _ _ B2). congruence. }
  rewrite <- (combine_fst_snd s1), <- (combine_fst_snd s2). congruence.
Qed.

Lemma swap_swap : forall e, swap (swap e) = e.
Proof. intros [a b]. reflexivity. Qed.

Lemma rowdims_transpose : forall bs, rowdims (transpose_bs bs) = coldims bs.
Proof. intros. unfold rowdims, coldims, transpose_bs. rewrite map_map. reflexivity. Qed.
Lemma coldims_transpose : forall bs, coldims (transpose_bs bs) = rowdims bs.
Proof. intros. unfold rowdims, coldims, transpose_bs. rewrite map_map. reflexivity. Qed.

Lemma wf_transpose : forall bs bidx, wf_structure bs bidx ->
  wf_structure (transpose_bs bs) (transpose_bidx bidx).
Proof.
  unfold wf_structure, transpose_bs, transpose_bidx.
  induction 1 as [|b mn bidx bs Hb _ IH]; simpl; constructor; auto.
  unfold pat_in_block in *. rewrite Forall_forall in *. intros e He.
  apply in_map_iff in He. destruct He as (e' & <- & He'). specialize (Hb _ He').
  destruct mn; simpl in *. tauto.
Qed.

Lemma shape_transpose : forall bs, shape (transpose_bs bs) = swap (shape bs).
Proof. intros. unfold shape, swap. rewrite rowdims_transpose, coldims_transpose. reflexivity. Qed.

Definition row_preds (ix : list Z) : list (Z * Z -> bool) := map (fun r e => fst e =? r) ix.

Lemma inter_as_filter : forall (bidx : list pat) (ix : list Z),
  map (fun bx => level_row_inter (fst bx) (snd bx)) (combine bidx ix)
  = map (map snd) (map (fun pl => filter (fst pl) (snd pl)) (combine (row_preds ix) bidx)).
Proof.
  induction bidx as [|b bidx IH]; intros ix; destruct ix as [|r ix]; simpl; auto.
  rewrite IH. reflexivity.
Qed.

Lemma all2_row_preds : forall ix sel, length sel = length ix ->
  (all2 (row_preds ix) sel = true <-> map fst sel = ix).
Proof.
  induction ix as [|r ix IH]; intros sel Hl; destruct sel as [|e sel]; simpl in *; try discriminate.
  - tauto.
  - rewrite andb_true_iff, Z.eqb_eq, IH by lia. split.
    + intros [-> ->]. reflexivity.
    + intros H. inversion H. auto.
Qed.

Lemma rows_J_spec : forall bs bidx r,
  wf_structure bs bidx -> dims_pos (rowdims bs) -> 0 <= r < fst (shape bs) ->
  rows_J bs bidx r = map snd (filter (fun e => fst e =? r) (kron_pattern bs bidx)).
Proof.
  intros bs bidx r Hwf Hp Hr. unfold rows_J, raveled_cartesian_product, kron_pattern.
  rewrite odo_enum_product. rewrite inter_as_filter, product_map.
  assert (Hlen : length bidx = length bs) by (eapply Forall2_length; eauto).
  rewrite (@product_filter (Z * Z) bidx).
  2:{ unfold row_preds. rewrite map_length, from_seq_length. unfold rowdims. rewrite map_length. symmetry. exact Hlen. }
  rewrite filter_map_comm, !map_map.
  rewrite (filter_ext_in (all2 (row_preds (from_seq r (rowdims bs))))
                         (fun sel => fst (entry_of bs sel) =? r)).
  - reflexivity.
  - intros sel Hs. apply product_In in Hs.
    destruct (sel_valid _ _ _ Hwf Hs) as [V1 _].
    assert (Hl : length sel = length (from_seq r (rowdims bs))).
    { rewrite from_seq_length. apply valid_mi_length in V1. rewrite map_length in V1. auto. }
    unfold entry_of. simpl fst.
    destruct (all2 (row_preds (from_seq r (rowdims bs))) sel) eqn:E.
    + apply all2_row_preds in E; auto. rewrite E.
      symmetry. apply Z.eqb_eq. apply to_seq_from_seq; auto.
    + symmetry. apply Z.eqb_neq. intros Heq.
      assert (Hfst : map fst sel = from_seq r (rowdims bs)).
      { rewrite <- Heq. symmetry. apply from_seq_to_seq; auto. }
      apply all2_row_preds in Hfst; auto. congruence.
Qed.

Lemma map_pair_filter_row : forall r (L : list (Z * Z)),
  map (fun c => (r, c)) (map snd (filter (fun e => fst e =? r) L)) = filter (fun e => fst e =? r) L.
Proof.
  induction L as [|[a b] L IH]; simpl; auto.
  destruct (a =? r) eqn:E; simpl; auto. apply Z.eqb_eq in E. subst. rewrite IH. reflexivity.
Qed.

Lemma rows_loop_spec : forall bs bidx rows k,
  wf_structure bs bidx -> dims_pos (rowdims bs) ->
  Forall (fun r => 0 <= r < fst (shape bs)) rows ->
  map (fun t => (fst (fst t), snd (fst t))) (rows_loop bs bidx k rows)
  = flat_map (fun r => filter (fun e => fst e =? r) (kron_pattern bs bidx)) rows.
Proof.
  intros bs bidx rows k Hwf Hp HF. revert k. induction HF as [|r rows Hr HF IH]; intros k; simpl; auto.
  rewrite map_app, IH, map_map. simpl. f_equal.
  rewrite rows_J_spec by auto. apply map_pair_filter_row.
Qed.

Lemma in_range_spec : forall n r, in_range n r = true <-> 0 <= r < n.
Proof. intros. unfold in_range. rewrite andb_true_iff, Z.leb_le, Z.ltb_lt. tauto. Qed.

(* np.unravel_index refuses a row outside the matrix; otherwise the loop runs *)
Lemma nonzeros_for_rows_Some : forall bs bidx rows l,
  nonzeros_for_rows bs bidx rows = Some l <->
  Forall (fun r => 0 <= r < fst (shape bs)) rows /\ l = rows_loop bs bidx 0 rows.
Proof.
  intros. unfold nonzeros_for_rows.
  assert (E : forallb (in_range (fst (shape bs))) rows = true <->
              Forall (fun r => 0 <= r < fst (shape bs)) rows).
  { rewrite forallb_forall, Forall_forall. split; intros H r Hr; apply in_range_spec; auto. }
  destruct (forallb _ rows); split.
  - intros [= <-]. split; [apply E|]; auto.
  - intros [_ ->]. reflexivity.
  - discriminate.
  - intros [H _]. apply E in H. discriminate.
Qed.

(* row c of the transposed pattern, mirrored back, is column c of the pattern *)
Lemma filter_row_swap : forall c L,
  map swap (filter (fun e => fst e =? c) (map swap L)) = filter (fun e => snd e =? c) L.
Proof.
  intros. rewrite filter_map_comm, map_map.
  rewrite (map_ext _ (fun x => x)) by (intros [a b]; reflexivity). apply map_id.
Qed.

Lemma add_at_spec : forall y I dd, (I < length y)%nat ->
  exists y', add_at y I dd = Some y' /\ length y' = length y /\
    forall k, nth k y' 0 = nth k y 0 + (if Nat.eqb k I then dd else 0).
Proof.
  induction y as [|a y IH]; intros I dd HI; simpl in HI; [lia|].
  destruct I as [|I].
  - simpl. eexists; split; [reflexivity|]. split; auto.
    intros [|k]; simpl; lia.
  - destruct (IH I dd ltac:(lia)) as (y' & E & L & N). simpl. rewrite E.
    eexists; split; [reflexivity|]. split; [simpl; lia|].
    intros [|k]; simpl; [lia|]. apply N.
Qed.

Lemma sum_upto_add : forall n f g, sum_upto n (fun c => f c + g c) = sum_upto n f + sum_upto n g.
Proof. induction n; simpl; intros; auto. rewrite IHn. ring. Qed.

Lemma sum_upto_zero : forall n, sum_upto n (fun _ => 0) = 0.
Proof. induction n; simpl; lia. Qed.

Lemma sum_upto_ext : forall n f g, (forall c, 0 <= c < Z.of_nat n -> f c = g c) -> sum_upto n f = sum_upto n g.
Proof.
  induction n; simpl; intros; auto. rewrite (IHn f g), H; auto; try lia.
  intros; apply H; lia.
Qed.

Lemma sum_upto_delta : forall n j g,
  sum_upto n (fun c => if j =? c then g c else 0)
  = if (0 <=? j) && (j <? Z.of_nat n) then g j else 0.
Proof.
  induction n as [|n IH]; intros j g.
  - simpl. destruct (0 <=? j) eqn:A, (j <? 0) eqn:B; simpl; auto. lia.
  - cbn [sum_upto]. rewrite IH.
    destruct (Z.eqb_spec j (Z.of_nat n)), (Z.leb_spec 0 j), (Z.ltb_spec j (Z.of_nat n)),
      (Z.ltb_spec j (Z.of_nat (S n))); cbn [andb]; subst; lia.
Qed.

(* one more triple adds its contribution to its row *)
Lemma dense_matvec_cons : forall i j v ts N x r, 0 <= j < Z.of_nat N ->
  dense_matvec (((i, j), v) :: ts) N x r
  = (if i =? r then v * nth (Z.to_nat j) x 0 else 0) + dense_matvec ts N x r.
Proof.
  intros i j v ts N x r Hj. unfold dense_matvec. cbn [dense_entry].
  rewrite (sum_upto_ext N _ (fun c => (if j =? c then (if i =? r then v * nth (Z.to_nat c) x 0 else 0) else 0)
                                     + dense_entry ts r c * nth (Z.to_nat c) x 0)).
  2:{ intros c Hc. destruct (i =? r), (j =? c); simpl; ring. }
  rewrite sum_upto_add, sum_upto_delta.
  replace ((0 <=? j) && (j <? Z.of_nat N)) with true; [reflexivity|].
  symmetry. apply andb_true_iff. rewrite Z.leb_le, Z.ltb_lt. lia.
Qed.

(* the loop `y[I] += X * x[J]` adds the dense product row by row *)
Lemma matvec_loop_spec : forall ts x y N,
  (forall r c v, In ((r, c), v) ts -> 0 <= r < Z.of_nat (length y) /\ 0 <= c < Z.of_nat N) ->
  exists y', matvec_loop ts x y = Some y' /\ length y' = length y /\
    forall k, nth k y' 0 = nth k y 0 + dense_matvec ts N x (Z.of_nat k).
Proof.
  induction ts as [|[[i j] v] ts IH]; intros x y N H.
  - exists y. split; auto. split; auto. intros.
    unfold dense_matvec. simpl. rewrite sum_upto_zero. lia.
  - destruct (H i j v (or_introl eq_refl)) as [Hi Hj].
    destruct (add_at_spec y (Z.to_nat i) (v * nth (Z.to_nat j) x 0) ltac:(lia)) as (y1 & E1 & L1 & N1).
    destruct (IH x y1 N) as (y' & E & L & N').
    { intros r c w Hin. rewrite L1. apply (H r c w). right. auto. }
    simpl. rewrite E1. exists y'. split; auto. split; [lia|].
    intros k. rewrite N', N1, dense_matvec_cons by auto.
    replace (Nat.eqb k (Z.to_nat i)) with (i =? Z.of_nat k); [lia|].
    destruct (Z.eqb_spec i (Z.of_nat k)); symmetry.
    + apply Nat.eqb_eq. lia.
    + apply Nat.eqb_neq. lia.
Qed.

Lemma kron_pattern_range : forall bs bidx e, wf_structure bs bidx ->
  In e (kron_pattern bs bidx) -> 0 <= fst e < fst (shape bs) /\ 0 <= snd e < snd (shape bs).
Proof.
  intros bs bidx e Hwf He. unfold kron_pattern in He. apply in_map_iff in He.
  destruct He as (sel & <- & Hs). apply product_In in Hs.
  destruct (sel_valid _ _ _ Hwf Hs) as [V1 V2]. unfold entry_of, shape. simpl.
  split; apply to_seq_range; auto.
Qed.

Lemma nth_zeros : forall n k, nth k (zeros n) 0 = 0.
Proof. intros. unfold zeros. generalize (Z.to_nat n). intros m. revert k. induction m; destruct k; simpl; auto. Qed.

Lemma triples_spec : forall bs bidx data, length bs = length bidx ->
  triples bs bidx data = combine (kron_pattern bs bidx) data.
Proof. intros bs bidx data Hl. unfold triples. rewrite (nonzero_kron bs bidx false Hl), keep_false. reflexivity. Qed.

(* the loop started on M zeros, for triples inside an M x N matrix: no write out of range,
   M outputs, the dense product *)
Lemma matvec_loop_zeros : forall ts x M N, 0 <= M ->
  (forall i j v, In ((i, j), v) ts -> 0 <= i < M /\ 0 <= j < Z.of_nat N) ->
  exists y, matvec_loop ts x (zeros M) = Some y /\ Z.of_nat (length y) = M /\
    forall r, 0 <= r < M -> nth (Z.to_nat r) y 0 = dense_matvec ts N x r.
Proof.
  intros ts x M N HM Hts.
  assert (Hz : length (zeros M) = Z.to_nat M) by apply repeat_length.
  destruct (matvec_loop_spec ts x (zeros M) N) as (y & E & L & Ny).
  { intros r c v Hin. rewrite Hz, Z2Nat.id by lia. apply (Hts _ _ _ Hin). }
  exists y. split; auto. split; [lia|].
  intros r Hr. rewrite Ny, nth_zeros, Z2Nat.id by lia. apply Z.add_0_l.
Qed.

Lemma rfm_zip3 : forall bs I J ii jj,
  valid_mi I (rowdims bs) -> valid_mi J (coldims bs) ->
  rfm_acc ii jj (zip3 I J bs) bs = (to_seq_acc ii I (rowdims bs), to_seq_acc jj J (coldims bs)).
Proof.
  induction bs as [|[m n] bs IH]; intros I J ii jj HI HJ; inversion HI; inversion HJ; subst; simpl.
  - reflexivity.
  - unfold to_seq. simpl. replace ((0 * m + x) * n + x0) with (x * n + x0) by ring.
    destruct (div_mod_digit x n x0) as [-> ->]; auto.
Qed.

Lemma reindex_from_multilevel_zip3 : forall bs I J,
  valid_mi I (rowdims bs) -> valid_mi J (coldims bs) ->
  reindex_from_multilevel (zip3 I J bs) bs = (to_seq I (rowdims bs), to_seq J (coldims bs)).
Proof. intros. apply rfm_zip3; auto. Qed.

(* a valid multilevel index: component k addresses an entry of the m_k x n_k block *)
Definition valid_ml (M : list Z) (bs : list (Z * Z)) : Prop :=
  Forall2 (fun mk mn => 0 <= mk < fst mn * snd mn /\ 0 < snd mn) M bs.

Fixpoint quots (M : list Z) (bs : list (Z * Z)) : list Z :=
  match M, bs with mk :: M', (m, n) :: bs' => mk / n :: quots M' bs' | _, _ => [] end.
Fixpoint rems (M : list Z) (bs : list (Z * Z)) : list Z :=
  match M, bs with mk :: M', (m, n) :: bs' => mk mod n :: rems M' bs' | _, _ => [] end.

Lemma rfm_as_to_seq : forall bs M ii jj, length M = length bs ->
  rfm_acc ii jj M bs = (to_seq_acc ii (quots M bs) (rowdims bs), to_seq_acc jj (rems M bs) (coldims bs)).
Proof.
  induction bs as [|[m n] bs IH]; intros M ii jj Hl; destruct M as [|mk M]; simpl in *; try discriminate; auto.
Qed.

Lemma reindex_from_multilevel_digits : forall bs M, length M = length bs ->
  reindex_from_multilevel M bs = (to_seq (quots M bs) (rowdims bs), to_seq (rems M bs) (coldims bs)).
Proof. intros. apply rfm_as_to_seq; auto. Qed.

Lemma quots_rems_valid : forall M bs, valid_ml M bs ->
  valid_mi (quots M bs) (rowdims bs) /\ valid_mi (rems M bs) (coldims bs) /\ zip3 (quots M bs) (rems M bs) bs = M.
Proof.
  induction 1 as [|mk [m n] M bs [Hk Hn] HF IH]; simpl in *.
  - repeat split; constructor.
  - destruct IH as (IH1 & IH2 & IH3). repeat split.
    + constructor; auto. apply div_range; lia.
    + constructor; auto. apply Z.mod_pos_bound; lia.
    + rewrite IH3. f_equal. unfold to_seq; simpl.
      pose proof (Z.div_mod mk n ltac:(lia)). lia.
Qed.

(* a support of positive length: the hypothesis on the arrays handed to compute_sparsity_ij *)
Definition nonempty_supp (s : Z * Z) : Prop := fst s < snd s.

Lemma key_eqb_eq : forall a b, key_eqb a b = true <-> a = b.
Proof.
  intros [a1 a2] [b1 b2]. unfold key_eqb. simpl. rewrite andb_true_iff, !Z.eqb_eq.
  split. intros [-> ->]; auto. intros H; inversion H; auto.
Qed.

Definition delta (k : Z * Z) (r c : Z) (v : Z) : Z := if (fst k =? r) && (snd k =? c) then v else 0.

Lemma dense_entry_cons : forall k v l r c, dense_entry ((k, v) :: l) r c = delta k r c v + dense_entry l r c.
Proof. intros [i j] v l r c. reflexivity. Qed.

Lemma dense_entry_ins : forall l k v r c, dense_entry (ins k v l) r c = delta k r c v + dense_entry l r c.
Proof.
  induction l as [|[k' v'] l IH]; intros k v r c.
  - destruct k; reflexivity.
  - cbn [ins]. destruct (key_eqb k k') eqn:E.
    + apply key_eqb_eq in E. subst k'. rewrite !dense_entry_cons. unfold delta.
      destruct ((fst k =? r) && (snd k =? c)); lia.
    + destruct (key_ltb k k').
      * rewrite !dense_entry_cons. reflexivity.
      * rewrite !dense_entry_cons, IH. lia.
Qed.

Lemma dense_entry_fold : forall ts acc r c,
  dense_entry (fold_left (fun acc t => ins (fst t) (snd t) acc) ts acc) r c
  = dense_entry ts r c + dense_entry acc r c.
Proof.
  induction ts as [|[k v] ts IH]; intros acc r c.
  - simpl. lia.
  - cbn [fold_left fst snd]. rewrite IH, dense_entry_ins, dense_entry_cons. lia.
Qed.

Lemma dense_entry_drop_zeros : forall l r c,
  dense_entry (filter (fun t => negb (snd t =? 0)) l) r c = dense_entry l r c.
Proof.
  induction l as [|[k v] l IH]; intros r c; [reflexivity|].
  cbn [filter snd]. destruct (Z.eqb_spec v 0); cbn [negb].
  - subst v. rewrite IH, dense_entry_cons. unfold delta. destruct (_ && _); lia.
  - rewrite !dense_entry_cons, IH. reflexivity.
Qed.

Lemma canon_dense : forall ts r c, dense_entry (canon ts) r c = dense_entry ts r c.
Proof.
  intros. unfold canon. rewrite dense_entry_drop_zeros, dense_entry_fold. simpl. lia.
Qed.

Lemma asmatrix_dense : forall bs bidx data r c, length bs = length bidx ->
  dense_entry (asmatrix bs bidx data) r c = dense_entry (combine (kron_pattern bs bidx) data) r c.
Proof.
  intros. unfold asmatrix. rewrite canon_dense, triples_spec by auto. reflexivity.
Qed.

(* histories on one object: the state after any history is determined by the last accepted
   assignment; queries never change it *)
Lemma hist_queries : forall bs bidx data ops,
  Forall (fun op => op = OpQuery) ops -> hist_run bs bidx data ops = data.
Proof.
  intros bs bidx data ops H. unfold hist_run. revert data.
  induction H as [|op ops Hop HF IH]; intros data; simpl; auto. subst op. simpl. apply IH.
Qed.

Lemma hist_run_app : forall bs bidx data a b,
  hist_run bs bidx data (a ++ b) = hist_run bs bidx (hist_run bs bidx data a) b.
Proof. intros. unfold hist_run. apply fold_left_app. Qed.
