(* C15 -- compute_sparsity_ij on monotone support arrays; the supports of a knot vector
   are monotone; get_transpose_idx_for_bidx is the mirror involution. *)
From Coq Require Import ZArith List Lia Sorted.
From Verif.lib Require Import ListFacts.
From Verif.C15 Require Import Model Spec Proofs.
Import ListNotations.
Open Scope Z_scope.

Lemma do_intersect_overlap : forall a b, do_intersect a b = true <-> overlap a b.
Proof. intros. unfold do_intersect, overlap. rewrite Z.gtb_lt. tauto. Qed.

Lemma while_sound : forall s2 i rest j a b,
  In (a, b) (while_intersect s2 i j rest) ->
  a = i /\ exists k s1, b = j + Z.of_nat k /\ nth_error rest k = Some s1 /\ do_intersect s2 s1 = true.
Proof.
  induction rest as [|s rest IH]; intros j a b H; simpl in H; [tauto|].
  destruct (do_intersect s2 s) eqn:E; [|destruct H].
  destruct H as [H|H].
  - inversion H; subst. split; auto. exists O, s. simpl. repeat split; auto. lia.
  - destruct (IH _ _ _ H) as (-> & k & s1 & -> & Hn & Hd). split; auto.
    exists (S k), s1. simpl. repeat split; auto. lia.
Qed.

(* row i + n of the result is the run of the while loop for supp2[n] *)
Lemma sparsity_loop_In : forall supp1 supp2 i a b,
  In (a, b) (sparsity_loop supp1 i supp2) <->
  exists n s2, nth_error supp2 n = Some s2 /\
    let j := searchsorted_right (map snd supp1) (fst s2) in
    In (a, b) (while_intersect s2 (i + Z.of_nat n) (Z.of_nat j) (skipn j supp1)).
Proof.
  induction supp2 as [|s supp2 IH]; intros i a b; simpl.
  - split; [tauto|]. intros ([|n] & s2 & H & _); discriminate.
  - rewrite in_app_iff, IH. split.
    + intros [H|(n & s2 & Hn & H)].
      * exists O, s. rewrite Z.add_0_r. auto.
      * exists (S n), s2. replace (i + Z.of_nat (S n)) with (i + 1 + Z.of_nat n) by lia. auto.
    + intros ([|n] & s2 & Hn & H); simpl in Hn.
      * injection Hn as <-. rewrite Z.add_0_r in H. auto.
      * right. exists n, s2. replace (i + 1 + Z.of_nat n) with (i + Z.of_nat (S n)) by lia. auto.
Qed.

Lemma sparsity_sound : forall supp1 supp2 a b,
  In (a, b) (compute_sparsity_ij supp1 supp2) ->
  exists n k s2 s1, a = Z.of_nat n /\ b = Z.of_nat k /\
    nth_error supp2 n = Some s2 /\ nth_error supp1 k = Some s1 /\ overlap s2 s1.
Proof.
  intros supp1 supp2 a b H. apply sparsity_loop_In in H. destruct H as (n & s2 & Hn & H).
  apply while_sound in H. destruct H as (-> & k & s1 & -> & Hk & Hd).
  rewrite nth_error_skipn_add in Hk. apply do_intersect_overlap in Hd.
  exists n, (searchsorted_right (map snd supp1) (fst s2) + k)%nat, s2, s1.
  split; [lia|]. split; [lia|]. auto.
Qed.

Lemma filter_le_nil : forall L a v, Forall (fun x => a <= x) L -> v < a -> filter (fun e => e <=? v) L = [].
Proof.
  induction 1; intros; simpl; auto. replace (x <=? v) with false. auto.
  symmetry. apply Z.leb_gt. lia.
Qed.

(* searchsorted(L, v, side='right') separates the entries <= v from those > v *)
Lemma searchsorted_right_spec : forall L v k e, StronglySorted Z.le L -> nth_error L k = Some e ->
  ((searchsorted_right L v <= k)%nat <-> v < e).
Proof.
  unfold searchsorted_right. induction L as [|a L IH]; intros v k e HS Hn.
  - destruct k; discriminate.
  - inversion HS as [|? ? HS' Ha]; subst. simpl. destruct (Z.leb_spec a v).
    + destruct k as [|k]; simpl in *.
      * inversion Hn; subst. lia.
      * rewrite <- (IH v k e HS' Hn). lia.
    + rewrite (filter_le_nil L a v) by auto. simpl.
      assert (a <= e).
      { destruct k; simpl in Hn; [inversion Hn; lia|].
        rewrite Forall_forall in Ha. apply Ha. eapply nth_error_In; eauto. }
      lia.
Qed.

Lemma sorted_nth_error_mono : forall L a b x y, StronglySorted Z.le L -> (a <= b)%nat ->
  nth_error L a = Some x -> nth_error L b = Some y -> x <= y.
Proof.
  induction L as [|h L IH]; intros a b x y HS Hab Ha Hb.
  - destruct a; discriminate.
  - inversion HS as [|? ? HS' Hh]; subst. destruct a as [|a], b as [|b]; simpl in *; try lia.
    + inversion Ha; inversion Hb; subst. lia.
    + inversion Ha; subst. rewrite Forall_forall in Hh. apply nth_error_In in Hb. auto.
    + apply (IH a b); auto. lia.
Qed.

Lemma while_complete : forall s2 i rest j k s1, nth_error rest k = Some s1 ->
  (forall k' s, (k' <= k)%nat -> nth_error rest k' = Some s -> do_intersect s2 s = true) ->
  In (i, j + Z.of_nat k) (while_intersect s2 i j rest).
Proof.
  induction rest as [|s rest IH]; intros j k s1 Hn Hall.
  - destruct k; discriminate.
  - simpl. rewrite (Hall O s) by (simpl; auto; lia).
    destruct k as [|k].
    + left. f_equal. lia.
    + right. replace (j + Z.of_nat (S k)) with ((j + 1) + Z.of_nat k) by lia.
      apply (IH (j + 1) k s1); auto.
      intros k' s' Hk' Hn'. apply (Hall (S k') s'); auto. lia.
Qed.

(* the supports in supp2 need not be non-empty: an empty one overlaps nothing *)
Lemma sparsity_complete : forall supp1 supp2 a b s2 s1,
  StronglySorted Z.le (map fst supp1) -> StronglySorted Z.le (map snd supp1) ->
  Forall nonempty_supp supp1 ->
  nth_error supp2 a = Some s2 -> nth_error supp1 b = Some s1 -> overlap s2 s1 ->
  In (Z.of_nat a, Z.of_nat b) (compute_sparsity_ij supp1 supp2).
Proof.
  intros supp1 supp2 a b s2 s1 HS1 HS2 HN1 Ha Hb Ho. apply sparsity_loop_In.
  exists a, s2. split; auto. rewrite Z.add_0_l. intros j.
  unfold overlap, nonempty_supp in *.
  assert (Hjb : (j <= b)%nat).
  { apply (searchsorted_right_spec (map snd supp1) (fst s2) b (snd s1)); auto using map_nth_error. lia. }
  replace (Z.of_nat b) with (Z.of_nat j + Z.of_nat (b - j)) by lia.
  apply (while_complete s2 (Z.of_nat a) (skipn j supp1) (Z.of_nat j) (b - j) s1).
  - rewrite nth_error_skipn_add. rewrite <- Hb. f_equal. lia.
  - intros k' s Hk' Hs. rewrite nth_error_skipn_add in Hs.
    apply do_intersect_overlap. unfold overlap.
    (* s ends after s2 starts (it is not skipped) and starts before s1 does *)
    assert (E1 : fst s2 < snd s).
    { apply (searchsorted_right_spec (map snd supp1) (fst s2) (j + k') (snd s)); auto using map_nth_error. lia. }
    assert (E2 : fst s <= fst s1).
    { apply (sorted_nth_error_mono (map fst supp1) (j + k') b); auto using map_nth_error. lia. }
    assert (E3 : fst s < snd s).
    { rewrite Forall_forall in HN1. apply HN1. eapply nth_error_In; eauto. }
    lia.
Qed.

Lemma sorted_map_seq : forall (f : nat -> Z) n a,
  (forall i j, (a <= i)%nat -> (i <= j)%nat -> (j < a + n)%nat -> f i <= f j) ->
  StronglySorted Z.le (map f (seq a n)).
Proof.
  induction n as [|n IH]; intros a H; simpl; constructor.
  - apply IH. intros i j Hi Hij Hj. apply H; lia.
  - apply Forall_forall. intros x Hx. apply in_map_iff in Hx. destruct Hx as (j & <- & Hj).
    apply in_seq in Hj. apply H; lia.
Qed.

Lemma sorted_nth_mono : forall (kv : list Z) i j, StronglySorted Z.le kv ->
  (i <= j)%nat -> (j < length kv)%nat -> nth i kv 0 <= nth j kv 0.
Proof.
  intros kv i j HS Hij Hj.
  assert (Hi : (i < length kv)%nat) by lia.
  apply (sorted_nth_error_mono kv i j); auto; apply nth_error_nth'; auto.
Qed.

(* a knot vector: non-decreasing, no knot repeated more than p+1 times *)
Definition knot_vector (kv : list Z) (p : nat) : Prop :=
  StronglySorted Z.le kv /\
  forall i, (i + p + 1 < length kv)%nat -> nth i kv 0 < nth (i + p + 1) kv 0.

(* position of the last entry of l whose mirror image is e *)
Fixpoint find_last (e : Z * Z) (l : pat) : option nat :=
  match l with
  | [] => None
  | e' :: l' =>
      match find_last e l' with
      | Some i => Some (S i)
      | None => if key_eqb (swap e') e then Some O else None
      end
  end.

Lemma last_index_of_find_last : forall e l k found,
  last_index_of e l k found =
  match find_last e l with Some i => Some (k + Z.of_nat i) | None => found end.
Proof.
  induction l as [|e' l IH]; intros k found; simpl; auto.
  rewrite IH. destruct (find_last e l) as [i|].
  - f_equal. lia.
  - destruct (key_eqb (swap e') e); auto. f_equal. lia.
Qed.

Lemma find_last_sound : forall e l i, find_last e l = Some i ->
  (i < length l)%nat /\ swap (nth i l (0, 0)) = e.
Proof.
  induction l as [|e' l IH]; intros i H; simpl in H; [discriminate|].
  destruct (find_last e l) as [i'|] eqn:E.
  - inversion H; subst. destruct (IH i' eq_refl). simpl. split; auto. lia.
  - destruct (key_eqb (swap e') e) eqn:K; [|discriminate]. inversion H; subst.
    apply key_eqb_eq in K. simpl. split; auto. lia.
Qed.

Lemma find_last_complete : forall e l j, (j < length l)%nat -> swap (nth j l (0, 0)) = e ->
  exists i, find_last e l = Some i.
Proof.
  induction l as [|e' l IH]; intros j Hj He; simpl in Hj; [lia|].
  simpl. destruct j as [|j].
  - simpl in He. destruct (find_last e l); eauto.
    rewrite (proj2 (key_eqb_eq (swap e') e) He). eauto.
  - simpl in He. destruct (IH j ltac:(lia) He) as (i & ->). eauto.
Qed.

Lemma all_some_nth : forall {A : Type} (l : list (option A)) (t : list A) (d : A),
  all_some l = Some t ->
  length t = length l /\ forall k, (k < length l)%nat -> nth k l None = Some (nth k t d).
Proof.
  induction l as [|[a|] l IH]; intros t d H; simpl in H.
  - inversion H; subst. split; auto. intros; simpl in *; lia.
  - destruct (all_some l) as [r|] eqn:E; [|discriminate]. inversion H; subst.
    destruct (IH r d eq_refl) as [L N]. split; [simpl; lia|].
    intros [|k] Hk; simpl; auto. apply N. simpl in Hk. lia.
  - discriminate.
Qed.

Lemma transpose_idx_length : forall b t, transpose_idx b = Some t -> length t = length b.
Proof.
  intros b t H. destruct (all_some_nth _ t 0 H) as [L _]. rewrite map_length in L. exact L.
Qed.

(* when get_transpose_idx_for_bidx answers, t[k] is a position holding the mirror image of b[k] *)
Lemma transpose_idx_mirror : forall b t k, transpose_idx b = Some t -> (k < length b)%nat ->
  exists i, nth k t 0 = Z.of_nat i /\ (i < length b)%nat /\ nth i b (0, 0) = swap (nth k b (0, 0)).
Proof.
  intros b t k H Hk. destruct (all_some_nth _ t 0 H) as [_ N]. rewrite map_length in N.
  specialize (N k Hk).
  rewrite (nth_indep _ None (last_index_of (0, 0) b 0 None)) in N by (rewrite map_length; auto).
  rewrite (map_nth (fun e => last_index_of e b 0 None) b (0, 0) k) in N.
  rewrite last_index_of_find_last in N.
  destruct (find_last (nth k b (0, 0)) b) as [i|] eqn:F; [|discriminate].
  destruct (find_last_sound _ _ _ F) as [Hi Si].
  exists i. split; [inversion N; lia|]. split; auto. rewrite <- Si. symmetry. apply swap_swap.
Qed.

(* it answers as soon as every queried entry has its mirror image in b *)
Lemma transpose_idx_answers : forall b l, (forall e, In e l -> In (swap e) b) ->
  exists t, all_some (map (fun e => last_index_of e b 0 None) l) = Some t.
Proof.
  induction l as [|e l IH]; intros Hl; simpl; eauto.
  destruct IH as [t Ht]; [intros; apply Hl; right; auto|]. rewrite Ht.
  destruct (In_nth b (swap e) (0, 0) (Hl e (or_introl eq_refl))) as (j & Hj & Ej).
  destruct (find_last_complete e b j Hj) as (i & Fi); [rewrite Ej; apply swap_swap|].
  rewrite last_index_of_find_last, Fi. eauto.
Qed.
