(* C15 -- utils.kron_partial against the dense Kronecker product. *)
From Coq Require Import ZArith List Bool Lia Arith.
From Verif.lib Require Import ListFacts.
From Verif.C15 Require Import Model Spec Proofs.
Import ListNotations.
Open Scope Z_scope.

(* (A (x) B)[r, c] = A[r div mB, c div nB] * B[r mod mB, c mod nB], right-nested over the
   list of factors (the same recursion as C16's kron_ent) *)
Fixpoint kron_rec (As : list (list (list Z))) (r c : Z) : Z :=
  match As with
  | [] => 1
  | A :: As' =>
      let M' := prodZ (rowdims (map mat_shape As')) in
      let N' := prodZ (coldims (map mat_shape As')) in
      dense_get A (r / M', c / N') * kron_rec As' (r mod M') (c mod N')
  end.

(* the positionwise form used by kron_partial *)
Definition kron_pos (As : list (list (list Z))) (r c : Z) : Z :=
  let bs := map mat_shape As in
  prod_entries As (from_seq r (rowdims bs)) (from_seq c (coldims bs)).

(* rectangular, non-empty factor matrices *)
Definition rect (A : list (list Z)) : Prop :=
  (0 < length A)%nat /\ (0 < length (nth 0%nat A []))%nat /\
  Forall (fun row => length row = length (nth 0%nat A [])) A.

Lemma shapes_pos : forall As, Forall rect As ->
  dims_pos (rowdims (map mat_shape As)) /\ dims_pos (coldims (map mat_shape As)).
Proof.
  induction 1 as [|A As [H1 [H2 _]] HF [IH1 IH2]]; simpl; split; constructor; auto; simpl; lia.
Qed.

Lemma kron_pos_rec : forall As r c, Forall rect As -> 0 <= r -> 0 <= c ->
  r < prodZ (rowdims (map mat_shape As)) -> c < prodZ (coldims (map mat_shape As)) ->
  kron_pos As r c = kron_rec As r c.
Proof.
  induction As as [|A As IH]; intros r c HR Hr Hc Hr' Hc'.
  - reflexivity.
  - destruct (shapes_pos _ HR) as [P1 P2]. inversion HR as [|? ? HA HR']; subst.
    destruct (shapes_pos As HR') as [Q1 Q2]. apply prodZ_pos in Q1, Q2.
    unfold kron_pos. change (map mat_shape (A :: As)) with (mat_shape A :: map mat_shape As) in *.
    cbn [rowdims coldims map] in *.
    rewrite !from_seq_cons by auto. cbn [prod_entries kron_rec].
    rewrite <- IH; auto; apply Z.mod_pos_bound; assumption.
Qed.

Lemma combine_seq_nth : forall {B : Type} (l : list B) a (d : B),
  combine (map Z.of_nat (seq a (length l))) l
  = map (fun k => (Z.of_nat (a + k), nth k l d)) (seq 0 (length l)).
Proof.
  induction l as [|x l IH]; intros a d; simpl; auto.
  rewrite Nat.add_0_r. f_equal. rewrite (IH (S a) d). rewrite <- seq_shift, map_map.
  apply map_ext. intros k. f_equal. f_equal. lia.
Qed.

Lemma combine_range_gen : forall (l : list Z) a (d : Z),
  combine (map Z.of_nat (seq a (length l))) l
  = map (fun k => (Z.of_nat (a + k), nth k l d)) (seq 0 (length l)).
Proof. exact (@combine_seq_nth Z). Qed.

Lemma combine_range : forall {B : Type} (l : list B) (d : B),
  combine (range (Z.of_nat (length l))) l = map (fun k => (Z.of_nat k, nth k l d)) (seq 0 (length l)).
Proof.
  intros. unfold range. rewrite Nat2Z.id. rewrite (combine_seq_nth l 0 d). reflexivity.
Qed.

Definition pattern_nat (A : list (list Z)) : pat :=
  flat_map (fun i => flat_map (fun j => if nth j (nth i A []) 0 =? 0 then [] else [(Z.of_nat i, Z.of_nat j)])
                       (seq 0 (length (nth i A []))))
           (seq 0 (length A)).

Lemma pattern_of_nat : forall A, pattern_of A = pattern_nat A.
Proof.
  intros. unfold pattern_of, pattern_nat. rewrite (combine_range A []), flat_map_map.
  apply flat_map_ext. intros i. cbn [fst snd].
  rewrite (combine_range (nth i A []) 0), flat_map_map. reflexivity.
Qed.

Lemma pattern_of_In : forall A i j, In (i, j) (pattern_of A) <->
  exists ni nj, i = Z.of_nat ni /\ j = Z.of_nat nj /\ (ni < length A)%nat /\
    (nj < length (nth ni A []))%nat /\ nth nj (nth ni A []) 0 <> 0.
Proof.
  intros. rewrite pattern_of_nat. unfold pattern_nat. rewrite in_flat_map. split.
  - intros (ni & Hni & H). apply in_flat_map in H. destruct H as (nj & Hnj & H).
    apply in_seq in Hni. apply in_seq in Hnj.
    destruct (Z.eqb_spec (nth nj (nth ni A []) 0) 0); [destruct H|].
    destruct H as [H|[]]. inversion H; subst. exists ni, nj. repeat split; auto; lia.
  - intros (ni & nj & -> & -> & Hi & Hj & Hv). exists ni. split; [apply in_seq; lia|].
    apply in_flat_map. exists nj. split; [apply in_seq; lia|].
    destruct (Z.eqb_spec (nth nj (nth ni A []) 0) 0); [contradiction|]. left; reflexivity.
Qed.

Lemma pattern_of_NoDup : forall A, NoDup (pattern_of A).
Proof.
  intros. rewrite pattern_of_nat. unfold pattern_nat. apply NoDup_flat_map_disjoint.
  - apply seq_NoDup.
  - intros i _. apply NoDup_flat_map_disjoint.
    + apply seq_NoDup.
    + intros j _. destruct (_ =? 0); repeat constructor. intros [].
    + intros x y e _ _ Hx Hy.
      destruct (nth x (nth i A []) 0 =? 0); [destruct Hx|]. destruct Hx as [<-|[]].
      destruct (nth y (nth i A []) 0 =? 0); [destruct Hy|]. destruct Hy as [Hy|[]].
      inversion Hy. lia.
  - intros x y e _ _ Hx Hy. apply in_flat_map in Hx. apply in_flat_map in Hy.
    destruct Hx as (j & _ & Hx). destruct Hy as (j' & _ & Hy).
    destruct (nth j (nth x A []) 0 =? 0); [destruct Hx|]. destruct Hx as [<-|[]].
    destruct (nth j' (nth y A []) 0 =? 0); [destruct Hy|]. destruct Hy as [Hy|[]].
    inversion Hy. lia.
Qed.

Fixpoint occ (P : list (Z * Z)) (r c : Z) : Z :=
  match P with
  | [] => 0
  | (i, j) :: P' => (if (i =? r) && (j =? c) then 1 else 0) + occ P' r c
  end.

Lemma occ_app : forall P Q r c, occ (P ++ Q) r c = occ P r c + occ Q r c.
Proof. induction P as [|[i j] P IH]; intros; simpl; auto. rewrite IH. lia. Qed.

Lemma dense_entry_tagged : forall (v : Z * Z -> Z) P r c,
  dense_entry (map (fun e => (e, v e)) P) r c = occ P r c * v (r, c).
Proof.
  induction P as [|[i j] P IH]; intros r c; [simpl; lia|].
  cbn [map dense_entry occ]. rewrite IH.
  destruct (Z.eqb_spec i r), (Z.eqb_spec j c); cbn [andb]; subst; ring.
Qed.

Lemma occ_filter_row : forall KP r' r c,
  occ (filter (fun e => fst e =? r') KP) r c = if r' =? r then occ KP r c else 0.
Proof.
  induction KP as [|[i j] KP IH]; intros r' r c.
  - simpl. destruct (r' =? r); auto.
  - cbn [filter fst]. destruct (Z.eqb_spec i r').
    + cbn [occ]. rewrite IH. subst i. destruct (Z.eqb_spec r' r); cbn [andb]; lia.
    + rewrite IH. cbn [occ]. destruct (Z.eqb_spec r' r); [|lia]. subst.
      destruct (Z.eqb_spec i r); [contradiction|]. cbn [andb]. lia.
Qed.

Lemma occ_rows : forall KP rows r c,
  occ (flat_map (fun r' => filter (fun e => fst e =? r') KP) rows) r c
  = Z.of_nat (count_occ Z.eq_dec rows r) * occ KP r c.
Proof.
  induction rows as [|r' rows IH]; intros r c; [reflexivity|].
  cbn [flat_map count_occ]. rewrite occ_app, IH, occ_filter_row.
  destruct (Z.eq_dec r' r), (Z.eqb_spec r' r); try contradiction; lia.
Qed.

Lemma occ_notin : forall P r c, ~ In (r, c) P -> occ P r c = 0.
Proof.
  induction P as [|[i j] P IH]; intros r c H; simpl; auto.
  rewrite IH by (intros H'; apply H; right; auto).
  destruct (Z.eqb_spec i r), (Z.eqb_spec j c); simpl; auto. subst. exfalso. apply H. left; auto.
Qed.

Lemma occ_NoDup_in : forall P r c, NoDup P -> In (r, c) P -> occ P r c = 1.
Proof.
  induction P as [|[i j] P IH]; intros r c ND H; simpl; [destruct H|].
  inversion ND; subst. destruct H as [H|H].
  - inversion H; subst. rewrite !Z.eqb_refl. simpl. rewrite occ_notin; auto.
  - rewrite IH by auto. destruct (Z.eqb_spec i r), (Z.eqb_spec j c); simpl; auto. subst. contradiction.
Qed.

Lemma rect_row_length : forall A ni, rect A -> (ni < length A)%nat ->
  length (nth ni A []) = length (nth 0%nat A []).
Proof.
  intros A ni (_ & _ & HF) Hni. rewrite Forall_forall in HF. apply HF. apply nth_In. auto.
Qed.

Lemma wf_from_matrices : forall As, Forall rect As ->
  wf_structure (map mat_shape As) (map pattern_of As).
Proof.
  unfold wf_structure. induction 1 as [|A As HA HF IH]; simpl; constructor; auto.
  unfold pat_in_block. apply Forall_forall. intros [i j] Hin.
  apply pattern_of_In in Hin. destruct Hin as (ni & nj & -> & -> & Hi & Hj & _).
  rewrite (rect_row_length A ni HA Hi) in Hj. unfold mat_shape. simpl. lia.
Qed.

Lemma prod_entries_nonzero : forall As I J, Forall rect As ->
  valid_mi I (rowdims (map mat_shape As)) -> valid_mi J (coldims (map mat_shape As)) ->
  prod_entries As I J <> 0 ->
  Forall2 (fun ij b => In ij b) (combine I J) (map pattern_of As).
Proof.
  induction As as [|A As IH]; intros I J HR HI HJ Hv.
  - inversion HI; inversion HJ; subst. constructor.
  - inversion HR as [|? ? HA HR']; subst.
    unfold rowdims, coldims in HI, HJ. simpl in HI, HJ.
    inversion HI as [|i m I' d' Hi HI']; subst. inversion HJ as [|j n J' e' Hj HJ']; subst.
    cbn [prod_entries] in Hv.
    assert (dense_get A (i, j) <> 0 /\ prod_entries As I' J' <> 0) as [V1 V2]
      by (split; intros E; rewrite E in Hv; lia).
    cbn [combine map]. constructor; [|apply IH; auto].
    apply pattern_of_In. exists (Z.to_nat i), (Z.to_nat j).
    assert (Hx : (Z.to_nat i < length A)%nat) by lia.
    rewrite (rect_row_length A _ HA Hx).
    repeat split; try lia. exact V1.
Qed.

(* what kron_partial returns when it answers *)
Lemma kron_partial_Some : forall As rows restrict ts, kron_partial As rows restrict = Some ts ->
  let bs := map mat_shape As in
  Forall (fun r => 0 <= r < fst (shape bs)) rows /\
  ts = canon (map (fun t : Z * Z * Z => let '(r, c, k) := t in
                     (((if restrict then k else r), c), kron_pos As r c))
                  (rows_loop bs (map pattern_of As) 0 rows)).
Proof.
  intros As rows restrict ts H. unfold kron_partial in H. cbv zeta in *.
  destruct (nonzeros_for_rows (map mat_shape As) (map pattern_of As) rows) as [l|] eqn:E; [|discriminate].
  apply nonzeros_for_rows_Some in E. destruct E as [HF ->]. injection H as <-. auto.
Qed.

(* at a position inside the matrix, either the Kronecker entry is zero or the position occurs
   exactly once in the pattern of the factors' non-zeros *)
Lemma kron_entry : forall As r c, Forall rect As ->
  0 <= r < fst (shape (map mat_shape As)) -> 0 <= c < snd (shape (map mat_shape As)) ->
  occ (kron_pattern (map mat_shape As) (map pattern_of As)) r c * kron_pos As r c = kron_rec As r c.
Proof.
  intros As r c HR Hr Hc.
  pose proof (wf_from_matrices As HR) as Hwf. destruct (shapes_pos As HR) as [P1 P2].
  unfold shape in Hr, Hc. cbn [fst snd] in Hr, Hc.
  rewrite <- (kron_pos_rec As r c) by (auto; lia).
  destruct (Z.eq_dec (kron_pos As r c) 0) as [Z0|NZ]; [rewrite Z0; ring|].
  rewrite occ_NoDup_in; [ring| |].
  - apply kron_pattern_NoDup; auto. apply Forall_map, Forall_forall. intros A _. apply pattern_of_NoDup.
  - apply kron_pattern_mem; auto. unfold kron_nonzero, shape. cbn [fst snd]. repeat split; try lia.
    apply prod_entries_nonzero; auto; apply from_seq_valid; auto.
Qed.

(* restrict=False, any list of valid rows: scipy sums duplicate positions, so row r of the result
   is (number of occurrences of r in rows) times row r of the dense Kronecker product *)
Lemma kron_partial_rows : forall As rows ts, Forall rect As ->
  kron_partial As rows false = Some ts ->
  forall r c, 0 <= r < fst (shape (map mat_shape As)) -> 0 <= c < snd (shape (map mat_shape As)) ->
  dense_entry ts r c = Z.of_nat (count_occ Z.eq_dec rows r) * kron_rec As r c.
Proof.
  intros As rows ts HR H r c Hr Hc. apply kron_partial_Some in H. destruct H as [HF ->].
  pose proof (wf_from_matrices As HR) as Hwf. destruct (shapes_pos As HR) as [P1 _].
  rewrite canon_dense.
  replace (map _ (rows_loop _ _ 0 rows))
    with (map (fun e => (e, kron_pos As (fst e) (snd e)))
              (map (fun t : Z * Z * Z => (fst (fst t), snd (fst t)))
                   (rows_loop (map mat_shape As) (map pattern_of As) 0 rows))).
  2:{ rewrite map_map. apply map_ext. intros [[r0 c0] k]. reflexivity. }
  rewrite rows_loop_spec, dense_entry_tagged, occ_rows by auto. cbn [fst snd].
  rewrite <- (kron_entry As r c HR Hr Hc). ring.
Qed.

Lemma dense_entry_app : forall a b r c, dense_entry (a ++ b) r c = dense_entry a r c + dense_entry b r c.
Proof. induction a as [|[[i j] v] a IH]; intros; simpl; auto. rewrite IH. lia. Qed.

(* one row block of the restricted result: the columns of row r0, tagged with the new row k *)
Lemma dense_entry_row_block : forall (v : Z -> Z) KP r0 k q c,
  dense_entry (map (fun J => ((k, J), v J)) (map snd (filter (fun e => fst e =? r0) KP))) q c
  = if k =? q then occ KP r0 c * v c else 0.
Proof.
  induction KP as [|[i j] KP IH]; intros r0 k q c.
  - simpl. destruct (k =? q); lia.
  - cbn [filter fst]. destruct (Z.eqb_spec i r0).
    + cbn [map snd dense_entry occ]. rewrite IH. subst i. rewrite Z.eqb_refl.
      destruct (Z.eqb_spec k q), (Z.eqb_spec j c); cbn [andb]; subst; ring.
    + rewrite IH. cbn [occ]. destruct (Z.eqb_spec i r0); [contradiction|]. cbn [andb].
      destruct (k =? q); ring.
Qed.

(* entry (q, c) of the renumbered rows: tag q belongs to rows[q - k] *)
Lemma rows_loop_restrict : forall (val : Z -> Z -> Z) bs bidx rows k q c,
  wf_structure bs bidx -> dims_pos (rowdims bs) ->
  Forall (fun r => 0 <= r < fst (shape bs)) rows ->
  dense_entry (map (fun t : Z * Z * Z => let '(r, c, k) := t in ((k, c), val r c)) (rows_loop bs bidx k rows)) q c
  = if q <? k then 0 else
    match nth_error rows (Z.to_nat (q - k)) with
    | Some r => occ (kron_pattern bs bidx) r c * val r c
    | None => 0
    end.
Proof.
  intros val bs bidx rows k q c Hwf Hp HF. revert k.
  induction HF as [|r rows Hr HF IH]; intros k.
  - simpl. destruct (q <? k), (Z.to_nat (q - k)); reflexivity.
  - cbn [rows_loop]. rewrite map_app, dense_entry_app, map_map, rows_J_spec by auto.
    rewrite (dense_entry_row_block (val r)), IH.
    destruct (Z.eqb_spec k q), (Z.ltb_spec q k), (Z.ltb_spec q (k + 1)); try lia.
    + subst q. rewrite Z.sub_diag. simpl. lia.
    + replace (Z.to_nat (q - k)) with (S (Z.to_nat (q - (k + 1)))) by lia. simpl. lia.
Qed.
