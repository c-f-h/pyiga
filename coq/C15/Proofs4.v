(* C15 -- the compact data layout: positions of the data entries in asmatrix(), level reordering
   (MLMatrix.reorder), the index map of the reordered-tensor generator. *)
From Coq Require Import ZArith List Lia.
From Verif.lib Require Import ListFacts.
From Verif.C15 Require Import Model Spec Proofs Model2.
Import ListNotations.
Open Scope Z_scope.

(* the selection addressed by a multi-index K into the data layout (K_k-th entry of level k) *)
Fixpoint sel_of {B : Type} (d : B) (ls : list (list B)) (K : list nat) : list B :=
  match ls, K with
  | l :: ls', k :: K' => nth k l d :: sel_of d ls' K'
  | _, _ => []
  end.

(* its position in the C-ordered data tensor *)
Fixpoint pos_of {B : Type} (ls : list (list B)) (K : list nat) : nat :=
  match ls, K with
  | l :: ls', k :: K' => (k * length (product ls') + pos_of ls' K')%nat
  | _, _ => O
  end.

Lemma product_nth : forall {B : Type} (d : B) (ls : list (list B)) (K : list nat),
  cvalid ls K ->
  (pos_of ls K < length (product ls))%nat /\ nth (pos_of ls K) (product ls) [] = sel_of d ls K.
Proof.
  induction ls as [|l ls IH]; intros K HK; destruct K as [|k K]; simpl in HK; try tauto.
  - simpl. split; auto.
  - destruct HK as [Hk HK]. destruct (IH K HK) as [IH1 IH2].
    cbn [product pos_of sel_of].
    assert (Hlen : forall x : B, length (map (cons x) (product ls)) = length (product ls))
      by (intros; apply map_length).
    split.
    + clear IH2. rewrite (flat_map_uniform_length _ (length (product ls))) by (intros; apply Hlen).
      nia.
    + rewrite (nth_flat_map_uniform _ (length (product ls)) [] d l) by auto.
      rewrite (nth_indep _ [] (nth k l d :: [])) by (rewrite map_length; auto).
      rewrite (map_nth (cons (nth k l d))). rewrite IH2. reflexivity.
Qed.

Lemma map_product_nth : forall {B C : Type} (F : list B -> C) (d : B) (dc : C) ls K, cvalid ls K ->
  nth (pos_of ls K) (map F (product ls)) dc = F (sel_of d ls K).
Proof.
  intros B C F d dc ls K HK. destruct (product_nth d ls K HK) as [Hp <-].
  rewrite (nth_indep _ dc (F [])) by (rewrite map_length; auto). apply map_nth.
Qed.

Lemma dense_entry_combine_In : forall P data r c, dense_entry (combine P data) r c <> 0 -> In (r, c) P.
Proof.
  induction P as [|[i j] P IH]; intros [|x data] r c H; simpl in H; try congruence.
  destruct (Z.eqb_spec i r), (Z.eqb_spec j c); subst; simpl in *; auto; right; apply (IH data); lia.
Qed.

Lemma dense_entry_combine_notin : forall P data r c, ~ In (r, c) P -> dense_entry (combine P data) r c = 0.
Proof.
  intros P data r c H. destruct (Z.eq_dec (dense_entry (combine P data) r c) 0) as [E|E]; auto.
  destruct (H (dense_entry_combine_In _ _ _ _ E)).
Qed.

(* distinct positions: the entry at the n-th position of the layout is the n-th datum *)
Lemma dense_entry_combine_nth : forall P data n, NoDup P -> (n < length P)%nat ->
  dense_entry (combine P data) (fst (nth n P (0, 0))) (snd (nth n P (0, 0))) = nth n data 0.
Proof.
  induction P as [|[i j] P IH]; intros data n ND Hn; simpl in Hn; [lia|].
  inversion ND; subst. destruct data as [|x data].
  - simpl. destruct n; reflexivity.
  - destruct n as [|n].
    + cbn [nth fst snd combine dense_entry]. rewrite !Z.eqb_refl. cbn [andb].
      rewrite dense_entry_combine_notin by auto. lia.
    + cbn [nth combine dense_entry]. rewrite IH by (auto; lia).
      assert (Hne : nth n P (0, 0) <> (i, j)) by (intros E; apply H1; rewrite <- E; apply nth_In; lia).
      destruct (nth n P (0, 0)) as [a b]. cbn [fst snd].
      destruct (Z.eqb_spec i a), (Z.eqb_spec j b); cbn [andb]; try lia. subst. congruence.
Qed.

Lemma asm_entry_at : forall bs bidx data K,
  wf_structure bs bidx -> Forall (@NoDup (Z * Z)) bidx -> cvalid bidx K ->
  let e := entry_of bs (sel_of (0, 0) bidx K) in
  dense_entry (asmatrix bs bidx data) (fst e) (snd e) = nth (pos_of bidx K) data 0.
Proof.
  intros bs bidx data K Hwf HN HK. cbv zeta.
  assert (Hl : length bs = length bidx) by (symmetry; eapply Forall2_length; eauto).
  rewrite asmatrix_dense by auto.
  rewrite <- (map_product_nth (entry_of bs) (0, 0) (0, 0) bidx K HK). fold (kron_pattern bs bidx).
  apply dense_entry_combine_nth.
  - apply kron_pattern_NoDup; auto.
  - unfold kron_pattern. rewrite map_length. apply (product_nth (0, 0)); auto.
Qed.

Lemma wf_pick : forall bs bidx axes, wf_structure bs bidx ->
  Forall (fun a => (a < length bidx)%nat) axes ->
  wf_structure (reorder_bs bs axes) (reorder_bidx bidx axes).
Proof.
  unfold wf_structure, reorder_bs, reorder_bidx, pick. intros bs bidx axes Hwf HA.
  induction HA as [|a axes Ha HA IH]; simpl; constructor; auto.
  apply Forall2_nth_rel; auto.
Qed.

Lemma Forall_pick : forall {B : Type} (P : B -> Prop) (d : B) (l : list B) axes,
  Forall P l -> Forall (fun a => (a < length l)%nat) axes -> Forall P (pick d l axes).
Proof.
  unfold pick. intros B P d l axes HP HA. rewrite Forall_forall in HP.
  induction HA as [|a axes Ha HA IH]; simpl; constructor; auto. apply HP, nth_In, Ha.
Qed.

Lemma pick_map : forall {B C : Type} (f : B -> C) (d : B) (l : list B) axes,
  pick (f d) (map f l) axes = map f (pick d l axes).
Proof. intros. unfold pick. rewrite map_map. apply map_ext. intros a. apply map_nth. Qed.

Lemma dims_pos_pick : forall (bs : list (Z * Z)) axes, Forall (fun a => (a < length bs)%nat) axes ->
  dims_pos (rowdims bs) -> dims_pos (coldims bs) ->
  dims_pos (rowdims (reorder_bs bs axes)) /\ dims_pos (coldims (reorder_bs bs axes)).
Proof.
  unfold dims_pos, rowdims, coldims, reorder_bs. intros bs axes HA HR HC.
  rewrite <- !pick_map. split; apply Forall_pick; auto; rewrite map_length; auto.
Qed.

Lemma cvalid_nth : forall {B : Type} (ls : list (list B)) K a, cvalid ls K -> (a < length ls)%nat ->
  (nth a K O < length (nth a ls []))%nat.
Proof.
  induction ls as [|l ls IH]; intros K a HK Ha; destruct K as [|k K]; simpl in *; try tauto; try lia.
  destruct HK as [Hk HK]. destruct a; auto. apply IH; auto. lia.
Qed.

Lemma cvalid_pick : forall {B : Type} (ls : list (list B)) K axes, cvalid ls K ->
  Forall (fun a => (a < length ls)%nat) axes -> cvalid (pick [] ls axes) (pick O K axes).
Proof.
  unfold pick. intros B ls K axes HK HA. induction HA as [|a axes Ha HA IH]; simpl; auto.
  split; auto. apply cvalid_nth; auto.
Qed.

Lemma sel_of_nth : forall {B : Type} (d : B) (ls : list (list B)) K a, cvalid ls K -> (a < length ls)%nat ->
  nth a (sel_of d ls K) d = nth (nth a K O) (nth a ls []) d.
Proof.
  induction ls as [|l ls IH]; intros K a HK Ha; destruct K as [|k K]; simpl in *; try tauto; try lia.
  destruct HK as [Hk HK]. destruct a; auto. apply IH; auto. lia.
Qed.

Lemma sel_of_pick : forall {B : Type} (d : B) (ls : list (list B)) K axes, cvalid ls K ->
  Forall (fun a => (a < length ls)%nat) axes ->
  sel_of d (pick [] ls axes) (pick O K axes) = pick d (sel_of d ls K) axes.
Proof.
  unfold pick. intros B d ls K axes HK HA. induction HA as [|a axes Ha HA IH]; simpl; auto.
  rewrite IH. f_equal. symmetry. apply sel_of_nth; auto.
Qed.

Lemma pos_of_sizes : forall {B C : Type} (ls : list (list B)) (ls' : list (list C)) K,
  map (@length B) ls = map (@length C) ls' -> pos_of ls K = pos_of ls' K.
Proof.
  induction ls as [|l ls IH]; intros ls' K H; destruct ls' as [|l' ls']; simpl in H; try discriminate; auto.
  injection H as _ H. destruct K as [|k K]; simpl; auto.
  rewrite (IH ls' K H), !product_length. unfold total_len. rewrite H. reflexivity.
Qed.

Lemma cvalid_sizes : forall {B C : Type} (ls : list (list B)) (ls' : list (list C)) K,
  map (@length B) ls = map (@length C) ls' -> cvalid ls K -> cvalid ls' K.
Proof.
  induction ls as [|l ls IH]; intros ls' K H HK; destruct ls' as [|l' ls']; simpl in H; try discriminate;
    destruct K as [|k K]; simpl in *; try tauto.
  injection H as H1 H2. destruct HK as [Hk HK]. split; [rewrite <- H1; exact Hk|]. eapply IH; eauto.
Qed.

Lemma range_length : forall n, length (range (Z.of_nat n)) = n.
Proof. intros. unfold range. rewrite map_length, seq_length. apply Nat2Z.id. Qed.

Lemma range_nth : forall n k, (k < n)%nat -> nth k (range (Z.of_nat n)) 0 = Z.of_nat k.
Proof.
  intros. unfold range. rewrite Nat2Z.id.
  change 0 with (Z.of_nat O). rewrite map_nth. rewrite seq_nth by auto. reflexivity.
Qed.

Lemma sel_of_ranges : forall (ls : list pat) K, cvalid ls K ->
  sel_of 0 (map range (datashape ls)) K = map Z.of_nat K.
Proof.
  induction ls as [|l ls IH]; intros K HK; destruct K as [|k K]; simpl in *; try tauto.
  destruct HK as [Hk HK]. rewrite range_nth, IH by auto. reflexivity.
Qed.

(* the multi-indices into the data tensor in C order: the one at the position of K is K *)
Lemma multi_index_nth : forall {C : Type} (F : list Z -> C) (dc : C) (ls : list pat) K, cvalid ls K ->
  nth (pos_of ls K) (map F (product (map range (datashape ls)))) dc = F (map Z.of_nat K).
Proof.
  intros C F dc ls K HK.
  assert (Hsz : map (@length (Z * Z)) ls = map (@length Z) (map range (datashape ls))).
  { unfold datashape. rewrite !map_map. apply map_ext. intros l. rewrite range_length. reflexivity. }
  rewrite (pos_of_sizes _ _ _ Hsz), (map_product_nth F 0) by (eapply cvalid_sizes; eauto).
  rewrite sel_of_ranges by auto. reflexivity.
Qed.

Lemma index_of_spec : forall j axes k, In j axes ->
  exists i, index_of j axes k = (k + i)%nat /\ (i < length axes)%nat /\ nth i axes O = j.
Proof.
  induction axes as [|a axes IH]; intros k H; [destruct H|]. simpl.
  destruct (Nat.eqb_spec a j).
  - exists O. simpl. repeat split; auto; lia.
  - destruct H as [H|H]; [contradiction|]. destruct (IH (S k) H) as (i & E & Hi & Hn).
    exists (S i). simpl. repeat split; auto; lia.
Qed.

(* index_of finds the place of level j in axes, so it undoes pick *)
Lemma pick_index_of : forall {B : Type} (d : B) (l : list B) axes j, In j axes ->
  nth (index_of j axes 0) (pick d l axes) d = nth j l d.
Proof.
  intros B d l axes j Hj. destruct (index_of_spec j axes 0 Hj) as (i & -> & Hi & <-).
  unfold pick. simpl. rewrite (nth_indep _ d (nth O l d)) by (rewrite map_length; auto).
  apply (map_nth (fun a => nth a l d)).
Qed.

Lemma prodZ_datashape : forall (ls : list pat), prodZ (datashape ls) = Z.of_nat (length (product ls)).
Proof.
  induction ls as [|l ls IH].
  - reflexivity.
  - change (prodZ (datashape (l :: ls))) with (Z.of_nat (length l) * prodZ (datashape ls)).
    rewrite IH. cbn [product].
    rewrite (flat_map_uniform_length _ (length (product ls))) by (intros; apply map_length). lia.
Qed.

Lemma pos_of_to_seq : forall (ls : list pat) K, length K = length ls ->
  to_seq (map Z.of_nat K) (datashape ls) = Z.of_nat (pos_of ls K).
Proof.
  induction ls as [|l ls IH]; intros K HK; destruct K as [|k K]; simpl in HK; try discriminate.
  - reflexivity.
  - assert (HK' : length K = length ls) by (injection HK; auto).
    change (datashape (l :: ls)) with (Z.of_nat (length l) :: datashape ls).
    cbn [map]. rewrite to_seq_cons by (unfold datashape; rewrite !map_length; exact HK').
    rewrite IH by exact HK'. rewrite prodZ_datashape. cbn [pos_of]. lia.
Qed.

(* the shape of the permuted data tensor *)
Lemma datashape_pick : forall (bidx : list pat) axes, Forall (fun a => (a < length bidx)%nat) axes ->
  pick 1 (datashape bidx) axes = datashape (reorder_bidx bidx axes).
Proof.
  unfold reorder_bidx, pick, datashape. intros bidx axes HA. rewrite map_map. apply map_ext_in. intros a Ha.
  rewrite Forall_forall in HA. specialize (HA a Ha).
  rewrite (nth_indep _ 1 (Z.of_nat (length (@nil (Z * Z))))) by (rewrite map_length; auto).
  apply (map_nth (fun b : pat => Z.of_nat (length b))).
Qed.

(* np.transpose(data, axes) at the permuted multi-index is data at the original one *)
Lemma transpose_data_at : forall (bidx : list pat) data axes K, cvalid bidx K ->
  Forall (fun a => (a < length bidx)%nat) axes -> (forall j, (j < length bidx)%nat -> In j axes) ->
  nth (pos_of (reorder_bidx bidx axes) (pick O K axes)) (transpose_data (datashape bidx) data axes) 0
  = nth (pos_of bidx K) data 0.
Proof.
  intros bidx data axes K HK HA Hcov. pose proof (cvalid_length _ _ HK) as HL. unfold pat in *.
  unfold transpose_data. rewrite datashape_pick by auto.
  rewrite multi_index_nth by (apply cvalid_pick; auto).
  (* undoing the permutation of the digits gives K back *)
  replace (map _ (seq 0 (length (datashape bidx)))) with (map Z.of_nat K).
  - rewrite pos_of_to_seq by auto. rewrite Nat2Z.id. reflexivity.
  - rewrite <- (pick_map Z.of_nat O). unfold datashape at 1. rewrite map_length, <- HL.
    rewrite <- (map_nth_seq 0 (map Z.of_nat K)) at 1. rewrite map_length.
    apply map_ext_in. intros j Hj. apply in_seq in Hj.
    symmetry. apply (pick_index_of 0). apply Hcov. lia.
Qed.

(* a valid multi-index into the data tensor selects valid row and column digits *)
Lemma sel_of_valid : forall bs bidx K, wf_structure bs bidx -> cvalid bidx K ->
  valid_mi (map fst (sel_of (0, 0) bidx K)) (rowdims bs) /\
  valid_mi (map snd (sel_of (0, 0) bidx K)) (coldims bs).
Proof.
  intros bs bidx K Hwf HK. apply (sel_valid bidx); auto. apply product_In.
  destruct (product_nth (0, 0) bidx K HK) as [Hp <-]. apply nth_In; auto.
Qed.

(* the repaired numbering n_k*i + j is what reindex_to_multilevel assigns to the digits (i, j) *)
Lemma gen_ms_zip3 : forall bs bidx K,
  gen_ms (sequential_bidx_fixed bs bidx) K
  = zip3 (map fst (sel_of (0, 0) bidx K)) (map snd (sel_of (0, 0) bidx K)) bs.
Proof.
  induction bs as [|[m n] bs IH]; intros [|b bidx] [|k K]; try reflexivity.
  change (gen_ms (sequential_bidx_fixed ((m, n) :: bs) (b :: bidx)) (k :: K))
    with (nth k (map (fun e => n * fst e + snd e) b) 0 :: gen_ms (sequential_bidx_fixed bs bidx) K).
  cbn [sel_of map zip3]. rewrite IH. f_equal.
  replace 0 with (n * fst (0, 0) + snd (0, 0)) at 1 by (simpl; lia).
  rewrite (map_nth (fun e => n * fst e + snd e) b (0, 0)). unfold to_seq. simpl. ring.
Qed.
