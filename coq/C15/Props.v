(* C15 -- the property theorems.  All statements are unbounded: any number of levels, any block
   sizes (square or rectangular), any per-level pattern (any order of its entries, any first
   non-zero position, possibly empty).  What is left unproved is listed at the end of Props2.v. *)
From Coq Require Import ZArith List Bool Lia.
From Verif.lib Require Import ListFacts.
From Verif.C15 Require Import Model Spec Proofs Proofs2 Proofs3 Proofs4.
Import ListNotations.
Open Scope Z_scope.

(* ---- index maps: sequential <-> multi-index are mutually inverse bijections ---- *)
Theorem seq_bijection_to_from : forall dims i, dims_pos dims -> 0 <= i < prodZ dims ->
  to_seq (from_seq i dims) dims = i.
Proof. exact to_seq_from_seq. Qed.
Print Assumptions seq_bijection_to_from.

Theorem seq_bijection_from_to : forall dims I, valid_mi I dims -> from_seq (to_seq I dims) dims = I.
Proof. exact from_seq_to_seq. Qed.
Print Assumptions seq_bijection_from_to.

Theorem seq_bijection_ranges : forall dims,
  (forall I, valid_mi I dims -> 0 <= to_seq I dims < prodZ dims) /\
  (forall i, dims_pos dims -> 0 <= i < prodZ dims -> valid_mi (from_seq i dims) dims).
Proof.
  intros dims. split.
  - intros I. apply to_seq_range.
  - apply from_seq_valid.
Qed.
Print Assumptions seq_bijection_ranges.

(* ---- sequential (i,j) <-> multilevel index: mutually inverse ---- *)
Theorem reindex_inverse : forall bs i j,
  dims_pos (rowdims bs) -> dims_pos (coldims bs) ->
  0 <= i < fst (shape bs) -> 0 <= j < snd (shape bs) ->
  reindex_from_multilevel (reindex_to_multilevel i j bs) bs = (i, j).
Proof.
  intros bs i j Hr Hc Hi Hj. unfold reindex_to_multilevel.
  rewrite reindex_from_multilevel_zip3 by (apply from_seq_valid; auto).
  rewrite !to_seq_from_seq; auto.
Qed.
Print Assumptions reindex_inverse.

Theorem reindex_inverse_conv : forall bs M, valid_ml M bs ->
  let ij := reindex_from_multilevel M bs in
  reindex_to_multilevel (fst ij) (snd ij) bs = M
  /\ 0 <= fst ij < fst (shape bs) /\ 0 <= snd ij < snd (shape bs).
Proof.
  intros bs M HM. destruct (quots_rems_valid M bs HM) as (V1 & V2 & Z3).
  cbv zeta. unfold reindex_to_multilevel.
  rewrite reindex_from_multilevel_digits by (eapply Forall2_length; eauto). cbn [fst snd].
  rewrite !from_seq_to_seq by auto. split; auto.
  split; apply to_seq_range; auto.
Qed.
Print Assumptions reindex_inverse_conv.

(* reordered (Van Loan-Pitsianis) numbering = the two-level case, hence a bijection too *)
Theorem reindex_from_reordered_two_level : forall i j m1 n1 m2 n2,
  reindex_from_reordered i j m1 n1 m2 n2 = reindex_from_multilevel [i; j] [(m1, n1); (m2, n2)].
Proof. intros. unfold reindex_from_reordered, reindex_from_multilevel. simpl. f_equal. Qed.
Print Assumptions reindex_from_reordered_two_level.

(* ---- nonzero(): the Kronecker pattern in data-layout order; lower_tri = the J<=I sub-list ---- *)
Theorem nonzero_2d_spec : forall b1 b2 m1 n1 m2 n2 lt,
  ml_nonzero_2d b1 b2 [(m1, n1); (m2, n2)] lt
  = filter (keep lt) (kron_pattern [(m1, n1); (m2, n2)] [b1; b2]).
Proof. exact ml_nonzero_2d_kron. Qed.
Print Assumptions nonzero_2d_spec.

Theorem nonzero_3d_spec : forall b1 b2 b3 m1 n1 m2 n2 m3 n3 lt,
  ml_nonzero_3d b1 b2 b3 [(m1, n1); (m2, n2); (m3, n3)] lt
  = filter (keep lt) (kron_pattern [(m1, n1); (m2, n2); (m3, n3)] [b1; b2; b3]).
Proof. exact ml_nonzero_3d_kron. Qed.
Print Assumptions nonzero_3d_spec.

(* the generic routine (odometer over cur_idx, with block_j initialised per level as in
   fixes/C15-nonzero-nd-block-j-init.patch), any number of levels *)
Theorem nonzero_nd_spec : forall bidx bs lt,
  ml_nonzero_nd bidx bs lt = filter (keep lt) (kron_pattern bs bidx).
Proof. exact ml_nonzero_nd_kron. Qed.
Print Assumptions nonzero_nd_spec.

(* MLStructure.nonzero with its dispatch on the number of levels (one level included:
   lower_tri filters the level pattern itself) *)
Theorem nonzero_spec : forall bs bidx lt, length bs = length bidx ->
  nonzero bs bidx lt = Some (filter (keep lt) (kron_pattern bs bidx)).
Proof. exact nonzero_kron. Qed.
Print Assumptions nonzero_spec.

(* the odometer of pyx_raveled_cartesian_product / ml_nonzero_nd enumerates the Cartesian
   product in C order *)
Theorem odometer_is_product : forall (A : Type) (d : A) (ls : list (list A)), odo_enum d ls = product ls.
Proof. exact (@odo_enum_product). Qed.
Print Assumptions odometer_is_product.

(* kron_pattern is, as a set, the positionwise Kronecker product: (I,J) is reported iff at
   every level the pair of digits (I_k, J_k) belongs to the level pattern *)
Theorem kron_pattern_is_kronecker : forall bs bidx I J,
  wf_structure bs bidx -> dims_pos (rowdims bs) -> dims_pos (coldims bs) ->
  (In (I, J) (kron_pattern bs bidx) <-> kron_nonzero bs bidx I J).
Proof. exact kron_pattern_mem. Qed.
Print Assumptions kron_pattern_is_kronecker.

(* ---- transposition ---- *)
Theorem transpose_spec : forall bs bidx,
  kron_pattern (transpose_bs bs) (transpose_bidx bidx) = map swap (kron_pattern bs bidx).
Proof.
  intros. unfold kron_pattern, transpose_bidx. rewrite product_map, !map_map.
  apply map_ext. intros sel. unfold entry_of.
  rewrite !rowdims_transpose, !coldims_transpose. reflexivity.
Qed.
Print Assumptions transpose_spec.

Theorem transpose_involution : forall bs bidx,
  transpose_bs (transpose_bs bs) = bs /\ transpose_bidx (transpose_bidx bidx) = bidx.
Proof.
  intros. unfold transpose_bs, transpose_bidx. rewrite !map_map. split.
  - rewrite <- (map_id bs) at 2. apply map_ext. apply swap_swap.
  - rewrite <- (map_id bidx) at 2. apply map_ext. intros b.
    rewrite map_map. rewrite <- (map_id b) at 2. apply map_ext. apply swap_swap.
Qed.
Print Assumptions transpose_involution.

(* ---- per-row / per-column queries: exactly the entries of those rows (columns), row by
   row in the order of `rows` (unsorted, repeated or empty lists included), inside a row in
   pattern order; indices outside the matrix are refused ---- *)
Theorem rows_spec : forall bs bidx rows l,
  wf_structure bs bidx -> dims_pos (rowdims bs) ->
  nonzeros_for_rows bs bidx rows = Some l ->
  map (fun t => (fst (fst t), snd (fst t))) l
  = flat_map (fun r => filter (fun e => fst e =? r) (kron_pattern bs bidx)) rows.
Proof.
  intros bs bidx rows l Hwf Hp H. apply nonzeros_for_rows_Some in H. destruct H as [HF ->].
  apply rows_loop_spec; auto.
Qed.
Print Assumptions rows_spec.

Theorem rows_defined : forall bs bidx rows,
  (exists l, nonzeros_for_rows bs bidx rows = Some l) <-> Forall (fun r => 0 <= r < fst (shape bs)) rows.
Proof.
  intros. split.
  - intros [l H]. apply nonzeros_for_rows_Some in H. tauto.
  - intros H. eexists. apply nonzeros_for_rows_Some. eauto.
Qed.
Print Assumptions rows_defined.

Theorem cols_spec : forall bs bidx cols l,
  wf_structure bs bidx -> dims_pos (coldims bs) ->
  nonzeros_for_columns bs bidx cols = Some l ->
  l = flat_map (fun c => filter (fun e => snd e =? c) (kron_pattern bs bidx)) cols.
Proof.
  intros bs bidx cols l Hwf Hp H. unfold nonzeros_for_columns in H.
  destruct (nonzeros_for_rows (transpose_bs bs) (transpose_bidx bidx) cols) as [l'|] eqn:E; [|discriminate].
  injection H as <-.
  apply rows_spec in E; [|apply wf_transpose; auto|rewrite rowdims_transpose; auto].
  rewrite transpose_spec in E.
  rewrite <- (map_map (fun t : Z * Z * Z => (fst (fst t), snd (fst t))) swap), E, map_flat_map.
  apply flat_map_ext. intros c. apply filter_row_swap.
Qed.
Print Assumptions cols_spec.

(* ---- matrix-vector product = dense matrix (denoted by the data tensor) times vector, with
   the output vector of shape[0] entries (fixes/C15-matvec-rectangular.patch): never an
   out-of-range write, correct length, correct entries; rectangular blocks included ---- *)
Theorem matvec_spec : forall bs bidx data x,
  wf_structure bs bidx -> length bs = length bidx -> 0 <= fst (shape bs) -> 0 <= snd (shape bs) ->
  exists y, matvec bs bidx data x = Some y /\
    Z.of_nat (length y) = fst (shape bs) /\
    forall r, 0 <= r < fst (shape bs) ->
      nth (Z.to_nat r) y 0 = dense_matvec (triples bs bidx data) (Z.to_nat (snd (shape bs))) x r.
Proof.
  intros bs bidx data x Hwf Hl HM HN. unfold matvec. apply matvec_loop_zeros; auto.
  intros i j v Hin. rewrite triples_spec in Hin by auto. apply in_combine_l in Hin.
  rewrite Z2Nat.id by auto. apply (kron_pattern_range bs bidx (i, j) Hwf Hin).
Qed.
Print Assumptions matvec_spec.

(* ---- pattern of two spline spaces: for support arrays with non-decreasing starts and ends
   (the supports of the B-splines of a knot vector, as intervals of knot values) the result is
   exactly the set of pairs (i, j) whose supports overlap in positive length ---- *)
Theorem sparsity_ij_spec : forall supp1 supp2,
  Sorted.StronglySorted Z.le (map fst supp1) -> Sorted.StronglySorted Z.le (map snd supp1) ->
  Forall nonempty_supp supp1 -> Forall nonempty_supp supp2 ->
  forall a b, In (a, b) (compute_sparsity_ij supp1 supp2) <->
    (0 <= a /\ 0 <= b /\ exists s2 s1,
      nth_error supp2 (Z.to_nat a) = Some s2 /\ nth_error supp1 (Z.to_nat b) = Some s1 /\ overlap s2 s1).
Proof.
  intros supp1 supp2 HS1 HS2 HN1 HN2 a b. split.
  - intros H. destruct (sparsity_sound _ _ _ _ H) as (n & k & s2 & s1 & -> & -> & H2 & H1 & Ho).
    split; [lia|]. split; [lia|]. exists s2, s1. rewrite !Nat2Z.id. auto.
  - intros (Ha & Hb & s2 & s1 & H2 & H1 & Ho).
    rewrite <- (Z2Nat.id a), <- (Z2Nat.id b) by lia.
    eapply sparsity_complete; eauto.
Qed.
Print Assumptions sparsity_ij_spec.

(* ---- conversion to a sparse matrix: entry (r,c) of asmatrix() is the sum of the data entries
   whose position in the compact layout is (r,c) ---- *)
Theorem asmatrix_spec : forall bs bidx data r c, length bs = length bidx ->
  dense_entry (asmatrix bs bidx data) r c = dense_entry (combine (kron_pattern bs bidx) data) r c.
Proof. exact asmatrix_dense. Qed.
Print Assumptions asmatrix_spec.

(* ---- histories on one MLMatrix object: in the model a query is a function of the structure
   and the CURRENT data tensor only; after an accepted assignment `M.data = d` (preceded by any
   queries/assignments) and followed by queries only, the object denotes d.  The tie replays
   such histories on one implementation object and compares every answer with
   asmatrix/matvec/nonzero/reorder of the model at [hist_run] of the prefix. ---- *)
Theorem history_last_assignment : forall bs bidx data before d after,
  set_ok bidx d = true -> Forall (fun op => op = OpQuery) after ->
  hist_run bs bidx data (before ++ OpSet d :: after) = d.
Proof.
  intros bs bidx data before d after Hok Hq. rewrite hist_run_app.
  change (OpSet d :: after) with ([OpSet d] ++ after).
  rewrite hist_run_app, hist_queries by auto.
  unfold hist_run. simpl. rewrite Hok. reflexivity.
Qed.
Print Assumptions history_last_assignment.

(* ---- the supports of a knot vector (non-decreasing, no knot of multiplicity > p+1) are
   monotone and non-empty, so sparsity_ij_spec applies to from_kvs: stated on the knot
   vectors themselves ---- *)
Theorem supports_monotone : forall kv p, knot_vector kv p ->
  Sorted.StronglySorted Z.le (map fst (supports kv p)) /\
  Sorted.StronglySorted Z.le (map snd (supports kv p)) /\
  Forall nonempty_supp (supports kv p).
Proof.
  intros kv p [HS Hm]. unfold supports. rewrite !map_map. simpl. repeat split.
  - apply sorted_map_seq. intros i j _ Hij Hj. apply sorted_nth_mono; auto. lia.
  - apply sorted_map_seq. intros i j _ Hij Hj. apply sorted_nth_mono; auto; lia.
  - apply Forall_forall. intros s Hs. apply in_map_iff in Hs. destruct Hs as (i & <- & Hi).
    apply in_seq in Hi. unfold nonempty_supp. simpl. apply Hm. lia.
Qed.
Print Assumptions supports_monotone.

Theorem sparsity_ij_knot_vectors : forall kv1 p1 kv2 p2,
  knot_vector kv1 p1 -> knot_vector kv2 p2 ->
  forall a b, In (a, b) (compute_sparsity_ij (supports kv1 p1) (supports kv2 p2)) <->
    (0 <= a /\ 0 <= b /\ exists s2 s1,
      nth_error (supports kv2 p2) (Z.to_nat a) = Some s2 /\
      nth_error (supports kv1 p1) (Z.to_nat b) = Some s1 /\ overlap s2 s1).
Proof.
  intros kv1 p1 kv2 p2 H1 H2.
  destruct (supports_monotone kv1 p1 H1) as (A1 & A2 & A3).
  destruct (supports_monotone kv2 p2 H2) as (_ & _ & B3).
  apply sparsity_ij_spec; auto.
Qed.
Print Assumptions sparsity_ij_knot_vectors.

(* ---- get_transpose_idx_for_bidx: on a duplicate-free level pattern the answer t sends k to
   the position of the mirrored entry and is an involution; it answers (no KeyError) exactly
   on structurally symmetric patterns ---- *)
Theorem transpose_idx_involution : forall b t, NoDup b -> transpose_idx b = Some t ->
  length t = length b /\
  forall k, (k < length b)%nat ->
    let k' := Z.to_nat (nth k t 0) in
    0 <= nth k t 0 /\ (k' < length b)%nat /\
    nth k' b (0, 0) = swap (nth k b (0, 0)) /\
    nth k' t 0 = Z.of_nat k.
Proof.
  intros b t ND H. split; [apply transpose_idx_length; auto|]. intros k Hk. cbv zeta.
  destruct (transpose_idx_mirror b t k H Hk) as (i & Ti & Hi & Bi). rewrite Ti, Nat2Z.id.
  split; [lia|]. split; auto. split; auto.
  (* the mirror of the mirror is an entry equal to b[k], hence b[k] itself *)
  destruct (transpose_idx_mirror b t i H Hi) as (i2 & Ti2 & Hi2 & Bi2). rewrite Ti2. f_equal.
  apply (proj1 (NoDup_nth b (0, 0)) ND i2 k Hi2 Hk). rewrite Bi2, Bi. apply swap_swap.
Qed.
Print Assumptions transpose_idx_involution.

Theorem transpose_idx_defined : forall b,
  (exists t, transpose_idx b = Some t) <-> (forall e, In e b -> In (swap e) b).
Proof.
  intros b. split.
  - intros [t H] e He. destruct (In_nth b e (0, 0) He) as (k & Hk & <-).
    destruct (transpose_idx_mirror b t k H Hk) as (i & _ & Hi & <-). apply nth_In; auto.
  - apply transpose_idx_answers.
Qed.
Print Assumptions transpose_idx_defined.

(* ---- utils.kron_partial against the dense Kronecker product
   (A (x) B)[r,c] = A[r div mB, c div nB] * B[r mod mB, c mod nB] (kron_rec, right-nested over
   the factors), for rectangular non-empty integer factor matrices.  The value kron_partial
   writes at (r,c), the product of the factors' entries at the digits of r and c (kron_pos), is
   that entry ---- *)
Theorem kron_pos_is_kron : forall As r c, Forall rect As -> 0 <= r -> 0 <= c ->
  r < prodZ (rowdims (map mat_shape As)) -> c < prodZ (coldims (map mat_shape As)) ->
  kron_pos As r c = kron_rec As r c.
Proof. exact kron_pos_rec. Qed.
Print Assumptions kron_pos_is_kron.

(* restrict=False, duplicate-free rows: entry (r,c) of the result is the Kronecker entry if r is
   a selected row and 0 otherwise *)
Theorem kron_partial_spec : forall As rows ts, Forall rect As -> NoDup rows ->
  kron_partial As rows false = Some ts ->
  forall r c, 0 <= r < fst (shape (map mat_shape As)) -> 0 <= c < snd (shape (map mat_shape As)) ->
  dense_entry ts r c = if existsb (Z.eqb r) rows then kron_rec As r c else 0.
Proof.
  intros As rows ts HR ND H r c Hr Hc. rewrite (kron_partial_rows As rows ts HR H r c Hr Hc).
  destruct (existsb (Z.eqb r) rows) eqn:Ex.
  - apply existsb_eqb_In in Ex. rewrite (proj1 (NoDup_count_occ' Z.eq_dec rows) ND r Ex). lia.
  - replace (count_occ Z.eq_dec rows r) with O; [lia|].
    symmetry. apply count_occ_not_In. rewrite <- existsb_eqb_In. congruence.
Qed.
Print Assumptions kron_partial_spec.

(* restrict=True: row q of the result is row rows[q] of the dense Kronecker product, for any list
   of valid rows (unsorted, repeated) *)
Theorem kron_partial_restrict_spec : forall As rows ts, Forall rect As ->
  kron_partial As rows true = Some ts ->
  forall q r c, nth_error rows q = Some r -> 0 <= c < snd (shape (map mat_shape As)) ->
  dense_entry ts (Z.of_nat q) c = kron_rec As r c.
Proof.
  intros As rows ts HR H q r c Hq Hc. apply kron_partial_Some in H. destruct H as [HF ->].
  destruct (shapes_pos As HR) as [P1 _].
  rewrite canon_dense, (rows_loop_restrict (kron_pos As)) by auto using wf_from_matrices.
  destruct (Z.ltb_spec (Z.of_nat q) 0); [lia|].
  rewrite Z.sub_0_r, Nat2Z.id, Hq. apply kron_entry; auto.
  rewrite Forall_forall in HF. apply HF. eapply nth_error_In; eauto.
Qed.
Print Assumptions kron_partial_restrict_spec.

(* the positions of a Kronecker pattern of duplicate-free level patterns are pairwise distinct *)
Theorem kron_pattern_distinct : forall bs bidx, wf_structure bs bidx -> Forall (@NoDup (Z * Z)) bidx ->
  NoDup (kron_pattern bs bidx).
Proof. exact kron_pattern_NoDup. Qed.
Print Assumptions kron_pattern_distinct.

(* ---- level reordering (MLMatrix.reorder(axes) = permuted structure + np.transpose of the data):
   K is a multi-index into the compact data tensor (K_k addresses the K_k-th entry of level k;
   [cvalid bidx K]), sel the level entries it selects.  The datum data[K] sits in asmatrix() at the
   row/column with digits sel, and in reorder(axes).asmatrix() at the PERMUTED digits -- every
   number of levels, rectangular blocks, duplicate-free level patterns in any order, every list
   `axes` of valid levels that covers all levels (in particular every permutation) ---- *)
Theorem reorder_spec : forall bs bidx data axes K,
  wf_structure bs bidx -> Forall (@NoDup (Z * Z)) bidx -> cvalid bidx K ->
  Forall (fun a => (a < length bidx)%nat) axes -> (forall j, (j < length bidx)%nat -> In j axes) ->
  let sel := sel_of (0, 0) bidx K in
  let e := entry_of bs sel in
  let e' := entry_of (reorder_bs bs axes) (pick (0, 0) sel axes) in
  dense_entry (reorder_asmatrix bs bidx data axes) (fst e') (snd e')
  = dense_entry (asmatrix bs bidx data) (fst e) (snd e)
  /\ dense_entry (asmatrix bs bidx data) (fst e) (snd e) = nth (pos_of bidx K) data 0.
Proof.
  intros bs bidx data axes K Hwf HN HK HA Hcov. cbv zeta.
  pose proof (asm_entry_at bs bidx data K Hwf HN HK) as E1. cbv zeta in E1.
  split; [|exact E1]. rewrite E1.
  pose proof (asm_entry_at (reorder_bs bs axes) (reorder_bidx bidx axes)
                (transpose_data (datashape bidx) data axes) (pick O K axes)
                (wf_pick _ _ _ Hwf HA) (Forall_pick _ _ _ _ HN HA)) as E2.
  cbv zeta in E2. unfold reorder_asmatrix, reorder_bidx in *.
  rewrite !(sel_of_pick (0, 0) bidx K axes HK HA) in E2.
  rewrite E2 by (apply cvalid_pick; auto).
  apply (transpose_data_at bidx data axes K); auto.
Qed.
Print Assumptions reorder_spec.

(* the n-th element of the Cartesian product in C order is the selection with mixed-radix digits n *)
Theorem product_nth_spec : forall (B : Type) (d : B) (ls : list (list B)) (K : list nat),
  cvalid ls K ->
  (pos_of ls K < length (product ls))%nat /\ nth (pos_of ls K) (product ls) [] = sel_of d ls K.
Proof. exact (@product_nth). Qed.
Print Assumptions product_nth_spec.
