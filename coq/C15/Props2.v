(* C15 -- further property theorems: the zero part of reorder, kron_partial with repeated rows,
   the sequential numbering of level patterns and the index map of ReorderedTensorGenerator.
   Same conventions as Props.v. *)
From Coq Require Import ZArith List Bool Lia.
From Verif.lib Require Import ListFacts.
From Verif.C15 Require Import Model Spec Proofs Proofs3 Proofs4 Model2.
Import ListNotations.
Open Scope Z_scope.

(* ---- asmatrix() is zero at every position outside the Kronecker pattern ---- *)
Theorem asmatrix_zero_outside : forall bs bidx data r c, length bs = length bidx ->
  ~ In (r, c) (kron_pattern bs bidx) -> dense_entry (asmatrix bs bidx data) r c = 0.
Proof. intros. rewrite asmatrix_dense by auto. apply dense_entry_combine_notin. auto. Qed.
Print Assumptions asmatrix_zero_outside.

(* ---- reorder(axes).asmatrix() is zero outside the Kronecker pattern of the PERMUTED levels
   (any list `axes`, any data); with reorder_spec (every datum sits at its permuted position) this
   determines every entry of the reordered matrix ---- *)
Theorem reorder_zero_outside : forall bs bidx data axes r c,
  ~ In (r, c) (kron_pattern (reorder_bs bs axes) (reorder_bidx bidx axes)) ->
  dense_entry (reorder_asmatrix bs bidx data axes) r c = 0.
Proof.
  intros. unfold reorder_asmatrix. apply asmatrix_zero_outside; auto.
  unfold reorder_bs, reorder_bidx, pick. rewrite !map_length. reflexivity.
Qed.
Print Assumptions reorder_zero_outside.

(* positionwise form: a non-zero entry of the reordered matrix has, at every level i, its pair of
   digits in level pattern axes[i] *)
Theorem reorder_support : forall bs bidx data axes r c,
  wf_structure bs bidx -> dims_pos (rowdims bs) -> dims_pos (coldims bs) ->
  Forall (fun a => (a < length bidx)%nat) axes ->
  dense_entry (reorder_asmatrix bs bidx data axes) r c <> 0 ->
  kron_nonzero (reorder_bs bs axes) (reorder_bidx bidx axes) r c.
Proof.
  intros bs bidx data axes r c Hwf HR HC HA Hnz.
  assert (HA' : Forall (fun a => (a < length bs)%nat) axes)
    by (rewrite <- (Forall2_length _ _ _ Hwf); auto).
  destruct (dims_pos_pick bs axes HA' HR HC) as [P1 P2].
  apply kron_pattern_mem; auto; [apply wf_pick; auto|].
  unfold reorder_asmatrix in Hnz. rewrite asmatrix_dense in Hnz
    by (unfold reorder_bs, reorder_bidx, pick; rewrite !map_length; reflexivity).
  apply dense_entry_combine_In in Hnz. exact Hnz.
Qed.
Print Assumptions reorder_support.

(* ---- utils.kron_partial, restrict=False, ANY list of valid rows (unsorted, repeated): scipy
   sums duplicate positions, so row r of the result is (number of occurrences of r in `rows`)
   times row r of the dense Kronecker product ---- *)
Theorem kron_partial_repeated_rows_spec : forall As rows ts, Forall rect As ->
  kron_partial As rows false = Some ts ->
  forall r c, 0 <= r < fst (shape (map mat_shape As)) -> 0 <= c < snd (shape (map mat_shape As)) ->
  dense_entry ts r c = Z.of_nat (count_occ Z.eq_dec rows r) * kron_rec As r c.
Proof. exact kron_partial_rows. Qed.
Print Assumptions kron_partial_repeated_rows_spec.

(* ---- sequential numbering of the level patterns (sequential_bidx, repaired) and the index map
   of ReorderedTensorGenerator: for the multi-index K into the compact data tensor the generator
   asks the assembler for the matrix position of the K-th datum, i.e. the pos_of(K)-th entry of
   nonzero() -- every number of levels, rectangular blocks ---- *)
Theorem tensor_generator_index_spec : forall bs bidx K, wf_structure bs bidx -> cvalid bidx K ->
  tensor_gen_index bs bidx K = entry_of bs (sel_of (0, 0) bidx K)
  /\ tensor_gen_index bs bidx K = nth (pos_of bidx K) (kron_pattern bs bidx) (entry_of bs []).
Proof.
  intros bs bidx K Hwf Hc.
  assert (E : tensor_gen_index bs bidx K = entry_of bs (sel_of (0, 0) bidx K)).
  { destruct (sel_of_valid bs bidx K Hwf Hc) as [V1 V2].
    unfold tensor_gen_index. rewrite gen_ms_zip3. apply reindex_from_multilevel_zip3; auto. }
  split; auto. rewrite E. symmetry. apply map_product_nth. auto.
Qed.
Print Assumptions tensor_generator_index_spec.

(* the numbering as it stood (m_k*i + j) gives two entries of a 2x3 block the same number and
   makes the generator ask for a wrong position: defect impl:sequential-bidx:rectangular *)
Theorem sequential_bidx_as_written_refuted :
  exists bs bidx K, wf_structure bs bidx /\ Forall (@NoDup (Z * Z)) bidx /\ cvalid bidx K /\
    tensor_gen_index_as_written bs bidx K <> entry_of bs (sel_of (0, 0) bidx K) /\
    nth 2 (nth 0 (sequential_bidx bs bidx) []) 0 = nth 3 (nth 0 (sequential_bidx bs bidx) []) 0.
Proof.
  exists [(2, 3)], [[(0, 0); (0, 1); (0, 2); (1, 0); (1, 1); (1, 2)]], [3%nat].
  split; [|split; [|split; [|split]]].
  - repeat constructor; simpl; lia.
  - constructor; [|constructor]. repeat (constructor; [simpl; intuition congruence|]). constructor.
  - simpl. lia.
  - vm_compute. congruence.
  - reflexivity.
Qed.
Print Assumptions sequential_bidx_as_written_refuted.

(* NOT PROVED (tie + oracle only):
   transpose_idx for patterns with duplicate entries (the dict keeps the last one);
   kron_rec is not formally identified with C16's kron_ent;
   reorder: the single statement "entry (r,c) of reorder(axes).asmatrix() = entry at the
     back-permuted digits of asmatrix()" for ALL (r,c) is not stated as one theorem: it is the
     conjunction of reorder_spec (positions of the pattern) and reorder_zero_outside (all others);
   state across several products on one MLMatrix object (result buffers) is outside the model:
     the model's matvec is a pure function; the tie replays product histories (see c15.py). *)
