(* C16 -- non-vacuity for PropsField.v: a concrete instance over mathcomp's integers meets eigh_ok
   (with a non-diagonal U), and the derived right-inverse identity evaluates as stated. *)
From mathcomp Require Import ssreflect ssrfun ssrbool eqtype ssrnat seq ssralg ssrint.
From Verif.C16 Require Import Model Model2 Proofs Proofs2 FieldBridge.
Import GRing.Theory.
Local Open Scope ring_scope.

Definition imat (r c : nat) (d : seq int) : mat int_comRing := mkmat int_comRing r c (fun i j => nth 0 d (i * c + j)).

(* K = [[-1,0],[0,1]], M = I, U = exchange matrix, lam = (1,-1):  K U = M U diag(lam), U^T M U = I *)
Definition ex_fld : eigfac int_comRing :=
  mkeig int_comRing (imat 2 2 [:: -1; 0; 0; 1]) (imat 2 2 [:: 1; 0; 0; 1]) (imat 2 2 [:: 0; 1; 1; 0])
        (fun c => nth 0 [:: 1; -1] c) 2.

Example ex_eigh_ok : @eigh_ok int_comRing ex_fld.
Proof.
do 6![split=> //]; split=> [i c|a b] /ltP Hi /ltP Hc.
- by case: i Hi => [|[|i]] // _; case: c Hc => [|[|c]].
- by case: a Hi => [|[|a]] // _; case: b Hc => [|[|b]].
Qed.

Example ex_right_inverse :
  Model.sumn int_comRing 0 +%R 2
    (fun c => Model.sumn int_comRing 0 +%R 2 (fun j => ment _ (fM _ ex_fld) 0%N j * ment _ (fU _ ex_fld) j c) * ment _ (fU _ ex_fld) 0%N c) = 1.
Proof. by []. Qed.
