(* C16 -- bridge to mathcomp (ssreflect style, kept separate from the stdlib-style files):
   over any commutative ring in mathcomp's hierarchy (comRingType: every field, Z, Q, ...)
   a left inverse of a square matrix is a right inverse (matrix.mulmx1C, via the adjugate), hence
   eigh's contract  U^T M U = I  gives the form  (M U) U^T = I  used by fastdiag_inverts. *)
From mathcomp Require Import ssreflect ssrfun ssrbool eqtype ssrnat seq fintype bigop ssralg matrix.
From Verif.C16 Require Import Model Model2 Proofs Proofs2.
Set Implicit Arguments.
Unset Strict Implicit.
Unset Printing Implicit Defensive.
Import GRing.Theory.
Local Open Scope ring_scope.

Section Bridge.
Variable F : comRingType.

Notation fadd := (@GRing.add F).
Notation fmul := (@GRing.mul F).
Notation fopp := (@GRing.opp F).
Notation fsub := (fun x y : F => x - y).
Notation fsumn := (Model.sumn F (0 : F) fadd).

Lemma Fth : ring_theory (0 : F) 1 fadd fmul fsub fopp eq.
Proof.
split.
- exact: add0r.
- exact: addrC.
- exact: addrA.
- exact: mul1r.
- exact: mulrC.
- exact: mulrA.
- exact: mulrDl.
- by [].
- exact: subrr.
Qed.

Lemma sumnE n (f : nat -> F) : fsumn n f = \sum_(i < n) f i.
Proof.
rewrite -(big_mkord xpredT f).
elim: n => [|n IH] /=; first by rewrite big_geq.
by rewrite IH big_nat_recr.
Qed.

Lemma eqbE (a b : nat) : Nat.eqb a b = (a == b).
Proof. by apply/idP/eqP => /PeanoNat.Nat.eqb_eq. Qed.

Lemma natrb (b : bool) : (b%:R : F) = if b then 1 else 0.
Proof. by case: b. Qed.

Definition mx n (A : mat F) : 'M[F]_n := \matrix_(i, j) ment F A i j.

(* U^T (M U) = I  ==>  (M U) U^T = I, entrywise in the sumn form of Proofs2.eig_ok *)
Lemma left_inverse_is_right n (U M : mat F) :
  (forall a b, (a < n)%coq_nat -> (b < n)%coq_nat ->
     fsumn n (fun i => ment F U i a * fsumn n (fun j => ment F M i j * ment F U j b)) =
     if Nat.eqb a b then 1 else 0) ->
  forall i l, (i < n)%coq_nat -> (l < n)%coq_nat ->
     fsumn n (fun c => fsumn n (fun j => ment F M i j * ment F U j c) * ment F U l c) =
     if Nat.eqb i l then 1 else 0.
Proof.
move=> H i l /ltP Hi /ltP Hl.
pose A : 'M[F]_n := (mx n U)^T.
pose B : 'M[F]_n := mx n M *m mx n U.
have AB : A *m B = 1%:M.
  apply/matrixP => a b; rewrite !mxE.
  have := H a b (ltP (ltn_ord a)) (ltP (ltn_ord b)).
  rewrite natrb -val_eqE /= sumnE eqbE => <-.
  apply: eq_bigr => k _; rewrite !mxE sumnE; congr (_ * _).
  by apply: eq_bigr => j _; rewrite !mxE.
have /matrixP/(_ (Ordinal Hi) (Ordinal Hl)) := mulmx1C AB.
rewrite !mxE natrb -val_eqE /= eqbE => <-.
rewrite sumnE; apply: eq_bigr => c _; rewrite !mxE sumnE; congr (_ * _).
by apply: eq_bigr => j _; rewrite !mxE.
Qed.

(* the contract scipy.linalg.eigh(K, M) actually provides *)
Definition eigh_ok (f : eigfac F) : Prop :=
  mrows F (fK F f) = fn F f /\ mcols F (fK F f) = fn F f /\ mrows F (fM F f) = fn F f /\ mcols F (fM F f) = fn F f /\
  mrows F (fU F f) = fn F f /\ mcols F (fU F f) = fn F f /\
  (forall i c, (i < fn F f)%coq_nat -> (c < fn F f)%coq_nat ->
     fsumn (fn F f) (fun j => ment F (fK F f) i j * ment F (fU F f) j c) =
     fsumn (fn F f) (fun j => ment F (fM F f) i j * ment F (fU F f) j c) * flam F f c) /\
  (forall a b, (a < fn F f)%coq_nat -> (b < fn F f)%coq_nat ->
     fsumn (fn F f) (fun i => ment F (fU F f) i a * fsumn (fn F f) (fun j => ment F (fM F f) i j * ment F (fU F f) j b)) =
     if Nat.eqb a b then 1 else 0).

Lemma eig_ok_of_eigh (f : eigfac F) : eigh_ok f -> eig_ok F 0 1 fadd fmul f.
Proof.
case=> K1 [K2 [M1 [M2 [U1 [U2 [HK HI]]]]]].
do 6![split=> //]; split=> //.
exact: left_inverse_is_right.
Qed.

End Bridge.
