(* C16 -- lemmas.  Everything is proved for an arbitrary commutative ring. *)
From Coq Require Import List Arith Bool Lia Ring.
From Verif.lib Require Import ListFacts.
From Verif.C16 Require Import Model Model3.
Import ListNotations.

Lemma divmod_lt : forall i a b, i < a * b -> i / b < a /\ i mod b < b.
Proof.
  intros i a b H. assert (b <> 0) by (intro; subst; lia). split.
  - apply Nat.div_lt_upper_bound; [assumption | lia].
  - apply Nat.mod_upper_bound. assumption.
Qed.

Section Proofs.
Variable R : Type.
Variables (rO rI : R) (radd rmul rsub : R -> R -> R) (ropp : R -> R).
Variable Rth : ring_theory rO rI radd rmul rsub ropp eq.
Add Ring Rring : Rth.

Notation "0" := rO.
Notation "1" := rI.
Infix "+" := radd.
Infix "*" := rmul.
Notation sumn := (sumn R rO radd).
Notation mv := (mv R rO radd rmul).

Lemma sumn_ext : forall n f g, (forall k, (k < n)%nat -> f k = g k) -> sumn n f = sumn n g.
Proof.
  induction n; simpl; intros; auto.
  rewrite (IHn f g), (H n); auto.
Qed.

Lemma sumn_all_zero : forall n f, (forall k, (k < n)%nat -> f k = 0) -> sumn n f = 0.
Proof. induction n; simpl; intros; auto. rewrite IHn, H by auto. ring. Qed.

Lemma sumn_zero : forall n, sumn n (fun _ => 0) = 0.
Proof. intros. apply sumn_all_zero. reflexivity. Qed.

Lemma sumn_add : forall n f g, sumn n (fun k => f k + g k) = sumn n f + sumn n g.
Proof. induction n; simpl; intros. ring. rewrite IHn. ring. Qed.

Lemma sumn_mul_l : forall n c f, sumn n (fun k => c * f k) = c * sumn n f.
Proof. induction n; simpl; intros. ring. rewrite IHn. ring. Qed.

Lemma sumn_mul_r : forall n c f, sumn n (fun k => f k * c) = sumn n f * c.
Proof. induction n; simpl; intros. ring. rewrite IHn. ring. Qed.

Lemma sumn_swap : forall n m (f : nat -> nat -> R),
  sumn n (fun i => sumn m (fun j => f i j)) = sumn m (fun j => sumn n (fun i => f i j)).
Proof.
  induction n; simpl; intros.
  - rewrite sumn_zero. reflexivity.
  - rewrite IHn, <- sumn_add. reflexivity.
Qed.

(* (A (B z))_i = ((A B) z)_i *)
Lemma sumn_assoc : forall n m (a : nat -> R) (b : nat -> nat -> R) (z : nat -> R),
  sumn n (fun j => a j * sumn m (fun c => b j c * z c)) = sumn m (fun c => sumn n (fun j => a j * b j c) * z c).
Proof.
  intros. transitivity (sumn n (fun j => sumn m (fun c => a j * b j c * z c))).
  - apply sumn_ext. intros j _. rewrite <- sumn_mul_l. apply sumn_ext. intros c _. ring.
  - rewrite sumn_swap. apply sumn_ext. intros c _. apply sumn_mul_r.
Qed.

Lemma sumn_delta_out : forall n i (f : nat -> R), (n <= i)%nat ->
  sumn n (fun k => if Nat.eqb k i then f k else 0) = 0.
Proof.
  intros. apply sumn_all_zero. intros k Hk.
  destruct (Nat.eqb_spec k i); auto. lia.
Qed.

Lemma sumn_delta : forall n i (f : nat -> R), (i < n)%nat ->
  sumn n (fun k => if Nat.eqb k i then f k else 0) = f i.
Proof.
  induction n; intros. lia.
  simpl. destruct (Nat.eqb_spec n i).
  - subst. rewrite sumn_delta_out by lia. ring.
  - rewrite IHn by lia. ring.
Qed.

Lemma sumn_delta_l : forall n i c (f : nat -> R), (i < n)%nat ->
  sumn n (fun k => (if Nat.eqb k i then c else 0) * f k) = c * f i.
Proof.
  intros. rewrite <- (sumn_delta n i (fun k => c * f k)) by assumption.
  apply sumn_ext. intros k _. destruct (Nat.eqb k i); ring.
Qed.

Lemma sumn_window : forall m N s (f : nat -> R), (s + m <= N)%nat ->
  sumn N (fun c => if (s <=? c) && (c <? s + m) then f (c - s) else 0) = sumn m f.
Proof.
  induction m; intros.
  - apply sumn_all_zero. intros k _.
    destruct (Nat.leb_spec s k), (Nat.ltb_spec k (s + 0)); cbn [andb]; auto. lia.
  - simpl. rewrite <- (IHm N s f) by lia.
    assert (Hd := sumn_delta N (s + m) (fun c => f (c - s))). simpl in Hd.
    replace (s + m - s)%nat with m in Hd by lia. rewrite <- Hd by lia. clear Hd.
    rewrite <- sumn_add. apply sumn_ext. intros k _.
    destruct (Nat.leb_spec s k), (Nat.ltb_spec k (s + S m)), (Nat.ltb_spec k (s + m)),
      (Nat.eqb_spec k (s + m)); cbn [andb]; try lia; try ring.
Qed.

(* the matrices DiagonalOperator, IdentityOperator and NullOperator stand for *)
Definition diag_dense (n : nat) (d : nat -> R) : mat R :=
  mkmat R n n (fun i j => if Nat.eqb j i then d i else 0).
Definition eye (n : nat) : mat R := mkmat R n n (fun i j => if Nat.eqb j i then 1 else 0).
Definition zeros (r c : nat) : mat R := mkmat R r c (fun _ _ => 0).

Lemma mv_zeros : forall r c x i, mv (zeros r c) x i = 0.
Proof. intros. apply sumn_all_zero. intros; simpl; ring. Qed.

(* entry (r,c) of the matrix that has block b at rows pro.., columns pci.. and zeros elsewhere *)
Definition placed_ent (b : placed R) (r c : nat) : R :=
  if (pro R b <=? r) && (r <? pro R b + mrows R (pb R b)) && ((pci R b <=? c) && (c <? pci R b + mcols R (pb R b)))
  then ment R (pb R b) (r - pro R b) (c - pci R b) else 0.

Definition sum_ent (bl : list (placed R)) (r c : nat) : R :=
  fold_right (fun b acc => placed_ent b r c + acc) 0 bl.

(* the dense definition: the sum of the placed blocks *)
Definition blocks_dense (M N : nat) (bl : list (placed R)) : mat R :=
  mkmat R M N (fun r c => fold_right (fun b acc => placed_ent b r c + acc) 0 bl).

Lemma blocks_dense_ent : forall M N bl r c, ment R (blocks_dense M N bl) r c = sum_ent bl r c.
Proof. reflexivity. Qed.

Lemma sum_ent_cons : forall b bl r c, sum_ent (b :: bl) r c = placed_ent b r c + sum_ent bl r c.
Proof. reflexivity. Qed.

Lemma placed_ent_at : forall B ro co r c,
  placed_ent (mkplaced R B ro co) (ro + r) (co + c) =
  if (r <? mrows R B) && (c <? mcols R B) then ment R B r c else 0.
Proof.
  intros. unfold placed_ent. cbn [pb pro pci].
  replace (ro + r - ro)%nat with r by lia. replace (co + c - co)%nat with c by lia.
  destruct (Nat.leb_spec ro (ro + r)), (Nat.leb_spec co (co + c)); try lia.
  destruct (Nat.ltb_spec (ro + r) (ro + mrows R B)), (Nat.ltb_spec r (mrows R B)); try lia;
    destruct (Nat.ltb_spec (co + c) (co + mcols R B)), (Nat.ltb_spec c (mcols R B)); try lia; reflexivity.
Qed.

Lemma sum_ent_outside : forall bl r c,
  (forall b, In b bl -> (r < pro R b \/ c < pci R b)%nat) -> sum_ent bl r c = 0.
Proof.
  induction bl as [|b bl IH]; intros r c H. reflexivity.
  rewrite sum_ent_cons, IH by (intros; apply H; right; assumption).
  unfold placed_ent.
  destruct (H b (or_introl eq_refl)), (Nat.leb_spec (pro R b) r), (Nat.leb_spec (pci R b) c);
    cbn [andb]; rewrite ?andb_false_r; try lia; ring.
Qed.

(* row r of a placed block times x: the block's own row on its column window *)
Lemma placed_row : forall N b x r, (pci R b + mcols R (pb R b) <= N)%nat ->
  sumn N (fun c => placed_ent b r c * x c) =
  if (pro R b <=? r) && (r <? pro R b + mrows R (pb R b))
  then mv (pb R b) (fun c => x (pci R b + c)%nat) (r - pro R b) else 0.
Proof.
  intros. unfold placed_ent.
  destruct ((pro R b <=? r) && (r <? pro R b + mrows R (pb R b))); simpl.
  - unfold Model.mv.
    rewrite <- (sumn_window (mcols R (pb R b)) N (pci R b)
                  (fun j => ment R (pb R b) (r - pro R b) j * x (pci R b + j)%nat)) by assumption.
    apply sumn_ext. intros k _.
    destruct (Nat.leb_spec (pci R b) k); cbn [andb]; [|ring].
    replace (pci R b + (k - pci R b))%nat with k by lia.
    destruct (k <? pci R b + mcols R (pb R b)); ring.
  - apply sumn_all_zero. intros; ring.
Qed.

(* a loop that adds, for each element of a list, a dense row times x accumulates the sum of the rows *)
Lemma acc_dense : forall (T : Type) (step : (nat -> R) -> T -> nat -> R) (e : T -> nat -> nat -> R) N x l,
  (forall b, In b l -> forall y r, step y b r = y r + sumn N (fun c => e b r c * x c)) ->
  forall y r, fold_left step l y r = y r + sumn N (fun c => fold_right (fun b acc => e b r c + acc) 0 l * x c).
Proof.
  induction l as [|a l IH]; intros H y r; simpl.
  - rewrite sumn_all_zero. ring. intros; ring.
  - rewrite IH by (intros; apply H; right; assumption). rewrite H by (left; reflexivity).
    rewrite (sumn_ext N (fun c => (e a r c + _) * x c)
               (fun c => e a r c * x c + fold_right (fun b acc => e b r c + acc) 0 l * x c))
      by (intros; ring).
    rewrite sumn_add. ring.
Qed.

Lemma base_block_matvec_dense : forall M N bl x r,
  (forall b, In b bl -> (pci R b + mcols R (pb R b) <= N)%nat) ->
  base_block_matvec R rO radd rmul bl x r = mv (blocks_dense M N bl) x r.
Proof.
  intros. unfold base_block_matvec. rewrite (acc_dense _ _ placed_ent N x).
  - unfold Model.mv; simpl. ring.
  - intros b Hb y r'. rewrite placed_row by auto. unfold block_acc.
    destruct (andb _ _); ring.
Qed.

(* the adjoint of a placed block, and of a sum of placed blocks; conj = id gives the transpose
   (placed_H R id and placed_T R are convertible) *)
Lemma placed_ent_H : forall conj : R -> R, conj 0 = 0 -> forall b r c,
  placed_ent (placed_H R conj b) c r = conj (placed_ent b r c).
Proof.
  intros conj conj0 b r c. unfold placed_ent, placed_H; simpl. rewrite andb_comm.
  destruct (andb _ _); auto.
Qed.

Lemma sum_ent_H : forall conj : R -> R, conj 0 = 0 -> (forall a b, conj (a + b) = conj a + conj b) ->
  forall bl r c, sum_ent (map (placed_H R conj) bl) c r = conj (sum_ent bl r c).
Proof.
  intros conj conj0 conj_add bl r c. induction bl; simpl. symmetry; exact conj0.
  rewrite placed_ent_H, IHbl, conj_add by assumption. reflexivity.
Qed.

Lemma placed_ent_T : forall b r c, placed_ent (placed_T R b) c r = placed_ent b r c.
Proof. exact (placed_ent_H (fun a => a) eq_refl). Qed.

Lemma sum_ent_T : forall bl r c, sum_ent (map (placed_T R) bl) c r = sum_ent bl r c.
Proof. exact (sum_ent_H (fun a => a) eq_refl (fun _ _ => eq_refl)). Qed.

(* a list of placed blocks that lie inside the shape of A and whose entries add up to those of A
   acts like A, and the transposed list like A^T *)
Lemma layout_spec : forall (A : mat R) bl x r,
  (forall b, In b bl -> (pci R b + mcols R (pb R b) <= mcols R A)%nat) ->
  (forall r c, sum_ent bl r c = ment R A r c) ->
  base_block_matvec R rO radd rmul bl x r = mv A x r.
Proof.
  intros A bl x r Hin Hent. rewrite (base_block_matvec_dense (mrows R A) (mcols R A)) by assumption.
  apply sumn_ext. intros k _. rewrite blocks_dense_ent, Hent. reflexivity.
Qed.

Lemma layout_transpose : forall (A : mat R) bl x r,
  (forall b, In b bl -> (pro R b + mrows R (pb R b) <= mrows R A)%nat) ->
  (forall r c, sum_ent bl r c = ment R A r c) ->
  base_block_matvec R rO radd rmul (map (placed_T R) bl) x r = mv (mT R A) x r.
Proof.
  intros A bl x r Hin Hent. rewrite (base_block_matvec_dense (mcols R A) (mrows R A)).
  - apply sumn_ext. intros k _. rewrite blocks_dense_ent, sum_ent_T, Hent. reflexivity.
  - intros b Hb. apply in_map_iff in Hb. destruct Hb as [b' [<- Hb']]. apply Hin. assumption.
Qed.

(* BlockDiagonalOperator: the dense definition, by recursion on the list of blocks
   (scipy.linalg.block_diag) *)
Fixpoint bd_ent (ops : list (mat R)) (r c : nat) : R :=
  match ops with
  | [] => 0
  | B :: rest =>
      if r <? mrows R B then (if c <? mcols R B then ment R B r c else 0)
      else if c <? mcols R B then 0 else bd_ent rest (r - mrows R B) (c - mcols R B)
  end.

Definition total (f : mat R -> nat) (ops : list (mat R)) : nat := fold_right (fun B acc => (f B + acc)%nat) 0%nat ops.

Definition blockdiag_dense (ops : list (mat R)) : mat R :=
  mkmat R (total (mrows R) ops) (total (mcols R) ops) (bd_ent ops).

(* the blocks of a block-diagonal layout whose first block starts at (ro, co) *)
Fixpoint bd_placed (ro co : nat) (ops : list (mat R)) : list (placed R) :=
  match ops with
  | [] => []
  | B :: rest => mkplaced R B ro co :: bd_placed (ro + mrows R B)%nat (co + mcols R B)%nat rest
  end.

Lemma block_diagonal_from : forall ops ro co,
  map (fun t => mkplaced R (fst (fst t)) (snd (fst t)) (snd t))
      (combine (combine ops (starts_from ro (map (mrows R) ops))) (starts_from co (map (mcols R) ops)))
  = bd_placed ro co ops.
Proof. induction ops; intros; simpl; auto. rewrite IHops. reflexivity. Qed.

Lemma bd_placed_in : forall ops ro co b, In b (bd_placed ro co ops) ->
  (ro <= pro R b /\ pro R b + mrows R (pb R b) <= ro + total (mrows R) ops /\
   co <= pci R b /\ pci R b + mcols R (pb R b) <= co + total (mcols R) ops)%nat.
Proof.
  induction ops; simpl; intros. contradiction.
  destruct H as [<-|H]; simpl. lia.
  apply IHops in H. lia.
Qed.

Lemma bd_placed_ent : forall ops ro co r c,
  sum_ent (bd_placed ro co ops) (ro + r)%nat (co + c)%nat = bd_ent ops r c.
Proof.
  induction ops as [|B ops IH]; intros. reflexivity.
  cbn [bd_placed bd_ent]. rewrite sum_ent_cons, placed_ent_at.
  destruct (Nat.ltb_spec r (mrows R B)), (Nat.ltb_spec c (mcols R B)); cbn [andb].
  1-3: rewrite sum_ent_outside by (intros b Hb; apply bd_placed_in in Hb; lia); ring.
  replace (ro + r)%nat with (ro + mrows R B + (r - mrows R B))%nat by lia.
  replace (co + c)%nat with (co + mcols R B + (c - mcols R B))%nat by lia.
  rewrite IH. ring.
Qed.

Lemma block_diagonal_ent : forall ops r c,
  sum_ent (block_diagonal R ops) r c = ment R (blockdiag_dense ops) r c.
Proof.
  intros. unfold block_diagonal, sizes_to_starts. rewrite block_diagonal_from.
  exact (bd_placed_ent ops 0 0 r c).
Qed.

Lemma block_diagonal_in : forall ops b, In b (block_diagonal R ops) ->
  (pro R b + mrows R (pb R b) <= mrows R (blockdiag_dense ops) /\
   pci R b + mcols R (pb R b) <= mcols R (blockdiag_dense ops))%nat.
Proof.
  unfold block_diagonal, sizes_to_starts. intros ops b Hb. rewrite block_diagonal_from in Hb.
  apply bd_placed_in in Hb. simpl. lia.
Qed.

Definition inr (idx shp : list nat) : Prop := Forall2 lt idx shp.

Lemma prodl_app : forall a b, prodl (a ++ b) = (prodl a * prodl b)%nat.
Proof. induction a; simpl; intros. lia. rewrite IHa. lia. Qed.

Lemma ravel_lt : forall idx shp, inr idx shp -> (ravel shp idx < prodl shp)%nat.
Proof.
  induction 1; simpl. lia.
  unfold inr in *. nia.
Qed.

Lemma unravel_ravel : forall idx shp, inr idx shp -> unravel shp (ravel shp idx) = idx.
Proof.
  induction 1; simpl. reflexivity.
  destruct (divmod_lin x (prodl l') (ravel l' l) (ravel_lt _ _ H0)) as [E1 E2].
  rewrite E1, E2, IHForall2. reflexivity.
Qed.

Lemma unravel_inr : forall shp f, (f < prodl shp)%nat -> inr (unravel shp f) shp.
Proof.
  induction shp; intros; simpl. constructor.
  destruct (divmod_lt f a (prodl shp) H). constructor. assumption. apply IHshp. assumption.
Qed.

Lemma ravel_unravel : forall shp f, (f < prodl shp)%nat -> ravel shp (unravel shp f) = f.
Proof.
  induction shp; intros; simpl in *. lia.
  assert (prodl shp <> 0)%nat by (intro E; rewrite E in H; lia).
  rewrite IHshp by (apply Nat.mod_upper_bound; assumption).
  rewrite (Nat.div_mod f (prodl shp)) at 3 by assumption. lia.
Qed.

(* the flat position in a concatenated shape is the mixed-radix pair of the two flat positions *)
Lemma ravel_app : forall shp s2 idx i2, length idx = length shp ->
  ravel (shp ++ s2) (idx ++ i2) = (ravel shp idx * prodl s2 + ravel s2 i2)%nat.
Proof.
  induction shp; destruct idx; simpl; intros; try discriminate. reflexivity.
  rewrite IHshp, prodl_app by lia. lia.
Qed.

Lemma unravel_app : forall shp s2 f r, (f < prodl shp)%nat -> (r < prodl s2)%nat ->
  unravel (shp ++ s2) (f * prodl s2 + r) = unravel shp f ++ unravel s2 r.
Proof.
  induction shp as [|a shp IH]; intros s2 f r Hf Hr.
  - simpl in Hf. replace f with 0%nat by lia. reflexivity.
  - cbn [app unravel]. rewrite prodl_app. simpl in Hf.
    set (P := prodl shp) in *. set (Q := prodl s2) in *.
    assert (E : P <> 0%nat) by (intro E; rewrite E in Hf; lia).
    assert (Hmod : (f mod P < P)%nat) by (apply Nat.mod_upper_bound; assumption).
    destruct (divmod_lin (f / P) (P * Q) (f mod P * Q + r)) as [E1 E2]. nia.
    replace (f * Q + r)%nat with (f / P * (P * Q) + (f mod P * Q + r))%nat
      by (pose proof (Nat.div_mod f P E); nia).
    rewrite E1, E2, IH by assumption. reflexivity.
Qed.

Lemma ravel2 : forall n m a c, ravel [n; m] [a; c] = (a * m + c)%nat.
Proof. intros. simpl. lia. Qed.

Lemma unravel2 : forall n m a c, (c < m)%nat -> unravel [n; m] (a * m + c) = [a; c].
Proof.
  intros. cbn [unravel prodl]. rewrite !Nat.mul_1_r, Nat.div_1_r.
  destruct (divmod_lin a m c H) as [E1 E2]. rewrite E1, E2. reflexivity.
Qed.

Lemma insert_at_app : forall l1 j l2, insert_at (length l1) j (l1 ++ l2) = l1 ++ j :: l2.
Proof.
  unfold insert_at. induction l1; intros; simpl. reflexivity.
  f_equal. apply IHl1.
Qed.

Lemma remove_at_app : forall l1 x l2, remove_at (length l1) (l1 ++ x :: l2) = l1 ++ l2.
Proof.
  unfold remove_at. induction l1; intros; simpl. reflexivity.
  f_equal. apply IHl1.
Qed.

(* _modek_tensordot_sparse = the tensordot it replaces *)
Lemma modek_sparse_shape : forall B k (X : arr R),
  nth k (ashape R X) 0%nat = mcols R B ->
  ashape R (modek_tensordot_sparse R rO radd rmul B k X) = mrows R B :: remove_at k (ashape R X).
Proof.
  intros. unfold modek_tensordot_sparse. simpl.
  destruct (Nat.eqb_spec (mrows R B) (nth k (ashape R X) 0%nat)); simpl; congruence.
Qed.

(* whichever shape the final reshape is given, position (a :: rest) of the result is position
   [a; ravel rest] of the matricized product *)
Lemma modek_sparse_at : forall B k (X : arr R) a rest,
  inr rest (remove_at k (ashape R X)) ->
  aat R (modek_tensordot_sparse R rO radd rmul B k X) (a :: rest) =
  sumn (mcols R B) (fun j => ment R B a j * aat R X (insert_at k j rest)).
Proof.
  intros B k X a rest Hr. unfold modek_tensordot_sparse.
  cbn [aat reshape dot2 ashape rollaxis0 nth tl].
  set (rem := remove_at k (ashape R X)) in *.
  assert (Hlt := ravel_lt _ _ Hr).
  replace (ravel (if mrows R B =? nth k (ashape R X) 0%nat then nth k (ashape R X) 0%nat :: rem else mrows R B :: rem)
                 (a :: rest))
    with (a * prodl rem + ravel rem rest)%nat by (destruct (_ =? _); reflexivity).
  rewrite unravel2 by assumption.
  apply sumn_ext. intros j _.
  rewrite ravel2. cbn [unravel].
  destruct (divmod_lin j (prodl rem) (ravel rem rest) Hlt) as [E1 E2].
  rewrite E1, E2, unravel_ravel by assumption. reflexivity.
Qed.

(* the tensor-product action: nested sums over the contracted indices *)
Fixpoint tprod_spec (ops : list (option (operand R))) (X : list nat -> R) (idx : list nat) : R :=
  match ops with
  | [] => X idx
  | o :: ops' =>
      match idx with
      | [] => 0
      | a :: idx' =>
          match o with
          | Some op => sumn (mcols R (omat R op))
                         (fun j => ment R (omat R op) a j * tprod_spec ops' (fun r => X (j :: r)) idx')
          | None => tprod_spec ops' (fun r => X (a :: r)) idx'
          end
      end
  end.

Lemma tprod_spec_ext : forall ops X X' idx, (forall r, X r = X' r) -> tprod_spec ops X idx = tprod_spec ops X' idx.
Proof.
  induction ops; intros; simpl. apply H.
  destruct idx; auto. destruct a.
  - apply sumn_ext. intros j _. f_equal. apply IHops. intros; apply H.
  - apply IHops. intros; apply H.
Qed.

(* operand list conforms to the leading axes of the argument *)
Fixpoint conf (ops : list (option (operand R))) (sS : list nat) : Prop :=
  match ops, sS with
  | [], [] => True
  | o :: ops', c :: sS' => (match o with Some op => mcols R (omat R op) = c | None => True end) /\ conf ops' sS'
  | _, _ => False
  end.

Fixpoint out_shape (ops : list (option (operand R))) (sS : list nat) : list nat :=
  match ops, sS with
  | o :: ops', c :: sS' => (match o with Some op => mrows R (omat R op) | None => c end) :: out_shape ops' sS'
  | _, _ => []
  end.

Lemma conf_length : forall ops sS, conf ops sS -> length sS = length ops /\ length (out_shape ops sS) = length ops.
Proof.
  induction ops; destruct sS; simpl; intros; try contradiction; auto.
  destruct H as [_ H]. apply IHops in H. lia.
Qed.

Lemma tprod_step_shape_at : forall n o (T : arr R) l1 c0 l2,
  ashape R T = l1 ++ c0 :: l2 -> length l1 = (n - 1)%nat ->
  (match o with Some op => mcols R (omat R op) = c0 | None => True end) ->
  ashape R (tprod_step R rO radd rmul n T o) =
    (match o with Some op => mrows R (omat R op) | None => c0 end) :: l1 ++ l2 /\
  forall a rest, inr rest (l1 ++ l2) ->
    aat R (tprod_step R rO radd rmul n T o) (a :: rest) =
    match o with
    | Some op => sumn (mcols R (omat R op)) (fun j => ment R (omat R op) a j * aat R T (insert_at (n - 1) j rest))
    | None => aat R T (insert_at (n - 1) a rest)
    end.
Proof.
  intros n o T l1 c0 l2 Hs Hl Hc.
  assert (Hrem : remove_at (length l1) (ashape R T) = l1 ++ l2) by (rewrite Hs; apply remove_at_app).
  assert (Hnth : nth (length l1) (ashape R T) 0%nat = c0) by (rewrite Hs; apply nth_middle).
  destruct o as [[[|] B]|]; cbn [tprod_step omat mcols mrows] in *; rewrite <- Hl.
  - cbn [tensordot_BA ashape aat]. rewrite Hrem. split; auto.
  - split.
    + rewrite modek_sparse_shape by congruence. rewrite Hrem. reflexivity.
    + intros. apply modek_sparse_at. rewrite Hrem. assumption.
  - cbn [rollaxis0 ashape aat]. rewrite Hrem, Hnth. split; auto.
Qed.

(* invariant of the loop of apply_tprod, for a suffix S of the operand list: its operands act on the axes
   sS; the axes sP before them belong to operands the loop reaches later and are left alone.  Every step
   contracts axis n-1, the last of sS still in place, and puts the new axis first, so the new axes end
   up in front of sP, in order *)
Lemma apply_tprod_inv : forall n S sP sS sT (X : arr R),
  ashape R X = sP ++ sS ++ sT -> conf S sS -> n = (length sP + length S)%nat ->
  let T := fold_left (tprod_step R rO radd rmul n) (rev S) X in
  ashape R T = out_shape S sS ++ sP ++ sT /\
  forall s_idx p_idx t, inr s_idx (out_shape S sS) -> inr p_idx sP -> inr t sT ->
    aat R T (s_idx ++ p_idx ++ t) = tprod_spec S (fun r => aat R X (p_idx ++ r)) (s_idx ++ t).
Proof.
  intros n S. induction S as [|o S' IH]; intros sP sS sT X HX Hc Hn.
  - destruct sS; [|contradiction]. simpl in *. split. assumption.
    intros. inversion H; subst. simpl. reflexivity.
  - destruct sS as [|c0 sS']; [contradiction|]. destruct Hc as [Hc0 Hc'].
    simpl rev. intros T. subst T. rewrite fold_left_app. simpl fold_left.
    set (T' := fold_left (tprod_step R rO radd rmul n) (rev S') X).
    destruct (IH (sP ++ [c0]) sS' sT X) as [Hs' Hat'].
    { rewrite HX. rewrite <- app_assoc. reflexivity. }
    { assumption. }
    { rewrite app_length. simpl in *. lia. }
    fold T' in Hs', Hat'.
    destruct (conf_length _ _ Hc') as [_ Hl2].
    assert (HsT' : ashape R T' = (out_shape S' sS' ++ sP) ++ c0 :: sT).
    { rewrite Hs'. rewrite <- !app_assoc. reflexivity. }
    assert (Hlen : length (out_shape S' sS' ++ sP) = (n - 1)%nat).
    { rewrite app_length. simpl in Hn. lia. }
    destruct (tprod_step_shape_at n o T' _ _ _ HsT' Hlen Hc0) as [Hsh Hat].
    split.
    + rewrite Hsh. simpl. rewrite <- app_assoc. reflexivity.
    + intros s_idx p_idx t Hsi Hpi Hti.
      simpl out_shape in Hsi. destruct s_idx as [|a s']; inversion Hsi as [|? ? ? ? Ha Hs'']; subst x l.
      assert (Hrest : inr (s' ++ p_idx ++ t) ((out_shape S' sS' ++ sP) ++ sT)).
      { rewrite <- app_assoc. repeat apply Forall2_app; assumption. }
      simpl app. rewrite Hat by assumption.
      (* the previous array at the position with j put back at axis n-1: j joins the prefix indices *)
      assert (Hstep : forall j, (j < c0)%nat ->
                aat R T' (insert_at (n - 1) j (s' ++ p_idx ++ t)) =
                tprod_spec S' (fun r => aat R X (p_idx ++ j :: r)) (s' ++ t)).
      { intros j Hj.
        replace (insert_at (n - 1) j (s' ++ p_idx ++ t)) with (s' ++ (p_idx ++ [j]) ++ t).
        - rewrite Hat'; auto.
          + apply tprod_spec_ext. intros r. rewrite <- app_assoc. reflexivity.
          + apply Forall2_app; auto.
        - rewrite <- Hlen, <- (Forall2_length _ _ _ (Forall2_app Hs'' Hpi)).
          rewrite (app_assoc s' p_idx t), insert_at_app, <- !app_assoc. reflexivity. }
      destruct o as [op|]; simpl.
      * apply sumn_ext. intros j Hj. f_equal. apply Hstep. rewrite <- Hc0. exact Hj.
      * apply Hstep. exact Ha.
Qed.

Lemma apply_tprod_shape_at : forall ops (X : arr R) sS sT,
  ashape R X = sS ++ sT -> conf ops sS ->
  ashape R (apply_tprod R rO radd rmul ops X) = out_shape ops sS ++ sT /\
  forall a t, inr a (out_shape ops sS) -> inr t sT ->
    aat R (apply_tprod R rO radd rmul ops X) (a ++ t) = tprod_spec ops (aat R X) (a ++ t).
Proof.
  intros. unfold apply_tprod.
  destruct (apply_tprod_inv (length ops) ops [] sS sT X H H0 eq_refl) as [Hs Hat].
  split. assumption.
  intros a t Ha Ht. exact (Hat a [] t Ha (Forall2_nil _) Ht).
Qed.

(* the tensor-product core of _apply_kronecker_dense: all operands present *)
Lemma conf_all_some : forall ops : list (operand R),
  conf (map Some ops) (map (fun o => mcols R (omat R o)) ops).
Proof. induction ops; simpl; auto. Qed.

Lemma out_shape_all_some : forall ops : list (operand R),
  out_shape (map Some ops) (map (fun o => mcols R (omat R o)) ops) = map (fun o => mrows R (omat R o)) ops.
Proof. induction ops; simpl; auto. rewrite IHops. reflexivity. Qed.

Notation fill_eye := (Model3.fill_eye R rO rI).

Lemma conf_fill : forall ops sS, conf ops sS -> conf (fill_eye ops sS) sS.
Proof.
  induction ops; destruct sS; simpl; intros; try contradiction; auto.
  destruct H as [H1 H2]. split. destruct a; simpl; auto. apply IHops. assumption.
Qed.

Lemma out_shape_fill : forall ops sS, conf ops sS -> out_shape (fill_eye ops sS) sS = out_shape ops sS.
Proof.
  induction ops; destruct sS; simpl; intros; try contradiction; auto.
  destruct H as [H1 H2]. f_equal. destruct a; simpl; auto. apply IHops. assumption.
Qed.

Lemma tprod_spec_fill : forall ops sS X a t, conf ops sS -> inr a (out_shape ops sS) ->
  tprod_spec ops X (a ++ t) = tprod_spec (fill_eye ops sS) X (a ++ t).
Proof.
  induction ops; destruct sS; simpl; intros X b t Hc Hb; try contradiction; auto.
  destruct Hc as [H1 H2]. inversion Hb as [| a0 s0 b' l' Hlt Hrest]; subst. simpl.
  destruct a as [op|]; simpl.
  - apply sumn_ext. intros j _. f_equal. apply IHops; assumption.
  - rewrite sumn_delta_l by assumption. rewrite <- IHops by assumption. ring.
Qed.

(* (P B P^T)[r,c] *)
Definition pbp_ent (P B : mat R) (r c : nat) : R :=
  sumn (mcols R P) (fun a => sumn (mcols R B) (fun b => ment R P r a * ment R B a b * ment R P c b)).

(* the dense definition  sum_j P_j B_j P_j^T  (B_j^T when transposed) *)
Definition subspace_dense (n : nat) (tr : bool) (PB : list (mat R * mat R)) : mat R :=
  mkmat R n n (fun r c => fold_right (fun pb acc => pbp_ent (fst pb) (if tr then mT R (snd pb) else snd pb) r c + acc) 0 PB).

Lemma pbp_apply : forall (P B : mat R) x r,
  mv P (mv B (mv (mT R P) x)) r = sumn (mrows R P) (fun c => pbp_ent P B r c * x c).
Proof.
  intros. unfold mv, pbp_ent. cbn [mcols mT ment].
  rewrite (sumn_ext _ _ (fun a => ment R P r a * sumn (mrows R P)
             (fun c => sumn (mcols R B) (fun b => ment R B a b * ment R P c b) * x c)))
    by (intros a _; rewrite sumn_assoc; reflexivity).
  rewrite sumn_assoc. apply sumn_ext; intros c _. f_equal.
  apply sumn_ext; intros a _. rewrite <- sumn_mul_l. apply sumn_ext; intros b _. ring.
Qed.

Lemma pbp_transpose : forall (P B : mat R) r c, mcols R B = mcols R P -> mrows R B = mcols R P ->
  pbp_ent P (mT R B) r c = pbp_ent P B c r.
Proof.
  intros. unfold pbp_ent. cbn [mcols mT ment]. rewrite H, H0.
  rewrite sumn_swap. apply sumn_ext; intros a _. apply sumn_ext; intros b _. ring.
Qed.

(* entry c of row r of the matrix a CSR structure denotes (duplicate entries add up) *)
Fixpoint csr_ent_sum (cnt p : nat) (A : csr R) (c : nat) : R :=
  match cnt with
  | O => 0
  | S k => (if Nat.eqb (nth p (c_indices R A) 0%nat) c then nth p (c_data R A) 0 else 0) + csr_ent_sum k (S p) A c
  end.
Definition csr_dense (A : csr R) : mat R :=
  mkmat R (c_rows R A) (c_cols R A)
    (fun r c => csr_ent_sum (nth (S r) (c_indptr R A) 0 - nth r (c_indptr R A) 0)%nat (nth r (c_indptr R A) 0%nat) A c).

Lemma csr_row_sum_dense : forall cnt p A x,
  (forall q, (p <= q < p + cnt)%nat -> (nth q (c_indices R A) 0 < c_cols R A)%nat) ->
  csr_row_sum R rO radd rmul cnt p A x = sumn (c_cols R A) (fun c => csr_ent_sum cnt p A c * x c).
Proof.
  induction cnt; intros; simpl.
  - rewrite sumn_all_zero. reflexivity. intros; ring.
  - rewrite IHcnt by (intros; apply H; lia).
    rewrite (sumn_ext _ (fun c => (_ + csr_ent_sum cnt (S p) A c) * x c)
               (fun c => (if Nat.eqb c (nth p (c_indices R A) 0%nat) then nth p (c_data R A) 0 * x c else 0)
                         + csr_ent_sum cnt (S p) A c * x c)).
    + rewrite sumn_add, sumn_delta by (apply H; lia). reflexivity.
    + intros c _. rewrite (Nat.eqb_sym c). destruct (Nat.eqb (nth p (c_indices R A) 0%nat) c); ring.
Qed.

Definition csr_wf (A : csr R) : Prop :=
  forall q, (q < length (c_indices R A))%nat -> (nth q (c_indices R A) 0 < c_cols R A)%nat.

Lemma csr_row_spec : forall A r x, csr_wf A ->
  (nth (S r) (c_indptr R A) 0 <= length (c_indices R A))%nat ->
  csr_row R rO radd rmul A r x = mv (csr_dense A) x r.
Proof.
  intros. unfold csr_row, mv. cbn [csr_dense mcols ment]. apply csr_row_sum_dense.
  intros q Hq. apply H. lia.
Qed.

End Proofs.
