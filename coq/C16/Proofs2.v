(* C16 -- lemmas, second part: the flat Kronecker matrix, _apply_kronecker_dense,
   _apply_kronecker_linops, KroneckerOperator and its transpose, apply_kronecker,
   BlockOperator layout, Kronecker / fast-diagonalisation solvers, the expressions the code builds
   with functools.reduce(np.kron, ...); adjoints over a ring with a conjugation (a ring endomorphism).

   A right-hand side enters every Kronecker statement as x[j :: t]: t = [] for a vector,
   t = [c] for column c of an (N,m) array ([rhs]); the statements are proved once for both. *)
From Coq Require Import List Arith Bool Lia Ring.
From Verif.lib Require Import ListFacts.
From Verif.C16 Require Import Model Model2 Model3 Proofs.
Import ListNotations.

Declare Scope rs.
Delimit Scope rs with r.

Inductive rhs : list nat -> list nat -> Prop :=
| rhs_vec : rhs [] []
| rhs_col : forall m c, rhs [m] [c].

Lemma inr_col : forall m c, c < m -> inr [c] [m].
Proof. repeat constructor. assumption. Qed.

Section Proofs2.
Variable R : Type.
Variables (rO rI : R) (radd rmul rsub : R -> R -> R) (ropp : R -> R).
Variable Rth : ring_theory rO rI radd rmul rsub ropp eq.
Add Ring Rring2 : Rth.

Notation "0" := rO : rs.
Notation "1" := rI : rs.
Notation "x + y" := (radd x y) : rs.
Notation "x * y" := (rmul x y) : rs.
Local Open Scope rs.

Notation sumn := (Model.sumn R rO radd).
Notation mv := (Model.mv R rO radd rmul).
Local Notation sumn_ext := (Proofs.sumn_ext R rO radd).
Local Notation sumn_add := (Proofs.sumn_add R rO rI radd rmul rsub ropp Rth).
Local Notation sumn_mul_l := (Proofs.sumn_mul_l R rO rI radd rmul rsub ropp Rth).
Local Notation sumn_mul_r := (Proofs.sumn_mul_r R rO rI radd rmul rsub ropp Rth).
Local Notation sumn_assoc := (Proofs.sumn_assoc R rO rI radd rmul rsub ropp Rth).
Local Notation sumn_delta_l := (Proofs.sumn_delta_l R rO rI radd rmul rsub ropp Rth).
Local Notation tprod_spec := (Proofs.tprod_spec R rO radd rmul).

Lemma sumn_prod : forall a b (f : nat -> R),
  sumn (a * b)%nat f = sumn a (fun p => sumn b (fun q => f (p * b + q)%nat)).
Proof.
  induction a; intros; simpl. reflexivity.
  rewrite <- IHa. clear IHa.
  replace (b + a * b)%nat with (a * b + b)%nat by lia.
  generalize (a * b)%nat as m. intros m.
  induction b; simpl.
  - rewrite Nat.add_0_r. ring.
  - replace (m + S b)%nat with (S (m + b)) by lia. simpl. rewrite IHb. ring.
Qed.

(* a sum over a product range of a summand that factors through (j / b, j mod b) *)
Lemma sumn_kron : forall a b (f g : nat -> R),
  sumn (a * b)%nat (fun j => f (j / b)%nat * g (j mod b)%nat) = sumn a f * sumn b g.
Proof.
  intros. rewrite sumn_prod, <- sumn_mul_r. apply sumn_ext. intros p _.
  rewrite <- sumn_mul_l. apply sumn_ext. intros q Hq.
  destruct (divmod_lin p b q Hq) as [E1 E2]. rewrite E1, E2. reflexivity.
Qed.

(* the flat Kronecker matrix (np.kron, right-nested) *)
Definition rowsl (ops : list (mat R)) : list nat := map (mrows R) ops.
Definition colsl (ops : list (mat R)) : list nat := map (mcols R) ops.

Fixpoint kron_ent (ops : list (mat R)) (i j : nat) : R :=
  match ops with
  | [] => 1
  | B :: ops' =>
      ment R B (i / prodl (rowsl ops')) (j / prodl (colsl ops')) *
      kron_ent ops' (i mod prodl (rowsl ops')) (j mod prodl (colsl ops'))
  end.

Definition kron_dense (ops : list (mat R)) : mat R :=
  mkmat R (prodl (rowsl ops)) (prodl (colsl ops)) (kron_ent ops).

Definition someops (ops : list (mat R)) (kinds : list kind) : list (operand R) :=
  map (fun kb => mkop R (fst kb) (snd kb)) (combine kinds ops).

Lemma kron_single : forall (B : mat R) i j, kron_ent [B] i j = ment R B i j.
Proof. intros. cbn [kron_ent rowsl colsl map prodl]. rewrite !Nat.div_1_r. ring. Qed.

(* nested sums of tprod_spec = one sum with the flat Kronecker matrix *)
Notation omats ops := (map (omat R) ops).

Lemma tprod_flat : forall (ops : list (operand R)) (F : list nat -> R) i t,
  (i < prodl (rowsl (omats ops)))%nat ->
  tprod_spec (map Some ops) F (unravel (rowsl (omats ops)) i ++ t) =
  sumn (prodl (colsl (omats ops)))
       (fun j => kron_ent (omats ops) i j * F (unravel (colsl (omats ops)) j ++ t)).
Proof.
  induction ops as [|o ops IH]; intros F i t Hi.
  - simpl. ring.
  - cbn [map rowsl colsl prodl unravel app Proofs.tprod_spec kron_ent] in *.
    fold (rowsl (omats ops)) in *. fold (colsl (omats ops)) in *.
    set (R' := prodl (rowsl (omats ops))) in *. set (C' := prodl (colsl (omats ops))) in *.
    destruct (divmod_lt i _ R' Hi) as [_ Hmod].
    rewrite sumn_prod. apply sumn_ext. intros p _.
    rewrite (IH (fun r => F (p :: r)) (i mod R') t Hmod). fold C'.
    rewrite <- sumn_mul_l. apply sumn_ext. intros q Hq.
    destruct (divmod_lin p C' q Hq) as [E1 E2]. rewrite E1, E2. ring.
Qed.

Notation orows ops := (map (fun o => mrows R (omat R o)) ops).
Notation ocols ops := (map (fun o => mcols R (omat R o)) ops).

Lemma rowsl_omats : forall ops : list (operand R), rowsl (omats ops) = orows ops.
Proof. intros. unfold rowsl. rewrite map_map. reflexivity. Qed.
Lemma colsl_omats : forall ops : list (operand R), colsl (omats ops) = ocols ops.
Proof. intros. unfold colsl. rewrite map_map. reflexivity. Qed.

(* kronecker.py:66-68 around the core: the argument reshaped to (columns ++ sT), the result to any
   shape in which the position idx has the flat index of (i, t) *)
Lemma kron_dense_flat : forall (ops : list (operand R)) (x : arr R) shp_in sT shp_out idx i t,
  ocols ops ++ sT = shp_in -> (i < prodl (orows ops))%nat -> inr t sT ->
  ravel shp_out idx = (i * prodl sT + ravel sT t)%nat ->
  aat R (reshape R shp_out (apply_tprod R rO radd rmul (map Some ops) (reshape R shp_in x))) idx =
  sumn (prodl (ocols ops))
       (fun j => kron_ent (omats ops) i j * aat R x (unravel (ashape R x) (j * prodl sT + ravel sT t))).
Proof.
  intros ops x shp_in sT shp_out idx i t <- Hi Ht Hidx.
  set (X := reshape R (ocols ops ++ sT) x).
  destruct (apply_tprod_shape_at R rO radd rmul (map Some ops) X _ sT eq_refl (conf_all_some R ops)) as [Hs Hat].
  rewrite out_shape_all_some in Hs, Hat.
  cbn [reshape aat]. rewrite Hs, Hidx.
  rewrite unravel_app, unravel_ravel by auto using ravel_lt.
  rewrite Hat by (auto; apply unravel_inr; assumption).
  rewrite <- rowsl_omats, tprod_flat, colsl_omats by (rewrite rowsl_omats; assumption).
  apply sumn_ext. intros j Hj. subst X. cbn [reshape aat].
  rewrite ravel_app by (apply Forall2_length with (R := lt), unravel_inr; assumption).
  rewrite ravel_unravel by assumption. reflexivity.
Qed.

(* _apply_kronecker_dense: a vector, an (n,1) argument (no trailing axis, kronecker.py:63) and an
   (n,m) argument, m > 1 (trailing axis m) *)
Lemma kron_dense_at : forall (ops : list (operand R)) (x : arr R) sT i t,
  ashape R x = prodl (ocols ops) :: sT -> rhs sT t -> inr t sT -> (i < prodl (orows ops))%nat ->
  aat R (apply_kronecker_dense R rO radd rmul ops x) (i :: t) =
  sumn (prodl (ocols ops)) (fun j => kron_ent (omats ops) i j * aat R x (j :: t)).
Proof.
  intros ops x sT i t Hx Hrhs Ht Hi. unfold apply_kronecker_dense. rewrite Hx.
  destruct Hrhs as [|m c]; cbn [tl].
  - rewrite (kron_dense_flat ops x _ [] _ _ i [] (app_nil_r _) Hi Ht) by (simpl; lia).
    apply sumn_ext. intros j _. rewrite Hx. cbn [unravel prodl ravel].
    rewrite Nat.mul_1_r, Nat.add_0_r, Nat.div_1_r. reflexivity.
  - assert (Hc : (c < m)%nat) by (inversion Ht; assumption).
    destruct (Nat.ltb_spec 1 m) as [Hm|Hm].
    + rewrite (kron_dense_flat ops x _ [m] _ _ i [c] eq_refl Hi Ht) by reflexivity.
      apply sumn_ext. intros j _. rewrite Hx. cbn [prodl ravel].
      rewrite !Nat.mul_1_r, Nat.add_0_r, unravel2 by assumption. reflexivity.
    + assert (m = 1)%nat by lia. subst m. assert (c = 0)%nat by lia. subst c.
      rewrite (kron_dense_flat ops x _ [] _ _ i [] (app_nil_r _) Hi (Forall2_nil _)) by (simpl; lia).
      apply sumn_ext. intros j _. rewrite Hx. cbn [prodl ravel]. rewrite unravel2 by lia. reflexivity.
Qed.

Definition squares (S : list (operand R)) : Prop :=
  Forall (fun o => mrows R (omat R o) = mcols R (omat R o)) S.

Lemma squares_cols : forall S, squares S -> colsl (omats S) = rowsl (omats S).
Proof.
  induction 1; simpl. reflexivity.
  unfold colsl, rowsl in *. simpl. rewrite IHForall, H. reflexivity.
Qed.

(* one sweep: q1[rho, k*s + a'] = sum_a B[a',a] q0[a, k*r + rho] on the flat F-ordered buffers *)
Lemma sweep_at : forall (B : mat R) sz n (q : nat -> R) s r rho a' k,
  mcols R B = s -> sz = (s * r)%nat -> (rho < r)%nat -> (a' < s)%nat ->
  linops_sweep R rO radd rmul B sz n q (rho + r * a' + sz * k)%nat =
  sumn s (fun a => ment R B a' a * q (a + s * rho + sz * k)%nat).
Proof.
  intros B sz n q s r rho a' k Hs Hsz Hrho Ha. unfold linops_sweep. rewrite Hs.
  assert (s <> 0)%nat by lia. assert (r <> 0)%nat by lia.
  assert (Er : (sz / s = r)%nat) by (subst sz; rewrite Nat.mul_comm; apply Nat.div_mul; assumption).
  rewrite Er.
  assert (Eg : (rho + r * a' + sz * k = (a' + s * k) * r + rho)%nat) by (subst sz; lia).
  destruct (divmod_lin (a' + s * k) r rho Hrho) as [E1 E2].
  rewrite Eg, E1, E2.
  assert (Ec : (a' + s * k = k * s + a')%nat) by lia.
  destruct (divmod_lin k s a' Ha) as [E3 E4].
  rewrite Ec, E3, E4.
  apply sumn_ext. intros a _. f_equal. f_equal. subst sz. lia.
Qed.

(* invariant of the sweeps: after the factors of the suffix S have been processed (last first),
   with pP the product of the sizes of the unprocessed prefix, the buffer holds at position
   rho + pP*sigma (+ sz*k for column k) the Kronecker product of the suffix applied to the
   original digits:  sum_tau kron(S)[sigma,tau] * q0[rho*pS + tau] *)
Lemma linops_inv : forall (S : list (operand R)) pP sz n (q0 : nat -> R),
  squares S -> sz = (pP * prodl (rowsl (omats S)))%nat ->
  forall rho sigma k, (rho < pP)%nat -> (sigma < prodl (rowsl (omats S)))%nat ->
  fold_left (fun q o => linops_sweep R rO radd rmul (omat R o) sz n q) (rev S) q0 (rho + pP * sigma + sz * k)%nat =
  sumn (prodl (rowsl (omats S)))
       (fun tau => kron_ent (omats S) sigma tau * q0 (rho * prodl (rowsl (omats S)) + tau + sz * k)%nat).
Proof.
  induction S as [|o S IH]; intros pP sz n q0 Hsq Hsz rho sigma k Hrho Hsig.
  - simpl in *. assert (sigma = 0)%nat by lia. subst sigma.
    replace (rho + pP * 0 + sz * k)%nat with (rho * 1 + 0 + sz * k)%nat by lia. ring.
  - inversion Hsq as [|o' S' Ho HS]; subst o' S'.
    assert (Hcols := squares_cols S HS).
    cbn [map rowsl colsl prodl kron_ent rev] in *.
    fold (rowsl (omats S)) in *. fold (colsl (omats S)) in *. rewrite Hcols.
    set (B := omat R o) in *. set (s := mrows R B) in *. set (pS := prodl (rowsl (omats S))) in *.
    rewrite fold_left_app. cbn [fold_left].
    set (qS := fold_left (fun q o0 => linops_sweep R rO radd rmul (omat R o0) sz n q) (rev S) q0).
    destruct (divmod_lt sigma s pS Hsig) as [Hd Hm].
    assert (Hsigma : (sigma = (sigma / pS) * pS + sigma mod pS)%nat)
      by (rewrite (Nat.div_mod_eq sigma pS) at 1; lia).
    set (a' := (sigma / pS)%nat) in *. set (sg := (sigma mod pS)%nat) in *.
    replace (rho + pP * sigma + sz * k)%nat
      with ((rho + pP * sg) + (pP * pS) * a' + sz * k)%nat by (rewrite Hsigma; lia).
    fold B. rewrite (sweep_at B sz n qS s (pP * pS) (rho + pP * sg) a' k); auto.
    + rewrite sumn_prod. apply sumn_ext. intros a Ha.
      replace (a + s * (rho + pP * sg) + sz * k)%nat with ((a + s * rho) + (pP * s) * sg + sz * k)%nat by lia.
      unfold qS. rewrite (IH (pP * s)%nat sz n q0 HS) by (auto; nia). fold pS.
      rewrite <- sumn_mul_l. apply sumn_ext. intros tau Htau.
      destruct (divmod_lin a pS tau Htau) as [E1 E2]. rewrite E1, E2.
      replace ((a + s * rho) * pS + tau + sz * k)%nat with (rho * (s * pS) + (a * pS + tau) + sz * k)%nat by lia.
      ring.
    + rewrite Hsz. lia.
    + nia.
Qed.

Lemma squares_orows : forall ops, squares ops -> ocols ops = orows ops.
Proof. intros. rewrite <- colsl_omats, <- rowsl_omats. apply squares_cols. assumption. Qed.

(* all sweeps done: the whole buffer, column k at offset sz*k *)
Lemma linops_sweeps : forall (ops : list (operand R)) n (q0 : nat -> R) i k p,
  squares ops -> (i < prodl (orows ops))%nat -> p = (i + prodl (orows ops) * k)%nat ->
  fold_left (fun q o => linops_sweep R rO radd rmul (omat R o) (prodl (orows ops)) n q) (rev ops) q0 p =
  sumn (prodl (orows ops)) (fun j => kron_ent (omats ops) i j * q0 (k * prodl (orows ops) + j)%nat).
Proof.
  intros ops n q0 i k p Hsq Hi ->.
  assert (E := linops_inv ops 1 (prodl (orows ops)) n q0 Hsq).
  rewrite rowsl_omats in E. specialize (E ltac:(lia) 0%nat i k ltac:(lia) Hi).
  replace (0 + 1 * i + prodl (orows ops) * k)%nat with (i + prodl (orows ops) * k)%nat in E by lia.
  rewrite E. apply sumn_ext. intros j _. do 2 f_equal. lia.
Qed.

Lemma kron_linops_at : forall (ops : list (operand R)) (x : arr R) sT i t,
  squares ops -> ashape R x = prodl (orows ops) :: sT -> rhs sT t -> (i < prodl (orows ops))%nat ->
  aat R (apply_kronecker_linops R rO radd rmul ops x) (i :: t) =
  sumn (prodl (orows ops)) (fun j => kron_ent (omats ops) i j * aat R x (j :: t)).
Proof.
  intros ops x sT i t Hsq Hx Hrhs Hi. unfold apply_kronecker_linops. rewrite Hx.
  destruct ops as [|o [|o2 rest]].
  2:{ (* one operand: ops[0].dot(x) *)
    inversion Hsq as [|? ? Ho _]; subst. cbn [map prodl] in *. rewrite Nat.mul_1_r in *.
    destruct Hrhs; cbn [aat dot2 hd]; unfold Model.mv; rewrite <- Ho;
      apply sumn_ext; intros j _; rewrite kron_single; reflexivity. }
  (* the sweeps (no operand, or at least two); a vector is column 0 of the buffer *)
  all: destruct Hrhs as [|m c]; cbn [aat].
  1,3: rewrite (linops_sweeps _ _ _ i 0%nat) by (assumption || lia);
    apply sumn_ext; intros j Hj;
    rewrite Nat.mul_0_l, Nat.add_0_l, Nat.mod_small by assumption; reflexivity.
  all: rewrite (linops_sweeps _ _ _ i c) by (assumption || reflexivity);
    apply sumn_ext; intros j Hj;
    destruct (divmod_lin c _ j Hj) as [E1 E2]; rewrite E1, E2; reflexivity.
Qed.

Lemma forallb_squares : forall ops : list (operand R), forallb (is_square R) ops = true -> squares ops.
Proof.
  intros ops H. apply Forall_forall. intros o Ho.
  apply Nat.eqb_eq. exact (proj1 (forallb_forall _ _) H o Ho).
Qed.

(* KroneckerOperator on either branch of its dispatch *)
Lemma kron_operator_at : forall (ops : list (operand R)) (x : arr R) sT i t,
  ashape R x = prodl (ocols ops) :: sT -> rhs sT t -> inr t sT -> (i < prodl (orows ops))%nat ->
  aat R (kronecker_operator R rO radd rmul ops x) (i :: t) =
  sumn (prodl (ocols ops)) (fun j => kron_ent (omats ops) i j * aat R x (j :: t)).
Proof.
  intros ops x sT i t Hx Hrhs Ht Hi. unfold kronecker_operator.
  destruct (forallb (is_dense R) ops || negb (forallb (is_square R) ops)) eqn:E.
  - apply (kron_dense_at ops x sT); assumption.
  - apply orb_false_iff in E. destruct E as [_ E]. apply negb_false_iff in E.
    apply forallb_squares in E. rewrite (squares_orows ops E) in *.
    apply (kron_linops_at ops x sT); assumption.
Qed.

(* kronecker.apply_kronecker (kronecker.py:6-12): all ndarrays -> tensordot path; otherwise every factor
   is wrapped by aslinearoperator and the column-major sweeps run *)
Lemma apply_kronecker_at : forall (ops : list (operand R)) (x : arr R) sT i t,
  squares ops -> ashape R x = prodl (orows ops) :: sT -> rhs sT t -> inr t sT -> (i < prodl (orows ops))%nat ->
  aat R (apply_kronecker R rO radd rmul ops x) (i :: t) =
  sumn (prodl (orows ops)) (fun j => kron_ent (omats ops) i j * aat R x (j :: t)).
Proof.
  intros ops x sT i t Hsq Hx Hrhs Ht Hi. unfold apply_kronecker.
  destruct (forallb (is_dense R) ops).
  - rewrite <- (squares_orows ops Hsq) in Hx |- * at 1. apply (kron_dense_at ops x sT); assumption.
  - set (ops' := map (fun o => mkop R Abstract (omat R o)) ops).
    assert (Em : omats ops' = omats ops) by (unfold ops'; rewrite map_map; reflexivity).
    assert (Er : orows ops' = orows ops) by (unfold ops'; rewrite map_map; reflexivity).
    rewrite <- Em, <- Er in *. apply (kron_linops_at ops' x sT); auto.
    apply Forall_map. exact Hsq.
Qed.

(* KroneckerOperator._adjoint and ._transpose.  The Kronecker product of the adjoint factors is the
   adjoint of the Kronecker product, for every multiplicative conj that fixes 1; conj = id is the
   transpose (mH R id / mT R, oH / oT and kronecker_operator_H / _T are convertible) *)
Section Adjoint.
Variable conj : R -> R.
Hypothesis conj1 : conj 1 = 1.
Hypothesis conj_mul : forall a b, conj (a * b) = conj a * conj b.

Lemma kron_ent_H : forall (ops : list (mat R)) i j, kron_ent (map (mH R conj) ops) i j = conj (kron_ent ops j i).
Proof.
  induction ops; intros; simpl. symmetry; apply conj1.
  unfold rowsl, colsl in *. rewrite !map_map. simpl.
  rewrite IHops, conj_mul. reflexivity.
Qed.

Lemma kron_adjoint_at : forall (ops : list (operand R)) (x : arr R) sT i t,
  ashape R x = prodl (orows ops) :: sT -> rhs sT t -> inr t sT -> (i < prodl (ocols ops))%nat ->
  aat R (kronecker_operator_H R rO radd rmul conj ops x) (i :: t) =
  sumn (prodl (orows ops)) (fun j => ment R (mH R conj (kron_dense (omats ops))) i j * aat R x (j :: t)).
Proof.
  intros. unfold kronecker_operator_H.
  assert (Em : omats (map (oH R conj) ops) = map (mH R conj) (omats ops)) by (rewrite !map_map; reflexivity).
  assert (Er : orows (map (oH R conj) ops) = ocols ops) by (rewrite map_map; reflexivity).
  assert (Ec : ocols (map (oH R conj) ops) = orows ops) by (rewrite map_map; reflexivity).
  rewrite (kron_operator_at _ x sT) by (rewrite ?Ec, ?Er; assumption).
  rewrite Ec, Em. apply sumn_ext. intros j _. rewrite kron_ent_H. reflexivity.
Qed.

End Adjoint.

Lemma kron_ent_T : forall (ops : list (mat R)) i j, kron_ent (map (mT R) ops) i j = kron_ent ops j i.
Proof. exact (kron_ent_H (fun a => a) eq_refl (fun _ _ => eq_refl)). Qed.

Lemma kron_transpose_at : forall (ops : list (operand R)) (x : arr R) sT i t,
  ashape R x = prodl (orows ops) :: sT -> rhs sT t -> inr t sT -> (i < prodl (ocols ops))%nat ->
  aat R (kronecker_operator_T R rO radd rmul ops x) (i :: t) =
  sumn (prodl (orows ops)) (fun j => ment R (mT R (kron_dense (omats ops))) i j * aat R x (j :: t)).
Proof. exact (kron_adjoint_at (fun a => a) eq_refl (fun _ _ => eq_refl)). Qed.

Notation sum_ent := (Proofs.sum_ent R rO radd).
Notation placed_ent := (Proofs.placed_ent R rO).

(* np.block of a grid whose null blocks are zero blocks; hs/ws = block heights/widths *)
Fixpoint row_ent (row : list (option (mat R))) (ws : list nat) (r c : nat) : R :=
  match row, ws with
  | o :: row', w :: ws' =>
      if c <? w then (match o with Some B => ment R B r c | None => 0 end)
      else row_ent row' ws' r (c - w)
  | _, _ => 0
  end.
Fixpoint grid_ent (grid : list (list (option (mat R)))) (hs ws : list nat) (r c : nat) : R :=
  match grid, hs with
  | row :: g', h :: hs' => if r <? h then row_ent row ws r c else grid_ent g' hs' ws (r - h) c
  | _, _ => 0
  end.

(* the assertion of operators.py:186: every block has the shape of its cell *)
Definition wf_row (h : nat) (row : list (option (mat R))) (ws : list nat) : Prop :=
  Forall2 (fun o w => match o with Some B => mrows R B = h /\ mcols R B = w | None => True end) row ws.
Definition wf_grid (grid : list (list (option (mat R)))) (hs ws : list nat) : Prop :=
  Forall2 (fun row h => wf_row h row ws) grid hs.

Fixpoint suml (l : list nat) : nat := match l with [] => 0%nat | x :: l' => (x + suml l')%nat end.

Definition grid_dense (grid : list (list (option (mat R)))) (hs ws : list nat) : mat R :=
  mkmat R (suml hs) (suml ws) (grid_ent grid hs ws).

(* the blocks of one row of cells starting at (ro, co), and of the rows from ro on *)
Definition row_placed (ro co : nat) (row : list (option (mat R))) (ws : list nat) : list (placed R) :=
  flat_map (fun opj => match fst opj with Some B => [mkplaced R B ro (snd opj)] | None => [] end)
           (combine row (starts_from co ws)).
Definition grid_placed (ro : nat) (grid : list (list (option (mat R)))) (hs ws : list nat) : list (placed R) :=
  flat_map (fun rowi => row_placed (snd rowi) 0 (fst rowi) ws) (combine grid (starts_from ro hs)).

Lemma sum_ent_app : forall l1 l2 r c, sum_ent (l1 ++ l2) r c = sum_ent l1 r c + sum_ent l2 r c.
Proof.
  unfold Proofs.sum_ent. induction l1; intros; simpl. ring. rewrite IHl1. ring.
Qed.

Lemma row_placed_cons : forall ro co o row w ws,
  row_placed ro co (o :: row) (w :: ws) =
  (match o with Some B => [mkplaced R B ro co] | None => [] end) ++ row_placed ro (co + w) row ws.
Proof. reflexivity. Qed.

Lemma grid_placed_cons : forall ro row grid h hs ws,
  grid_placed ro (row :: grid) (h :: hs) ws = row_placed ro 0 row ws ++ grid_placed (ro + h) grid hs ws.
Proof. reflexivity. Qed.

Lemma row_placed_in : forall h row ws, wf_row h row ws ->
  forall ro co b, In b (row_placed ro co row ws) ->
  (pro R b = ro /\ mrows R (pb R b) = h /\ co <= pci R b /\ pci R b + mcols R (pb R b) <= co + suml ws)%nat.
Proof.
  induction 1 as [|o w row ws Ho Hrow IH]; intros ro co b Hb.
  - contradiction.
  - rewrite row_placed_cons in Hb. apply in_app_or in Hb. destruct Hb as [Hb|Hb].
    + destruct o as [B|]; [|contradiction]. destruct Hb as [<-|[]]. simpl. lia.
    + apply IH in Hb. simpl. lia.
Qed.

Lemma grid_placed_in : forall grid hs ws, wf_grid grid hs ws ->
  forall ro b, In b (grid_placed ro grid hs ws) ->
  (ro <= pro R b /\ pro R b + mrows R (pb R b) <= ro + suml hs /\ pci R b + mcols R (pb R b) <= suml ws)%nat.
Proof.
  induction 1 as [|row h grid hs Hrow Hg IH]; intros ro b Hb.
  - contradiction.
  - rewrite grid_placed_cons in Hb. apply in_app_or in Hb. destruct Hb as [Hb|Hb].
    + apply (row_placed_in h row ws Hrow) in Hb. simpl. lia.
    + apply IH in Hb. simpl. lia.
Qed.

Lemma row_placed_ent : forall h row ws, wf_row h row ws ->
  forall ro co r c, sum_ent (row_placed ro co row ws) (ro + r) (co + c) = if r <? h then row_ent row ws r c else 0.
Proof.
  induction 1 as [|o w row ws Ho Hrow IH]; intros.
  - simpl. destruct (r <? h); reflexivity.
  - rewrite row_placed_cons, sum_ent_app. cbn [row_ent].
    assert (Hhd : sum_ent (match o with Some B => [mkplaced R B ro co] | None => [] end) (ro + r) (co + c) =
                  if (r <? h) && (c <? w) then match o with Some B => ment R B r c | None => 0 end else 0).
    { destruct o as [B|]; [destruct Ho as [<- <-]; rewrite sum_ent_cons, placed_ent_at; simpl; ring|].
      destruct (_ && _); reflexivity. }
    rewrite Hhd. destruct (Nat.ltb_spec c w) as [Hc|Hc].
    + rewrite (sum_ent_outside R rO rI radd rmul rsub ropp Rth)
        by (intros b Hb; apply (row_placed_in h row ws Hrow) in Hb; lia).
      rewrite andb_true_r. destruct (r <? h); ring.
    + replace (co + c)%nat with (co + w + (c - w))%nat by lia. rewrite IH, andb_false_r. ring.
Qed.

Lemma grid_placed_ent : forall grid hs ws, wf_grid grid hs ws ->
  forall ro r c, sum_ent (grid_placed ro grid hs ws) (ro + r) c = grid_ent grid hs ws r c.
Proof.
  induction 1 as [|row h grid hs Hrow Hg IH]; intros.
  - reflexivity.
  - rewrite grid_placed_cons, sum_ent_app. cbn [grid_ent].
    replace c with (0 + c)%nat at 1 by lia. rewrite (row_placed_ent h row ws Hrow).
    destruct (Nat.ltb_spec r h).
    + rewrite (sum_ent_outside R rO rI radd rmul rsub ropp Rth _ (ro + r))
        by (intros b Hb; apply (grid_placed_in grid hs ws Hg) in Hb; lia).
      ring.
    + replace (ro + r)%nat with (ro + h + (r - h))%nat by lia. rewrite IH. ring.
Qed.

Lemma block_operator_ent : forall grid hs ws r c, wf_grid grid hs ws ->
  sum_ent (block_operator R grid hs ws) r c = ment R (grid_dense grid hs ws) r c.
Proof. intros grid hs ws r c H. exact (grid_placed_ent grid hs ws H 0%nat r c). Qed.

Lemma block_operator_in : forall grid hs ws b, wf_grid grid hs ws -> In b (block_operator R grid hs ws) ->
  (pro R b + mrows R (pb R b) <= mrows R (grid_dense grid hs ws) /\
   pci R b + mcols R (pb R b) <= mcols R (grid_dense grid hs ws))%nat.
Proof. intros grid hs ws b H Hb. apply (grid_placed_in grid hs ws H 0%nat) in Hb. simpl. lia. Qed.

Definition mmuls (As Bs : list (mat R)) : list (mat R) :=
  map (fun ab => mmul R rO radd rmul (fst ab) (snd ab)) (combine As Bs).

(* factor dimensions compatible for the product As . Bs *)
Definition compat (As Bs : list (mat R)) : Prop := Forall2 (fun A B => mcols R A = mrows R B) As Bs.

Lemma compat_dims : forall As Bs, compat As Bs ->
  colsl As = rowsl Bs /\ rowsl (mmuls As Bs) = rowsl As /\ colsl (mmuls As Bs) = colsl Bs.
Proof.
  induction 1; simpl. auto.
  destruct IHForall2 as [E1 [E2 E3]]. unfold colsl, rowsl, mmuls in *. simpl.
  rewrite E1, E2, E3, H. auto.
Qed.

(* mixed-product property: kron(As) kron(Bs) = kron(As Bs) *)
Lemma kron_ent_mul : forall As Bs, compat As Bs -> forall i l,
  sumn (prodl (colsl As)) (fun j => kron_ent As i j * kron_ent Bs j l) = kron_ent (mmuls As Bs) i l.
Proof.
  induction 1 as [|A B As Bs HAB Hc IH]; intros.
  - simpl. ring.
  - destruct (compat_dims As Bs Hc) as [E1 [E2 E3]].
    change (mmuls (A :: As) (B :: Bs)) with (mmul R rO radd rmul A B :: mmuls As Bs).
    change (prodl (colsl (A :: As))) with (mcols R A * prodl (colsl As))%nat.
    cbn [kron_ent mmul ment]. rewrite E2, E3, <- E1, <- IH, <- sumn_kron.
    apply sumn_ext. intros j _. cbv beta. ring.
Qed.

(* a list of matrices that are identities on their index ranges *)
Definition deltas (Cs : list (mat R)) : Prop :=
  Forall (fun C => mrows R C = mcols R C /\
                   forall i l, (i < mrows R C)%nat -> (l < mrows R C)%nat ->
                               ment R C i l = if Nat.eqb i l then 1 else 0) Cs.

Lemma deltas_square : forall Cs, deltas Cs -> colsl Cs = rowsl Cs.
Proof.
  induction 1 as [|C Cs [H _] _ IH]; simpl. reflexivity.
  unfold colsl, rowsl in *. simpl. rewrite IH, H. reflexivity.
Qed.

Lemma kron_ent_delta : forall Cs, deltas Cs -> forall i l,
  (i < prodl (rowsl Cs))%nat -> (l < prodl (rowsl Cs))%nat ->
  kron_ent Cs i l = if Nat.eqb i l then 1 else 0.
Proof.
  induction 1 as [|C Cs [Hsq HC] HCs IH]; intros i l Hi Hl.
  - simpl in *. assert (i = 0)%nat by lia. assert (l = 0)%nat by lia. subst. reflexivity.
  - assert (Ecols := deltas_square Cs HCs).
    cbn [kron_ent rowsl colsl map prodl] in *. fold (rowsl Cs) in *. fold (colsl Cs). rewrite Ecols.
    set (N' := prodl (rowsl Cs)) in *.
    destruct (divmod_lt i _ N' Hi) as [Hi1 Hi2]. destruct (divmod_lt l _ N' Hl) as [Hl1 Hl2].
    rewrite HC, IH by assumption.
    assert (Di := Nat.div_mod_eq i N'). assert (Dl := Nat.div_mod_eq l N').
    destruct (Nat.eqb_spec (i / N') (l / N')); destruct (Nat.eqb_spec (i mod N') (l mod N'));
      destruct (Nat.eqb_spec i l); try ring; try (exfalso; congruence); exfalso; subst; lia.
Qed.

(* y = Ainv-Kronecker applied to x, A_k . Ainv_k = I  ==>  kron(A) y = x *)
Lemma kron_inverse_apply : forall As Ainvs, compat As Ainvs -> deltas (mmuls As Ainvs) ->
  forall (x y : nat -> R),
  (forall j, (j < prodl (rowsl Ainvs))%nat -> y j = sumn (prodl (colsl Ainvs)) (fun l => kron_ent Ainvs j l * x l)) ->
  forall i, (i < prodl (rowsl As))%nat ->
  sumn (prodl (colsl As)) (fun j => kron_ent As i j * y j) = x i.
Proof.
  intros As Ainvs Hc Hd x y Hy i Hi.
  destruct (compat_dims As Ainvs Hc) as [E1 [E2 E3]].
  assert (EN : prodl (colsl Ainvs) = prodl (rowsl As))
    by (rewrite <- E3, (deltas_square _ Hd), E2; reflexivity).
  rewrite (sumn_ext _ _ (fun j => kron_ent As i j * sumn (prodl (colsl Ainvs)) (fun l => kron_ent Ainvs j l * x l)))
    by (intros j Hj; rewrite Hy by (rewrite <- E1; assumption); reflexivity).
  rewrite sumn_assoc.
  rewrite (sumn_ext _ _ (fun l => (if Nat.eqb l i then 1 else 0) * x l)).
  - rewrite EN, sumn_delta_l by assumption. ring.
  - intros l Hl. rewrite kron_ent_mul by assumption.
    rewrite kron_ent_delta by (auto; rewrite ?E2; auto; rewrite <- EN; assumption).
    rewrite Nat.eqb_sym. reflexivity.
Qed.

(* make_kronecker_solver (operators.py:298-303): KroneckerOperator of the factor solvers.
   Contract of the factor solvers: B_k . Binv_k = I. *)
Lemma kron_solver_at : forall (Bs : list (mat R)) (Binvs : list (operand R)) (x : arr R) sT t,
  compat Bs (omats Binvs) -> deltas (mmuls Bs (omats Binvs)) ->
  ashape R x = prodl (ocols Binvs) :: sT -> rhs sT t -> inr t sT ->
  forall i, (i < prodl (rowsl Bs))%nat ->
  sumn (prodl (colsl Bs)) (fun j => kron_ent Bs i j * aat R (kronecker_operator R rO radd rmul Binvs x) (j :: t)) =
  aat R x (i :: t).
Proof.
  intros Bs Binvs x sT t Hc Hd Hx Hrhs Ht i Hi.
  apply (kron_inverse_apply Bs (omats Binvs) Hc Hd
           (fun l => aat R x (l :: t)) (fun j => aat R (kronecker_operator R rO radd rmul Binvs x) (j :: t))); auto.
  intros j Hj. rewrite rowsl_omats in Hj. rewrite colsl_omats.
  apply (kron_operator_at Binvs x sT); assumption.
Qed.

(* fastdiag_solver (solvers.py:17-42); one direction: stiffness K, mass M, eigenvectors U, eigenvalues lam, size n *)
Record eigfac := mkeig { fK : mat R; fM : mat R; fU : mat R; flam : nat -> R; fn : nat }.

(* contract of scipy.linalg.eigh(K, M) used here (hypothesis, not proved):
   K U = M U diag(lam)  and  (M U) U^T = I  (U is M-orthonormal and complete) *)
Definition eig_ok (f : eigfac) : Prop :=
  mrows R (fK f) = fn f /\ mcols R (fK f) = fn f /\ mrows R (fM f) = fn f /\ mcols R (fM f) = fn f /\
  mrows R (fU f) = fn f /\ mcols R (fU f) = fn f /\
  (forall i c, (i < fn f)%nat -> (c < fn f)%nat ->
     sumn (fn f) (fun j => ment R (fK f) i j * ment R (fU f) j c) =
     sumn (fn f) (fun j => ment R (fM f) i j * ment R (fU f) j c) * flam f c) /\
  (forall i l, (i < fn f)%nat -> (l < fn f)%nat ->
     sumn (fn f) (fun c => sumn (fn f) (fun j => ment R (fM f) i j * ment R (fU f) j c) * ment R (fU f) l c) =
     if Nat.eqb i l then 1 else 0).

Definition sizes (fs : list eigfac) : list nat := map fn fs.

(* the Kronecker-sum ("generalized Laplacian") matrix  sum_d M (x) .. (x) K_d (x) .. (x) M,
   in its recursive form  L(f::fs) = K_f (x) kron(M_fs) + M_f (x) L(fs) *)
Fixpoint lap_ent (fs : list eigfac) (i j : nat) : R :=
  match fs with
  | [] => 0
  | f :: fs' =>
      let N' := prodl (sizes fs') in
      ment R (fK f) (i / N') (j / N') * kron_ent (map fM fs') (i mod N') (j mod N') +
      ment R (fM f) (i / N') (j / N') * lap_ent fs' (i mod N') (j mod N')
  end.

(* diag of solvers.py:32-37: sum_d kron(1,..,lam_d,..,1), recursive form *)
Fixpoint diag_ev (fs : list eigfac) (c : nat) : R :=
  match fs with
  | [] => 0
  | f :: fs' => let N' := prodl (sizes fs') in flam f (c / N') + diag_ev fs' (c mod N')
  end.

Lemma eig_dims : forall fs, Forall eig_ok fs ->
  rowsl (map fM fs) = sizes fs /\ colsl (map fM fs) = sizes fs /\
  rowsl (map fU fs) = sizes fs /\ colsl (map fU fs) = sizes fs /\ compat (map fM fs) (map fU fs).
Proof.
  induction 1; simpl. repeat split; constructor.
  destruct H as [_ [_ [H3 [H4 [H5 [H6 _]]]]]]. destruct IHForall as [E1 [E2 [E3 [E4 E5]]]].
  unfold rowsl, colsl, sizes, compat in *. simpl. rewrite E1, E2, E3, E4, H3, H4, H5, H6.
  repeat split. constructor; [congruence|assumption].
Qed.

(* L kron(U) = kron(M U) diag(ev) *)
Lemma lap_times_U : forall fs, Forall eig_ok fs -> forall i c,
  (i < prodl (sizes fs))%nat -> (c < prodl (sizes fs))%nat ->
  sumn (prodl (sizes fs)) (fun j => lap_ent fs i j * kron_ent (map fU fs) j c) =
  kron_ent (mmuls (map fM fs) (map fU fs)) i c * diag_ev fs c.
Proof.
  induction 1 as [|f fs Hf Hfs IH]; intros i c Hi Hc.
  - simpl. ring.
  - destruct (eig_dims fs Hfs) as [E1 [E2 [E3 [E4 E5]]]].
    destruct (compat_dims _ _ E5) as [_ [F2 F3]].
    destruct Hf as [K1 [K2 [M1 [M2 [U1 [U2 [HK HI]]]]]]].
    change (prodl (sizes (f :: fs))) with (fn f * prodl (sizes fs))%nat in *.
    change (mmuls (map fM (f :: fs)) (map fU (f :: fs)))
      with (mmul R rO radd rmul (fM f) (fU f) :: mmuls (map fM fs) (map fU fs)).
    cbn [lap_ent diag_ev kron_ent map]. rewrite E3, E4, F2, F3, E1, E4.
    set (N' := prodl (sizes fs)) in *.
    destruct (divmod_lt i _ N' Hi) as [Hi1 Hi2]. destruct (divmod_lt c _ N' Hc) as [Hc1 Hc2].
    (* (K U) (kron(M) kron(U)) + (M U) (L kron(U)), each factor a sum of its own *)
    transitivity
      (sumn (fn f) (fun p => ment R (fK f) (i / N') p * ment R (fU f) p (c / N')) *
       sumn N' (fun q => kron_ent (map fM fs) (i mod N') q * kron_ent (map fU fs) q (c mod N')) +
       sumn (fn f) (fun p => ment R (fM f) (i / N') p * ment R (fU f) p (c / N')) *
       sumn N' (fun q => lap_ent fs (i mod N') q * kron_ent (map fU fs) q (c mod N'))).
    + rewrite <- !sumn_kron, <- sumn_add. apply sumn_ext. intros j _. cbv beta. ring.
    + rewrite (HK _ _ Hi1 Hc1), (IH _ _ Hi2 Hc2).
      assert (EM := kron_ent_mul _ _ E5 (i mod N') (c mod N')). rewrite E2 in EM. fold N' in EM.
      rewrite EM. cbn [mmul ment]. rewrite M2. ring.
Qed.

Lemma eig_delta : forall fs, Forall eig_ok fs ->
  compat (mmuls (map fM fs) (map fU fs)) (map (mT R) (map fU fs)) /\
  deltas (mmuls (mmuls (map fM fs) (map fU fs)) (map (mT R) (map fU fs))).
Proof.
  induction 1 as [|f fs Hf Hfs [IH1 IH2]]; simpl. split; constructor.
  destruct Hf as [K1 [K2 [M1 [M2 [U1 [U2 [HK HI]]]]]]].
  split; constructor; auto.
  cbn [fst snd mmul mrows mcols mT ment]. split. congruence.
  intros i l Hi Hl. rewrite U2, M2. rewrite M1 in *. apply HI; assumption.
Qed.

(* kron(M U) kron(U)^T = I *)
Lemma MU_times_UT : forall fs, Forall eig_ok fs -> forall i l,
  (i < prodl (sizes fs))%nat -> (l < prodl (sizes fs))%nat ->
  sumn (prodl (sizes fs)) (fun c => kron_ent (mmuls (map fM fs) (map fU fs)) i c * kron_ent (map fU fs) l c) =
  if Nat.eqb i l then 1 else 0.
Proof.
  intros fs H i l Hi Hl.
  destruct (eig_dims fs H) as [E1 [E2 [E3 [E4 E5]]]].
  destruct (compat_dims _ _ E5) as [_ [F2 F3]].
  destruct (eig_delta fs H) as [G1 G2].
  destruct (compat_dims _ _ G1) as [_ [H2 _]].
  rewrite (sumn_ext _ _ (fun c => kron_ent (mmuls (map fM fs) (map fU fs)) i c * kron_ent (map (mT R) (map fU fs)) c l))
    by (intros; rewrite kron_ent_T; reflexivity).
  assert (EM := kron_ent_mul _ _ G1 i l). rewrite F3, E4 in EM. rewrite EM.
  apply kron_ent_delta; auto; rewrite H2, F2, E1; assumption.
Qed.

(* the matrix identity behind fastdiag_solver: with U = kron(U_k), D = diag(dinv), dinv = 1/ev,
   y = U D U^T x  ==>  L y = x *)
Lemma fastdiag_algebra : forall fs (dinv x y : nat -> R), Forall eig_ok fs ->
  (forall c, (c < prodl (sizes fs))%nat -> diag_ev fs c * dinv c = 1) ->
  (forall j, (j < prodl (sizes fs))%nat ->
     y j = sumn (prodl (sizes fs)) (fun c => kron_ent (map fU fs) j c *
             (dinv c * sumn (prodl (sizes fs)) (fun l => kron_ent (map fU fs) l c * x l)))) ->
  forall i, (i < prodl (sizes fs))%nat ->
  sumn (prodl (sizes fs)) (fun j => lap_ent fs i j * y j) = x i.
Proof.
  intros fs dinv x y H Hd Hy i Hi.
  set (N := prodl (sizes fs)) in *.
  set (r := fun c => sumn N (fun l => kron_ent (map fU fs) l c * x l)) in *.
  rewrite (sumn_ext _ _ (fun j => lap_ent fs i j * sumn N (fun c => kron_ent (map fU fs) j c * (dinv c * r c))))
    by (intros j Hj; rewrite Hy by assumption; reflexivity).
  rewrite sumn_assoc.
  (* L U = (M U) diag(ev), and ev * dinv = 1 *)
  rewrite (sumn_ext _ _ (fun c => kron_ent (mmuls (map fM fs) (map fU fs)) i c * r c)).
  2:{ intros c Hc. unfold N. rewrite (lap_times_U fs H i c Hi Hc).
      transitivity (kron_ent (mmuls (map fM fs) (map fU fs)) i c * (diag_ev fs c * dinv c) * r c). ring.
      rewrite (Hd c Hc). ring. }
  unfold r. rewrite sumn_assoc.
  rewrite (sumn_ext _ _ (fun l => (if Nat.eqb l i then 1 else 0) * x l)).
  - rewrite sumn_delta_l by assumption. ring.
  - intros l Hl. unfold N. rewrite (MU_times_UT fs H i l Hi Hl), Nat.eqb_sym. reflexivity.
Qed.

(* solvers.py:39-42: l_op * DiagonalOperator(dinv) * r_op with any array d that holds
   dinv[c] * (r_op x)[c, t]  (fastdiag_apply builds it for vectors, fastdiag_apply_mat for (N,m) arrays)
   is the explicit matrix kron(U) diag(dinv) kron(U)^T *)
Lemma fastdiag_op_at : forall (Us : list (operand R)) (dinv : nat -> R) (x d : arr R) sT t,
  ocols Us = orows Us -> ashape R x = prodl (orows Us) :: sT -> ashape R d = prodl (orows Us) :: sT ->
  rhs sT t -> inr t sT ->
  (forall c, aat R d (c :: t) = dinv c * aat R (kronecker_operator R rO radd rmul (map (oT R) Us) x) (c :: t)) ->
  forall i, (i < prodl (orows Us))%nat ->
  aat R (kronecker_operator R rO radd rmul Us d) (i :: t) =
  sumn (prodl (orows Us)) (fun c => kron_ent (omats Us) i c *
     (dinv c * sumn (prodl (orows Us)) (fun l => kron_ent (omats Us) l c * aat R x (l :: t)))).
Proof.
  intros Us dinv x d sT t Hsq Hx Hd Hrhs Ht Hdat i Hi.
  rewrite (kron_operator_at Us d sT) by (rewrite ?Hsq; assumption).
  rewrite Hsq. apply sumn_ext. intros c Hc. rewrite Hdat.
  change (kronecker_operator R rO radd rmul (map (oT R) Us) x) with (kronecker_operator_T R rO radd rmul Us x).
  rewrite (kron_transpose_at Us x sT) by (rewrite ?Hsq; assumption). reflexivity.
Qed.

(* fastdiag_solver applies the inverse of the Kronecker-sum matrix *)
Lemma fastdiag_inverts_at : forall (fs : list eigfac) (Us : list (operand R)) (dinv : nat -> R) (x d : arr R) sT t,
  Forall eig_ok fs -> omats Us = map fU fs ->
  (forall c, (c < prodl (sizes fs))%nat -> diag_ev fs c * dinv c = 1) ->
  ashape R x = prodl (sizes fs) :: sT -> ashape R d = prodl (orows Us) :: sT -> rhs sT t -> inr t sT ->
  (forall c, aat R d (c :: t) = dinv c * aat R (kronecker_operator R rO radd rmul (map (oT R) Us) x) (c :: t)) ->
  forall i, (i < prodl (sizes fs))%nat ->
  sumn (prodl (sizes fs)) (fun j => lap_ent fs i j * aat R (kronecker_operator R rO radd rmul Us d) (j :: t)) =
  aat R x (i :: t).
Proof.
  intros fs Us dinv x d sT t H HU Hdinv Hx Hd Hrhs Ht Hdat.
  destruct (eig_dims fs H) as [_ [_ [E3 [E4 _]]]].
  assert (Er : orows Us = sizes fs) by (rewrite <- rowsl_omats, HU; assumption).
  assert (Ec : ocols Us = sizes fs) by (rewrite <- colsl_omats, HU; assumption).
  apply (fastdiag_algebra fs dinv (fun l => aat R x (l :: t))); auto.
  intros j Hj. rewrite <- HU, <- Er in *.
  apply (fastdiag_op_at Us dinv x d sT t); auto.
Qed.

(* reduce(np.kron, ...) (left-nested) = the right-nested Kronecker matrix *)
Local Notation kron2 := (Model2.kron2 R rmul).
Local Notation kron_reduce := (Model2.kron_reduce R rI rmul).

Lemma divmod_nest : forall i Rl r, (r <> 0)%nat -> (Rl <> 0)%nat ->
  (i / (Rl * r) = (i / r) / Rl /\ (i mod (Rl * r)) / r = (i / r) mod Rl /\ (i mod (Rl * r)) mod r = i mod r)%nat.
Proof.
  intros i Rl r Hr HR. repeat split.
  - rewrite Nat.div_div by assumption. f_equal. apply Nat.mul_comm.
  - rewrite (Nat.mul_comm Rl r), Nat.mod_mul_r by assumption.
    rewrite (Nat.add_comm (i mod r)), (Nat.mul_comm r), Nat.div_add_l by assumption.
    rewrite (Nat.div_small (i mod r) r) by (apply Nat.mod_upper_bound; assumption). lia.
  - rewrite (Nat.mul_comm Rl r), Nat.mod_mul_r by assumption.
    rewrite (Nat.mul_comm r), Nat.mod_add by assumption. apply Nat.mod_mod. assumption.
Qed.

Lemma rowsl_app : forall l B, prodl (rowsl (l ++ [B])) = (prodl (rowsl l) * mrows R B)%nat.
Proof. intros. unfold rowsl. rewrite map_app, prodl_app. simpl. lia. Qed.
Lemma colsl_app : forall l B, prodl (colsl (l ++ [B])) = (prodl (colsl l) * mcols R B)%nat.
Proof. intros. unfold colsl. rewrite map_app, prodl_app. simpl. lia. Qed.

Lemma kron_ent_snoc : forall l B i j,
  (i < prodl (rowsl (l ++ [B])))%nat -> (j < prodl (colsl (l ++ [B])))%nat ->
  kron_ent (l ++ [B]) i j =
  kron_ent l (i / mrows R B) (j / mcols R B) * ment R B (i mod mrows R B) (j mod mcols R B).
Proof.
  induction l as [|A l IH]; intros B i j Hi Hj.
  - cbn [app kron_ent rowsl colsl map prodl] in *.
    rewrite !Nat.div_1_r. rewrite !Nat.mod_small by lia. ring.
  - cbn [app kron_ent]. fold (rowsl (l ++ [B])). fold (colsl (l ++ [B])). fold (rowsl l). fold (colsl l).
    rewrite rowsl_app, colsl_app in *.
    cbn [rowsl colsl map prodl] in Hi, Hj. fold (rowsl l) in Hi. fold (colsl l) in Hj.
    set (Rl := prodl (rowsl l)) in *. set (Cl := prodl (colsl l)) in *.
    assert (Hr : mrows R B <> 0%nat) by (intro E; rewrite E in Hi; lia).
    assert (Hc : mcols R B <> 0%nat) by (intro E; rewrite E in Hj; lia).
    assert (HR : Rl <> 0%nat) by (intro E; rewrite E in Hi; lia).
    assert (HC : Cl <> 0%nat) by (intro E; rewrite E in Hj; lia).
    destruct (divmod_nest i Rl (mrows R B) Hr HR) as [A1 [A2 A3]].
    destruct (divmod_nest j Cl (mcols R B) Hc HC) as [B1 [B2 B3]].
    rewrite IH.
    + rewrite A1, A2, A3, B1, B2, B3. ring.
    + rewrite rowsl_app. fold Rl. apply Nat.mod_upper_bound. lia.
    + rewrite colsl_app. fold Cl. apply Nat.mod_upper_bound. lia.
Qed.

Lemma kron_reduce_shape_at : forall ops,
  mrows R (kron_reduce ops) = prodl (rowsl ops) /\ mcols R (kron_reduce ops) = prodl (colsl ops) /\
  forall i j, (i < prodl (rowsl ops))%nat -> (j < prodl (colsl ops))%nat ->
    ment R (kron_reduce ops) i j = kron_ent ops i j.
Proof.
  destruct ops as [|A rest]. { simpl. repeat split; auto. }
  change (kron_reduce (A :: rest)) with (fold_left kron2 rest A).
  induction rest as [|B rest [Er [Ec Eent]]] using rev_ind.
  - cbn [fold_left rowsl colsl map prodl kron_ent]. repeat split; try lia.
    intros i j Hi Hj. rewrite !Nat.div_1_r. ring.
  - rewrite fold_left_app. cbn [fold_left].
    change (A :: rest ++ [B]) with ((A :: rest) ++ [B]).
    rewrite rowsl_app, colsl_app. cbn [Model2.kron2 mrows mcols ment]. rewrite Er, Ec.
    repeat split; auto.
    intros i j Hi Hj.
    rewrite kron_ent_snoc by (rewrite ?rowsl_app, ?colsl_app; assumption).
    rewrite Eent. reflexivity.
    + apply (divmod_lt i _ _ Hi).
    + apply (divmod_lt j _ _ Hj).
Qed.

(* the expressions of solvers.py:32-37 = the recursive forms lap_ent, diag_ev *)
Local Notation set_nth := (@Model2.set_nth (mat R)).
Local Notation colvec := (Model2.colvec R).
Local Notation onesv := (fun n => Model2.colvec R n (Model2.ones R rI n)).
Local Notation dfltm := (mkmat R 0 0 (fun _ _ => rO)).

Lemma sumn_shift : forall n (f : nat -> R), sumn (S n) f = f 0%nat + sumn n (fun d => f (S d)).
Proof. induction n; intros. simpl. ring. cbn [Model.sumn] in *. rewrite IHn. ring. Qed.

(* replacing the d-th matrix by one of the same shape keeps the shape lists *)
Lemma shapes_set_nth : forall (Ms : list (mat R)) d K,
  mrows R K = mrows R (nth d Ms dfltm) -> mcols R K = mcols R (nth d Ms dfltm) -> (d < length Ms)%nat ->
  rowsl (set_nth d K Ms) = rowsl Ms /\ colsl (set_nth d K Ms) = colsl Ms.
Proof.
  induction Ms as [|M Ms IH]; intros d K Hr Hc Hd. simpl in Hd; lia.
  destruct d as [|d]; simpl in *.
  - unfold rowsl, colsl. simpl. rewrite Hr, Hc. auto.
  - destruct (IH d K Hr Hc ltac:(lia)) as [E1 E2]. unfold rowsl, colsl in *. simpl. rewrite E1, E2. auto.
Qed.

(* one step of a Kronecker sum  sum_d kron(B_0, .., a_d, .., B_n): the term d = 0 replaces the head,
   the others keep it and replace inside the tail *)
Lemma kron_sum_cons : forall (a : nat -> mat R) (B : mat R) (Bs : list (mat R)) i j,
  (forall d, (d < length Bs)%nat ->
     mrows R (a (S d)) = mrows R (nth d Bs dfltm) /\ mcols R (a (S d)) = mcols R (nth d Bs dfltm)) ->
  sumn (S (length Bs)) (fun d => kron_ent (set_nth d (a d) (B :: Bs)) i j) =
  ment R (a 0%nat) (i / prodl (rowsl Bs)) (j / prodl (colsl Bs)) *
    kron_ent Bs (i mod prodl (rowsl Bs)) (j mod prodl (colsl Bs)) +
  ment R B (i / prodl (rowsl Bs)) (j / prodl (colsl Bs)) *
    sumn (length Bs) (fun d => kron_ent (set_nth d (a (S d)) Bs) (i mod prodl (rowsl Bs)) (j mod prodl (colsl Bs))).
Proof.
  intros a B Bs i j Ha. rewrite sumn_shift. cbn [Model2.set_nth kron_ent]. f_equal.
  rewrite <- sumn_mul_l. apply sumn_ext. intros d Hd.
  destruct (Ha d Hd) as [D1 D2]. destruct (shapes_set_nth Bs d _ D1 D2 Hd) as [S1 S2].
  rewrite S1, S2. reflexivity.
Qed.

(* each term of such a sum as the code builds it, with reduce(np.kron, ...) *)
Lemma kron_reduce_set_nth : forall (Bs : list (mat R)) d K i j,
  mrows R K = mrows R (nth d Bs dfltm) -> mcols R K = mcols R (nth d Bs dfltm) -> (d < length Bs)%nat ->
  (i < prodl (rowsl Bs))%nat -> (j < prodl (colsl Bs))%nat ->
  ment R (kron_reduce (set_nth d K Bs)) i j = kron_ent (set_nth d K Bs) i j.
Proof.
  intros Bs d K i j Hr Hc Hd Hi Hj. destruct (shapes_set_nth Bs d K Hr Hc Hd) as [S1 S2].
  destruct (kron_reduce_shape_at (set_nth d K Bs)) as [_ [_ Hent]].
  apply Hent; rewrite ?S1, ?S2; assumption.
Qed.

Lemma eig_nth_dims : forall fs, Forall eig_ok fs -> forall d, (d < length fs)%nat ->
  mrows R (nth d (map fK fs) dfltm) = mrows R (nth d (map fM fs) dfltm) /\
  mcols R (nth d (map fK fs) dfltm) = mcols R (nth d (map fM fs) dfltm).
Proof.
  induction 1 as [|f fs Hf Hfs IH]; intros d Hd. simpl in Hd; lia.
  destruct d as [|d]; simpl.
  - destruct Hf as [K1 [K2 [M1 [M2 _]]]]. split; congruence.
  - apply IH. simpl in Hd. lia.
Qed.

Lemma lap_sum : forall fs, Forall eig_ok fs -> forall i j,
  sumn (length fs) (fun d => kron_ent (set_nth d (nth d (map fK fs) dfltm) (map fM fs)) i j) = lap_ent fs i j.
Proof.
  induction 1 as [|f fs Hf Hfs IH]; intros i j.
  - reflexivity.
  - destruct (eig_dims fs Hfs) as [E1 [E2 _]].
    cbn [length map lap_ent]. rewrite <- (map_length fM fs).
    rewrite (kron_sum_cons (fun d => nth d (fK f :: map fK fs) dfltm)).
    + cbn [nth]. rewrite E1, E2, map_length, IH. reflexivity.
    + intros d Hd. rewrite map_length in Hd. exact (eig_nth_dims fs Hfs d Hd).
Qed.

Lemma lap_code_lap_ent : forall fs, Forall eig_ok fs -> forall i j,
  (i < prodl (sizes fs))%nat -> (j < prodl (sizes fs))%nat ->
  fastdiag_lap_code R rO rI radd rmul (map fK fs) (map fM fs) i j = lap_ent fs i j.
Proof.
  intros fs H i j Hi Hj. unfold fastdiag_lap_code. rewrite map_length.
  rewrite <- (lap_sum fs H i j). apply sumn_ext. intros d Hd.
  destruct (eig_dims fs H) as [E1 [E2 _]]. destruct (eig_nth_dims fs H d Hd) as [D1 D2].
  apply kron_reduce_set_nth; rewrite ?map_length, ?E1, ?E2; assumption.
Qed.

Lemma kron_ones : forall ns i j, kron_ent (map onesv ns) i j = 1.
Proof. induction ns; intros; simpl. reflexivity. rewrite IHns. unfold Model2.ones. ring. Qed.

Lemma shapes_onesv : forall ns, rowsl (map onesv ns) = ns /\ prodl (colsl (map onesv ns)) = 1%nat.
Proof.
  induction ns; simpl. auto. destruct IHns as [E1 E2].
  unfold rowsl, colsl in *. simpl. rewrite E1, E2. auto.
Qed.

Lemma nth_onesv : forall ns d, (d < length ns)%nat -> nth d (map onesv ns) dfltm = onesv (nth d ns 0%nat).
Proof.
  intros. rewrite (nth_indep _ dfltm (onesv 0%nat)) by (rewrite map_length; assumption).
  apply (map_nth onesv).
Qed.

Lemma diag_sum : forall fs c,
  sumn (length fs) (fun d => kron_ent (set_nth d (colvec (nth d (sizes fs) 0%nat) (nth d (map flam fs) (fun _ => rO)))
                                               (map onesv (sizes fs))) c 0%nat) = diag_ev fs c.
Proof.
  induction fs as [|f fs IH]; intros c.
  - reflexivity.
  - destruct (shapes_onesv (sizes fs)) as [O1 O2].
    assert (EL : length (map onesv (sizes fs)) = length fs) by (unfold sizes; rewrite !map_length; reflexivity).
    cbn [length map sizes diag_ev]. fold (sizes fs). rewrite <- EL.
    rewrite (kron_sum_cons (fun d => colvec (nth d (fn f :: sizes fs) 0%nat) (nth d (flam f :: map flam fs) (fun _ => rO)))).
    + cbn [nth Model2.colvec ment]. rewrite O1, O2, Nat.mod_1_r, kron_ones, EL, IH. unfold Model2.ones. ring.
    + intros d Hd. rewrite nth_onesv by (rewrite EL in Hd; unfold sizes; rewrite map_length; assumption).
      split; reflexivity.
Qed.

Lemma diag_code_diag_ev : forall fs c, (c < prodl (sizes fs))%nat ->
  fastdiag_diag_code R rO rI radd rmul (sizes fs) (map flam fs) c = diag_ev fs c.
Proof.
  intros fs c Hc. unfold fastdiag_diag_code.
  assert (EL : length (sizes fs) = length fs) by (unfold sizes; apply map_length).
  rewrite EL, <- (diag_sum fs c). apply sumn_ext. intros d Hd. rewrite <- EL in Hd.
  destruct (shapes_onesv (sizes fs)) as [O1 O2].
  apply kron_reduce_set_nth; rewrite ?(nth_onesv _ _ Hd), ?map_length, ?O1, ?O2; auto.
Qed.

(* fastdiag_inverts about the expressions the code builds *)
Lemma fastdiag_inverts_code_at : forall (fs : list (eigfac)) (Us : list (operand R)) (dinv : nat -> R) (x d : arr R) sT t,
  Forall eig_ok fs -> omats Us = map fU fs ->
  (forall c, (c < prodl (sizes fs))%nat ->
     fastdiag_diag_code R rO rI radd rmul (sizes fs) (map flam fs) c * dinv c = 1) ->
  ashape R x = prodl (sizes fs) :: sT -> ashape R d = prodl (orows Us) :: sT -> rhs sT t -> inr t sT ->
  (forall c, aat R d (c :: t) = dinv c * aat R (kronecker_operator R rO radd rmul (map (oT R) Us) x) (c :: t)) ->
  forall i, (i < prodl (sizes fs))%nat ->
  sumn (prodl (sizes fs)) (fun j => fastdiag_lap_code R rO rI radd rmul (map fK fs) (map fM fs) i j *
                                    aat R (kronecker_operator R rO radd rmul Us d) (j :: t)) = aat R x (i :: t).
Proof.
  intros fs Us dinv x d sT t H HU Hdinv Hx Hd Hrhs Ht Hdat i Hi.
  rewrite <- (fastdiag_inverts_at fs Us dinv x d sT t H HU) with (i := i); auto.
  - apply sumn_ext. intros j Hj. rewrite lap_code_lap_ent by assumption. reflexivity.
  - intros c Hc. rewrite <- diag_code_diag_ev by assumption. apply Hdinv. assumption.
Qed.

End Proofs2.
