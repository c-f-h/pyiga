(* C16 -- property theorems only, each followed by Print Assumptions; the lemmas are in
   Proofs.v and Proofs2.v.  All statements hold in every commutative ring
   (R, 0, 1, +, *, -, opp) -- in particular Z (used by the correspondence run), Q and the reals.

   Conjuncts of the property that are NOT theorems here (they rest on the exact
   correspondence run and the dense oracle only) are listed at the end. *)
From Coq Require Import List Arith Bool Ring Lia.
From Verif.C16 Require Import Model Model2 Proofs Proofs2.
Import ListNotations.

Section Props.
Variable R : Type.
Variables (rO rI : R) (radd rmul rsub : R -> R -> R) (ropp : R -> R).
Variable Rth : ring_theory rO rI radd rmul rsub ropp eq.

(* apply_tprod (tensor.py:106-137): for every number of operands, every storage kind
   (ndarray: tensordot; sparse/LinearOperator: _modek_tensordot_sparse), None placeholders,
   rectangular operands and any number of trailing axes, the loop computes
   Y[a_1..a_n, t] = sum_{j_1..j_n} prod_k B_k[a_k, j_k] X[j_1..j_n, t]   (tprod_spec),
   and the result has shape (rows of the operands / unchanged for None) ++ trailing. *)
Theorem apply_tprod_spec : forall ops (X : arr R) sS sT,
  ashape R X = sS ++ sT -> conf R ops sS ->
  ashape R (apply_tprod R rO radd rmul ops X) = out_shape R ops sS ++ sT /\
  forall a t, inr a (out_shape R ops sS) -> inr t sT ->
    aat R (apply_tprod R rO radd rmul ops X) (a ++ t) = tprod_spec R rO radd rmul ops (aat R X) (a ++ t).
Proof. exact (apply_tprod_shape_at R rO radd rmul). Qed.

(* the core of _apply_kronecker_dense (kronecker.py:67) on the reshaped argument is the
   Kronecker action in multi-index form, for any number of rectangular operands of any kind and
   a trailing right-hand-side axis *)
Theorem kron_core_spec : forall (ops : list (operand R)) (X : arr R) sT,
  ashape R X = map (fun o => mcols R (omat R o)) ops ++ sT ->
  ashape R (apply_tprod R rO radd rmul (map Some ops) X) = map (fun o => mrows R (omat R o)) ops ++ sT /\
  forall a t, inr a (map (fun o => mrows R (omat R o)) ops) -> inr t sT ->
    aat R (apply_tprod R rO radd rmul (map Some ops) X) (a ++ t) =
    tprod_spec R rO radd rmul (map Some ops) (aat R X) (a ++ t).
Proof.
  intros ops X sT HX.
  destruct (apply_tprod_spec (map Some ops) X _ sT HX (conf_all_some R ops)) as [Hs Hat].
  rewrite out_shape_all_some in Hs, Hat. split; assumption.
Qed.

(* _modek_tensordot_sparse (tensor.py:48-64): roll axis k to the front, matricize, apply,
   reshape back = contraction of axis k with the operator, new axis first *)
Theorem modek_sparse_spec : forall B k (X : arr R) a rest,
  inr rest (remove_at k (ashape R X)) ->
  aat R (modek_tensordot_sparse R rO radd rmul B k X) (a :: rest) =
  sumn R rO radd (mcols R B) (fun j => rmul (ment R B a j) (aat R X (insert_at k j rest))).
Proof. exact (modek_sparse_at R rO radd rmul). Qed.

(* BaseBlockOperator._matvec/_matmat column (operators.py:112-124): accumulating
   y[ran_out] += op . x[ran_in] over any list of placed blocks (any overlaps, any order)
   is multiplication with the sum of the placed blocks *)
Theorem block_spec : forall M N bl x r,
  (forall b, In b bl -> pci R b + mcols R (pb R b) <= N) ->
  base_block_matvec R rO radd rmul bl x r = mv R rO radd rmul (blocks_dense R rO radd M N bl) x r.
Proof. exact (base_block_matvec_dense R rO rI radd rmul rsub ropp Rth). Qed.

(* BaseBlockOperator._transpose (operators.py:126-129) denotes the transposed matrix *)
Theorem block_transpose : forall M N bl r c,
  ment R (blocks_dense R rO radd N M (map (placed_T R) bl)) c r = ment R (mT R (blocks_dense R rO radd M N bl)) c r.
Proof. intros M N bl r c. exact (sum_ent_T R rO radd bl r c). Qed.

(* BlockDiagonalOperator (operators.py:137-151): _sizes_to_ranges + BaseBlockOperator act like
   scipy.linalg.block_diag of the operands (bd_ent), for any number of rectangular blocks ... *)
Theorem blockdiag_spec : forall ops x r,
  base_block_matvec R rO radd rmul (block_diagonal R ops) x r = mv R rO radd rmul (blockdiag_dense R rO ops) x r.
Proof.
  intros. apply (layout_spec R rO rI radd rmul rsub ropp Rth).
  - intros b Hb. apply (block_diagonal_in R rO ops b Hb).
  - apply (block_diagonal_ent R rO rI radd rmul rsub ropp Rth).
Qed.

(* ... and its .T like the transposed block_diag matrix *)
Theorem blockdiag_transpose : forall ops x r,
  base_block_matvec R rO radd rmul (map (placed_T R) (block_diagonal R ops)) x r =
  mv R rO radd rmul (mT R (blockdiag_dense R rO ops)) x r.
Proof.
  intros. apply (layout_transpose R rO rI radd rmul rsub ropp Rth).
  - intros b Hb. apply (block_diagonal_in R rO ops b Hb).
  - apply (block_diagonal_ent R rO rI radd rmul rsub ropp Rth).
Qed.

(* DiagonalOperator, IdentityOperator, NullOperator (operators.py:22-73) *)
Theorem diag_spec : forall n d x i, i < n ->
  diagonal_matvec R rmul d x i = mv R rO radd rmul (diag_dense R rO n d) x i.
Proof. intros. symmetry. exact (sumn_delta_l R rO rI radd rmul rsub ropp Rth n i (d i) x H). Qed.

Theorem diag_symmetric : forall n d i j, ment R (mT R (diag_dense R rO n d)) i j = ment R (diag_dense R rO n d) i j.
Proof.
  intros. simpl. rewrite (Nat.eqb_sym i j). destruct (Nat.eqb_spec j i); subst; reflexivity.
Qed.

Theorem identity_spec : forall n x i, i < n -> identity_matvec R x i = mv R rO radd rmul (eye R rO rI n) x i.
Proof.
  intros. symmetry. etransitivity. exact (sumn_delta_l R rO rI radd rmul rsub ropp Rth n i rI x H). apply (Rmul_1_l Rth).
Qed.

Theorem null_spec : forall r c x i, null_matvec R rO x i = mv R rO radd rmul (zeros R rO r c) x i.
Proof. intros. symmetry. apply (mv_zeros R rO rI radd rmul rsub ropp Rth). Qed.

(* SubspaceOperator._matvec (operators.py:222-234), both values of _is_transpose:
   y = sum_j P_j (B_j (P_j^T x)) is multiplication with sum_j P_j B_j P_j^T (resp. B_j^T),
   for every family of prolongations (overlapping, rectangular, any entries) *)
Theorem subspace_spec : forall n tr PB x r,
  (forall pb, In pb PB -> mrows R (fst pb) = n) ->
  subspace_matvec R rO radd rmul tr PB x r = mv R rO radd rmul (subspace_dense R rO radd rmul n tr PB) x r.
Proof.
  intros n tr PB x r H. unfold subspace_matvec.
  rewrite (acc_dense R rO rI radd rmul rsub ropp Rth _ _
             (fun pb => pbp_ent R rO radd rmul (fst pb) (if tr then mT R (snd pb) else snd pb)) n x).
  - apply (Radd_0_l Rth).
  - intros pb Hpb y r'. cbv beta zeta. rewrite (pbp_apply R rO rI radd rmul rsub ropp Rth), (H pb Hpb). reflexivity.
Qed.

(* ... and the operator with the flag set denotes the transposed matrix (square B_j) *)
Theorem subspace_transpose : forall n PB r c,
  (forall pb, In pb PB -> mcols R (snd pb) = mcols R (fst pb) /\ mrows R (snd pb) = mcols R (fst pb)) ->
  ment R (subspace_dense R rO radd rmul n true PB) r c = ment R (mT R (subspace_dense R rO radd rmul n false PB)) r c.
Proof.
  intros n PB r c H. simpl. induction PB as [|pb PB IH]; simpl. reflexivity.
  destruct (H pb (or_introl eq_refl)) as [H1 H2].
  rewrite (pbp_transpose R rO rI radd rmul rsub ropp Rth), IH by (auto; intros; apply H; right; assumption).
  reflexivity.
Qed.

(* CSRRowSlice / CSRRowSubset (utils.py:119-182): the rows r0..r1-1 (resp. the listed rows, in
   the listed order, repetitions allowed) of the matrix the CSR structure denotes, also for
   unsorted and duplicate column indices *)
Theorem rowslice_spec : forall A r0 r1 x i, csr_wf R A ->
  (forall r, r < r1 -> nth (S r) (c_indptr R A) 0 <= length (c_indices R A)) ->
  i < r1 - r0 ->
  csr_rowslice R rO radd rmul A r0 r1 x i = mv R rO radd rmul (csr_dense R rO radd A) x (r0 + i).
Proof.
  intros A r0 r1 x i Hwf Hp Hi. unfold csr_rowslice. destruct (Nat.ltb_spec i (r1 - r0)); [|lia].
  apply (csr_row_spec R rO rI radd rmul rsub ropp Rth); auto. apply Hp. lia.
Qed.

Theorem rowsubset_spec : forall A rows x i, csr_wf R A ->
  (forall r, In r rows -> nth (S r) (c_indptr R A) 0 <= length (c_indices R A)) ->
  i < length rows ->
  csr_rowsubset R rO radd rmul A rows x i = mv R rO radd rmul (csr_dense R rO radd A) x (nth i rows 0).
Proof.
  intros A rows x i Hwf Hp Hi. unfold csr_rowsubset. destruct (Nat.ltb_spec i (length rows)); [|lia].
  apply (csr_row_spec R rO rI radd rmul rsub ropp Rth); auto. apply Hp. apply nth_In. assumption.
Qed.

Local Notation kron_ent := (Proofs2.kron_ent R rI rmul).
Local Notation kron_dense := (Proofs2.kron_dense R rI rmul).
Local Notation sumn := (Model.sumn R rO radd).
Local Notation omats ops := (map (omat R) ops).
Local Notation orows ops := (map (fun o => mrows R (omat R o)) ops).
Local Notation ocols ops := (map (fun o => mcols R (omat R o)) ops).

(* kron_ent ops i j is np.kron(A_1, np.kron(A_2, ...))[i, j]:
   A_1[i / R', j / C'] * kron(rest)[i mod R', j mod C'] (Proofs2.kron_ent).

   _apply_kronecker_dense (kronecker.py:58-68), vector argument: for any number of operands of
   any kind and any (rectangular) shapes the result is the flat Kronecker matrix times x ... *)
Theorem kron_dense_spec : forall (ops : list (operand R)) (x : arr R) i,
  ashape R x = [prodl (ocols ops)] -> i < prodl (orows ops) ->
  aat R (apply_kronecker_dense R rO radd rmul ops x) [i] =
  sumn (prodl (ocols ops)) (fun j => rmul (kron_ent (omats ops) i j) (aat R x [j])).
Proof.
  intros ops x i Hx Hi. exact (kron_dense_at R rO rI radd rmul rsub ropp Rth ops x [] i [] Hx rhs_vec (Forall2_nil _) Hi).
Qed.

(* ... and for (N,m) arguments, m = 1 (no trailing axis, kronecker.py:63) and m > 1 *)
Theorem kron_dense_spec_multi : forall (ops : list (operand R)) (x : arr R) m i c,
  ashape R x = [prodl (ocols ops); m] -> i < prodl (orows ops) -> c < m ->
  aat R (apply_kronecker_dense R rO radd rmul ops x) [i; c] =
  sumn (prodl (ocols ops)) (fun j => rmul (kron_ent (omats ops) i j) (aat R x [j; c])).
Proof.
  intros ops x m i c Hx Hi Hc. exact (kron_dense_at R rO rI radd rmul rsub ropp Rth ops x [m] i [c] Hx (rhs_col m c) (inr_col m c Hc) Hi).
Qed.

(* _apply_kronecker_linops (kronecker.py:15-55): the column-major sweeps over square factors
   (any number, any sizes) compute the same product; vectors ... *)
Theorem kron_linops_spec : forall (ops : list (operand R)) (x : arr R) i,
  squares R ops -> ashape R x = [prodl (orows ops)] -> i < prodl (orows ops) ->
  aat R (apply_kronecker_linops R rO radd rmul ops x) [i] =
  sumn (prodl (orows ops)) (fun j => rmul (kron_ent (omats ops) i j) (aat R x [j])).
Proof.
  intros ops x i Hsq Hx Hi. exact (kron_linops_at R rO rI radd rmul rsub ropp Rth ops x [] i [] Hsq Hx rhs_vec Hi).
Qed.

(* ... and (N,m) arguments (per-column loop l.48-51; m = 1 branch l.45-46) *)
Theorem kron_linops_spec_multi : forall (ops : list (operand R)) (x : arr R) m i c,
  squares R ops -> ashape R x = [prodl (orows ops); m] -> i < prodl (orows ops) ->
  aat R (apply_kronecker_linops R rO radd rmul ops x) [i; c] =
  sumn (prodl (orows ops)) (fun j => rmul (kron_ent (omats ops) i j) (aat R x [j; c])).
Proof.
  intros ops x m i c Hsq Hx Hi. exact (kron_linops_at R rO rI radd rmul rsub ropp Rth ops x [m] i [c] Hsq Hx (rhs_col m c) Hi).
Qed.

(* KroneckerOperator (operators.py:76-102): whichever branch the dispatch takes, for operands of
   any kind and shape, the operator acts like np.kron of the operands *)
Theorem kron_operator_spec : forall (ops : list (operand R)) (x : arr R) i,
  ashape R x = [prodl (ocols ops)] -> i < prodl (orows ops) ->
  aat R (kronecker_operator R rO radd rmul ops x) [i] =
  sumn (prodl (ocols ops)) (fun j => rmul (kron_ent (omats ops) i j) (aat R x [j])).
Proof.
  intros ops x i Hx Hi. exact (kron_operator_at R rO rI radd rmul rsub ropp Rth ops x [] i [] Hx rhs_vec (Forall2_nil _) Hi).
Qed.

Theorem kron_operator_spec_multi : forall (ops : list (operand R)) (x : arr R) m i c,
  ashape R x = [prodl (ocols ops); m] -> i < prodl (orows ops) -> c < m ->
  aat R (kronecker_operator R rO radd rmul ops x) [i; c] =
  sumn (prodl (ocols ops)) (fun j => rmul (kron_ent (omats ops) i j) (aat R x [j; c])).
Proof.
  intros ops x m i c Hx Hi Hc. exact (kron_operator_at R rO rI radd rmul rsub ropp Rth ops x [m] i [c] Hx (rhs_col m c) (inr_col m c Hc) Hi).
Qed.

(* KroneckerOperator._transpose (operators.py:98-99) acts like the transposed Kronecker matrix *)
Theorem kron_transpose : forall (ops : list (operand R)) (x : arr R) i,
  ashape R x = [prodl (orows ops)] -> i < prodl (ocols ops) ->
  aat R (kronecker_operator_T R rO radd rmul ops x) [i] =
  sumn (prodl (orows ops)) (fun j => rmul (ment R (mT R (kron_dense (omats ops))) i j) (aat R x [j])).
Proof.
  intros ops x i Hx Hi. exact (kron_transpose_at R rO rI radd rmul rsub ropp Rth ops x [] i [] Hx rhs_vec (Forall2_nil _) Hi).
Qed.

Theorem kron_transpose_multi : forall (ops : list (operand R)) (x : arr R) m i c,
  ashape R x = [prodl (orows ops); m] -> i < prodl (ocols ops) -> c < m ->
  aat R (kronecker_operator_T R rO radd rmul ops x) [i; c] =
  sumn (prodl (orows ops)) (fun j => rmul (ment R (mT R (kron_dense (omats ops))) i j) (aat R x [j; c])).
Proof.
  intros ops x m i c Hx Hi Hc. exact (kron_transpose_at R rO rI radd rmul rsub ropp Rth ops x [m] i [c] Hx (rhs_col m c) (inr_col m c Hc) Hi).
Qed.

(* modek_tprod (tensor.py:159-176), dense and sparse/LinearOperator branch: the new axis is put
   back in position k *)
Theorem modek_tprod_shape : forall (B : operand R) k (X : arr R),
  nth k (ashape R X) 0 = mcols R (omat R B) ->
  ashape R (modek_tprod R rO radd rmul B k X) = insert_at k (mrows R (omat R B)) (remove_at k (ashape R X)).
Proof.
  intros B k X Hk. unfold modek_tprod. destruct (okind R B).
  - cbn [rolllast tensordot_XB ashape]. rewrite last_last, removelast_last. reflexivity.
  - cbn [movefirst ashape]. rewrite (modek_sparse_shape R rO radd rmul) by assumption. reflexivity.
Qed.

Theorem modek_tprod_spec : forall (B : operand R) k (X : arr R) idx,
  inr (remove_at k idx) (remove_at k (ashape R X)) ->
  aat R (modek_tprod R rO radd rmul B k X) idx =
  sumn (mcols R (omat R B))
       (fun j => rmul (ment R (omat R B) (nth k idx 0) j) (aat R X (insert_at k j (remove_at k idx)))).
Proof.
  intros B k X idx Hin. unfold modek_tprod. destruct (okind R B).
  - cbn [rolllast tensordot_XB aat]. rewrite last_last, removelast_last.
    apply sumn_ext. intros j _. apply (Rmul_comm Rth).
  - cbn [movefirst aat]. apply modek_sparse_at. assumption.
Qed.

(* BlockOperator (operators.py:154-194): ranges from the block heights/widths, null blocks
   skipped; for every rectangular grid whose blocks have the shape of their cell (the assertion
   of l.186) the operator acts like np.block of the grid with zero blocks (grid_ent) ... *)
Theorem grid_block_spec : forall grid hs ws x r, wf_grid R grid hs ws ->
  base_block_matvec R rO radd rmul (block_operator R grid hs ws) x r =
  mv R rO radd rmul (grid_dense R rO grid hs ws) x r.
Proof.
  intros grid hs ws x r H. apply (layout_spec R rO rI radd rmul rsub ropp Rth).
  - intros b Hb. apply (block_operator_in R rO grid hs ws b H Hb).
  - intros. apply (block_operator_ent R rO rI radd rmul rsub ropp Rth). assumption.
Qed.

(* ... and its transpose like the transposed np.block matrix *)
Theorem grid_block_transpose_full : forall grid hs ws x r, wf_grid R grid hs ws ->
  base_block_matvec R rO radd rmul (map (placed_T R) (block_operator R grid hs ws)) x r =
  mv R rO radd rmul (mT R (grid_dense R rO grid hs ws)) x r.
Proof.
  intros grid hs ws x r H. apply (layout_transpose R rO rI radd rmul rsub ropp Rth).
  - intros b Hb. apply (block_operator_in R rO grid hs ws b H Hb).
  - intros. apply (block_operator_ent R rO rI radd rmul rsub ropp Rth). assumption.
Qed.

(* the same with the row bound as a hypothesis (it follows from wf_grid) *)
Theorem grid_block_transpose : forall grid hs ws x r, wf_grid R grid hs ws ->
  (forall b, In b (block_operator R grid hs ws) -> pro R b + mrows R (pb R b) <= suml hs) ->
  base_block_matvec R rO radd rmul (map (placed_T R) (block_operator R grid hs ws)) x r =
  mv R rO radd rmul (mT R (grid_dense R rO grid hs ws)) x r.
Proof. intros grid hs ws x r H _. exact (grid_block_transpose_full grid hs ws x r H). Qed.

(* make_kronecker_solver (operators.py:298-303) = KroneckerOperator of the factor solvers.
   Hypothesis (contract of make_solver, not proved: LAPACK/SuperLU): B_k . Binv_k is the identity
   (deltas (mmuls Bs Binvs)).  Then kron(B_1..B_n) . (solver . x) = x, for vectors ... *)
Theorem kron_solver_inverts : forall (Bs : list (mat R)) (Binvs : list (operand R)) (x : arr R),
  compat R Bs (omats Binvs) -> deltas R rO rI (mmuls R rO radd rmul Bs (omats Binvs)) -> squares R Binvs ->
  ashape R x = [prodl (ocols Binvs)] ->
  forall i, i < prodl (rowsl R Bs) ->
  sumn (prodl (colsl R Bs))
       (fun j => rmul (kron_ent Bs i j) (aat R (kronecker_operator R rO radd rmul Binvs x) [j])) = aat R x [i].
Proof.
  intros Bs Binvs x Hc Hd _ Hx.
  exact (kron_solver_at R rO rI radd rmul rsub ropp Rth Bs Binvs x [] [] Hc Hd Hx rhs_vec (Forall2_nil _)).
Qed.

(* ... and several right-hand sides *)
Theorem kron_solver_inverts_multi : forall (Bs : list (mat R)) (Binvs : list (operand R)) (x : arr R) m c,
  compat R Bs (omats Binvs) -> deltas R rO rI (mmuls R rO radd rmul Bs (omats Binvs)) -> squares R Binvs ->
  ashape R x = [prodl (ocols Binvs); m] -> c < m ->
  forall i, i < prodl (rowsl R Bs) ->
  sumn (prodl (colsl R Bs))
       (fun j => rmul (kron_ent Bs i j) (aat R (kronecker_operator R rO radd rmul Binvs x) [j; c])) = aat R x [i; c].
Proof.
  intros Bs Binvs x m c Hc Hd _ Hx Hcm.
  exact (kron_solver_at R rO rI radd rmul rsub ropp Rth Bs Binvs x [m] [c] Hc Hd Hx (rhs_col m c) (inr_col m c Hcm)).
Qed.

(* fastdiag_solver (solvers.py:17-42), ANY dimension.  Hypotheses (contract of scipy.linalg.eigh,
   not proved): per direction K U = M U diag(lam) and (M U) U^T = I (eig_ok); dinv is the
   entrywise inverse of the eigenvalue sum diag (diag_ev, the recursive form of l.32-37).
   Then L . (solver . x) = x for the Kronecker-sum matrix L = sum_d M (x)..(x) K_d (x)..(x) M
   (lap_ent, recursive form K (x) kron(M..) + M (x) L(rest)), vector argument. *)
Theorem fastdiag_inverts : forall (fs : list (eigfac R)) (Us : list (operand R)) (dinv : nat -> R) (x : arr R),
  Forall (eig_ok R rO rI radd rmul) fs -> omats Us = map (fU R) fs ->
  (forall c, c < prodl (sizes R fs) -> rmul (diag_ev R rO radd fs c) (dinv c) = rI) ->
  ashape R x = [prodl (sizes R fs)] ->
  forall i, i < prodl (sizes R fs) ->
  sumn (prodl (sizes R fs))
       (fun j => rmul (lap_ent R rO rI radd rmul fs i j) (aat R (fastdiag_apply R rO radd rmul Us dinv x) [j])) = aat R x [i].
Proof.
  intros fs Us dinv x H HU Hd Hx. unfold fastdiag_apply.
  apply (fastdiag_inverts_at R rO rI radd rmul rsub ropp Rth fs Us dinv x _ [] [] H HU Hd Hx); [reflexivity | constructor | constructor | reflexivity].
Qed.

(* functools.reduce(np.kron, ops) (left-nested, Model2.kron_reduce) has the shape and, on its index
   range, the entries of the right-nested Kronecker matrix kron_ent used by all theorems above *)
Theorem kron_reduce_spec : forall ops,
  mrows R (kron_reduce R rI rmul ops) = prodl (rowsl R ops) /\
  mcols R (kron_reduce R rI rmul ops) = prodl (colsl R ops) /\
  forall i j, i < prodl (rowsl R ops) -> j < prodl (colsl R ops) ->
    ment R (kron_reduce R rI rmul ops) i j = kron_ent ops i j.
Proof. exact (kron_reduce_shape_at R rO rI radd rmul rsub ropp Rth). Qed.

(* the Kronecker-sum matrix  sum_d reduce(np.kron, [M_0,..,K_d,..,M_{dim-1}])  as the code's callers and
   the docstring of fastdiag_solver write it equals the recursive form lap_ent ... *)
Theorem lap_code_spec : forall fs, Forall (eig_ok R rO rI radd rmul) fs -> forall i j,
  i < prodl (sizes R fs) -> j < prodl (sizes R fs) ->
  fastdiag_lap_code R rO rI radd rmul (map (fK R) fs) (map (fM R) fs) i j = lap_ent R rO rI radd rmul fs i j.
Proof. exact (lap_code_lap_ent R rO rI radd rmul rsub ropp Rth). Qed.

(* ... and diag of solvers.py:32-37, sum_d reduce(np.kron, [ones,..,lam_d,..,ones]), equals diag_ev *)
Theorem diag_code_spec : forall fs c, c < prodl (sizes R fs) ->
  fastdiag_diag_code R rO rI radd rmul (sizes R fs) (map (flam R) fs) c = diag_ev R rO radd fs c.
Proof. exact (diag_code_diag_ev R rO rI radd rmul rsub ropp Rth). Qed.

(* fastdiag_solver for several right-hand sides (DiagonalOperator acts as diag[:,None] * x) *)
Theorem fastdiag_inverts_multi : forall (fs : list (eigfac R)) (Us : list (operand R)) (dinv : nat -> R) (x : arr R) m,
  Forall (eig_ok R rO rI radd rmul) fs -> omats Us = map (fU R) fs ->
  (forall c, c < prodl (sizes R fs) -> rmul (diag_ev R rO radd fs c) (dinv c) = rI) ->
  ashape R x = [prodl (sizes R fs); m] ->
  forall i k, i < prodl (sizes R fs) -> k < m ->
  sumn (prodl (sizes R fs))
       (fun j => rmul (lap_ent R rO rI radd rmul fs i j) (aat R (fastdiag_apply_mat R rO radd rmul Us dinv x) [j; k])) = aat R x [i; k].
Proof.
  intros fs Us dinv x m H HU Hd Hx i k Hi Hk. unfold fastdiag_apply_mat. rewrite Hx. cbn [nth].
  apply (fastdiag_inverts_at R rO rI radd rmul rsub ropp Rth fs Us dinv x _ [m] [k] H HU Hd Hx);
    [reflexivity | constructor | apply inr_col; assumption | reflexivity | assumption].
Qed.

(* the same two theorems about the expressions the code builds (left-nested Kronecker sums) *)
Theorem fastdiag_inverts_code : forall (fs : list (eigfac R)) (Us : list (operand R)) (dinv : nat -> R) (x : arr R),
  Forall (eig_ok R rO rI radd rmul) fs -> omats Us = map (fU R) fs ->
  (forall c, c < prodl (sizes R fs) ->
     rmul (fastdiag_diag_code R rO rI radd rmul (sizes R fs) (map (flam R) fs) c) (dinv c) = rI) ->
  ashape R x = [prodl (sizes R fs)] ->
  forall i, i < prodl (sizes R fs) ->
  sumn (prodl (sizes R fs))
       (fun j => rmul (fastdiag_lap_code R rO rI radd rmul (map (fK R) fs) (map (fM R) fs) i j)
                      (aat R (fastdiag_apply R rO radd rmul Us dinv x) [j])) = aat R x [i].
Proof.
  intros fs Us dinv x H HU Hd Hx. unfold fastdiag_apply.
  apply (fastdiag_inverts_code_at R rO rI radd rmul rsub ropp Rth fs Us dinv x _ [] [] H HU Hd Hx); [reflexivity | constructor | constructor | reflexivity].
Qed.

Theorem fastdiag_inverts_code_multi : forall (fs : list (eigfac R)) (Us : list (operand R)) (dinv : nat -> R) (x : arr R) m,
  Forall (eig_ok R rO rI radd rmul) fs -> omats Us = map (fU R) fs ->
  (forall c, c < prodl (sizes R fs) ->
     rmul (fastdiag_diag_code R rO rI radd rmul (sizes R fs) (map (flam R) fs) c) (dinv c) = rI) ->
  ashape R x = [prodl (sizes R fs); m] ->
  forall i k, i < prodl (sizes R fs) -> k < m ->
  sumn (prodl (sizes R fs))
       (fun j => rmul (fastdiag_lap_code R rO rI radd rmul (map (fK R) fs) (map (fM R) fs) i j)
                      (aat R (fastdiag_apply_mat R rO radd rmul Us dinv x) [j; k])) = aat R x [i; k].
Proof.
  intros fs Us dinv x m H HU Hd Hx i k Hi Hk. unfold fastdiag_apply_mat. rewrite Hx. cbn [nth].
  apply (fastdiag_inverts_code_at R rO rI radd rmul rsub ropp Rth fs Us dinv x _ [m] [k] H HU Hd Hx);
    [reflexivity | constructor | apply inr_col; assumption | reflexivity | assumption].
Qed.

(* kronecker.apply_kronecker (kronecker.py:6-12), its own dispatch as one statement: all operands
   ndarrays -> _apply_kronecker_dense, otherwise every operand is wrapped by aslinearoperator and the
   column-major sweeps run; for square factors (the documented domain) of any kind the result is the
   Kronecker matrix times x on either branch -- vectors ... *)
Theorem apply_kronecker_spec : forall (ops : list (operand R)) (x : arr R) i,
  squares R ops -> ashape R x = [prodl (orows ops)] -> i < prodl (orows ops) ->
  aat R (apply_kronecker R rO radd rmul ops x) [i] =
  sumn (prodl (orows ops)) (fun j => rmul (kron_ent (omats ops) i j) (aat R x [j])).
Proof.
  intros ops x i Hsq Hx Hi. exact (apply_kronecker_at R rO rI radd rmul rsub ropp Rth ops x [] i [] Hsq Hx rhs_vec (Forall2_nil _) Hi).
Qed.

(* ... and (N,m) arguments *)
Theorem apply_kronecker_spec_multi : forall (ops : list (operand R)) (x : arr R) m i c,
  squares R ops -> ashape R x = [prodl (orows ops); m] -> i < prodl (orows ops) -> c < m ->
  aat R (apply_kronecker R rO radd rmul ops x) [i; c] =
  sumn (prodl (orows ops)) (fun j => rmul (kron_ent (omats ops) i j) (aat R x [j; c])).
Proof.
  intros ops x m i c Hsq Hx Hi Hc.
  exact (apply_kronecker_at R rO rI radd rmul rsub ropp Rth ops x [m] i [c] Hsq Hx (rhs_col m c) (inr_col m c Hc) Hi).
Qed.

End Props.

Print Assumptions apply_tprod_spec.
Print Assumptions kron_core_spec.
Print Assumptions modek_sparse_spec.
Print Assumptions block_spec.
Print Assumptions block_transpose.
Print Assumptions blockdiag_spec.
Print Assumptions blockdiag_transpose.
Print Assumptions diag_spec.
Print Assumptions diag_symmetric.
Print Assumptions identity_spec.
Print Assumptions null_spec.
Print Assumptions subspace_spec.
Print Assumptions subspace_transpose.
Print Assumptions rowslice_spec.
Print Assumptions rowsubset_spec.

Print Assumptions kron_dense_spec.
Print Assumptions kron_dense_spec_multi.
Print Assumptions kron_linops_spec.
Print Assumptions kron_linops_spec_multi.
Print Assumptions kron_operator_spec.
Print Assumptions kron_operator_spec_multi.
Print Assumptions kron_transpose.
Print Assumptions kron_transpose_multi.
Print Assumptions modek_tprod_shape.
Print Assumptions modek_tprod_spec.
Print Assumptions grid_block_spec.
Print Assumptions grid_block_transpose.
Print Assumptions kron_solver_inverts.
Print Assumptions kron_solver_inverts_multi.
Print Assumptions fastdiag_inverts.

Print Assumptions grid_block_transpose_full.
Print Assumptions kron_reduce_spec.
Print Assumptions lap_code_spec.
Print Assumptions diag_code_spec.
Print Assumptions fastdiag_inverts_multi.
Print Assumptions fastdiag_inverts_code.
Print Assumptions fastdiag_inverts_code_multi.

Print Assumptions apply_kronecker_spec.
Print Assumptions apply_kronecker_spec_multi.

(* Further theorems live in PropsField.v (over mathcomp's comRingType, via FieldBridge.v):
   left_inverse_is_right_inverse, eigh_contract_suffices, fastdiag_inverts_eigh[_multi] -- fastdiag_inverts
   from the contract eigh actually provides (K U = M U diag(lam), U^T M U = I).

   NOT PROVED:
   - the contracts of make_solver / eigh themselves (LAPACK, SuperLU): numerical residual check only.
   Adjoints (.H) over a carrier with a conjugation, fastdiag_apply as an explicit matrix and what the
   correspondence run exercises of them are in Props3.v. *)
