(* C16 -- property theorems, third file, each followed by Print Assumptions; the lemmas are in
   Proofs.v and Proofs2.v.

   Adjoints: the carrier is a commutative ring with a conjugation [conj] that is a ring endomorphism
   (conj 0 = 0, conj 1 = 1, additive, multiplicative) -- the complex numbers, the Gaussian integers
   (used by the correspondence run, Cases3.v) and, with conj = id, every real carrier. *)
From Coq Require Import List Arith Bool Ring.
From Verif.C16 Require Import Model Model2 Model3 Proofs Proofs2 Props.
Import ListNotations.

Section Props3.
Variable R : Type.
Variables (rO rI : R) (radd rmul rsub : R -> R -> R) (ropp : R -> R).
Variable Rth : ring_theory rO rI radd rmul rsub ropp eq.
Variable conj : R -> R.
Hypothesis conj0 : conj rO = rO.
Hypothesis conj1 : conj rI = rI.
Hypothesis conj_add : forall a b, conj (radd a b) = radd (conj a) (conj b).
Hypothesis conj_mul : forall a b, conj (rmul a b) = rmul (conj a) (conj b).

Local Notation kron_ent := (Proofs2.kron_ent R rI rmul).
Local Notation kron_dense := (Proofs2.kron_dense R rI rmul).
Local Notation sumn := (Model.sumn R rO radd).
Local Notation omats ops := (map (omat R) ops).
Local Notation orows ops := (map (fun o => mrows R (omat R o)) ops).
Local Notation ocols ops := (map (fun o => mcols R (omat R o)) ops).

(* KroneckerOperator._adjoint (operators.py:101-102, _adjoint_of l.15-19): on either dispatch branch,
   for operands of any kind and shape, .H acts like the conjugate transpose of np.kron of the
   operands; vectors ... *)
Theorem kron_adjoint : forall (ops : list (operand R)) (x : arr R) i,
  ashape R x = [prodl (orows ops)] -> i < prodl (ocols ops) ->
  aat R (kronecker_operator_H R rO radd rmul conj ops x) [i] =
  sumn (prodl (orows ops)) (fun j => rmul (ment R (mH R conj (kron_dense (omats ops))) i j) (aat R x [j])).
Proof.
  intros ops x i Hx Hi.
  exact (kron_adjoint_at R rO rI radd rmul rsub ropp Rth conj conj1 conj_mul ops x [] i [] Hx rhs_vec (Forall2_nil _) Hi).
Qed.

(* ... and (N,m) arguments *)
Theorem kron_adjoint_multi : forall (ops : list (operand R)) (x : arr R) m i c,
  ashape R x = [prodl (orows ops); m] -> i < prodl (ocols ops) -> c < m ->
  aat R (kronecker_operator_H R rO radd rmul conj ops x) [i; c] =
  sumn (prodl (orows ops)) (fun j => rmul (ment R (mH R conj (kron_dense (omats ops))) i j) (aat R x [j; c])).
Proof.
  intros ops x m i c Hx Hi Hc.
  exact (kron_adjoint_at R rO rI radd rmul rsub ropp Rth conj conj1 conj_mul ops x [m] i [c] Hx (rhs_col m c) (inr_col m c Hc) Hi).
Qed.

(* BaseBlockOperator._adjoint (operators.py:131-134) denotes the conjugate transpose of the sum of the
   placed blocks (any overlaps, any order) -- BlockOperator and BlockDiagonalOperator *)
Theorem block_adjoint : forall M N bl r c,
  ment R (blocks_dense R rO radd N M (map (placed_H R conj) bl)) c r =
  ment R (mH R conj (blocks_dense R rO radd M N bl)) c r.
Proof.
  intros M N bl r c. exact (sum_ent_H R rO radd conj conj0 conj_add bl r c).
Qed.

(* DiagonalOperator._adjoint (operators.py:70-73): DiagonalOperator(diag.conj()) is the conjugate transpose *)
Theorem diag_adjoint : forall n d i j,
  ment R (diag_dense R rO n (fun k => conj (d k))) i j = ment R (mH R conj (diag_dense R rO n d)) i j.
Proof.
  intros. simpl. rewrite (Nat.eqb_sym i j). destruct (Nat.eqb_spec j i); subst; auto.
Qed.

Theorem diag_adjoint_spec : forall n d x i, i < n ->
  diagonal_H_matvec R rmul conj d x i = mv R rO radd rmul (mH R conj (diag_dense R rO n d)) x i.
Proof.
  intros. unfold diagonal_H_matvec, diagonal_matvec.
  rewrite <- (sumn_delta_l R rO rI radd rmul rsub ropp Rth n i (conj (d i)) x H).
  apply sumn_ext. intros j _. simpl. rewrite (Nat.eqb_sym i j).
  destruct (Nat.eqb_spec j i); subst; [|rewrite conj0]; reflexivity.
Qed.

(* the adjoint is an involution when conj is (.H.H chains) *)
Theorem adjoint_involutive : (forall a, conj (conj a) = a) ->
  forall A i j, ment R (mH R conj (mH R conj A)) i j = ment R A i j.
Proof. intros Hinv A i j. apply Hinv. Qed.

(* BlockOperator (operators.py:154-194) INCLUDING its fallback `NullOperator(shape)` when every block is
   null: on both branches the operator acts like np.block of the grid with zero blocks *)
Theorem block_operator_apply_spec : forall grid hs ws x r, wf_grid R grid hs ws ->
  block_operator_apply R rO radd rmul grid hs ws x r = mv R rO radd rmul (grid_dense R rO grid hs ws) x r.
Proof.
  intros grid hs ws x r H. unfold block_operator_apply.
  rewrite <- (grid_block_spec R rO rI radd rmul rsub ropp Rth grid hs ws x r H).
  destruct (block_operator R grid hs ws); reflexivity.
Qed.

(* DiagonalOperator._matvec/_matmat for a 2-D argument (operators.py:58-65): diag[:,None] * X = diag(d) . X *)
Theorem diag_matmat_spec : forall n d (X : mat R) i c, i < n -> mrows R X = n ->
  ment R (diagonal_matmat R rmul d X) i c = ment R (mmul R rO radd rmul (diag_dense R rO n d) X) i c.
Proof.
  intros n d X i c Hi _. symmetry. exact (sumn_delta_l R rO rI radd rmul rsub ropp Rth n i (d i) (fun j => ment R X j c) Hi).
Qed.

(* fastdiag_solver's operator l_op * DiagonalOperator(1/diag) * r_op (solvers.py:39-42) IS the explicit
   matrix kron(U_k) diag(dinv) kron(U_k)^T -- for every list of square U_k of any kind and every dinv,
   no eigen-contract needed; this is the statement the exact correspondence run exercises (Cases3.v) *)
Theorem fastdiag_apply_spec : forall (Us : list (operand R)) (dinv : nat -> R) (x : arr R),
  ocols Us = orows Us -> ashape R x = [prodl (orows Us)] ->
  forall i, i < prodl (orows Us) ->
  aat R (fastdiag_apply R rO radd rmul Us dinv x) [i] =
  sumn (prodl (orows Us)) (fun c => rmul (kron_ent (omats Us) i c)
     (rmul (dinv c) (sumn (prodl (orows Us)) (fun l => rmul (kron_ent (omats Us) l c) (aat R x [l]))))).
Proof.
  intros Us dinv x Hsq Hx. unfold fastdiag_apply.
  apply (fastdiag_op_at R rO rI radd rmul rsub ropp Rth Us dinv x _ [] [] Hsq Hx); [reflexivity | constructor | constructor | reflexivity].
Qed.

Theorem fastdiag_apply_spec_multi : forall (Us : list (operand R)) (dinv : nat -> R) (x : arr R) m,
  ocols Us = orows Us -> ashape R x = [prodl (orows Us); m] ->
  forall i k, i < prodl (orows Us) -> k < m ->
  aat R (fastdiag_apply_mat R rO radd rmul Us dinv x) [i; k] =
  sumn (prodl (orows Us)) (fun c => rmul (kron_ent (omats Us) i c)
     (rmul (dinv c) (sumn (prodl (orows Us)) (fun l => rmul (kron_ent (omats Us) l c) (aat R x [l; k]))))).
Proof.
  intros Us dinv x m Hsq Hx i k Hi Hk. unfold fastdiag_apply_mat. rewrite Hx. cbn [nth].
  apply (fastdiag_op_at R rO rI radd rmul rsub ropp Rth Us dinv x _ [m] [k] Hsq Hx);
    [reflexivity | constructor | apply inr_col; assumption | reflexivity | assumption].
Qed.

(* apply_tprod (tensor.py:106-137): an identity placeholder (None, `rollaxis` step l.136) acts exactly
   like a dense identity matrix of the size of its axis -- for every number of operands and
   placeholders in any positions, rectangular operands of any kind, any number of trailing axes *)
Theorem apply_tprod_placeholders : forall ops (X : arr R) sS sT,
  ashape R X = sS ++ sT -> conf R ops sS ->
  forall a t, inr a (out_shape R ops sS) -> inr t sT ->
  aat R (apply_tprod R rO radd rmul ops X) (a ++ t) =
  aat R (apply_tprod R rO radd rmul (fill_eye R rO rI ops sS) X) (a ++ t).
Proof.
  intros ops X sS sT HX Hc a t Ha Ht.
  destruct (apply_tprod_spec R rO radd rmul ops X sS sT HX Hc) as [_ H1].
  destruct (apply_tprod_spec R rO radd rmul _ X sS sT HX (conf_fill R rO rI ops sS Hc)) as [_ H2].
  rewrite H1 by assumption. rewrite H2 by (rewrite ?out_shape_fill; assumption).
  apply (tprod_spec_fill R rO rI radd rmul rsub ropp Rth); assumption.
Qed.

End Props3.

(* for real carriers (conj = id) the adjoint is the transpose: the .H theorems specialise to the
   .T theorems of Props.v *)
Theorem adjoint_real_is_transpose : forall (R : Type) (A : mat R) i j,
  ment R (mH R (fun a => a) A) i j = ment R (mT R A) i j.
Proof. reflexivity. Qed.

Print Assumptions kron_adjoint.
Print Assumptions kron_adjoint_multi.
Print Assumptions block_adjoint.
Print Assumptions diag_adjoint.
Print Assumptions diag_adjoint_spec.
Print Assumptions adjoint_involutive.
Print Assumptions block_operator_apply_spec.
Print Assumptions diag_matmat_spec.
Print Assumptions fastdiag_apply_spec.
Print Assumptions fastdiag_apply_spec_multi.
Print Assumptions apply_tprod_placeholders.
Print Assumptions adjoint_real_is_transpose.

(* NOT PROVED:
   - the contracts of make_solver / scipy.linalg.eigh themselves (LAPACK, SuperLU): numerical residual
     check only; the correspondence run feeds the implementation's own U_k, 1/diag to the model as
     exact rationals (Cases3.v, FD cases) and compares the APPLICATION step: exactly when the U_k are
     monomial with power-of-two entries, otherwise within the rounding bound of the operation count;
   - complex operands: only KroneckerOperator on its tensordot branch (all ndarrays, or a rectangular
     factor) and DiagonalOperator accept them in the code (the column-major sweeps and the
     block/subspace accumulators allocate float64 buffers); these are in the correspondence run
     over the Gaussian integers.  SubspaceOperator._adjoint is the transpose by its documented
     restriction to real P_j, B_j. *)
