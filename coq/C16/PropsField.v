(* C16 -- property theorems that live over mathcomp's algebraic hierarchy (bridge file
   FieldBridge.v), each followed by Print Assumptions. *)
From mathcomp Require Import ssreflect ssrfun ssrbool eqtype ssrnat seq ssralg.
From Verif.C16 Require Import Model Model2 Proofs Proofs2 FieldBridge.
Import GRing.Theory.
Local Open Scope ring_scope.

(* Over every commutative ring of mathcomp's hierarchy (comRingType: all fields, int, rat, ...):
   for square U and M,  U^T (M U) = I  implies  (M U) U^T = I   (left inverse = right inverse,
   matrix.mulmx1C), in the entrywise form used by eig_ok. *)
Theorem left_inverse_is_right_inverse : forall (F : comRingType) n (U M : mat F),
  (forall a b, (a < n)%coq_nat -> (b < n)%coq_nat ->
     Model.sumn F 0 +%R n (fun i => ment F U i a * Model.sumn F 0 +%R n (fun j => ment F M i j * ment F U j b)) =
     if Nat.eqb a b then 1 else 0) ->
  forall i l, (i < n)%coq_nat -> (l < n)%coq_nat ->
     Model.sumn F 0 +%R n (fun c => Model.sumn F 0 +%R n (fun j => ment F M i j * ment F U j c) * ment F U l c) =
     if Nat.eqb i l then 1 else 0.
Proof. exact left_inverse_is_right. Qed.
Print Assumptions left_inverse_is_right_inverse.

(* eigh's own contract (K U = M U diag(lam), U^T M U = I) implies the hypothesis of fastdiag_inverts *)
Theorem eigh_contract_suffices : forall (F : comRingType) (f : eigfac F),
  eigh_ok f -> eig_ok F 0 1 +%R *%R f.
Proof. exact eig_ok_of_eigh. Qed.
Print Assumptions eigh_contract_suffices.

(* fastdiag_solver (solvers.py:17-42) applies the inverse of the Kronecker-sum matrix it was built
   from, in any dimension, with the expressions the code builds, from the contract eigh actually
   provides (eigh_ok: K U = M U diag(lam) and U^T M U = I) -- vectors ... *)
Theorem fastdiag_inverts_eigh : forall (F : comRingType) (fs : list (eigfac F)) (Us : list (operand F))
    (dinv : nat -> F) (x : arr F),
  List.Forall (@eigh_ok F) fs -> List.map (omat F) Us = List.map (fU F) fs ->
  (forall c, (c < prodl (sizes F fs))%coq_nat ->
     fastdiag_diag_code F 0 1 +%R *%R (sizes F fs) (List.map (flam F) fs) c * dinv c = 1) ->
  ashape F x = [:: prodl (sizes F fs)] ->
  forall i, (i < prodl (sizes F fs))%coq_nat ->
  Model.sumn F 0 +%R (prodl (sizes F fs))
    (fun j => fastdiag_lap_code F 0 1 +%R *%R (List.map (fK F) fs) (List.map (fM F) fs) i j *
              aat F (fastdiag_apply F 0 +%R *%R Us dinv x) [:: j]) = aat F x [:: i].
Proof.
move=> F fs Us dinv x H HU Hd Hx; rewrite /fastdiag_apply.
apply: (@fastdiag_inverts_code_at F 0 1 +%R *%R (fun a b => a - b) -%R (Fth F) fs Us dinv x _ [::] [::] (List.Forall_impl _ (@eig_ok_of_eigh F) H) HU Hd Hx);
  [by [] | exact: rhs_vec | exact: List.Forall2_nil | by []].
Qed.
Print Assumptions fastdiag_inverts_eigh.

(* ... and several right-hand sides *)
Theorem fastdiag_inverts_eigh_multi : forall (F : comRingType) (fs : list (eigfac F)) (Us : list (operand F))
    (dinv : nat -> F) (x : arr F) m,
  List.Forall (@eigh_ok F) fs -> List.map (omat F) Us = List.map (fU F) fs ->
  (forall c, (c < prodl (sizes F fs))%coq_nat ->
     fastdiag_diag_code F 0 1 +%R *%R (sizes F fs) (List.map (flam F) fs) c * dinv c = 1) ->
  ashape F x = [:: prodl (sizes F fs); m] ->
  forall i k, (i < prodl (sizes F fs))%coq_nat -> (k < m)%coq_nat ->
  Model.sumn F 0 +%R (prodl (sizes F fs))
    (fun j => fastdiag_lap_code F 0 1 +%R *%R (List.map (fK F) fs) (List.map (fM F) fs) i j *
              aat F (fastdiag_apply_mat F 0 +%R *%R Us dinv x) [:: j; k]) = aat F x [:: i; k].
Proof.
move=> F fs Us dinv x m H HU Hd Hx i k Hi Hk; rewrite /fastdiag_apply_mat Hx /=.
apply: (@fastdiag_inverts_code_at F 0 1 +%R *%R (fun a b => a - b) -%R (Fth F) fs Us dinv x _ [:: m] [:: k] (List.Forall_impl _ (@eig_ok_of_eigh F) H) HU Hd Hx);
  [by [] | exact: rhs_col | exact: inr_col | by [] | by []].
Qed.
Print Assumptions fastdiag_inverts_eigh_multi.
