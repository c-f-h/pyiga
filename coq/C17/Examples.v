(* C17 -- non-vacuity: concrete spaces meet the hypotheses of the theorems. *)
From Coq Require Import QArith Qcanon ZArith List Arith Bool Lia.
From Verif.lib Require Import Bsp.
From Verif.lib Require BspFacts.
From Verif.C17 Require Import Model Spec Proofs ProofsGrid Props.
Import ListNotations.
Open Scope Qc_scope.

Definition q (n : Z) (d : positive) : Qc := Q2Qc (n # d).
(* quadratic, one interior knot; cubic with a double knot and uneven spans *)
Definition kv2 := [q 0 1; q 0 1; q 0 1; q 1 2; q 1 1; q 1 1; q 1 1].
Definition kv3 := [q 0 1; q 0 1; q 0 1; q 0 1; q 1 8; q 1 8; q 3 4; q 1 1; q 1 1; q 1 1; q 1 1].

Definition C2 := collocation kv2 2 (greville kv2 2).
Definition C3 := collocation kv3 3 (greville kv3 3).
Definition inv_or_nil (M : mat) : mat := match inverse M with Some R => R | None => [] end.
Definition S2 := inv_or_nil C2.
Definition S3 := inv_or_nil C3.

Example ex_open : open_kv kv2 2 = true /\ open_kv kv3 3 = true.
Proof. split; vm_compute; reflexivity. Qed.

(* the Greville points are unisolvent here: the exact inverse exists and is a two-sided inverse.
   All four products are evaluated in one conversion, in which the constants S2, S3 (the
   Gauss-Jordan runs, by far the dearest part) are evaluated once. *)
Lemma ex_inverses_b :
  (is_id_b 4 (mul (op_of_mat S2) (op_of_mat C2)) && is_id_b 7 (mul (op_of_mat S3) (op_of_mat C3))) &&
  (is_id_b 4 (mul (op_of_mat C2) (op_of_mat S2)) && is_id_b 7 (mul (op_of_mat C3) (op_of_mat S3))) = true.
Proof. vm_compute. reflexivity. Qed.

Lemma is_id_b_pair n m A B : is_id_b n A && is_id_b m B = true -> Forall2 is_id [n; m] [A; B].
Proof.
  intros H. destruct (andb_prop _ _ H).
  constructor; [|constructor; [|constructor]]; apply is_id_b_sound; assumption.
Qed.

Example ex_left_inverse :
  Forall2 is_id [4%nat; 7%nat] (mul_list [op_of_mat S2; op_of_mat S3] [op_of_mat C2; op_of_mat C3]).
Proof. exact (is_id_b_pair _ _ _ _ (proj1 (andb_prop _ _ ex_inverses_b))). Qed.

Example ex_right_inverse :
  Forall2 is_id [4%nat; 7%nat] (mul_list [op_of_mat C2; op_of_mat C3] [op_of_mat S2; op_of_mat S3]).
Proof. exact (is_id_b_pair _ _ _ _ (proj2 (andb_prop _ _ ex_inverses_b))). Qed.

Example ex_inrange : inrange [4%nat; 7%nat] [3%nat; 6%nat; 1%nat].
Proof. simpl. lia. Qed.

(* interp_reproduces on vector-valued (2 components) coefficients *)
Definition ex_c : tens := fun idx => q (Z.of_nat (7 * nth 0 idx 0 + nth 1 idx 0)%nat - 3 * Z.of_nat (nth 2 idx 0%nat)) 4.
Example ex_reproduces :
  forallb (fun idx => qeqb (tprod_loop [op_of_mat S2; op_of_mat S3]
                              (tprod [op_of_mat C2; op_of_mat C3] ex_c) idx) (ex_c idx))
          (all_idx [4%nat; 7%nat; 2%nat]) = true.
Proof.
  apply forallb_forall. intros idx H. apply BspFacts.qeqb_iff.
  destruct (all_idx_inrange _ _ H) as [L R].
  (* [simpl] first: [reflexivity] on the two lengths would start by comparing S2 with C2 *)
  apply (interp_reproduces [4%nat; 7%nat]);
    [simpl; reflexivity | exact ex_left_inverse | exact (inrange_app [4%nat; 7%nat] [2%nat] idx R) | rewrite L; simpl; lia].
Qed.

(* a non-unisolvent grid (a repeated node) is detected: no inverse *)
Example ex_singular : inverse (collocation kv2 2 [q 0 1; q 1 4; q 1 4; q 1 1]) = None.
Proof. vm_compute. reflexivity. Qed.

(* ---- discrete L2: a 1D quadratic space sampled at 2 rational points per span with positive
   weights (a Newton-Cotes like rule; any rule satisfies the hypotheses used here) ---- *)
Definition pts := [q 1 8; q 3 8; q 5 8; q 7 8; q 1 4; q 3 4].
Definition Cq_ex (k i : nat) : Qc := mget (collocation kv2 2 pts) k i.
Definition w_ex (k : nat) : Qc := q 1 6.
Definition c_ex (i : nat) : Qc := nth i [q 1 1; q (-2) 1; q 3 2; q 5 1] 0.
Definition Cqm := collocation kv2 2 pts.

Example ex_weights_positive : forall k, (k < 6)%nat -> 0 < w_ex k.
Proof. intros. reflexivity. Qed.

(* M x = b has the solution x = c for the load vector of spl c *)
Example ex_normal_equations :
  forallb (fun i => qeqb (mv 4 (massq 6 Cq_ex w_ex) c_ex i) (loadq 6 Cq_ex w_ex (spl 4 Cq_ex c_ex) i)) (seq 0 4) = true.
Proof.
  (* Cq_ex builds the collocation matrix anew at every call; read off the constant Cqm
     it is evaluated once (here and below) *)
  change Cq_ex with (mget Cqm). vm_compute. reflexivity.
Qed.

(* the Gram matrix of this example is invertible (hypothesis of l2_reproduces is satisfiable) *)
Example ex_mass_invertible :
  match inverse (map (fun i => map (fun j => massq 6 Cq_ex w_ex i j) (seq 0 4)) (seq 0 4)) with Some _ => true | None => false end = true.
Proof. change Cq_ex with (mget Cqm). vm_compute. reflexivity. Qed.

(* Kronecker L2 path: 1D Gram matrix M = C^T D C and its exact inverse *)
Definition Ct_op := transpose_op 6 (op_of_mat Cqm).
Definition D_op := diag_op (map w_ex (seq 0 6)).
Definition Mm : mat := map (fun i => map (fun j => oe (mul Ct_op (mul D_op (op_of_mat Cqm))) i j) (seq 0 4)) (seq 0 4).
Example ex_kron_hyp :
  Forall2 is_id [4%nat] (mul_list [op_of_mat (inv_or_nil Mm)] (mul_list [Ct_op] (mul_list [D_op] [op_of_mat Cqm]))).
Proof. constructor; [apply is_id_b_sound; vm_compute; reflexivity | constructor]. Qed.

Definition kv1 := [q 0 1; q 0 1; q 1 4; q 1 2; q 1 1; q 1 1].
Definition kv0 := [q 0 1; q 1 4; q 1 1].
Example ex_open_p01 : open_kv kv1 1 = true /\ open_kv kv0 0 = true.
Proof. split; vm_compute; reflexivity. Qed.
(* greville_unisolvent_p01 computed on these two knot vectors *)
Example ex_identity_p01 :
  is_id_b 4 (op_of_mat (collocation kv1 1 (greville kv1 1))) = true /\
  is_id_b 2 (op_of_mat (collocation kv0 0 (greville kv0 0))) = true.
Proof. split; vm_compute; reflexivity. Qed.
(* greville_satisfies_sw_necessary computed for the cubic knot vector with a double knot *)
Example ex_sw_diag : forallb (fun i => qltb 0 (mget C3 i i)) (seq 0 7) = true.
Proof. vm_compute. reflexivity. Qed.

(* l2_projection_is_projection: an exact solver exists for the example Gram matrix (its inverse),
   weights are positive (ex_weights_positive); the unisolvence hypothesis holds because the
   Gram matrix is invertible (ex_mass_invertible).  The projection of a function of the space,
   computed with that solver, returns its coefficients: *)
Definition Minv_ex := inv_or_nil (map (fun i => map (fun j => massq 6 Cq_ex w_ex i j) (seq 0 4)) (seq 0 4)).
Definition sol_ex (b : nat -> Qc) (i : nat) : Qc := sumn 4 (fun j => mget Minv_ex i j * b j).
Example ex_solver_contract_on_basis :
  forallb (fun k => forallb (fun i =>
     qeqb (mv 4 (massq 6 Cq_ex w_ex) (sol_ex (fun j => if Nat.eqb j k then 1 else 0)) i) (if Nat.eqb i k then 1 else 0))
     (seq 0 4)) (seq 0 4) = true.
Proof. change Cq_ex with (mget Cqm). vm_compute. reflexivity. Qed.
Example ex_l2_reproduced :
  forallb (fun i => qeqb (sol_ex (loadq 6 Cq_ex w_ex (spl 4 Cq_ex c_ex)) i) (c_ex i)) (seq 0 4) = true.
Proof. change Cq_ex with (mget Cqm). vm_compute. reflexivity. Qed.

(* ---- hierarchical setting: two "hierarchical" functions made of the four fine quadratic ones ---- *)
Definition P_ex (r i : nat) : Qc := nth i (nth r [[q 1 1; q 0 1]; [q 1 2; q 1 2]; [q 0 1; q 1 1]; [q 0 1; q 1 1]] []) 0.
Example ex_hier_gram :
  forallb (fun i => forallb (fun j => qeqb (massq 6 (Ch 4 Cq_ex P_ex) w_ex i j) (galerkin 4 6 Cq_ex P_ex w_ex i j)) (seq 0 2)) (seq 0 2) = true.
Proof. change Cq_ex with (mget Cqm). vm_compute. reflexivity. Qed.
(* the Galerkin matrix of the example is invertible: hypothesis of hspace_l2_reproduces_partial *)
Example ex_hier_injective :
  match inverse (map (fun i => map (fun j => galerkin 4 6 Cq_ex P_ex w_ex i j) (seq 0 2)) (seq 0 2)) with Some _ => true | None => false end = true.
Proof. change Cq_ex with (mget Cqm). vm_compute. reflexivity. Qed.

(* ---- data on the node grid: the hypotheses are met by the two-axis example (4 and 7 nodes) ---- *)
Example ex_cols_are : ProofsGrid.cols_are [4%nat; 7%nat] [op_of_mat S2; op_of_mat S3].
Proof. repeat constructor. Qed.
(* data that agree with the spline on the node grid only (and are junk elsewhere) are reproduced *)
Definition ex_rhs : tens := fun idx =>
  if (Nat.ltb (nth 0 idx 0%nat) 4 && Nat.ltb (nth 1 idx 0%nat) 7)%bool
  then tprod [op_of_mat C2; op_of_mat C3] ex_c idx else q 99 1.
Example ex_reproduced_on_grid :
  forallb (fun idx => qeqb (tprod_loop [op_of_mat S2; op_of_mat S3] ex_rhs idx) (ex_c idx))
          (all_idx [4%nat; 7%nat; 2%nat]) = true.
Proof.
  apply forallb_forall. intros idx H. apply BspFacts.qeqb_iff.
  destruct (all_idx_inrange _ _ H) as [L R].
  apply (interp_reproduces_on_grid [4%nat; 7%nat] [4%nat; 7%nat] _ [op_of_mat C2; op_of_mat C3]);
    [simpl; reflexivity | exact ex_left_inverse | exact ex_cols_are | |
     exact (inrange_app [4%nat; 7%nat] [2%nat] idx R) | rewrite L; simpl; lia].
  intros [|a [|b j]] Hj _; try (simpl in Hj; tauto). destruct Hj as [Ha [Hb _]].
  unfold ex_rhs. cbn [nth]. apply Nat.ltb_lt in Ha, Hb. rewrite Ha, Hb. reflexivity.
Qed.
(* component selection on a vector valued polynomial, through grid_eval *)
Definition ex_f : func := poly_func [[(q 1 1, [1%nat; 2%nat])]; [(q 3 1, [0%nat; 1%nat]); (q (-1) 2, [2%nat; 0%nat])]].
Example ex_component_selection :
  forallb (fun i => forallb (fun t =>
     qeqb (tprod_loop [op_of_mat S2; op_of_mat S3] (grid_eval ex_f [greville kv2 2; greville kv3 3]) (i ++ [t]))
          (tprod_loop [op_of_mat S2; op_of_mat S3] (grid_eval (ProofsGrid.select ex_f [t]) [greville kv2 2; greville kv3 3]) i))
     [0%nat; 1%nat]) (all_idx [4%nat; 7%nat]) = true.
Proof.
  apply forallb_forall. intros i H. apply forallb_forall. intros t _. apply BspFacts.qeqb_iff.
  destruct (all_idx_inrange _ _ H) as [L _].
  apply interp_component_selection; [exact L | reflexivity].
Qed.
