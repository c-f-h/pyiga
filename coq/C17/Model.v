(* C17 -- executable model (exact rationals Qc) of interpolation / L2 projection.
   Definitions only; proofs are in Proofs.v.

   Source:  pyiga/approx.py:14-51      interpolate
            pyiga/approx.py:62-97      project_L2 (tensor product part)
            pyiga/tensor.py:106-137    apply_tprod (the loop, dense/sparse/LinearOperator operands)
            pyiga/utils.py:18-55       grid_eval / grid_eval_transformed / _ensure_grid_shape
            pyiga/bspline.py:166-176   KnotVector.greville
            pyiga/bspline.py:603-624   collocation            (= Bsp.colloc_row per node)
            pyiga/assemble.py:288-340  inner_products
            pyiga/operators.py:261-296 make_solver            (modelled by its contract; for running
                                       the model the exact inverse by Gauss-Jordan elimination)
   The 1D B-spline kernels are those of coq/lib/Bsp.v (validated by C02).
   A self-contained apply_tprod (functional tensors, any number of axes, trailing axes)
   is written here; no shared tensor library is used. *)
From Coq Require Import QArith Qcanon Qcabs ZArith List Arith Bool Lia.
From Verif.lib Require Import Bsp.
From Verif.C19 Require Model.
Import ListNotations.
Open Scope Qc_scope.

(* ---- sums, operators, tensors ---------------------------------------- *)

Definition sumn (n : nat) (f : nat -> Qc) : Qc := fold_right Qcplus 0 (map f (seq 0 n)).

(* a linear operator given by its entries; [oc] = number of columns (length of the
   contracted axis).  Sparse matrices, dense arrays and LinearOperators (solvers) are all
   applied by apply_tprod through the same contraction, so one type covers them. *)
Record op := mkop { oc : nat; oe : nat -> nat -> Qc }.

Definition mat := list (list Qc).
Definition mget (M : mat) (i j : nat) : Qc := nth j (nth i M []) 0.
Definition ncols (M : mat) : nat := length (nth 0 M []).
Definition op_of_mat (M : mat) : op := mkop (ncols M) (mget M).
Definition transpose_op (rows : nat) (A : op) : op := mkop rows (fun i j => oe A j i).   (* C.T *)
Definition diag_op (w : list Qc) : op :=                                             (* DiagonalOperator(w) *)
  mkop (length w) (fun i j => if Nat.eqb i j then nth i w 0 else 0).

Definition mul (A B : op) : op :=                                                    (* A . B *)
  mkop (oc B) (fun i k => sumn (oc A) (fun j => oe A i j * oe B j k)).

(* a tensor with any number of axes (leading tensor-product axes, then trailing axes) *)
Definition tens := list nat -> Qc.

(* ---- apply_tprod: tensor.py:128-137 as written ------------------------ *)
(* for i in reversed(range(n)):  A = tensordot(ops[i], A, axes=([1],[n-1]))
   contracts axis n-1 of A with the columns of ops[i]; the new axis comes first *)
Definition insert_at (k : nat) (x : nat) (l : list nat) : list nat := firstn k l ++ x :: skipn k l.

Definition tprod_step (n : nat) (B : op) (f : tens) : tens :=
  fun idx => match idx with
             | [] => 0
             | a :: rest => sumn (oc B) (fun j => oe B a j * f (insert_at (n - 1) j rest))
             end.

Definition tprod_loop (Bs : list op) (f : tens) : tens :=
  fold_left (fun g B => tprod_step (length Bs) B g) (rev Bs) f.

(* ---- grids, functions, grid_eval: utils.py:33-55 ---------------------- *)
(* a function takes its arguments in x,y,z order (the LAST tensor axis is x:
   `mesh.reverse()`, utils.py:39) and a trailing (component) index *)
Definition func := list Qc -> list nat -> Qc.

Fixpoint pick (grid : list (list Qc)) (idx : list nat) : list Qc :=
  match grid, idx with
  | g :: grid', i :: idx' => nth i g 0 :: pick grid' idx'
  | _, _ => []
  end.

Definition grid_eval (f : func) (grid : list (list Qc)) : tens :=
  fun idx => f (rev (pick grid idx)) (skipn (length grid) idx).

(* geometry map: parameter point (x,y,z order) -> physical point (x,y,z order); utils.py:47-54:
   trf_grid[..., i] is the i-th physical coordinate, f is called with them as separate arguments *)
Definition geomap := list Qc -> list Qc.
Definition grid_eval_transformed (f : func) (grid : list (list Qc)) (geo : geomap) : tens :=
  fun idx => f (geo (rev (pick grid idx))) (skipn (length grid) idx).

Definition compose (f : func) (geo : geomap) : func := fun x t => f (geo x) t.

(* ---- Greville abscissae: bspline.py:166-176 --------------------------- *)
(* the transcription of KnotVector.greville is C19's (coq/C19/Model.v: np.convolve / np.clip
   semantics of coq/lib/NpQ.v, validated there bit-for-bit); C19 proves its position theorems *)
Definition greville (kv : list Qc) (p : nat) : list Qc := Verif.C19.Model.greville kv p.

(* ---- collocation ------------------------------------------------------ *)
Definition collocation (kv : list Qc) (p : nat) (nodes : list Qc) : mat :=
  map (colloc_row kv p 0) nodes.

(* ---- the solver used to RUN the model: exact Gauss-Jordan inverse ------ *)
Definition row_scale (c : Qc) (r : list Qc) : list Qc := map (fun x => c * x) r.
Definition row_sub (r s : list Qc) (c : Qc) : list Qc :=           (* r - c*s *)
  map (fun xy => fst xy - c * snd xy) (combine r s).

Fixpoint find_pivot (M : mat) (k : nat) (i : nat) (fuel : nat) : option nat :=
  match fuel with
  | O => None
  | S f => if qeqb (mget M i k) 0 then find_pivot M k (S i) f else Some i
  end.

Definition swap_rows (M : mat) (i j : nat) : mat :=
  let ri := nth i M [] in let rj := nth j M [] in upd (upd M i rj) j ri.

Definition gj_step (n : nat) (st : option mat) (k : nat) : option mat :=
  match st with
  | None => None
  | Some M =>
      match find_pivot M k k (n - k) with
      | None => None
      | Some r =>
          let M1 := swap_rows M k r in
          let piv := row_scale (1 / mget M1 k k) (nth k M1 []) in
          Some (map (fun ir => if Nat.eqb (fst ir) k then piv
                               else row_sub (snd ir) piv (nth k (snd ir) 0))
                    (combine (seq 0 n) M1))
      end
  end.

Definition identity_row (n i : nat) : list Qc := map (fun j => if Nat.eqb i j then 1 else 0) (seq 0 n).

Definition inverse (M : mat) : option mat :=
  let n := length M in
  let aug := map (fun ir => snd ir ++ identity_row n (fst ir)) (combine (seq 0 n) M) in
  match fold_left (gj_step n) (seq 0 n) (Some aug) with
  | None => None
  | Some R => Some (map (skipn n) R)
  end.

(* ---- arrays handed over by the harness: C-order flat data ---------------- *)
Fixpoint ravel (shape : list nat) (idx : list nat) (acc : nat) : nat :=
  match shape, idx with
  | s :: shape', i :: idx' => ravel shape' idx' (acc * s + i)
  | _, _ => acc
  end.
Definition tens_of_flat (shape : list nat) (data : list Qc) : tens :=
  fun idx => nth (ravel shape idx 0) data 0.

Fixpoint all_idx (shape : list nat) : list (list nat) :=
  match shape with
  | [] => [[]]
  | s :: shape' => flat_map (fun i => map (cons i) (all_idx shape')) (seq 0 s)
  end.
Definition materialize (shape : list nat) (f : tens) : list Qc := map f (all_idx shape).

(* polynomial functions with vector values: per component a list of (coefficient, exponents in x,y,z order) *)
Fixpoint qpow (x : Qc) (n : nat) : Qc := match n with O => 1 | S m => x * qpow x m end.
Fixpoint monomial (xs : list Qc) (es : list nat) : Qc :=
  match xs, es with
  | x :: xs', e :: es' => qpow x e * monomial xs' es'
  | _, _ => 1
  end.
Definition poly := list (Qc * list nat).
Definition poly_eval (P : poly) (xs : list Qc) : Qc :=
  fold_right Qcplus 0 (map (fun ce => fst ce * monomial xs (snd ce)) P).
Definition poly_func (Ps : list poly) : func := fun xs t => poly_eval (nth (nth 0 t 0%nat) Ps []) xs.

(* affine geometry x -> A x + b (x,y,z order) *)
Definition affine (A : mat) (b : list Qc) : geomap :=
  fun x => map (fun ib => fold_right Qcplus 0 (map (fun ax => fst ax * snd ax) (combine (nth (fst ib) A []) x)) + snd ib)
               (combine (seq 0 (length b)) b).

(* ---- interpolate: approx.py:14-51 --------------------------------------- *)
Inductive data :=
| DArray (vals : list Qc)                 (* f is an ndarray of values at the nodes (geo ignored) *)
| DSpace (coeffs : list Qc)               (* f = BSplineFunc(kvs, coeffs): values = (x)C_k coeffs *)
| DPoly (Ps : list poly) (geo : option (mat * list Qc)).   (* callable, optional affine geometry *)

Definition kron_apply (ops : list op) (shape : list nat) (T : nat) (f : tens) : list Qc :=
  materialize (shape ++ [T]) (tprod_loop ops f).

Definition rhs_of (Cs : list mat) (nodes : list (list Qc)) (shape : list nat) (T : nat) (d : data) : list Qc :=
  match d with
  | DArray vals => vals
  | DSpace c => kron_apply (map op_of_mat Cs) (map (@length _) nodes) T (tens_of_flat (shape ++ [T]) c)
  | DPoly Ps None => materialize (map (@length _) nodes ++ [T]) (grid_eval (poly_func Ps) nodes)
  | DPoly Ps (Some (A, b)) =>
      materialize (map (@length _) nodes ++ [T]) (grid_eval_transformed (poly_func Ps) nodes (affine A b))
  end.

Fixpoint all_some {A} (l : list (option A)) : option (list A) :=
  match l with
  | [] => Some []
  | Some x :: l' => match all_some l' with Some r => Some (x :: r) | None => None end
  | None :: _ => None
  end.

(* result: None = a collocation matrix is singular (the solver raises) *)
Definition interpolate (kvs : list (list Qc)) (ps : list nat) (nodes : list (list Qc)) (T : nat) (d : data)
  : option (list Qc) :=
  let Cs := map (fun kpn => collocation (fst (fst kpn)) (snd (fst kpn)) (snd kpn))
                (combine (combine kvs ps) nodes) in
  let shape := map (fun kp => numdofs (fst kp) (snd kp)) (combine kvs ps) in
  match all_some (map inverse Cs) with
  | None => None
  | Some Ss =>
      let rhs := rhs_of Cs nodes shape T d in
      Some (kron_apply (map op_of_mat Ss) shape T (tens_of_flat (map (@length _) nodes ++ [T]) rhs))
  end.

(* ---- what the correspondence run evaluates -------------------------------- *)
Definition close (bound a b : Qc) : bool := qleb (Qcabs (a - b)) bound.
Fixpoint all_close (bound : Qc) (a b : list Qc) : bool :=
  match a, b with
  | [], [] => true
  | x :: a', y :: b' => close bound x y && all_close bound a' b'
  | _, _ => false
  end.

Record icase := mk_icase {
  ic_kvs : list (list Qc); ic_ps : list nat;
  ic_nodes : list (list Qc);          (* the nodes the implementation used (exact rationals of its floats) *)
  ic_default : bool;                  (* nodes=None: they must be the Greville abscissae *)
  ic_gbound : Qc;                     (* rounding bound for the Greville comparison *)
  ic_T : nat; ic_data : data;
  ic_impl : option (list Qc);         (* the implementation's result (None: it raised) *)
  ic_bound : Qc }.

(* nodes=None: the model uses its own exact Greville abscissae (the implementation's rounded
   ones are compared with them within ic_gbound; the effect of that perturbation on the
   collocation matrices is part of ic_bound) *)
Definition model_nodes (c : icase) : list (list Qc) :=
  if ic_default c then map (fun kp => greville (fst kp) (snd kp)) (combine (ic_kvs c) (ic_ps c))
  else ic_nodes c.

(* 0 = agree; 1 = Greville nodes differ; 2 = singular/raise status differs;
   3 = coefficients differ beyond the bound; 4 = knot vector not open (generator error) *)
Definition check_icase (c : icase) : nat :=
  if negb (forallb (fun kp => open_kv (fst kp) (snd kp)) (combine (ic_kvs c) (ic_ps c))) then 4%nat
  else if ic_default c &&
     negb (forallb (fun kpn => all_close (ic_gbound c) (greville (fst (fst kpn)) (snd (fst kpn))) (snd kpn))
                   (combine (combine (ic_kvs c) (ic_ps c)) (ic_nodes c))) then 1%nat
  else match interpolate (ic_kvs c) (ic_ps c) (model_nodes c) (ic_T c) (ic_data c), ic_impl c with
       | None, None => 0%nat
       | Some m, Some r => if all_close (ic_bound c) m r then 0%nat else 3%nat
       | _, _ => 2%nat
       end.

Fixpoint bad_cases (k : nat) (cs : list icase) : list nat :=
  match cs with
  | [] => []
  | c :: cs' => match check_icase c with
                | O => bad_cases (S k) cs'
                | S _ => k :: bad_cases (S k) cs'
                end
  end.
Definition codes (cs : list icase) : list nat := map check_icase cs.
