(* C17 -- finite sums over Qc; the loop of tensor.apply_tprod is the Kronecker product, which
   composes and is linear; the discrete L2 setting and its hierarchical (Galerkin) instance. *)
From Coq Require Import QArith Qcanon List Arith Bool Lia.
From Verif.lib Require Import Bsp QcFacts.
From Verif.lib Require BspFacts.
From Verif.C17 Require Import Model Spec.
Import ListNotations.
Open Scope Qc_scope.

Lemma fold_right_plus_acc l a : fold_right Qcplus a l = fold_right Qcplus 0 l + a.
Proof. induction l as [|x l IH]; simpl; [ring | rewrite IH; ring]. Qed.

Lemma sumn_S n f : sumn (S n) f = sumn n f + f n.
Proof.
  unfold sumn. rewrite seq_S, map_app, fold_right_app. simpl.
  rewrite fold_right_plus_acc. ring.
Qed.

Lemma sumn_0 f : sumn 0 f = 0.
Proof. reflexivity. Qed.

Lemma sumn_ext n f g : (forall i, (i < n)%nat -> f i = g i) -> sumn n f = sumn n g.
Proof.
  induction n as [|n IH]; intros H; [reflexivity|].
  rewrite !sumn_S, IH, (H n) by (intros; try apply H; lia). reflexivity.
Qed.

Lemma sumn_add n f g : sumn n (fun i => f i + g i) = sumn n f + sumn n g.
Proof. induction n as [|n IH]; [rewrite !sumn_0; ring | rewrite !sumn_S, IH; ring]. Qed.

Lemma sumn_scal n c f : sumn n (fun i => c * f i) = c * sumn n f.
Proof. induction n as [|n IH]; [rewrite !sumn_0; ring | rewrite !sumn_S, IH; ring]. Qed.

Lemma sumn_zero n : sumn n (fun _ => 0) = 0.
Proof. induction n as [|n IH]; [reflexivity | rewrite sumn_S, IH; ring]. Qed.

Lemma sumn_swap n m (f : nat -> nat -> Qc) :
  sumn n (fun i => sumn m (fun j => f i j)) = sumn m (fun j => sumn n (fun i => f i j)).
Proof.
  induction n as [|n IH].
  - symmetry. exact (sumn_zero m).
  - rewrite sumn_S, IH, <- sumn_add. apply sumn_ext. intros j _.
    symmetry. exact (sumn_S n (fun i => f i j)).
Qed.

Lemma sumn_delta n i f : (i < n)%nat -> sumn n (fun j => delta i j * f j) = f i.
Proof.
  induction n as [|n IH]; intros H; [lia|].
  rewrite sumn_S. unfold delta at 2. destruct (Nat.eqb_spec i n) as [->|Hne].
  - rewrite (sumn_ext n _ (fun _ => 0)), sumn_zero; [ring|].
    intros j Hj. unfold delta. destruct (Nat.eqb_spec n j); [lia | ring].
  - rewrite IH by lia. ring.
Qed.

Lemma sumn_opp n f : sumn n (fun i => - f i) = - sumn n f.
Proof. induction n as [|n IH]; [rewrite !sumn_0; ring | rewrite !sumn_S, IH; ring]. Qed.

Lemma sumn_sub n f g : sumn n (fun i => f i - g i) = sumn n f - sumn n g.
Proof. induction n as [|n IH]; [rewrite !sumn_0; ring | rewrite !sumn_S, IH; ring]. Qed.

Lemma sumn_nonneg n f : (forall i, (i < n)%nat -> 0 <= f i) -> 0 <= sumn n f.
Proof.
  induction n as [|n IH]; intros H; [rewrite sumn_0; apply Qcle_refl|].
  rewrite sumn_S. apply Qcplus_nonneg; [apply IH; intros; apply H; lia | apply H; lia].
Qed.

Lemma sumn_nonneg_zero n f :
  (forall i, (i < n)%nat -> 0 <= f i) -> sumn n f = 0 -> forall i, (i < n)%nat -> f i = 0.
Proof.
  induction n as [|n IH]; intros Hp Hs i Hi; [lia|].
  rewrite sumn_S in Hs.
  assert (H1 : 0 <= sumn n f) by (apply sumn_nonneg; intros; apply Hp; lia).
  assert (H2 : 0 <= f n) by (apply Hp; lia).
  assert (Hn : f n = 0).
  { apply Qcle_antisym; [|exact H2].
    assert (H3 : 0 + f n <= sumn n f + f n)
      by (apply Qcplus_le_compat; [exact H1 | apply Qcle_refl]).
    rewrite Hs, Qcplus_0_l in H3. exact H3. }
  destruct (Nat.eq_dec i n) as [->|Hne]; [exact Hn|].
  apply IH; [intros; apply Hp; lia | rewrite Hn in Hs; rewrite <- Hs; ring | lia].
Qed.

Lemma unit_vector n f i j : (forall k, (k < n)%nat -> 0 <= f k) -> sumn n f = 1 ->
  (i < n)%nat -> f i = 1 -> (j < n)%nat -> j <> i -> f j = 0.
Proof.
  intros H Hs Hi Hfi Hj Hne.
  pose (g k := f k - delta i k * f k).
  assert (G : g j = 0).
  { apply (sumn_nonneg_zero n g); [| |exact Hj].
    - intros k Hk. unfold g, delta. destruct (Nat.eqb i k).
      + replace (f k - 1 * f k) with 0 by ring. apply Qcle_refl.
      + replace (f k - 0 * f k) with (f k) by ring. apply H, Hk.
    - unfold g. rewrite sumn_sub, sumn_delta, Hs, Hfi by exact Hi. ring. }
  unfold g, delta in G. destruct (Nat.eqb_spec i j); [congruence|]. rewrite <- G. ring.
Qed.

Lemma weighted_squares_zero n (w s : nat -> Qc) :
  (forall q, (q < n)%nat -> 0 < w q) -> sumn n (fun q => w q * (s q * s q)) = 0 ->
  forall q, (q < n)%nat -> s q = 0.
Proof.
  intros Hw E q Hq.
  assert (Z : w q * (s q * s q) = 0).
  { apply (sumn_nonneg_zero n (fun q => w q * (s q * s q))); [|exact E|exact Hq].
    intros k Hk. apply Qcmult_nonneg; [apply Qclt_le_weak, Hw, Hk | apply Qcsq_nonneg]. }
  destruct (Qcmult_integral _ _ Z) as [Z1|Z2].
  - specialize (Hw q Hq). rewrite Z1 in Hw. exfalso. exact (Qclt_not_eq _ _ Hw eq_refl).
  - destruct (Qcmult_integral _ _ Z2); assumption.
Qed.

Lemma tprod_ext_len Bs : forall f g idx,
  (forall i, length i = length idx -> f i = g i) -> tprod Bs f idx = tprod Bs g idx.
Proof.
  induction Bs as [|B Bs IH]; intros f g idx H; simpl.
  - apply H. reflexivity.
  - destruct idx as [|i idx]; [reflexivity|].
    apply sumn_ext. intros j _. f_equal. apply IH.
    intros r Hr. apply H. simpl. congruence.
Qed.

Lemma tprod_ext Bs f g idx : (forall i, f i = g i) -> tprod Bs f idx = tprod Bs g idx.
Proof. intros H. apply tprod_ext_len. intros i _. apply H. Qed.

Lemma insert_at_app k x (l1 l2 : list nat) : length l1 = k -> insert_at k x (l1 ++ l2) = l1 ++ x :: l2.
Proof.
  intros <-. unfold insert_at.
  rewrite firstn_app, Nat.sub_diag, firstn_all, skipn_app, Nat.sub_diag, skipn_all. simpl.
  rewrite app_nil_r. reflexivity.
Qed.

(* invariant of the loop: after the last |Post| operators have been applied the tensor has
   the |Post| new axes first, then the m axes not yet contracted, then the trailing axes *)
Lemma loop_inv n : forall Post m f ipost jpre t,
  n = (m + length Post)%nat -> length ipost = length Post -> length jpre = m ->
  fold_left (fun g B => tprod_step n B g) (rev Post) f (ipost ++ jpre ++ t)
  = tprod Post (fun rest => f (jpre ++ rest)) (ipost ++ t).
Proof.
  induction Post as [|B Post IH]; intros m f ipost jpre t Hn Hi Hj.
  - destruct ipost; [reflexivity | discriminate].
  - destruct ipost as [|a ipost]; [discriminate|]. simpl in Hi, Hn.
    simpl rev. rewrite fold_left_app. simpl.
    apply sumn_ext. intros j _. f_equal.
    rewrite app_assoc, insert_at_app by (rewrite app_length; lia).
    replace ((ipost ++ jpre) ++ j :: t) with (ipost ++ (jpre ++ [j]) ++ t)
      by (rewrite <- !app_assoc; reflexivity).
    rewrite (IH (S m)) by (try rewrite app_length; simpl; lia).
    apply tprod_ext. intros r. rewrite <- app_assoc. reflexivity.
Qed.

(* the loop computes the Kronecker product, and reads its data only at indices as long as the
   one asked for *)
Lemma loop_tprod_ext Bs f g idx :
  (length Bs <= length idx)%nat -> (forall j, length j = length idx -> f j = g j) ->
  tprod_loop Bs f idx = tprod Bs g idx.
Proof.
  intros HL H. transitivity (tprod Bs f idx); [|apply tprod_ext_len, H].
  unfold tprod_loop. rewrite <- (firstn_skipn (length Bs) idx).
  apply (loop_inv (length Bs) Bs 0 f _ [] _); [reflexivity | | reflexivity].
  rewrite firstn_length. lia.
Qed.

Lemma loop_ext_len Bs f g idx :
  (length Bs <= length idx)%nat -> (forall j, length j = length idx -> f j = g j) ->
  tprod_loop Bs f idx = tprod_loop Bs g idx.
Proof.
  intros HL H. rewrite (loop_tprod_ext Bs f g idx HL H).
  symmetry. apply loop_tprod_ext; [exact HL | reflexivity].
Qed.

Lemma tprod_lin As : forall m (c : nat -> Qc) (g : nat -> tens) idx,
  tprod As (fun r => sumn m (fun k => c k * g k r)) idx = sumn m (fun k => c k * tprod As (g k) idx).
Proof.
  induction As as [|A As IH]; intros m c g idx; simpl; [reflexivity|].
  destruct idx as [|i idx].
  - rewrite (sumn_ext m _ (fun _ => 0)) by (intros; ring). rewrite sumn_zero. reflexivity.
  - rewrite (sumn_ext (oc A) _ (fun j => sumn m (fun k => c k * (oe A i j * tprod As (fun rest => g k (j :: rest)) idx)))).
    + rewrite sumn_swap. apply sumn_ext. intros k _. rewrite sumn_scal. reflexivity.
    + intros j _. rewrite (IH m c (fun k rest => g k (j :: rest))).
      rewrite <- sumn_scal. apply sumn_ext. intros k _. ring.
Qed.

Lemma mul_list_length As Bs : length (mul_list As Bs) = Nat.min (length As) (length Bs).
Proof. unfold mul_list. rewrite map_length. apply combine_length. Qed.

Lemma tprod_mul_list As : forall Bs f idx,
  length As = length Bs -> tprod As (tprod Bs f) idx = tprod (mul_list As Bs) f idx.
Proof.
  induction As as [|A As IH]; intros Bs f idx HL; destruct Bs as [|B Bs]; try discriminate; [reflexivity|].
  simpl in HL. unfold mul_list. simpl. fold (mul_list As Bs).
  destruct idx as [|i idx]; [reflexivity|].
  (* both sides are sum_j sum_k A[i,j] B[j,k] ((x)(A_k B_k) f[k,..]): the left one since (x)A_k is
     linear in its data (and by induction), the right one after the two sums are exchanged *)
  rewrite (sumn_ext (oc A) _ (fun j => sumn (oc B) (fun k =>
            oe A i j * oe B j k * tprod (mul_list As Bs) (fun r => f (k :: r)) idx))).
  - rewrite sumn_swap. apply sumn_ext. intros k _.
    transitivity (tprod (mul_list As Bs) (fun r => f (k :: r)) idx * sumn (oc A) (fun j => oe A i j * oe B j k));
      [rewrite <- sumn_scal; apply sumn_ext; intros j _; ring | simpl; ring].
  - intros j _.
    rewrite (tprod_lin As (oc B) (fun k => oe B j k) (fun k => tprod Bs (fun r => f (k :: r))) idx).
    rewrite <- sumn_scal. apply sumn_ext. intros k _. rewrite IH by lia. ring.
Qed.

(* the loop applied to data that are (x)B_k c, at the indices it reads, gives (x)(A_k B_k) c *)
Lemma loop_compose As Bs f c idx :
  length As = length Bs -> (length As <= length idx)%nat ->
  (forall j, length j = length idx -> f j = tprod Bs c j) ->
  tprod_loop As f idx = tprod (mul_list As Bs) c idx.
Proof. intros HL Hl H. rewrite (loop_tprod_ext As f (tprod Bs c) idx Hl H). apply tprod_mul_list, HL. Qed.

Lemma tprod_id shape As : Forall2 is_id shape As ->
  forall f idx, inrange shape idx -> tprod As f idx = f idx.
Proof.
  induction 1 as [|n A shape As [Hc He] _ IH]; intros f idx Hr; [reflexivity|].
  destruct idx as [|i idx]; [destruct Hr|]. destruct Hr as [Hi Hr]. simpl.
  rewrite Hc.
  rewrite (sumn_ext n _ (fun j => delta i j * f (j :: idx))).
  - apply sumn_delta. exact Hi.
  - intros j Hj. rewrite He by assumption. rewrite IH by assumption. reflexivity.
Qed.

Lemma tprod_left_inverse shape Ss Cs c idx :
  length Ss = length Cs -> Forall2 is_id shape (mul_list Ss Cs) -> inrange shape idx ->
  tprod Ss (tprod Cs c) idx = c idx.
Proof. intros HL Hid Hr. rewrite tprod_mul_list by exact HL. apply (tprod_id shape); assumption. Qed.

Lemma is_id_mul n A B : is_id n A -> is_id n B -> is_id n (mul A B).
Proof.
  intros [Ha Ea] [Hb Eb]. split; [exact Hb|].
  intros i j Hi Hj. cbn [mul oe]. rewrite Ha.
  rewrite (sumn_ext n _ (fun k => delta i k * delta k j)).
  - rewrite (sumn_delta n i (fun k => delta k j)) by exact Hi. reflexivity.
  - intros k Hk. rewrite Ea, Eb by assumption. reflexivity.
Qed.

Lemma is_id_b_sound n A : is_id_b n A = true -> is_id n A.
Proof.
  unfold is_id_b, is_id. rewrite andb_true_iff, Nat.eqb_eq, forallb_forall.
  intros [Hc H]. split; [exact Hc|]. intros i j Hi Hj.
  specialize (H i ltac:(apply in_seq; lia)). rewrite forallb_forall in H.
  apply BspFacts.qeqb_iff, H, in_seq. lia.
Qed.

Lemma all_idx_inrange shape : forall idx,
  In idx (all_idx shape) -> length idx = length shape /\ inrange shape idx.
Proof.
  induction shape as [|n shape IH]; intros idx H.
  - destruct H as [<-|[]]. split; [reflexivity | exact I].
  - simpl in H. apply in_flat_map in H. destruct H as [i [Hi H]].
    apply in_map_iff in H. destruct H as [r [<- Hr]]. apply in_seq in Hi.
    destruct (IH r Hr) as [L R]. simpl. split; [congruence | split; [lia | exact R]].
Qed.

Lemma inrange_app shape tr : forall idx, inrange (shape ++ tr) idx -> inrange shape idx.
Proof.
  induction shape as [|n shape IH]; intros idx H; [exact I|].
  destruct idx as [|i idx]; [destruct H|]. destruct H as [Hi H]. split; [exact Hi | apply IH, H].
Qed.

Lemma tprod_componentwise Bs : forall f i t,
  length i = length Bs -> tprod Bs f (i ++ t) = tprod Bs (fun i' => f (i' ++ t)) i.
Proof.
  induction Bs as [|B Bs IH]; intros f i t HL.
  - destruct i; [reflexivity | discriminate].
  - destruct i as [|a i]; [discriminate|]. simpl in HL. simpl.
    apply sumn_ext. intros j _. f_equal. rewrite IH by lia. reflexivity.
Qed.

Lemma spl_ext N Cq x y q : (forall j, (j < N)%nat -> x j = y j) -> spl N Cq x q = spl N Cq y q.
Proof. intros H. unfold spl. apply sumn_ext. intros j Hj. rewrite (H j Hj). reflexivity. Qed.

Section L2proofs.
  Variables (N Q : nat) (Cq : nat -> nat -> Qc) (w : nat -> Qc).
  Notation M := (massq Q Cq w).
  Notation load := (loadq Q Cq w).
  Notation s := (spl N Cq).

  Lemma load_of_spline c i : load (s c) i = mv N M c i.
  Proof.
    unfold loadq, mv, massq, spl.
    rewrite (sumn_ext Q _ (fun q => sumn N (fun j => Cq q i * w q * Cq q j * c j))).
    - rewrite sumn_swap. apply sumn_ext. intros j _.
      transitivity (c j * sumn Q (fun q => Cq q i * w q * Cq q j)); [|ring].
      rewrite <- sumn_scal. apply sumn_ext. intros q _. ring.
    - intros q _. rewrite <- sumn_scal. apply sumn_ext. intros j _. ring.
  Qed.

  Lemma mv_sub x y i : mv N M (fun j => x j - y j) i = mv N M x i - mv N M y i.
  Proof. unfold mv. rewrite <- sumn_sub. apply sumn_ext. intros j _. ring. Qed.

  (* x^T M x = sum_q w_q (spline value at q)^2 *)
  Lemma energy x : sumn N (fun i => x i * mv N M x i) = sumn Q (fun q => w q * (s x q * s x q)).
  Proof.
    transitivity (sumn N (fun i => sumn Q (fun q => x i * (Cq q i * w q * s x q)))).
    - apply sumn_ext. intros i _. rewrite <- load_of_spline. symmetry. apply sumn_scal.
    - rewrite sumn_swap. apply sumn_ext. intros q _.
      transitivity ((w q * s x q) * sumn N (fun i => Cq q i * x i)); [|unfold spl; ring].
      rewrite <- sumn_scal. apply sumn_ext. intros i _. ring.
  Qed.
End L2proofs.

Section L2projection.
  Variables (N Q : nat) (Cq : nat -> nat -> Qc) (w : nat -> Qc).
  (* a solver for the mass matrix: any map with M (sol b) = b on the N equations *)
  Variable sol : (nat -> Qc) -> nat -> Qc.

  (* P f = the projected function sampled at the quadrature points *)
  Definition l2proj (f : nat -> Qc) : nat -> Qc := spl N Cq (sol (loadq Q Cq w f)).
End L2projection.

(* hierarchical spaces: the basis is given by its representation P (Nf fine tensor-product functions
   x N hierarchical functions; hs.represent_fine, HB or THB) on the finest level.  The discrete L2
   setting with the sampled basis Ch = Cf P IS the Galerkin restriction of the fine-level
   quantities: Gram matrix P^T M_f P (what C03's hassemble_galerkin shows assemble_matrix to be)
   and load vector P^T b_f. *)
Section Hier.
  Variables (Nf N Q : nat) (Cf P : nat -> nat -> Qc) (w : nat -> Qc).
  Definition Ch (q i : nat) : Qc := sumn Nf (fun r => Cf q r * P r i).
  Definition galerkin (i j : nat) : Qc :=
    sumn Nf (fun r => sumn Nf (fun s => P r i * massq Q Cf w r s * P s j)).
  Definition restrict (b : nat -> Qc) (i : nat) : Qc := sumn Nf (fun r => P r i * b r).

  Lemma hs_load f i : loadq Q Ch w f i = restrict (loadq Q Cf w f) i.
  Proof.
    unfold loadq, restrict, Ch.
    rewrite (sumn_ext Q _ (fun q => sumn Nf (fun r => P r i * (Cf q r * w q * f q)))).
    - rewrite sumn_swap. apply sumn_ext. intros r _. rewrite sumn_scal. reflexivity.
    - intros q _.
      transitivity ((w q * f q) * sumn Nf (fun r => Cf q r * P r i)); [ring|].
      rewrite <- sumn_scal. apply sumn_ext. intros r _. ring.
  Qed.

  Lemma hs_mass i j : massq Q Ch w i j = galerkin i j.
  Proof.
    (* column j of the sampled basis is the fine spline with coefficients P[:,j], so the Gram
       entry is a load, and the load of a fine spline is the fine mass matrix times P[:,j] *)
    change (loadq Q Ch w (spl Nf Cf (fun s => P s j)) i = galerkin i j).
    rewrite hs_load. unfold restrict, galerkin. apply sumn_ext. intros r _.
    rewrite load_of_spline. unfold mv. rewrite <- sumn_scal. apply sumn_ext. intros s _. ring.
  Qed.

  Lemma hs_mv x i : mv N (massq Q Ch w) x i = mv N galerkin x i.
  Proof. unfold mv. apply sumn_ext. intros j _. rewrite hs_mass. reflexivity. Qed.
End Hier.
