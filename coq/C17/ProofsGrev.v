(* C17 -- the Greville abscissae as interpolation nodes: they lie in the domain (C19's position
   theorems), so the collocation matrix there holds the Cox-de Boor values (C02); for degree 0 and 1
   it is the identity. *)
From Coq Require Import QArith Qcanon List Arith Bool Lia.
From Verif.lib Require Import Bsp.
From Verif.C02 Require Import Proofs_ref.
From Verif.C02 Require Proofs_ndu.
From Verif.C19 Require Proofs2 Proofs5 Proofs6.
From Verif.C17 Require Import Model Spec Proofs.
Import ListNotations.
Open Scope Qc_scope.

Lemma open_kv_valid kv p : open_kv kv p = true -> Verif.C19.Model.kv_valid kv = true.
Proof.
  unfold open_kv, Verif.C19.Model.kv_valid. intros H.
  repeat (apply andb_true_iff in H; destruct H as [H ?]). assumption.
Qed.

Lemma collocation_row kv p nodes i : (i < length nodes)%nat ->
  nth i (collocation kv p nodes) [] = colloc_row kv p 0 (nth i nodes 0).
Proof.
  intros Hi. unfold collocation.
  rewrite (nth_indep _ [] (colloc_row kv p 0 0)) by (rewrite map_length; exact Hi).
  apply (map_nth (colloc_row kv p 0)).
Qed.

(* C19's position theorems, degree 0 and degree >= 1 together: there are numdofs Greville points,
   all inside the knot span *)
Lemma greville_in_domain kv p i : open_kv kv p = true -> (i < numdofs kv p)%nat ->
  length (greville kv p) = numdofs kv p /\
  kn kv 0 <= nth i (greville kv p) 0 <= kn kv (length kv - 1).
Proof.
  intros Hopen Hi. pose proof (open_kv_valid kv p Hopen) as Hv.
  unfold greville. destruct p as [|q].
  - destruct (Verif.C19.Proofs5.greville_p0_l kv i Hv Hi) as [L [_ [A [B _]]]].
    split; [exact L|].
    destruct (open_kv_parts kv 0 Hopen) as [Hlen [Hs _]].
    unfold numdofs in Hi. split.
    + apply Qcle_trans with (kn kv i); [apply Hs; lia | exact A].
    + apply Qcle_trans with (kn kv (i + 0 + 1)); [exact B | apply Hs; lia].
  - destruct (Verif.C19.Proofs2.greville_in_support_l kv (S q) i ltac:(lia) Hv Hi)
      as [_ [_ [_ [_ [_ [A [B L]]]]]]].
    split; [exact L | split; assumption].
Qed.

(* every entry of the Greville collocation matrix is the Cox-de Boor value N_j(g_i) *)
Lemma greville_entry kv p i j : open_kv kv p = true -> (i < numdofs kv p)%nat -> (j < numdofs kv p)%nat ->
  mget (collocation kv p (greville kv p)) i j = Nref kv p j (nth i (greville kv p) 0).
Proof.
  intros Hopen Hi Hj. destruct (greville_in_domain kv p i Hopen Hi) as [L [A B]].
  unfold mget. rewrite collocation_row by (rewrite L; exact Hi).
  apply Proofs_ndu.colloc_row_values_l; [apply open_kv_ok_l | | |]; assumption.
Qed.

Lemma sumf_sumn f n : sumf f 0 n = sumn n f.
Proof.
  unfold sumn. generalize 0%nat. induction n as [|n IH]; intros a; [reflexivity|].
  cbn [sumf seq map fold_right]. rewrite IH. reflexivity.
Qed.

(* for degree <= 1 the knots t_p, ..., t_(n-p-1) of an open knot vector increase strictly *)
Lemma open_p01_knots_increase kv p j : (p <= 1)%nat -> open_kv kv p = true ->
  (p <= j)%nat -> (j + p + 1 < length kv)%nat -> kn kv j < kn kv (S j).
Proof.
  intros Hp Hopen Hj Hl.
  destruct (open_kv_parts kv p Hopen) as [_ [_ [_ [_ [Hfs [Hls Hm]]]]]].
  destruct (Nat.eq_dec j p) as [->|H0]; [exact Hfs|].
  destruct (Nat.eq_dec j (length kv - p - 2)) as [->|H1].
  - replace (S (length kv - p - 2)) with (length kv - p - 1)%nat by lia. exact Hls.
  - specialize (Hm j ltac:(lia) ltac:(lia)).
    replace (j + Nat.max p 1)%nat with (S j) in Hm by lia. exact Hm.
Qed.

Lemma greville_diag_one_p0 kv i : open_kv kv 0 = true -> (i < numdofs kv 0)%nat ->
  Nref kv 0 i (nth i (greville kv 0) 0) = 1.
Proof.
  intros Hopen Hi. pose proof (open_kv_valid kv 0 Hopen) as Hv.
  assert (Hlt : kn kv i < kn kv (S i))
    by (apply (open_p01_knots_increase kv 0); [lia | exact Hopen | lia | unfold numdofs in Hi; lia]).
  destruct (Verif.C19.Proofs5.greville_p0_l kv i Hv Hi) as [_ [_ [_ [_ St]]]].
  destruct (St Hlt) as [A B]. unfold greville. cbn [Nref].
  rewrite in_span_intro; [reflexivity|]. left. split; [apply Qclt_le_weak; exact A | exact B].
Qed.

Lemma greville_p1_is_knot kv i : open_kv kv 1 = true -> (i < numdofs kv 1)%nat ->
  nth i (greville kv 1) 0 = kn kv (S i).
Proof.
  intros Hopen Hi. pose proof (open_kv_valid kv 1 Hopen) as Hv.
  destruct (Verif.C19.Proofs2.greville_in_support_l kv 1 i ltac:(lia) Hv Hi) as [_ [A [B _]]].
  unfold greville. replace (S i) with (i + 1)%nat by lia. apply Qcle_antisym; assumption.
Qed.

(* the hat function N_{i,1} is 1 at its middle knot: there N_{i+1,0} = 1 and N_{i,0} = 0 *)
Lemma hat_at_middle_knot kv i : Verif.C02.Proofs.sorted kv -> (i + 2 < length kv)%nat ->
  kn kv (S i) < kn kv (S (S i)) -> Nref kv 1 i (kn kv (S i)) = 1.
Proof.
  intros Hs Hi Hlt. cbn [Nref].
  replace (i + 1 + 1)%nat with (S (S i)) by lia. replace (i + 1)%nat with (S i) by lia.
  assert (E1 : in_span kv (S i) (kn kv (S i)) = true)
    by (apply in_span_intro; left; split; [apply Qcle_refl | exact Hlt]).
  assert (E0 : in_span kv i (kn kv (S i)) = false).
  { destruct (in_span kv i (kn kv (S i))) eqn:E; [|reflexivity]. exfalso.
    destruct (in_span_true kv i _ E) as [[_ H2]|[H1 _]].
    - replace (i + 0 + 1)%nat with (S i) in H2 by lia. exact (Qclt_not_eq _ _ H2 eq_refl).
    - unfold lastk in H1. rewrite H1 in Hlt. apply (Qclt_not_le _ _ Hlt), Hs; lia. }
  rewrite E1, E0.
  assert (Hd : kn kv (S (S i)) - kn kv (S i) <> 0).
  { intros Z. apply (Qclt_not_eq _ _ Hlt). symmetry.
    rewrite <- (Qcplus_0_r (kn kv (S i))), <- Z. ring. }
  rewrite Qcmult_0_r, Qcplus_0_l, Qcmult_1_r. field. exact Hd.
Qed.

Lemma greville_diag_one_p1 kv i : open_kv kv 1 = true -> (i < numdofs kv 1)%nat ->
  Nref kv 1 i (nth i (greville kv 1) 0) = 1.
Proof.
  intros Hopen Hi. rewrite greville_p1_is_knot by assumption.
  destruct (open_kv_parts kv 1 Hopen) as [Hlen [Hs [_ [Hlast _]]]]. unfold numdofs in Hi.
  assert (Hlt : forall j, (1 <= j)%nat -> (j + 2 < length kv)%nat -> kn kv j < kn kv (S j))
    by (intros j H1 H2; apply (open_p01_knots_increase kv 1); [lia | exact Hopen | lia | lia]).
  destruct (Nat.eq_dec i (length kv - 3)) as [->|Hne].
  - (* the last function, at the right end point *)
    assert (E : kn kv (S (length kv - 3)) = kn kv (length kv - 1)).
    { replace (S (length kv - 3)) with (length kv - 1 - 1)%nat by lia. apply Hlast. lia. }
    rewrite E. apply Verif.C19.Proofs6.N_right_end_l; [exact Hs | apply Hlt; lia | exact E | lia].
  - apply hat_at_middle_knot; [exact Hs | lia | apply Hlt; lia].
Qed.

(* for degree 0 and 1 the collocation matrix at the Greville points is the identity: the diagonal
   is 1, and the entries of a row are non-negative and sum to 1 *)
Lemma greville_p01_is_id kv p : (p <= 1)%nat -> open_kv kv p = true ->
  is_id (numdofs kv p) (op_of_mat (collocation kv p (greville kv p))).
Proof.
  intros Hp Hopen. destruct (open_kv_parts kv p Hopen) as [Hlen [Hs _]]. split.
  - assert (Hn : (0 < numdofs kv p)%nat) by (unfold numdofs; lia).
    destruct (greville_in_domain kv p 0 Hopen Hn) as [L _].
    cbn [op_of_mat oc]. unfold ncols. rewrite collocation_row by (rewrite L; exact Hn).
    apply Proofs_ndu.colloc_row_length.
  - intros i j Hi Hj. cbn [op_of_mat oe]. rewrite greville_entry by assumption.
    destruct (greville_in_domain kv p i Hopen Hi) as [_ [A B]].
    assert (D : Nref kv p i (nth i (greville kv p) 0) = 1).
    { destruct p as [|[|q]]; [apply greville_diag_one_p0 | apply greville_diag_one_p1 | lia]; assumption. }
    unfold delta. destruct (Nat.eqb_spec i j) as [->|Hne]; [exact D|].
    apply (unit_vector (numdofs kv p) (fun k => Nref kv p k (nth i (greville kv p) 0)) i j).
    + intros k Hk. apply N_nonneg_l; [exact Hs | unfold numdofs in Hk; lia].
    + rewrite <- sumf_sumn. apply N_partition_of_unity_all_l; [apply open_kv_ok_l | |]; assumption.
    + exact Hi.
    + exact D.
    + exact Hj.
    + congruence.
Qed.
