(* C17 -- data that are only known ON the node grid ((x)S_k reads nothing else), and component
   selection through grid_eval. *)
From Coq Require Import QArith Qcanon List Arith Lia.
From Verif.C17 Require Import Model Spec Proofs.
Import ListNotations.
Open Scope Qc_scope.

(* S_k has nshape_k columns: the number of nodes of axis k, the length of the axis it contracts *)
Definition cols_are (nshape : list nat) (Ss : list op) : Prop := Forall2 (fun n S => oc S = n) nshape Ss.

Lemma tprod_ext_range nshape Ss : cols_are nshape Ss -> forall f g idx,
  (forall j, inrange nshape j -> length j = length idx -> f j = g j) ->
  tprod Ss f idx = tprod Ss g idx.
Proof.
  induction 1 as [|n S nshape Ss Hc _ IH]; intros f g idx H.
  - simpl. apply H; [exact I | reflexivity].
  - destruct idx as [|i idx]; [reflexivity|]. simpl. rewrite Hc.
    apply sumn_ext. intros j Hj. f_equal. apply IH.
    intros r Hr Hl. apply H; [split; assumption | simpl; congruence].
Qed.

Lemma tprod_zero Ss : forall idx, tprod Ss (fun _ => 0) idx = 0.
Proof.
  induction Ss as [|S Ss IH]; intros idx; [reflexivity|].
  destruct idx as [|i idx]; [reflexivity|]. simpl.
  rewrite (sumn_ext (oc S) _ (fun _ => 0)); [apply sumn_zero|].
  intros j _. rewrite IH. ring.
Qed.

Definition select (f : func) (t : list nat) : func := fun x s => f x (t ++ s).

Lemma pick_app grid : forall i t, length i = length grid -> pick grid (i ++ t) = pick grid i.
Proof.
  induction grid as [|g grid IH]; intros i t HL; destruct i as [|a i]; try discriminate; [reflexivity|].
  simpl. f_equal. apply IH. simpl in HL. lia.
Qed.

Lemma grid_eval_component f grid i t : length i = length grid ->
  grid_eval f grid (i ++ t) = grid_eval (select f t) grid i.
Proof.
  intros HL. unfold grid_eval, select.
  rewrite pick_app by exact HL. rewrite <- HL.
  rewrite skipn_app, Nat.sub_diag, skipn_all. simpl. rewrite app_nil_r. reflexivity.
Qed.

Lemma grid_eval_transformed_component f grid geo i t : length i = length grid ->
  grid_eval_transformed f grid geo (i ++ t) = grid_eval_transformed (select f t) grid geo i.
Proof. exact (grid_eval_component (compose f geo) grid i t). Qed.
