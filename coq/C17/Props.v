(* C17 -- the property theorems.

   Vocabulary (Model.v / Spec.v): [op] = a linear operator by its entries (collocation
   matrix, its transpose, diagonal weights, or a solver = the inverse applied by
   make_solver); [tprod_loop] = the loop of tensor.apply_tprod as written (tensor.py:128-137);
   [tprod] = the Kronecker product  Y[i,t] = sum_j prod_k B_k[i_k,j_k] X[j,t];
   tensors have any number of leading tensor-product axes and any trailing (component) axes;
   [cols_are nshape Ss]: S_k has nshape_k columns (the number of nodes of axis k). *)
From Coq Require Import QArith Qcanon List Arith Lia.
From Verif.lib Require Import Bsp.
From Verif.C17 Require Import Model Spec Proofs ProofsGrev ProofsGrid.
Import ListNotations.
Open Scope Qc_scope.

(* apply_tprod computes the Kronecker product of its operators, for every number of
   operators (dimension), every operator size and any trailing axes. *)
Theorem apply_tprod_is_kronecker : forall Bs f idx,
  (length Bs <= length idx)%nat -> tprod_loop Bs f idx = tprod Bs f idx.
Proof. intros Bs f idx H. apply loop_tprod_ext; [exact H | reflexivity]. Qed.
Print Assumptions apply_tprod_is_kronecker.

(* (x)A_k applied after (x)B_k is (x)(A_k B_k). *)
Theorem tprod_compose : forall As Bs f idx,
  length As = length Bs -> tprod As (tprod Bs f) idx = tprod (mul_list As Bs) f idx.
Proof. exact tprod_mul_list. Qed.
Print Assumptions tprod_compose.

(* Interpolation reproduces every function of the space: if the data are the values
   (x)C_k c of the spline with coefficients c at the node grid, and every solver S_k
   inverts its collocation matrix (S_k C_k = I: contract of make_solver for a unisolvent
   node set), approx.interpolate returns c -- any dimension, any node grid, any trailing axes. *)
Theorem interp_reproduces : forall shape Ss Cs c idx,
  length Ss = length Cs -> Forall2 is_id shape (mul_list Ss Cs) ->
  inrange shape idx -> (length Ss <= length idx)%nat ->
  tprod_loop Ss (tprod Cs c) idx = c idx.
Proof.
  intros shape Ss Cs c idx HL Hid Hr Hlen. rewrite apply_tprod_is_kronecker by exact Hlen.
  apply (tprod_left_inverse shape); assumption.
Qed.
Print Assumptions interp_reproduces.

(* The interpolant matches arbitrary data at the nodes: (x)C_k (interpolate rhs) = rhs,
   when C_k S_k = I. *)
Theorem interp_matches_nodes : forall nshape Cs Ss rhs idx,
  length Cs = length Ss -> Forall2 is_id nshape (mul_list Cs Ss) ->
  inrange nshape idx -> (length Ss <= length idx)%nat ->
  tprod Cs (tprod_loop Ss rhs) idx = rhs idx.
Proof.
  intros nshape Cs Ss rhs idx HL Hid Hr Hlen.
  rewrite (tprod_ext_len Cs _ (tprod Ss rhs) idx) by (intros i Hi; apply apply_tprod_is_kronecker; lia).
  apply (tprod_left_inverse nshape); assumption.
Qed.
Print Assumptions interp_matches_nodes.

(* Vector/array valued data are treated component-wise: component t of the result is the
   result for component t of the data (holds for interpolate and for the Kronecker L2 path,
   both being apply_tprod). *)
Theorem data_componentwise : forall Ss rhs i t,
  length i = length Ss ->
  tprod_loop Ss rhs (i ++ t) = tprod_loop Ss (fun i' => rhs (i' ++ t)) i.
Proof.
  intros Ss rhs i t HL. rewrite !apply_tprod_is_kronecker by (try rewrite app_length; lia).
  apply tprod_componentwise, HL.
Qed.
Print Assumptions data_componentwise.

(* Data given in physical coordinates are handled as their pull-back: interpolate(f, geo)
   = interpolate(f o geo)  (utils.grid_eval_transformed vs utils.grid_eval). *)
Theorem physical_equals_pullback : forall Ss f grid geo,
  tprod_loop Ss (grid_eval_transformed f grid geo) = tprod_loop Ss (grid_eval (compose f geo) grid).
Proof. reflexivity. Qed.
Print Assumptions physical_equals_pullback.

(* L2 projection.  The discrete setting covers every case of the property at once: N basis functions
   (tensor-product, or hierarchical HB/THB after representation on the fine level), Q
   quadrature points, Cq q i = value of basis function i at point q, w q = quadrature weight
   times |det J| (geometry-weighted inner product); massq = the Gram matrix, loadq f = the
   inner products with f (assemble.inner_products), spl x = the spline with coefficients x. *)

(* The residual f - P f is orthogonal to the space in the weighted discrete L2 inner product,
   for ANY data f, as soon as the returned x solves M x = b (contract of the direct solver;
   of CG only when it converged). *)
Theorem l2_residual_orthogonal : forall N Q Cq w f x,
  (forall i, (i < N)%nat -> mv N (massq Q Cq w) x i = loadq Q Cq w f i) ->
  forall i, (i < N)%nat -> sumn Q (fun q => Cq q i * w q * (f q - spl N Cq x q)) = 0.
Proof.
  intros N Q Cq w f x H i Hi.
  rewrite (sumn_ext Q _ (fun q => Cq q i * w q * f q - Cq q i * w q * spl N Cq x q)) by (intros; ring).
  rewrite sumn_sub. fold (loadq Q Cq w f i) (loadq Q Cq w (spl N Cq x) i).
  rewrite load_of_spline, H by exact Hi. ring.
Qed.
Print Assumptions l2_residual_orthogonal.

(* L2 projection reproduces every function of the space (mass matrix injective). *)
Theorem l2_reproduces : forall N Q Cq w c x,
  (forall y, (forall i, (i < N)%nat -> mv N (massq Q Cq w) y i = 0) -> forall i, (i < N)%nat -> y i = 0) ->
  (forall i, (i < N)%nat -> mv N (massq Q Cq w) x i = loadq Q Cq w (spl N Cq c) i) ->
  forall i, (i < N)%nat -> x i = c i.
Proof.
  intros N Q Cq w c x Hinj H i Hi.
  assert (Hz : x i - c i = 0).
  { apply (Hinj (fun j => x j - c j)); [|exact Hi].
    intros k Hk. rewrite mv_sub, H, load_of_spline by exact Hk. ring. }
  rewrite <- (Qcplus_0_r (c i)), <- Hz. ring.
Qed.
Print Assumptions l2_reproduces.

(* ... and the mass matrix IS injective when the weights are positive (|det J| > 0, Gauss
   weights > 0) and no non-zero spline vanishes at all quadrature points. *)
Theorem mass_injective : forall N Q Cq w,
  (forall q, (q < Q)%nat -> 0 < w q) ->
  (forall y, (forall q, (q < Q)%nat -> spl N Cq y q = 0) -> forall i, (i < N)%nat -> y i = 0) ->
  forall y, (forall i, (i < N)%nat -> mv N (massq Q Cq w) y i = 0) -> forall i, (i < N)%nat -> y i = 0.
Proof.
  intros N Q Cq w Hw Hc y Hy. apply Hc. apply (weighted_squares_zero Q w); [exact Hw|].
  rewrite <- energy, (sumn_ext N _ (fun _ => 0)); [apply sumn_zero|].
  intros i Hi. rewrite Hy by exact Hi. ring.
Qed.
Print Assumptions mass_injective.

(* The Kronecker path of project_L2 (no geometry, approx.py:81-86 with assemble.py:315-340):
   apply_tprod(Minvs, apply_tprod(C^T, apply_tprod(diag(w), values))) returns the coefficients
   of a function of the space, any dimension and trailing axes, when the 1D mass matrices are
   the quadrature Gram matrices and the solvers invert them. *)
Theorem l2_kron_reproduces : forall shape Ss Cts Ds Cs c idx,
  length Ss = length Cts -> length Cts = length Ds -> length Ds = length Cs ->
  Forall2 is_id shape (mul_list Ss (mul_list Cts (mul_list Ds Cs))) ->
  inrange shape idx -> (length Ss <= length idx)%nat ->
  tprod_loop Ss (tprod_loop Cts (tprod_loop Ds (tprod Cs c))) idx = c idx.
Proof.
  intros shape Ss Cts Ds Cs c idx H1 H2 H3 Hid Hr Hl.
  rewrite (loop_compose Ss (mul_list Cts (mul_list Ds Cs)) _ c);
    [apply (tprod_id shape); assumption | rewrite !mul_list_length; lia | exact Hl |].
  intros i Hi. apply loop_compose; [rewrite mul_list_length; lia | lia |].
  intros j Hj. apply loop_compose; [exact H3 | lia | reflexivity].
Qed.
Print Assumptions l2_kron_reproduces.

(* Interpolating the interpolant gives the same coefficients: I E I = I (S_k C_k = I) ... *)
Theorem interp_is_projection : forall shape Ss Cs rhs idx,
  length Ss = length Cs -> Forall2 is_id shape (mul_list Ss Cs) ->
  inrange shape idx -> (length Ss <= length idx)%nat ->
  tprod_loop Ss (tprod Cs (tprod_loop Ss rhs)) idx = tprod_loop Ss rhs idx.
Proof. intros. apply (interp_reproduces shape); assumption. Qed.
Print Assumptions interp_is_projection.

(* ... and in nodal values E I E = E (C_k S_k = I). *)
Theorem interp_values_projection : forall nshape Cs Ss c idx,
  length Cs = length Ss -> Forall2 is_id nshape (mul_list Cs Ss) ->
  inrange nshape idx -> (length Ss <= length idx)%nat ->
  tprod Cs (tprod_loop Ss (tprod Cs c)) idx = tprod Cs c idx.
Proof. intros. apply (interp_matches_nodes nshape); assumption. Qed.
Print Assumptions interp_values_projection.

(* The discrete (geometry weighted) L2 projection P f = spl (sol (load f)), for ANY exact solver
   sol of the mass matrix, positive weights and a basis unisolvent on the quadrature points:
   it returns the coefficients of a function of the space, fixes every function of the space,
   and P (P f) = P f for every f. *)
Theorem l2_projection_is_projection : forall N Q Cq w sol,
  (forall b i, (i < N)%nat -> mv N (massq Q Cq w) (sol b) i = b i) ->
  (forall q, (q < Q)%nat -> 0 < w q) ->
  (forall y, (forall q, (q < Q)%nat -> spl N Cq y q = 0) -> forall i, (i < N)%nat -> y i = 0) ->
  (forall c i, (i < N)%nat -> sol (loadq Q Cq w (spl N Cq c)) i = c i) /\
  (forall c q, l2proj N Q Cq w sol (spl N Cq c) q = spl N Cq c q) /\
  (forall f q, l2proj N Q Cq w sol (l2proj N Q Cq w sol f) q = l2proj N Q Cq w sol f q).
Proof.
  intros N Q Cq w sol Hsol Hw Huni.
  assert (R : forall c i, (i < N)%nat -> sol (loadq Q Cq w (spl N Cq c)) i = c i).
  { intros c. apply (l2_reproduces N Q Cq w c); [apply mass_injective; assumption|].
    intros k Hk. apply Hsol, Hk. }
  split; [exact R|]. split; intros f q; unfold l2proj; apply spl_ext; intros j Hj; apply R, Hj.
Qed.
Print Assumptions l2_projection_is_projection.

(* The default nodes: greville = C19's transcription of KnotVector.greville; collocation = rows of
   Bsp.colloc_row. *)

(* Schoenberg-Whitney NECESSARY condition holds for the Greville points of every open knot vector
   of degree >= 1: the diagonal of the collocation matrix is strictly positive (built on C19's
   greville_in_support / greville_diag_pos and C02's colloc_row_values). *)
Theorem greville_satisfies_sw_necessary : forall kv p i,
  (1 <= p)%nat -> open_kv kv p = true -> (i < numdofs kv p)%nat ->
  0 < mget (collocation kv p (greville kv p)) i i.
Proof.
  intros kv p i Hp Hopen Hi. rewrite greville_entry by assumption.
  apply Verif.C19.Proofs6.greville_diag_pos_l; assumption.
Qed.
Print Assumptions greville_satisfies_sw_necessary.

(* Unisolvence for degree 0 and 1: on every open knot vector the collocation matrix at the Greville
   points is the identity matrix (so interpolation there is the identity on the data). *)
Theorem greville_unisolvent_p01 : forall kv p i j,
  (p <= 1)%nat -> open_kv kv p = true -> (i < numdofs kv p)%nat -> (j < numdofs kv p)%nat ->
  mget (collocation kv p (greville kv p)) i j = delta i j.
Proof. intros kv p i j Hp Hopen. exact (proj2 (greville_p01_is_id kv p Hp Hopen) i j). Qed.
Print Assumptions greville_unisolvent_p01.

(* ... hence the solver contract assumed by interp_reproduces / interp_matches_nodes is met
   (by the exact solve of an identity system) for degree <= 1. *)
Theorem greville_p01_solver_contract : forall kv p S,
  (p <= 1)%nat -> open_kv kv p = true -> is_id (numdofs kv p) S ->
  let C := op_of_mat (collocation kv p (greville kv p)) in
  is_id (numdofs kv p) (mul S C) /\ is_id (numdofs kv p) (mul C S).
Proof.
  intros kv p S Hp Hopen HS C. pose proof (greville_p01_is_id kv p Hp Hopen) as HC.
  split; apply is_id_mul; assumption.
Qed.
Print Assumptions greville_p01_solver_contract.

(* Hierarchical spaces.
   P = representation of the N hierarchical (HB or THB) functions in the Nf tensor-product functions
   of the finest level (hs.represent_fine); Cf = fine collocation at the quadrature points.
   galerkin = P^T M_f P is the matrix C03.hassemble_galerkin shows assemble_matrix to be (nested exact
   quadratures); restrict b = P^T b.  The sampled hierarchical basis Ch = Cf P makes the discrete L2
   setting above exactly this Galerkin restriction: *)
Theorem hspace_gram_is_galerkin : forall Nf Q Cf P w i j,
  massq Q (Ch Nf Cf P) w i j = galerkin Nf Q Cf P w i j.
Proof. exact hs_mass. Qed.
Print Assumptions hspace_gram_is_galerkin.

Theorem hspace_load_is_restriction : forall Nf Q Cf P w f i,
  loadq Q (Ch Nf Cf P) w f i = restrict Nf P (loadq Q Cf w f) i.
Proof. exact hs_load. Qed.
Print Assumptions hspace_load_is_restriction.

(* L2 projection into a hierarchical space reproduces the functions of the space and has an
   orthogonal residual WHENEVER the solved system is (P^T M_f P) x = P^T b_f. *)
Theorem hspace_l2_reproduces_partial : forall Nf N Q Cf P w c x,
  (forall y, (forall i, (i < N)%nat -> mv N (galerkin Nf Q Cf P w) y i = 0) -> forall i, (i < N)%nat -> y i = 0) ->
  (forall i, (i < N)%nat -> mv N (galerkin Nf Q Cf P w) x i = restrict Nf P (loadq Q Cf w (spl N (Ch Nf Cf P) c)) i) ->
  forall i, (i < N)%nat -> x i = c i.
Proof.
  intros Nf N Q Cf P w c x Hinj H. apply (l2_reproduces N Q (Ch Nf Cf P) w c x).
  - intros y Hy. apply Hinj. intros i Hi. rewrite <- hs_mv. exact (Hy i Hi).
  - intros i Hi. rewrite hs_mv, hs_load. exact (H i Hi).
Qed.
Print Assumptions hspace_l2_reproduces_partial.

Theorem hspace_l2_orthogonal_partial : forall Nf N Q Cf P w f x,
  (forall i, (i < N)%nat -> mv N (galerkin Nf Q Cf P w) x i = restrict Nf P (loadq Q Cf w f) i) ->
  forall i, (i < N)%nat -> sumn Q (fun q => Ch Nf Cf P q i * w q * (f q - spl N (Ch Nf Cf P) x q)) = 0.
Proof.
  intros Nf N Q Cf P w f x H. apply (l2_residual_orthogonal N Q (Ch Nf Cf P) w f x).
  intros i Hi. rewrite hs_mv, hs_load. exact (H i Hi).
Qed.
Print Assumptions hspace_l2_orthogonal_partial.
(* NOT PROVED for the two _partial theorems: that the vector _hdiscr.assemble_functional returns IS
   P^T b_f.  C03.functional_entry proves it is, entry by entry, the load vector of each function's OWN
   level; that equals P^T b_f only when the own-level quadrature integrates data x basis function
   exactly (data polynomial on every cell of that level), and is false for data with finer-level
   kinks -- the open finding impl:hspace:load-vector-own-level-quadrature. *)

(* Interpolation reproduces a function of the space from data that agree with it ON THE NODE GRID
   only -- the situation of approx.interpolate (value array, or f evaluated at the nodes). *)
Theorem interp_reproduces_on_grid : forall shape nshape Ss Cs c rhs idx,
  length Ss = length Cs -> Forall2 is_id shape (mul_list Ss Cs) -> cols_are nshape Ss ->
  (forall j, inrange nshape j -> length j = length idx -> rhs j = tprod Cs c j) ->
  inrange shape idx -> (length Ss <= length idx)%nat ->
  tprod_loop Ss rhs idx = c idx.
Proof.
  intros shape nshape Ss Cs c rhs idx HL Hid Hcols Hdata Hr Hlen.
  rewrite apply_tprod_is_kronecker by exact Hlen.
  rewrite (tprod_ext_range nshape Ss Hcols rhs (tprod Cs c) idx Hdata).
  apply (tprod_left_inverse shape); assumption.
Qed.
Print Assumptions interp_reproduces_on_grid.

(* A tensor grid is unisolvent as soon as every axis is: with per-axis left inverses S_k C_k = I
   (the Kronecker product of the S_k inverts the Kronecker product of the C_k), two splines with
   equal values on the tensor node grid have equal coefficients, any dimension / trailing axes ... *)
Theorem tensor_grid_unisolvent : forall shape nshape Ss Cs c c' idx,
  length Ss = length Cs -> Forall2 is_id shape (mul_list Ss Cs) -> cols_are nshape Ss ->
  (forall j, inrange nshape j -> length j = length idx -> tprod Cs c j = tprod Cs c' j) ->
  inrange shape idx -> (length Ss <= length idx)%nat ->
  c idx = c' idx.
Proof.
  intros shape nshape Ss Cs c c' idx HL Hid Hcols Hv Hr Hlen.
  rewrite <- (interp_reproduces_on_grid shape nshape Ss Cs c (tprod Cs c) idx) by
    (try assumption; intros; reflexivity).
  apply (interp_reproduces_on_grid shape nshape Ss Cs c' (tprod Cs c) idx); assumption.
Qed.
Print Assumptions tensor_grid_unisolvent.

(* ... in particular a spline vanishing on the whole node grid is zero. *)
Theorem tensor_grid_kernel_trivial : forall shape nshape Ss Cs c idx,
  length Ss = length Cs -> Forall2 is_id shape (mul_list Ss Cs) -> cols_are nshape Ss ->
  (forall j, inrange nshape j -> length j = length idx -> tprod Cs c j = 0) ->
  inrange shape idx -> (length Ss <= length idx)%nat ->
  c idx = 0.
Proof.
  intros shape nshape Ss Cs c idx HL Hid Hcols Hv.
  apply (tensor_grid_unisolvent shape nshape Ss Cs c (fun _ => 0)); try assumption.
  intros j Hj Hl. rewrite tprod_zero. apply Hv; assumption.
Qed.
Print Assumptions tensor_grid_kernel_trivial.

(* Component selection commutes with the whole interpolation pipeline for FUNCTION data of any
   value shape (utils.grid_eval + _ensure_grid_shape + apply_tprod): entry [i, t] of
   interpolate(kvs, f) is entry [i] of interpolate(kvs, f_t), f_t = component t of f ... *)
Theorem interp_component_selection : forall Ss f grid i t,
  length i = length Ss -> length grid = length Ss ->
  tprod_loop Ss (grid_eval f grid) (i ++ t) = tprod_loop Ss (grid_eval (select f t) grid) i.
Proof.
  intros Ss f grid i t Hi Hg. rewrite data_componentwise by exact Hi.
  apply loop_ext_len; [lia|]. intros j Hj. apply grid_eval_component. lia.
Qed.
Print Assumptions interp_component_selection.

(* ... also for data in physical coordinates, where it is the pull-back of the component. *)
Theorem interp_component_selection_physical : forall Ss f grid geo i t,
  length i = length Ss -> length grid = length Ss ->
  tprod_loop Ss (grid_eval_transformed f grid geo) (i ++ t)
  = tprod_loop Ss (grid_eval (compose (select f t) geo) grid) i.
Proof. intros Ss f grid geo. exact (interp_component_selection Ss (compose f geo) grid). Qed.
Print Assumptions interp_component_selection_physical.

(* The Kronecker L2 path (no geometry) treats array-valued data component-wise as well. *)
Theorem l2_kron_componentwise : forall Ss Cts Ds F i t,
  length i = length Ss -> length i = length Cts -> length i = length Ds ->
  tprod_loop Ss (tprod_loop Cts (tprod_loop Ds F)) (i ++ t)
  = tprod_loop Ss (tprod_loop Cts (tprod_loop Ds (fun i' => F (i' ++ t)))) i.
Proof.
  intros Ss Cts Ds F i t H1 H2 H3. rewrite data_componentwise by exact H1.
  apply loop_ext_len; [lia|]. intros j Hj. rewrite data_componentwise by lia.
  apply loop_ext_len; [lia|]. intros k Hk. apply data_componentwise. lia.
Qed.
Print Assumptions l2_kron_componentwise.

(* One axis (bspline.interpolate, bspline.project_L2: one sparse solve applied to the nodal values
   resp. the load vector) is the one-operator instance: a matrix-vector product along axis 0, so
   every theorem above specialises to the 1D routines. *)
Theorem apply_tprod_1d : forall S f i t,
  tprod_loop [S] f (i :: t) = sumn (oc S) (fun j => oe S i j * f (j :: t)).
Proof. intros. rewrite apply_tprod_is_kronecker by (simpl; lia). reflexivity. Qed.
Print Assumptions apply_tprod_1d.

(* WHAT REMAINS WITHOUT A THEOREM, clause by clause of the property text:
   "for every spline space (tensor product of any dimension, or hierarchical) and geometry":
     tensor product, any dimension: theorems above.  Hierarchical (the hspace theorems): the assembled
     matrix/vector are only HYPOTHESES of the two _partial theorems; that _hdiscr.assemble_functional
     returns P^T b_f is false for data with finer-level kinks (open finding), see the note after them.
     Geometry: for interpolation any map of the nodes (physical_equals_pullback); for L2 projection only
     the weight w = quadrature weight * |det J| > 0; the geometry maps themselves are C07's.
   "interpolation reproduces every function of the space ... default Greville points":
     proved given S_k C_k = I.  That the Greville points of an open knot vector make C_k invertible
     (Schoenberg-Whitney) is proved for degree <= 1 (greville_unisolvent_p01) and as the necessary
     condition for every degree (greville_satisfies_sw_necessary); degree >= 2 NOT PROVED (total
     positivity), decided per case by the exact inverse in Examples.v and in the tie.
   "or any other unisolvent tensor grid": interp_reproduces_on_grid, tensor_grid_unisolvent (from
     per-axis unisolvence, which is the hypothesis).
   "and matches the given data at the nodes": interp_matches_nodes (given C_k S_k = I).
   "L2 projection reproduces every function of the space": l2_reproduces / l2_projection_is_projection /
     l2_kron_reproduces, for an EXACT solve of the Gram system; that scipy CG reaches the solution within
     its iteration cap is NOT modelled (the residual check of the tie decides it), nor are SuperLU/LAPACK
     (contract).  That assemble.mass / inner_products compute massq / loadq with Gauss nodes: the
     Kronecker structure is proved (l2_kron_reproduces, l2_kron_componentwise), the Gauss rule itself
     (irrational nodes, exactness for degree 2p+1) has no model: oracle only.
   "its residual is orthogonal ... geometry-weighted L2 inner product": l2_residual_orthogonal (discrete
     inner product of the quadrature rule; the continuous inner product only when the rule is exact).
   "scalar, vector and array-valued data (functions or precomputed value arrays) component-wise":
     data_componentwise (arrays), interp_component_selection(_physical) (functions), l2_kron_componentwise;
     project_L2 with geometry refuses non-scalar data (compared exactly by the tie), no theorem needed.
   "data given in physical coordinates are handled identically to their pull-backs":
     physical_equals_pullback, interp_component_selection_physical; for project_L2 (f_physical) the
     evaluation of f at geo(quadrature points) is NOT modelled (oracle only).
   Floating point: every theorem is over exact rationals; the rounding bounds of the tie are derived in
   harness/props/c17.py, not proved. *)

