(* C18 -- non-vacuity: concrete non-trivial inputs meet the hypotheses of the theorems
   (R := Z), and the model computes what the code computes on them. *)
From Coq Require Import List Arith ZArith Bool Ring ZArithRing.
From Verif.C18 Require Import Model Proofs ZInst.
Import ListNotations.
Open Scope Z_scope.

Example ex_Zring : ring_theory 0 1 Z.add Z.mul Z.sub Z.opp (@eq Z).
Proof. exact InitialRing.Zth. Qed.

(* index expressions *)
Example ex_wrap : wrap 5 (-2) = Some 3%nat.
Proof. vm_compute. reflexivity. Qed.
Example ex_slice_neg_step : slice_range 6 (Some 4) (Some (-7)) (Some (-2)) = Ok [4%nat; 2%nat; 0%nat].
Proof. vm_compute. reflexivity. Qed.
Example ex_slice_like_test : slice_range 5 (Some 3) (Some 0) (Some (-2)) = Ok [3%nat; 1%nat].
Proof. vm_compute. reflexivity. Qed.
Example ex_normalize :
  normalize_indices [IInt (-1); ISlice None None (Some (-1)); IList [1; -1]] [3%nat; 2%nat; 4%nat; 2%nat]
  = Ok [([2%nat], true); ([1%nat; 0%nat], false); ([1%nat; 3%nat], false); ([0%nat; 1%nat], false)].
Proof. vm_compute. reflexivity. Qed.
Example ex_normalize_error : normalize_indices [IInt 3] [3%nat] = Err IndexError.
Proof. vm_compute. reflexivity. Qed.

(* two canonical tensors of shape (2,3), ranks 2 and 1 *)
Definition mA : list (mat Z) := map (mat_of Z 0) [M 2 2 [[1; 2]; [3; 4]]; M 3 2 [[1; 0]; [0; 1]; [2; -1]]].
Definition mB : list (mat Z) := map (mat_of Z 0) [M 2 1 [[5]; [-1]]; M 3 1 [[1]; [1]; [2]]].

Example ex_uniform_A : uniform Z mA 2.
Proof. repeat constructor. Qed.
Example ex_uniform_B : uniform Z mB 1.
Proof. repeat constructor. Qed.
Example ex_add_value :
  full_tab Z (canon_asarray Z 0 1 Z.add Z.mul (canon_add Z mA mB)) = ([2%nat; 3%nat], [6; 7; 10; 2; 3; 0]).
Proof. vm_compute. reflexivity. Qed.

(* a Tucker tensor whose core shape matches its factors *)
Definition tU : list (mat Z) := map (mat_of Z 0) [M 2 2 [[1; 2]; [0; 1]]; M 3 1 [[1]; [2]; [3]]].
Definition tX : full Z := full_of Z 0 ([2%nat; 1%nat], [1; -1]).
Example ex_core_ok : core_ok Z tU tX.
Proof. reflexivity. Qed.
Example ex_core_ok_diag : core_ok Z mA (diag_core Z 0 1 2 2).
Proof. reflexivity. Qed.
Example ex_join_value :
  full_tab Z (tucker_asarray Z 0 Z.add Z.mul (join_U Z tU mA) (join_X2 Z 0 tX (diag_core Z 0 1 2 2)))
  = full_tab Z (canon_asarray Z 0 1 Z.add Z.mul mA).
Proof. vm_compute. reflexivity. Qed.

(* a Kronecker-rank-2 operator on 2x2 arrays: hypotheses of canop_compose / canop_apply *)
Definition opA : canop Z := map (map (mat_of Z 0))
  [[M 2 2 [[1; 2]; [0; 1]]; M 2 2 [[0; 1]; [1; 0]]]; [M 2 2 [[1; 0]; [0; 1]]; M 2 2 [[2; 0]; [0; 2]]]].
Example ex_op_dims : Forall (fun t => map (mc Z) t = [2%nat; 2%nat]) opA.
Proof. repeat constructor. Qed.

(* a cross step with pivot value 1 (alpha = 1 / E_row[j0] = -1): hypothesis of aca_step_exact_on_cross_* *)
Definition aA : mat Z := mat_of Z 0 (M 2 2 [[1; 2]; [3; 7]]).
Definition aX : mat Z := mat_of Z 0 (M 2 2 [[0; 0]; [0; 0]]).
Example ex_aca_pivot : (-1) * aca_E_row Z Z.sub aA aX 0 0 = 1.
Proof. vm_compute. reflexivity. Qed.
Example ex_aca_step_value :
  mat_tab Z (aca_step Z Z.add Z.mul Z.sub aA aX 0 0 (-1)) = M 2 2 [[1; 2]; [3; 6]].
Proof. vm_compute. reflexivity. Qed.

(* the step checker of the correspondence run flags a wrong expectation (differ self-test) *)
Example ex_checker_rejects :
  zcheck_step (oNeg, [Ca [M 2 1 [[1]; [2]]]], Ca [M 2 1 [[1]; [2]]]) = false.
Proof. vm_compute. reflexivity. Qed.
Example ex_checker_accepts :
  zcheck_step (oNeg, [Ca [M 2 1 [[1]; [2]]]], Ca [M 2 1 [[-1]; [-2]]]) = true.
Proof. vm_compute. reflexivity. Qed.

(* mode-2 product of a 2x1x3 array with a rectangular 2x3 matrix: new axis stays in position 2 *)
Example ex_modek_value :
  full_tab Z (full_tprod Z 0 Z.add Z.mul (modek_ops Z (mat_of Z 0 (M 2 3 [[1; 0; 2]; [0; 1; -1]])) 2)
                         (full_of Z 0 ([2%nat; 1%nat; 3%nat], [1; 2; 3; 4; 5; 6])))
  = ([2%nat; 1%nat; 2%nat], [7; -1; 16; -1]).
Proof. vm_compute. reflexivity. Qed.

(* imported only here: Proofs2.uniform would hide Proofs.uniform in the examples above *)
From Verif.C18 Require Import Proofs2.

(* find_truncation_rank on a 2x3 integer core with tol^2 = 5: the last column (squared norm 1+1) and
   then the last row of the remaining 2x2 block (squared norm 1+1) are cut; the accumulated error 4
   stays <= 5 *)
Definition trX : full Z := full_of Z 0 ([2%nat; 3%nat], [3; 2; 1; 1; 1; 1]).
Example ex_trunc_hyp : Z.ltb 5 0 = false.
Proof. reflexivity. Qed.
Example ex_trunc_value : find_truncation_rank Z 0 Z.add Z.mul Z.ltb trX 5 = ([1%nat; 2%nat], 4).
Proof. vm_compute. reflexivity. Qed.
Example ex_trunc_mass :
  sqnorm Z 0 Z.add Z.mul [2%nat; 3%nat] (fe Z trX) = sqnorm Z 0 Z.add Z.mul [1%nat; 2%nat] (fe Z trX) + 4.
Proof. vm_compute. reflexivity. Qed.

(* the loop of apply_tprod and the nested-sum definition on a concrete 2x2x2 array, middle operator None *)
Example ex_loop_value :
  let Bs := [Some (mat_of Z 0 (M 1 2 [[1; -1]])); None; Some (mat_of Z 0 (M 2 2 [[0; 1]; [2; 1]]))] in
  let f := fe Z (full_of Z 0 ([2%nat; 2%nat; 2%nat], [1; 2; 3; 4; 5; 6; 7; 8])) in
  map (tprod_loop Z 0 Z.add Z.mul Bs f) (ndindex [1%nat; 2%nat; 2%nat])
  = map (tprod Z 0 Z.add Z.mul Bs f) (ndindex [1%nat; 2%nat; 2%nat])
  /\ map (tprod Z 0 Z.add Z.mul Bs f) (ndindex [1%nat; 2%nat; 2%nat]) = [-4; -12; -4; -12].
Proof. vm_compute. split; reflexivity. Qed.

(* __getitem__ of the canonical tensor mA (shape 2x3, rank 2) with [-1, ::-2]: hypotheses of canon_getitem *)
Example ex_getitem_norm :
  normalize_indices [IInt (-1); ISlice None None (Some (-2))] (cshape Z mA)
  = Ok [([1%nat], true); ([2%nat; 0%nat], false)].
Proof. vm_compute. reflexivity. Qed.
Example ex_getitem_ok :
  tab Z (getitem Z 0 1 Z.add Z.mul (TCanon Z mA) [IInt (-1); ISlice None None (Some (-2))])
  = Ca [M 2 2 [[6; -4]; [3; 0]]].
Proof. vm_compute. reflexivity. Qed.
Example ex_uniform_crank : Proofs2.uniform Z mA (crank Z mA).
Proof. repeat constructor. Qed.
Example ex_squeeze_hyps : NoDup [0%nat] /\ keep 0 mA [0%nat] <> [].
Proof. split; [repeat constructor; simpl; tauto|vm_compute; discriminate]. Qed.

(* Tucker -> canonical: the zero test of the integer instance satisfies the hypothesis *)
Example ex_nonzero_hyp : forall a, znonzero a = false -> a = 0.
Proof. intros a H. unfold znonzero in H. destruct (Z.eqb_spec a 0); [assumption|discriminate]. Qed.
Example ex_t2c_value :
  full_tab Z (canon_asarray Z 0 1 Z.add Z.mul (tucker_to_canon Z 0 Z.mul znonzero tU tX))
  = full_tab Z (tucker_asarray Z 0 Z.add Z.mul tU tX).
Proof. vm_compute. reflexivity. Qed.

(* pad: a literal array vanishes outside its shape (hypothesis of pad_spec) *)
Example ex_pad_hyp : forall J, all_lt J [2%nat] = false -> fe Z (full_of Z 0 ([2%nat], [5; 7])) J = 0.
Proof.
  intros [|j [|j' J]] H; simpl in *; try discriminate.
  - destruct j as [|[|j]]; simpl in *; try discriminate. destruct j; reflexivity.
  - destruct j as [|[|j]]; simpl in *; try discriminate. destruct j; reflexivity.
Qed.
Example ex_slice_hyp : Forall (fun t : list (mat Z) => length t = length [(0%nat, 1%nat); (1%nat, 2%nat)]) opA.
Proof. repeat constructor. Qed.

(* generator: X[::-1, [2,0]] of a 2x3 array -- hypotheses of generator_getitem_spec_partial *)
Example ex_gen_hyps :
  normalize_indices [ISlice None None (Some (-1)); IList [2; 0]] [2%nat; 3%nat]
    = Ok [([1%nat; 0%nat], false); ([2%nat; 0%nat], false)]
  /\ sel_singletons 0 [([1%nat; 0%nat], false); ([2%nat; 0%nat], false)] = []
  /\ gen_getitem Z [2%nat; 3%nat] (fe Z (full_of Z 0 ([2%nat; 3%nat], [1; 2; 3; 4; 5; 6])))
       [ISlice None None (Some (-1)); IList [2; 0]] = Ok ([2%nat; 2%nat], [6; 4; 3; 1]).
Proof. vm_compute. repeat split; reflexivity. Qed.
