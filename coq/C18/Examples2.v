(* C18 -- non-vacuity for the generator, Tucker __getitem__, energy and Wedderburn theorems
   (a file of its own: Qcanon changes the numeral scopes). *)
From Coq Require Import List Arith ZArith Bool Ring Lia.
From Verif.C18 Require Import Model Proofs Proofs2 ZInst Examples Proofs3 Proofs5.
Import ListNotations.
Open Scope Z_scope.

(* generator with an int index: X[1, ::-1] of a 2x3 array; the unit axis is dropped *)
Example ex_gen_int :
  normalize_indices [IInt 1; ISlice None None (Some (-1)%Z)] [2%nat; 3%nat]
    = Ok [([1%nat], true); ([2%nat; 1%nat; 0%nat], false)]
  /\ gen_getitem Z [2%nat; 3%nat] (fe Z (full_of Z 0 ([2%nat; 3%nat], [1; 2; 3; 4; 5; 6])))
       [IInt 1; ISlice None None (Some (-1)%Z)] = Ok ([3%nat], [6; 5; 4])
  /\ keepb (sel_shape [([1%nat], true); ([2%nat; 1%nat; 0%nat], false)]) [true; false] = [3%nat].
Proof. vm_compute. repeat split; reflexivity. Qed.

(* Tucker __getitem__: hypotheses of tucker_getitem on the tensor (tU, tX) of shape 2x3 *)
Example ex_tucker_getitem :
  normalize_indices [ISlice None None None; IInt (-1)%Z] (tshape Z tU) = Ok [([0%nat; 1%nat], false); ([2%nat], true)]
  /\ tab Z (getitem Z 0 1 Z.add Z.mul (TTucker Z tU tX) [ISlice None None None; IInt (-1)%Z])
     = Tu [M 2 2 [[1; 2]; [0; 1]]] [2%nat] [3; -3].
Proof. vm_compute. split; reflexivity. Qed.

(* the coordinate vectors are an orthonormal family: hypothesis of the energy identity (R := Z, n = 2) *)
Example ex_orthonormal :
  orthonormal Z 0 1 Z.add Z.mul 2 (fun k i => if Nat.eqb k i then 1 else 0) 2.
Proof.
  intros k l Hk Hl. destruct k as [|[|k]], l as [|[|l]]; try lia; vm_compute; reflexivity.
Qed.
Example ex_energy_value :
  dot Z 0 Z.add Z.mul 2 (resid Z 0 Z.add Z.mul Z.sub 2 (fun k i => if Nat.eqb k i then 1 else 0) 1 (fun i => Z.of_nat i + 3))
                        (resid Z 0 Z.add Z.mul Z.sub 2 (fun k i => if Nat.eqb k i then 1 else 0) 1 (fun i => Z.of_nat i + 3)) = 16.
Proof. vm_compute. reflexivity. Qed.

From Coq Require Import QArith Qcanon Field.
(* the rationals in canonical form are a field with Leibniz equality and decidable equality:
   hypotheses of the Wedderburn theorems *)
Example ex_field : field_theory 0%Qc 1%Qc Qcplus Qcmult Qcminus Qcopp Qcdiv Qcinv (@eq Qc).
Proof. exact Qcft. Qed.
Example ex_field_eq_dec : forall x y : Qc, {x = y} + {x <> y}.
Proof. exact Qc_eq_dec. Qed.
Example ex_has_rank_1 :
  has_rank Qc 0%Qc Qcplus Qcmult 1 (fun _ _ => (1 + 0)%Qc).
Proof. exists (fun _ _ => 1%Qc), (fun _ _ => 1%Qc). intros a b. unfold sumn, rsum. simpl. ring. Qed.
Example ex_pivot_nonzero : ((1 + 0)%Qc <> 0%Qc).
Proof. intro H. apply (f_equal this) in H. vm_compute in H. discriminate H. Qed.
