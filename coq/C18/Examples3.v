(* C18 -- non-vacuity for Props3.v (R := Z). *)
From Coq Require Import List Arith ZArith Bool.
From Verif.C18 Require Import Model Proofs Sum ZInst.
Import ListNotations.
Open Scope Z_scope.

Definition cA : tens Z := TCanon Z [mat_of Z 0 (M 2 1 [[1]; [2]]); mat_of Z 0 (M 2 1 [[3]; [4]])].
Definition fB : tens Z := TFull Z (full_of Z 0 ([2%nat; 2%nat], [1; 0; 0; 1])).
Definition S0 : tens2 Z := T2Sum Z [T2B Z cA; T2B Z fB].

(* the constructor accepts the sum; its entry (1,1) is 2*4 + 1 *)
Example ex_mk_sum : mk_sum Z [T2B Z cA; T2B Z fB] = Ok S0 /\ entry2 Z 0 1 Z.add Z.mul S0 [1%nat; 1%nat] = 9.
Proof. vm_compute. split; reflexivity. Qed.

(* hypotheses of sum_neg / sum_sub / sum_add are met and the results are sums again *)
Example ex_sum_neg :
  Forall (fun b => length [1%nat; 1%nat] = length (shape_of Z b)) [cA; fB] /\
  match neg2 Z Z.opp (T2Sum Z (map (T2B Z) [cA; fB])) with
  | Ok t => entry2 Z 0 1 Z.add Z.mul t [1%nat; 1%nat] = -9
  | Err _ => False
  end.
Proof. split; [repeat constructor|vm_compute; reflexivity]. Qed.

Example ex_sum_sub :
  match sub2 Z Z.opp S0 (T2B Z cA) with
  | Ok t => entry2 Z 0 1 Z.add Z.mul t [1%nat; 1%nat] = 1 /\ entry2 Z 0 1 Z.add Z.mul t [1%nat; 0%nat] = 0
  | Err _ => False
  end.
Proof. vm_compute. split; reflexivity. Qed.

(* a sum with a term of another shape is rejected *)
Example ex_sum_shape_mismatch :
  add2 Z S0 (T2B Z (TFull Z (full_of Z 0 ([3%nat], [1; 2; 3])))) = Err AssertionError.
Proof. vm_compute. reflexivity. Qed.

(* product of a 2x2 canonical tensor and a 2x2 array: shape (2,2,2,2), entry (1,1,0,0) = 8 * 1; -P negates it *)
Example ex_prod :
  shape2 Z (T2Prod Z [T2B Z cA; T2B Z fB]) = [2%nat; 2%nat; 2%nat; 2%nat] /\
  entry2 Z 0 1 Z.add Z.mul (T2Prod Z [T2B Z cA; T2B Z fB]) [1%nat; 1%nat; 0%nat; 0%nat] = 8 /\
  match neg2 Z Z.opp (T2Prod Z [T2B Z cA; T2B Z fB]) with
  | Ok t => entry2 Z 0 1 Z.add Z.mul t [1%nat; 1%nat; 0%nat; 0%nat] = -8
  | Err _ => False
  end.
Proof. vm_compute. repeat split; reflexivity. Qed.

(* TensorSum.__getitem__ with the canonical __getitem__ of Model.v on a sum of two canonical tensors: S[1,
   ::-1] *)
Example ex_sum_getitem :
  let gi := fun x : tens2 Z => match x with
                               | T2B _ b => bind (getitem Z 0 1 Z.add Z.mul b [IInt 1; ISlice None None (Some (-1))])
                                                 (fun y => Ok (T2B Z y))
                               | _ => Err TypeError
                               end in
  match sum_getitem Z 0 1 Z.add Z.mul gi [T2B Z cA; T2B Z cA] with
  | Ok t => shape2 Z t = [2%nat] /\ entry2 Z 0 1 Z.add Z.mul t [0%nat] = 16 /\ entry2 Z 0 1 Z.add Z.mul t [1%nat] = 12
  | Err _ => False
  end.
Proof. vm_compute. repeat split; reflexivity. Qed.

(* all-int expression: the scalars are summed *)
Example ex_sum_getitem_scalar :
  let gi := fun x : tens2 Z => match x with
                               | T2B _ b => bind (getitem Z 0 1 Z.add Z.mul b [IInt (-1); IInt 0])
                                                 (fun y => Ok (T2B Z y))
                               | _ => Err TypeError
                               end in
  sum_getitem Z 0 1 Z.add Z.mul gi [T2B Z cA; T2B Z cA] = Ok (T2B Z (TScal Z 12)).
Proof. vm_compute. reflexivity. Qed.

(* canonical / operator subtraction: the hypotheses hold for rank-1 operands *)
Example ex_canon_sub :
  let A := [mat_of Z 0 (M 2 1 [[1]; [2]]); mat_of Z 0 (M 2 1 [[3]; [4]])] in
  uniform Z A 1 /\ centry Z 0 1 Z.add Z.mul (canon_add Z A (canon_neg Z Z.opp A)) [1%nat; 1%nat] = 0.
Proof. split; [repeat constructor|vm_compute; reflexivity]. Qed.
