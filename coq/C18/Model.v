(* C18 -- executable model of pyiga.tensor (CanonicalTensor, TuckerTensor, join_tucker_bases,
   apply_tprod on full arrays, _normalize_indices, CanonicalOperator), of
   pyiga.lowrank.TensorGenerator and of lowrank_cy.rank_1_update / aca3d_update and one cross
   step of lowrank.aca.  Definitions only; proofs are in Proofs.v.

   Arithmetic is that of an arbitrary commutative ring R (Section variables); the
   correspondence run instantiates R := Z (small-integer entries are exact in binary64).
   Matrices and full arrays are (dimensions, entry function): the numpy primitives the code
   combines (hstack, pad, fancy row selection, dot, tensordot) are modelled by their entry-wise
   meaning; WHICH of them pyiga combines, in which order and on which axes is what is
   transcribed (tensor.py line numbers are cited at each definition). *)
From Coq Require Import List Arith Bool ZArith Lia.
Import ListNotations.

(* ------------------------------------------------------------------ *)
(* Python index semantics: tensor.py:66-94 (_normalize_indices)        *)
(* ------------------------------------------------------------------ *)

Inductive index :=
| IInt (i : Z)                              (* np.isscalar(ik) *)
| ISlice (start stop step : option Z)       (* isinstance(ik, slice) *)
| IList (l : list Z).                       (* list / array of indices *)

Inductive err := IndexError | ValueError | AssertionError | TypeError.

Inductive res (A : Type) := Ok (a : A) | Err (e : err).
Arguments Ok {A} a.
Arguments Err {A} e.

Definition bind {A B} (x : res A) (f : A -> res B) : res B :=
  match x with Ok a => f a | Err e => Err e end.

(* range(n)[i] for an int i: negative indices wrap once, otherwise IndexError *)
Definition wrap (n : nat) (i : Z) : option nat :=
  let n' := Z.of_nat n in
  if (0 <=? i)%Z && (i <? n')%Z then Some (Z.to_nat i)
  else if (- n' <=? i)%Z && (i <? 0)%Z then Some (Z.to_nat (i + n'))
  else None.

(* slice.indices(n) (CPython PySlice_AdjustIndices), step <> 0 *)
Definition slice_adjust (n : Z) (start stop : option Z) (step : Z) : Z * Z :=
  let lower := if (step <? 0)%Z then (-1)%Z else 0%Z in
  let upper := if (step <? 0)%Z then (n - 1)%Z else n in
  let adj v := if (v <? 0)%Z then Z.max (v + n) lower else Z.min v upper in
  (match start with None => if (step <? 0)%Z then upper else lower | Some s => adj s end,
   match stop with None => if (step <? 0)%Z then lower else upper | Some s => adj s end).

(* len(range(start, stop, step)) *)
Definition range_len (start stop step : Z) : Z :=
  if (0 <? step)%Z then (if (start <? stop)%Z then (stop - start - 1) / step + 1 else 0)%Z
  else (if (stop <? start)%Z then (start - stop - 1) / (- step) + 1 else 0)%Z.

Definition range_list (start stop step : Z) : list Z :=
  map (fun k => (start + Z.of_nat k * step)%Z) (seq 0 (Z.to_nat (range_len start stop step))).

(* range(n)[start:stop:step] as the list of selected positions *)
Definition slice_range (n : nat) (start stop step : option Z) : res (list nat) :=
  let st := match step with None => 1%Z | Some s => s end in
  if (st =? 0)%Z then Err ValueError
  else let '(a, b) := slice_adjust (Z.of_nat n) start stop st in
       Ok (map Z.to_nat (range_list a b st)).

Fixpoint wrap_all (n : nat) (l : list Z) : res (list nat) :=
  match l with
  | [] => Ok []
  | i :: l' => match wrap n i with
               | None => Err IndexError
               | Some k => bind (wrap_all n l') (fun r => Ok (k :: r))
               end
  end.

(* one axis: (selected positions, is-singleton-from-scalar-index)   tensor.py:79-92 *)
Definition norm_axis (n : nat) (ik : index) : res (list nat * bool) :=
  match ik with
  | IInt i => match wrap n i with Some k => Ok ([k], true) | None => Err IndexError end
  | ISlice a b s => bind (slice_range n a b s) (fun r => Ok (r, false))
  | IList l => bind (wrap_all n l) (fun r => Ok (r, false))
  end.

Fixpoint norm_axes (shape : list nat) (I : list index) : res (list (list nat * bool)) :=
  match shape, I with
  | [], _ => Ok []
  | n :: shape', ik :: I' =>
      bind (norm_axis n ik) (fun a => bind (norm_axes shape' I') (fun r => Ok (a :: r)))
  | n :: shape', [] =>     (* missing trailing axes: slice(None)   tensor.py:70-71 *)
      bind (norm_axis n (ISlice None None None)) (fun a => bind (norm_axes shape' []) (fun r => Ok (a :: r)))
  end.

(* tensor.py:66-94; result per axis: (I_new[k], k in singleton); shape_new = map length *)
Definition normalize_indices (I : list index) (shape : list nat) : res (list (list nat * bool)) :=
  if length shape <? length I then Err ValueError else norm_axes shape I.

Definition sel_ranges (ax : list (list nat * bool)) : list (list nat) := map fst ax.
Definition sel_shape (ax : list (list nat * bool)) : list nat := map (fun a => length (fst a)) ax.
Fixpoint sel_singletons (k : nat) (ax : list (list nat * bool)) : list nat :=
  match ax with
  | [] => []
  | a :: ax' => if snd a then k :: sel_singletons (S k) ax' else sel_singletons (S k) ax'
  end.

(* ------------------------------------------------------------------ *)
(* multi-indices                                                       *)
(* ------------------------------------------------------------------ *)

(* itertools.product / np.ndindex / utils.cartesian_product order: last factor fastest *)
Fixpoint product (ls : list (list nat)) : list (list nat) :=
  match ls with
  | [] => [[]]
  | l :: rest => flat_map (fun x => map (cons x) (product rest)) l
  end.

Definition ndindex (shape : list nat) : list (list nat) := product (map (seq 0) shape).

Fixpoint ravel_aux (acc : nat) (shape idx : list nat) : nat :=
  match shape, idx with
  | n :: shape', i :: idx' => ravel_aux (acc * n + i) shape' idx'
  | _, _ => acc
  end.
Definition ravel (shape idx : list nat) : nat := ravel_aux 0 shape idx.

Definition memb (k : nat) (l : list nat) : bool := existsb (Nat.eqb k) l.

(* positions of [0..d) not in axes: sorted(set(range(ndim)) - set(axis)) *)
Definition remaining (d : nat) (axes : list nat) : list nat :=
  filter (fun k => negb (memb k axes)) (seq 0 d).

(* the index of the un-squeezed array: 0 at the squeezed axes, idx' elsewhere *)
Fixpoint unsqueeze_aux (k d : nat) (axes : list nat) (idx : list nat) : list nat :=
  match d with
  | 0 => []
  | S d' => if memb k axes then 0 :: unsqueeze_aux (S k) d' axes idx
            else match idx with
                 | [] => 0 :: unsqueeze_aux (S k) d' axes []
                 | i :: idx' => i :: unsqueeze_aux (S k) d' axes idx'
                 end
  end.
Definition unsqueeze (d : nat) (axes idx : list nat) : list nat := unsqueeze_aux 0 d axes idx.

Definition pick {A} (l : list A) (ks : list nat) (d : A) : list A := map (fun k => nth k l d) ks.

Fixpoint all_lt (idx bound : list nat) : bool :=
  match idx, bound with
  | i :: idx', b :: bound' => (i <? b) && all_lt idx' bound'
  | _, _ => true
  end.
Fixpoint all_ge (idx bound : list nat) : bool :=
  match idx, bound with
  | i :: idx', b :: bound' => (b <=? i) && all_ge idx' bound'
  | _, _ => true
  end.
Fixpoint sub_idx (idx off : list nat) : list nat :=
  match idx, off with
  | i :: idx', o :: off' => (i - o) :: sub_idx idx' off'
  | _, _ => idx
  end.
Fixpoint add_idx (idx off : list nat) : list nat :=
  match idx, off with
  | i :: idx', o :: off' => (i + o) :: add_idx idx' off'
  | _, _ => idx
  end.
Fixpoint all_same (i : nat) (idx : list nat) : bool :=
  match idx with [] => true | j :: idx' => (i =? j) && all_same i idx' end.

Definition list_eqb (a b : list nat) : bool :=
  (length a =? length b) && forallb (fun p => fst p =? snd p) (combine a b).

Section Ring.
Variable R : Type.
Variables (rO rI : R) (radd rmul rsub : R -> R -> R) (ropp : R -> R).
(* [nonzero a] models the test abs(a) > 1e-15 of CanonicalTensor.from_tensor (tensor.py:748) *)
Variable nonzero : R -> bool.
Variable reqb : R -> R -> bool.

Definition rsum (l : list R) : R := fold_right radd rO l.
Definition sumn (n : nat) (f : nat -> R) : R := rsum (map f (seq 0 n)).

(* ------------------------------------------------------------------ *)
(* matrices and full arrays                                            *)
(* ------------------------------------------------------------------ *)

Record mat := mkmat { mr : nat; mc : nat; me : nat -> nat -> R }.
Record full := mkfull { fsh : list nat; fe : list nat -> R }.

Definition mat_mul (B X : mat) : mat :=                       (* B.dot(X) *)
  mkmat (mr B) (mc X) (fun i r => sumn (mc B) (fun j => rmul (me B i j) (me X j r))).
Definition mat_hstack (A B : mat) : mat :=                    (* np.hstack((A,B)) *)
  mkmat (mr A) (mc A + mc B) (fun i j => if j <? mc A then me A i j else me B i (j - mc A)).
Definition mat_neg (A : mat) : mat := mkmat (mr A) (mc A) (fun i j => ropp (me A i j)).
Definition mat_rows (A : mat) (rs : list nat) : mat :=        (* A[rs] (row selection) *)
  mkmat (length rs) (mc A) (fun i j => me A (nth i rs 0) j).
Definition mat_cols_to (A : mat) (k : nat) : mat :=           (* A[:, :k], 0 <= k *)
  mkmat (mr A) (Nat.min k (mc A)) (me A).
Definition mat_T (A : mat) : mat := mkmat (mc A) (mr A) (fun i j => me A j i).
Definition mat_sub_block (A : mat) (lo hi : nat) : mat :=     (* A[lo:hi, lo:hi], 0 <= lo, hi *)
  mkmat (Nat.min hi (mr A) - lo) (Nat.min hi (mc A) - lo) (fun i j => me A (lo + i) (lo + j)).
Definition mat_eye (n : nat) : mat := mkmat n n (fun i j => if i =? j then rI else rO).

Definition full_neg (A : full) : full := mkfull (fsh A) (fun idx => ropp (fe A idx)).
Definition full_add (A B : full) : full := mkfull (fsh A) (fun idx => radd (fe A idx) (fe B idx)).
Definition full_sub (A B : full) : full := mkfull (fsh A) (fun idx => rsub (fe A idx) (fe B idx)).

(* ------------------------------------------------------------------ *)
(* apply_tprod on a full array: tensor.py:106-137.                     *)
(* Y[i1..in, t] = sum_{j1..jn} prod_k B_k[i_k,j_k] X[j1..jn, t];       *)
(* None = identity; trailing axes t allowed.                           *)
(* ------------------------------------------------------------------ *)
Fixpoint tprod (Bs : list (option mat)) (f : list nat -> R) (idx : list nat) : R :=
  match Bs with
  | [] => f idx
  | ob :: Bs' =>
      match idx with
      | [] => f []
      | i :: idx' =>
          match ob with
          | None => tprod Bs' (fun rest => f (i :: rest)) idx'
          | Some B => sumn (mc B) (fun j => rmul (me B i j) (tprod Bs' (fun rest => f (j :: rest)) idx'))
          end
      end
  end.

Fixpoint tprod_shape (Bs : list (option mat)) (shape : list nat) : list nat :=
  match Bs, shape with
  | ob :: Bs', n :: shape' => (match ob with Some B => mr B | None => n end) :: tprod_shape Bs' shape'
  | _, _ => shape
  end.

Definition full_tprod (Bs : list (option mat)) (A : full) : full :=
  mkfull (tprod_shape Bs (fsh A)) (tprod Bs (fe A)).

(* the loop of tensor.py:128-137 as written: for i in reversed(range(n)) contract axis n-1
   of A with ops[i] (or roll it, for None) and put the new axis first *)
Definition insert_at (k : nat) (x : nat) (l : list nat) : list nat := firstn k l ++ x :: skipn k l.
Definition tprod_step (n : nat) (ob : option mat) (f : list nat -> R) : list nat -> R :=
  fun idx => match idx with
             | [] => rO
             | a :: rest =>
                 match ob with
                 | None => f (insert_at (n - 1) a rest)
                 | Some B => sumn (mc B) (fun j => rmul (me B a j) (f (insert_at (n - 1) j rest)))
                 end
             end.
Definition tprod_loop (Bs : list (option mat)) (f : list nat -> R) : list nat -> R :=
  fold_left (fun g ob => tprod_step (length Bs) ob g) (rev Bs) f.

(* np.pad(X, [(b_k, a_k)], 'constant') with before-widths bs and the new shape *)
Definition full_pad (A : full) (before after : list nat) : full :=
  mkfull (map (fun p => fst p + snd p) (combine (map (fun p => fst p + snd p) (combine before (fsh A))) after))
         (fun idx => if all_ge idx before && all_lt (sub_idx idx before) (fsh A)
                     then fe A (sub_idx idx before) else rO).

(* X[:k1, :k2, ...] *)
Definition full_trunc (A : full) (ks : list nat) : full :=
  mkfull (map (fun p => Nat.min (fst p) (snd p)) (combine ks (fsh A))) (fe A).

(* X.squeeze(axes) *)
Definition full_squeeze (A : full) (axes : list nat) : full :=
  let d := length (fsh A) in
  mkfull (pick (fsh A) (remaining d axes) 0) (fun idx => fe A (unsqueeze d axes idx)).

(* orthogonal ("outer") indexing by per-axis position lists *)
Definition full_select (A : full) (rs : list (list nat)) : full :=
  mkfull (map (@length nat) rs) (fun idx => fe A (map (fun p => nth (snd p) (fst p) 0) (combine rs idx))).

(* ------------------------------------------------------------------ *)
(* CanonicalTensor: tensor.py:698-853.  Xs = one n_k x R matrix per axis *)
(* ------------------------------------------------------------------ *)
Definition canon := list mat.

Definition crank (Xs : canon) : nat := match Xs with [] => 0 | X :: _ => mc X end.
Definition cshape (Xs : canon) : list nat := map mr Xs.

Fixpoint cterm (Xs : canon) (idx : list nat) (r : nat) : R :=
  match Xs, idx with
  | X :: Xs', i :: idx' => rmul (me X i r) (cterm Xs' idx' r)
  | _, _ => rI
  end.
(* asarray, tensor.py:762-767: sum over r of outer(columns r) *)
Definition centry (Xs : canon) (idx : list nat) : R := sumn (crank Xs) (cterm Xs idx).
Definition canon_asarray (Xs : canon) : full := mkfull (cshape Xs) (centry Xs).

Definition canon_zeros (shape : list nat) : canon := map (fun n => mkmat n 0 (fun _ _ => rO)) shape.
Definition canon_ones (shape : list nat) : canon := map (fun n => mkmat n 1 (fun _ _ => rI)) shape.

(* __neg__, tensor.py:806-808: negate the first factor *)
Definition canon_neg (Xs : canon) : canon :=
  match Xs with [] => [] | X :: Xs' => mat_neg X :: Xs' end.

(* __add__ with a CanonicalTensor, tensor.py:812-814 *)
Definition canon_add (A B : canon) : canon :=
  map (fun p => mat_hstack (fst p) (snd p)) (combine A B).

(* nway_prod, tensor.py:781-800 (Bs already padded with None; longer = ValueError) *)
Definition pad_ops (Bs : list (option mat)) (d : nat) : list (option mat) :=
  Bs ++ repeat None (d - length Bs).
Definition factors_nway (Bs : list (option mat)) (Xs : list mat) : list mat :=
  map (fun p => match fst p with Some B => mat_mul B (snd p) | None => snd p end)
      (combine (pad_ops Bs (length Xs)) Xs).

(* squeeze(axis=axes), tensor.py:825-847; axes non-empty, not all axes *)
Definition sq_factor (Xs : canon) (axes : list nat) (r : nat) : R :=
  fold_right (fun i acc => rmul (me (nth i Xs (mkmat 0 0 (fun _ _ => rI))) 0 r) acc) rI axes.
Definition canon_squeeze_some (Xs : canon) (axes : list nat) : canon :=
  match pick Xs (remaining (length Xs) axes) (mkmat 0 0 (fun _ _ => rO)) with
  | [] => []
  | X :: rest => mkmat (mr X) (mc X) (fun i r => rmul (me X i r) (sq_factor Xs axes r)) :: rest
  end.

(* ------------------------------------------------------------------ *)
(* TuckerTensor: tensor.py:856-1055                                    *)
(* ------------------------------------------------------------------ *)
Definition tshape (Us : list mat) : list nat := map mr Us.
(* asarray, tensor.py:917-919 *)
Definition tentry (Us : list mat) (X : full) (idx : list nat) : R := tprod (map Some Us) (fe X) idx.
Definition tucker_asarray (Us : list mat) (X : full) : full := mkfull (tshape Us) (tentry Us X).

(* from_tensor(CanonicalTensor), tensor.py:902-905 (np.fill_diagonal replaced by
   X[np.diag_indices(R, ndim)] = 1, see fixes/C18-tucker-from-1d-canonical.patch) *)
Definition diag_core (d rk : nat) : full :=
  mkfull (repeat rk d) (fun idx => match idx with
                                   | [] => rI
                                   | i :: idx' => if all_same i idx' then rI else rO
                                   end).

(* join_tucker_bases, tensor.py:1039-1055 *)
Definition join_U (U1 U2 : list mat) : list mat :=
  map (fun p => mat_hstack (fst p) (snd p)) (combine U1 U2).
Definition join_X1 (X1 X2 : full) : full := full_pad X1 (map (fun _ => 0) (fsh X1)) (fsh X2).
Definition join_X2 (X1 X2 : full) : full := full_pad X2 (fsh X1) (map (fun _ => 0) (fsh X2)).

(* squeeze(axis=axes), tensor.py:1011-1030; axes non-empty, not all axes *)
Definition tucker_sq_ops (Us : list mat) (axes : list nat) : list (option mat) :=
  map (fun k => if memb k axes then Some (nth k Us (mkmat 0 0 (fun _ _ => rO))) else None) (seq 0 (length Us)).
Definition tucker_squeeze_some (Us : list mat) (X : full) (axes : list nat) : list mat * full :=
  (pick Us (remaining (length Us) axes) (mkmat 0 0 (fun _ _ => rO)),
   full_squeeze (full_tprod (tucker_sq_ops Us axes) X) axes).

(* CanonicalTensor.from_tensor(TuckerTensor), tensor.py:744-754 *)
Definition t2c_indices (X : full) : list (list nat) :=
  filter (fun index => nonzero (fe X index)) (ndindex (fsh X)).
Definition t2c_factor (k : nat) (U : mat) (X : full) (inds : list (list nat)) : mat :=
  mkmat (mr U) (length inds)
        (fun i t => let index := nth t inds [] in
                    let u := me U i (nth k index 0) in
                    if k =? 0 then rmul (fe X index) u else u).
Definition tucker_to_canon (Us : list mat) (X : full) : canon :=
  let inds := t2c_indices X in
  match inds with
  | [] => canon_zeros (tshape Us)
  | _ => map (fun p => t2c_factor (fst p) (snd p) X inds) (combine (seq 0 (length Us)) Us)
  end.

(* ------------------------------------------------------------------ *)
(* the tensors the operations range over                               *)
(* ------------------------------------------------------------------ *)
Inductive tens :=
| TScal (a : R)
| TFull (A : full)
| TCanon (Xs : canon)
| TTucker (Us : list mat) (X : full).

Definition shape_of (t : tens) : list nat :=
  match t with
  | TScal _ => []
  | TFull A => fsh A
  | TCanon Xs => cshape Xs
  | TTucker Us _ => tshape Us
  end.

Definition asarray (t : tens) : full :=
  match t with
  | TScal a => mkfull [] (fun _ => a)
  | TFull A => A
  | TCanon Xs => canon_asarray Xs
  | TTucker Us X => tucker_asarray Us X
  end.

Definition entry (t : tens) (idx : list nat) : R := fe (asarray t) idx.

(* TuckerTensor.from_tensor, tensor.py:899-911 *)
Definition to_tucker (t : tens) : res tens :=
  match t with
  | TCanon Xs => Ok (TTucker Xs (diag_core (length Xs) (crank Xs)))
  | TTucker Us X => Ok t
  | TFull A => Ok (TTucker (map mat_eye (fsh A)) A)
  | TScal _ => Err TypeError
  end.

(* CanonicalTensor.from_tensor, tensor.py:741-756 *)
Definition to_canon (t : tens) : res tens :=
  match t with
  | TTucker Us X => Ok (TCanon (tucker_to_canon Us X))
  | _ => Err TypeError
  end.

Definition neg (t : tens) : res tens :=
  match t with
  | TScal a => Ok (TScal (ropp a))
  | TFull A => Ok (TFull (full_neg A))
  | TCanon Xs => Ok (TCanon (canon_neg Xs))                       (* tensor.py:806 *)
  | TTucker Us X => Ok (TTucker Us (full_neg X))                  (* tensor.py:1008 *)
  end.

Definition tucker_addsub (sub : bool) (U1 : list mat) (X1 : full) (U2 : list mat) (X2 : full) : tens :=
  TTucker (join_U U1 U2)
          ((if sub then full_sub else full_add) (join_X1 X1 X2) (join_X2 X1 X2)).

(* __add__: tensor.py:810-820 (Canonical), 988-998 (Tucker) *)
Definition add (t1 t2 : tens) : res tens :=
  match t1, t2 with
  | TCanon A, TCanon B =>
      if list_eqb (cshape A) (cshape B) then Ok (TCanon (canon_add A B)) else Err AssertionError
  | TCanon A, TTucker U2 X2 =>
      if list_eqb (cshape A) (tshape U2)
      then Ok (tucker_addsub false A (diag_core (length A) (crank A)) U2 X2) else Err AssertionError
  | TCanon A, TFull B =>
      if list_eqb (cshape A) (fsh B) then Ok (TFull (full_add (canon_asarray A) B)) else Err AssertionError
  | TTucker U1 X1, TTucker U2 X2 =>
      if list_eqb (tshape U1) (tshape U2) then Ok (tucker_addsub false U1 X1 U2 X2) else Err AssertionError
  | TTucker U1 X1, TCanon B =>
      if list_eqb (tshape U1) (cshape B)
      then Ok (tucker_addsub false U1 X1 B (diag_core (length B) (crank B))) else Err AssertionError
  | TTucker U1 X1, TFull B =>
      if list_eqb (tshape U1) (fsh B) then Ok (TFull (full_add (tucker_asarray U1 X1) B)) else Err AssertionError
  | _, _ => Err TypeError
  end.

(* __sub__: tensor.py:822-823 (Canonical: self + (-T2)), 1000-1006 (Tucker) *)
Definition sub (t1 t2 : tens) : res tens :=
  match t1, t2 with
  | TTucker U1 X1, TTucker U2 X2 =>
      if list_eqb (tshape U1) (tshape U2) then Ok (tucker_addsub true U1 X1 U2 X2) else Err AssertionError
  | TTucker U1 X1, _ =>
      if list_eqb (tshape U1) (shape_of t2) then bind (neg t2) (add t1) else Err AssertionError
  | TCanon _, _ => bind (neg t2) (add t1)
  | _, _ => Err TypeError
  end.

(* nway_prod / apply_tprod: tensor.py:125-137, 781-800, 963-982 *)
Definition nway (Bs : list (option mat)) (t : tens) : res tens :=
  match t with
  | TCanon Xs => if length Xs <? length Bs then Err ValueError else Ok (TCanon (factors_nway Bs Xs))
  | TTucker Us X => if length Us <? length Bs then Err ValueError else Ok (TTucker (factors_nway Bs Us) X)
  | TFull A => Ok (TFull (full_tprod Bs A))
  | TScal _ => Err TypeError
  end.

Definition zeros_idx (d : nat) : list nat := repeat 0 d.

(* squeeze(axis): tensor.py:825-847, 1011-1030.  axes = None is Some of all singleton axes *)
Definition singleton_axes (shape : list nat) : list nat :=
  filter (fun k => nth k shape 0 =? 1) (seq 0 (length shape)).

Definition squeeze_axes (t : tens) (axes : list nat) : res tens :=
  let shape := shape_of t in
  let d := length shape in
  if negb (forallb (fun i => nth i shape 0 =? 1) axes) then Err ValueError
  else match axes with
       | [] => Ok t
       | _ => if length axes =? d then Ok (TScal (entry t (zeros_idx d)))
              else match t with
                   | TCanon Xs => Ok (TCanon (canon_squeeze_some Xs axes))
                   | TTucker Us X => let '(Us', X') := tucker_squeeze_some Us X axes in Ok (TTucker Us' X')
                   | _ => Err TypeError
                   end
       end.

Definition squeeze (t : tens) (axis : option (list nat)) : res tens :=
  match axis with
  | None => squeeze_axes t (singleton_axes (shape_of t))
  | Some axes => squeeze_axes t axes
  end.

(* __getitem__: tensor.py:849-853, 1032-1036 *)
Definition getitem (t : tens) (I : list index) : res tens :=
  bind (normalize_indices I (shape_of t)) (fun ax =>
    let rows Us := map (fun p => mat_rows (fst p) (snd p)) (combine Us (sel_ranges ax)) in
    match t with
    | TCanon Xs => squeeze_axes (TCanon (rows Xs)) (sel_singletons 0 ax)
    | TTucker Us X => squeeze_axes (TTucker (rows Us) X) (sel_singletons 0 ax)
    | _ => Err TypeError
    end).

(* truncate(k) with a tuple k of non-negative ranks: tensor.py:938-946 *)
Definition truncate (t : tens) (ks : list nat) : res tens :=
  match t with
  | TTucker Us X =>
      if length ks =? length Us
      then Ok (TTucker (map (fun p => mat_cols_to (fst p) (snd p)) (combine Us ks)) (full_trunc X ks))
      else Err AssertionError
  | _ => Err TypeError
  end.

(* pad(X, pad_width), tensor.py:246-267: P_j = rows [b, b+n) of the identity *)
Definition pad_mat (n b a : nat) : mat :=
  mkmat (n + b + a) n (fun i j => if (b <=? i) && (i - b =? j) then rI else rO).
Definition pad (t : tens) (widths : list (option (nat * nat))) : res tens :=
  if negb (length widths =? length (shape_of t)) then Err AssertionError
  else nway (map (fun p => match fst p with
                           | None => None
                           | Some (b, a) => Some (pad_mat (snd p) b a)
                           end) (combine widths (shape_of t))) t.

(* ------------------------------------------------------------------ *)
(* CanonicalOperator: tensor.py:1167-1263.  terms = list of d-tuples   *)
(* ------------------------------------------------------------------ *)
Definition canop := list (list mat).

Fixpoint kterm (term : list mat) (I J : list nat) : R :=
  match term, I, J with
  | A :: term', i :: I', j :: J' => rmul (me A i j) (kterm term' I' J')
  | _, _, _ => rI
  end.
(* the entry ((i1..id),(j1..jd)) of asmatrix(): sum over terms of the Kronecker product *)
Definition kentry (Op : canop) (I J : list nat) : R := rsum (map (fun term => kterm term I J) Op).

Definition canop_T (Op : canop) : canop := map (map mat_T) Op.                         (* :1213 *)
Definition canop_add (A B : canop) : canop := A ++ B.                                   (* :1220 *)
Definition canop_neg (A : canop) : canop :=                                             (* :1225 *)
  map (fun t => match t with [] => [] | X :: t' => mat_neg X :: t' end) A.
Definition alldot (t1 t2 : list mat) : list mat := map (fun p => mat_mul (fst p) (snd p)) (combine t1 t2).
Definition canop_mul (A B : canop) : canop :=                                           (* :1233 *)
  flat_map (fun t1 => map (fun t2 => alldot t1 t2) B) A.
Definition canop_kron (A B : canop) : canop :=                                          (* :1242 *)
  flat_map (fun t1 => map (fun t2 => t1 ++ t2) B) A.
Definition canop_slice (A : canop) (limits : list (nat * nat)) : canop :=               (* :1259 *)
  map (fun term => map (fun p => mat_sub_block (fst p) (fst (snd p)) (snd (snd p))) (combine term limits)) A.
(* apply to a full array: reduce(operator.add, (apply_tprod(t, X) for t in terms))  :1239 *)
Definition canop_apply_entry (Op : canop) (f : list nat -> R) (idx : list nat) : R :=
  rsum (map (fun term => tprod (map Some term) f idx) Op).
Definition canop_in_shape (Op : canop) : list nat := match Op with [] => [] | t :: _ => map mc t end.
Definition canop_out_shape (Op : canop) : list nat := match Op with [] => [] | t :: _ => map mr t end.

(* ------------------------------------------------------------------ *)
(* TensorGenerator: lowrank.py:12-81                                   *)
(* ------------------------------------------------------------------ *)
(* __getitem__: entries at cartesian_product(I_new) reshaped to shape_new, singleton axes squeezed;
   result = (shape, flat C-order data) *)
Definition gen_getitem (shape : list nat) (f : list nat -> R) (I : list index) : res (list nat * list R) :=
  bind (normalize_indices I shape) (fun ax =>
    Ok (pick (sel_shape ax) (remaining (length ax) (sel_singletons 0 ax)) 0,
        map f (product (sel_ranges ax)))).
Definition gen_asarray (shape : list nat) (f : list nat -> R) : list nat * list R :=
  (shape, map f (ndindex shape)).
Fixpoint set_nth (l : list nat) (k : nat) (v : nat) : list nat :=
  match l, k with
  | [], _ => []
  | _ :: l', 0 => v :: l'
  | x :: l', S k' => x :: set_nth l' k' v
  end.
(* matrix_at(I, axes): lowrank.py:60-75 *)
Definition gen_matrix_at (f : list nat -> R) (I : list nat) (a0 a1 : nat) : list nat -> R :=
  fun ab => match ab with
            | [a; b] => f (set_nth (set_nth I a0 a) a1 b)
            | _ => rO
            end.

(* modek_tprod(B, k, X), tensor.py:159-176: contraction of axis k of X with the columns of B, the new
   axis staying in position k:  Y[i_0..i_k..] = sum_j B[i_k, j] X[i_0..j..].  The correspondence run
   evaluates it as apply_tprod with k None placeholders (full_tprod); Proofs.modek_spec shows that the
   two coincide. *)
Definition modek_entry (B : mat) (k : nat) (f : list nat -> R) (idx : list nat) : R :=
  sumn (mc B) (fun j => rmul (me B (nth k idx 0) j) (f (set_nth idx k j))).
Definition modek_ops (B : mat) (k : nat) : list (option mat) := repeat None k ++ [Some B].

(* ------------------------------------------------------------------ *)
(* lowrank_cy.pyx:4-31 and one cross step of lowrank.aca (lowrank.py:104-134) *)
(* ------------------------------------------------------------------ *)
Definition rank_1_update (X : mat) (alpha : R) (u v : nat -> R) : mat :=
  mkmat (mr X) (mc X) (fun i j => radd (me X i j) (rmul (rmul alpha (u i)) (v j))).
Definition aca3d_update (X : full) (alpha : R) (u : nat -> R) (V : nat -> nat -> R) : full :=
  mkfull (fsh X) (fun idx => match idx with
                             | [i; j; k] => radd (fe X idx) (rmul (rmul alpha (u i)) (V j k))
                             | _ => fe X idx
                             end).
(* E_row = X[i,:] - A[i,:]; col = A[:,j0] - X[:,j0]; rank_1_update(X, 1/E_row[j0], col, E_row);
   alpha stands for 1 / E_row[j0] *)
Definition aca_E_row (A X : mat) (i : nat) : nat -> R := fun j => rsub (me X i j) (me A i j).
Definition aca_col (A X : mat) (j0 : nat) : nat -> R := fun a => rsub (me A a j0) (me X a j0).
Definition aca_step (A X : mat) (i j0 : nat) (alpha : R) : mat :=
  rank_1_update X alpha (aca_col A X j0) (aca_E_row A X i).

(* ------------------------------------------------------------------ *)
(* find_truncation_rank, tensor.py:195-216 (greedy truncation of a HOSVD core), in exact arithmetic:
   err**2 of _find_best_truncation_axis is the squared norm of the last slice along the axis *)
(* ------------------------------------------------------------------ *)
Variable rltb : R -> R -> bool.      (* a < b *)

Definition sqnorm (shape : list nat) (f : list nat -> R) : R :=
  rsum (map (fun idx => rmul (f idx) (f idx)) (ndindex shape)).
(* the multi-indices of np.swapaxes(X, ax, 0)[-1] *)
Definition last_slice (shape : list nat) (ax : nat) : list (list nat) :=
  product (map (seq 0) (firstn ax shape) ++ [nth ax shape 0 - 1] :: map (seq 0) (skipn (S ax) shape)).
Definition slice_sq (shape : list nat) (f : list nat -> R) (ax : nat) : R :=
  rsum (map (fun idx => rmul (f idx) (f idx)) (last_slice shape ax)).
(* sl[ax] = slice(None, -1) *)
Definition dec_axis (shape : list nat) (ax : nat) : list nat :=
  firstn ax shape ++ (nth ax shape 0 - 1) :: skipn (S ax) shape.
(* np.argmin: first minimal entry *)
Fixpoint argmin_aux (best : nat) (bestv : R) (k : nat) (vs : list R) : nat * R :=
  match vs with
  | [] => (best, bestv)
  | v :: vs' => if rltb v bestv then argmin_aux k v (S k) vs' else argmin_aux best bestv (S k) vs'
  end.
Definition best_axis (shape : list nat) (f : list nat -> R) : nat * R :=
  match map (slice_sq shape f) (seq 0 (length shape)) with
  | [] => (0, rO)
  | v :: vs => argmin_aux 0 v 1 vs
  end.
(* the while loop; returns the final shape and the accumulated squared error of the slices that
   were actually cut off (the code keeps adding before it tests: the rejected slice is not cut) *)
Fixpoint trunc_loop (fuel : nat) (shape : list nat) (f : list nat -> R) (tolsq total : R) : list nat * R :=
  match fuel with
  | 0 => (shape, total)
  | S fuel' =>
      match shape with
      | [] => (shape, total)
      | _ =>
          if existsb (Nat.eqb 0) shape then (shape, total)          (* X.size == 0 *)
          else let '(ax, e2) := best_axis shape f in
               let total' := radd total e2 in
               if rltb tolsq total' then (shape, total)
               else trunc_loop fuel' (dec_axis shape ax) f tolsq total'
      end
  end.
Definition find_truncation_rank (X : full) (tolsq : R) : list nat * R :=
  trunc_loop (S (fold_right Nat.add 0 (fsh X))) (fsh X) (fe X) tolsq rO.

(* ------------------------------------------------------------------ *)
(* literals for the correspondence run                                 *)
(* ------------------------------------------------------------------ *)
Definition lmat := (nat * nat * list (list R))%type.
Definition mat_of (l : lmat) : mat :=
  let '(r, c, d) := l in mkmat r c (fun i j => nth j (nth i d []) rO).
Definition mat_tab (M : mat) : lmat :=
  (mr M, mc M, map (fun i => map (fun j => me M i j) (seq 0 (mc M))) (seq 0 (mr M))).
Definition lfull := (list nat * list R)%type.
Definition full_of (l : lfull) : full :=
  let '(sh, d) := l in mkfull sh (fun idx => nth (ravel sh idx) d rO).
Definition full_tab (A : full) : lfull := (fsh A, map (fe A) (ndindex (fsh A))).

Inductive lit :=
| LScal (a : R)
| LFull (A : lfull)
| LCanon (Xs : list lmat)
| LTucker (Us : list lmat) (X : lfull)
| LErr (e : err).

Definition tens_of (l : lit) : tens :=
  match l with
  | LScal a => TScal a
  | LFull A => TFull (full_of A)
  | LCanon Xs => TCanon (map mat_of Xs)
  | LTucker Us X => TTucker (map mat_of Us) (full_of X)
  | LErr _ => TScal rO
  end.
Definition tab (t : res tens) : lit :=
  match t with
  | Err e => LErr e
  | Ok (TScal a) => LScal a
  | Ok (TFull A) => LFull (full_tab A)
  | Ok (TCanon Xs) => LCanon (map mat_tab Xs)
  | Ok (TTucker Us X) => LTucker (map mat_tab Us) (full_tab X)
  end.

Fixpoint leqb {A} (e : A -> A -> bool) (a b : list A) : bool :=
  match a, b with
  | [], [] => true
  | x :: a', y :: b' => e x y && leqb e a' b'
  | _, _ => false
  end.
Definition lmat_eqb (a b : lmat) : bool :=
  let '(r1, c1, d1) := a in let '(r2, c2, d2) := b in
  (r1 =? r2) && (c1 =? c2) && leqb (leqb reqb) d1 d2.
Definition lfull_eqb (a b : lfull) : bool := leqb Nat.eqb (fst a) (fst b) && leqb reqb (snd a) (snd b).
Definition err_eqb (a b : err) : bool :=
  match a, b with
  | IndexError, IndexError | ValueError, ValueError | AssertionError, AssertionError | TypeError, TypeError => true
  | _, _ => false
  end.
Definition lit_eqb (a b : lit) : bool :=
  match a, b with
  | LScal x, LScal y => reqb x y
  | LFull x, LFull y => lfull_eqb x y
  | LCanon x, LCanon y => leqb lmat_eqb x y
  | LTucker u x, LTucker v y => leqb lmat_eqb u v && lfull_eqb x y
  | LErr e, LErr f => err_eqb e f
  | _, _ => false
  end.


(* ------------------------------------------------------------------ *)
(* one step of the correspondence run                                  *)
(* ------------------------------------------------------------------ *)
Inductive op :=
| OAdd | OSub | ONeg | OToTucker | OToCanon | OAsarray | OJoin1 | OJoin2 | OCopy
| OGetitem (I : list index)
| OSqueeze (axis : option (list nat))
| ONway (Bs : list (option lmat))
| OTruncate (ks : list nat)
| OPad (w : list (option (nat * nat)))
| OZerosC (shape : list nat) | OOnesC (shape : list nat)
| OZerosT (shape : list nat) | OOnesT (shape : list nat).

Definition join_op (first : bool) (a b : tens) : res tens :=
  match a, b with
  | TTucker U1 X1, TTucker U2 X2 =>
      if list_eqb (tshape U1) (tshape U2)
      then Ok (TTucker (join_U U1 U2) (if first then join_X1 X1 X2 else join_X2 X1 X2))
      else Err AssertionError
  | _, _ => Err TypeError
  end.

Definition run_op (o : op) (args : list lit) : lit :=
  let a := tens_of (nth 0 args (LErr TypeError)) in
  let b := tens_of (nth 1 args (LErr TypeError)) in
  match o with
  | OAdd => tab (add a b)
  | OSub => tab (sub a b)
  | ONeg => tab (neg a)
  | OToTucker => tab (to_tucker a)
  | OToCanon => tab (to_canon a)
  | OAsarray => LFull (full_tab (asarray a))
  | OJoin1 => tab (join_op true a b)
  | OJoin2 => tab (join_op false a b)
  | OCopy => tab (Ok a)
  | OGetitem II => tab (getitem a II)
  | OSqueeze ax => tab (squeeze a ax)
  | ONway Bs => tab (nway (map (option_map mat_of) Bs) a)
  | OTruncate ks => tab (truncate a ks)
  | OPad w => tab (pad a w)
  | OZerosC sh => tab (Ok (TCanon (canon_zeros sh)))
  | OOnesC sh => tab (Ok (TCanon (canon_ones sh)))
  | OZerosT sh => tab (to_tucker (TCanon (canon_zeros sh)))
  | OOnesT sh => tab (to_tucker (TCanon (canon_ones sh)))
  end.

Definition check_step (c : op * list lit * lit) : bool :=
  let '(o, args, expected) := c in lit_eqb (run_op o args) expected.

(* _normalize_indices alone *)
Definition axes_eqb (a b : list (list nat * bool)) : bool :=
  leqb (fun x y => leqb Nat.eqb (fst x) (fst y) && Bool.eqb (snd x) (snd y)) a b.
Definition check_norm (c : list nat * list index * res (list (list nat * bool))) : bool :=
  let '(shape, II, expected) := c in
  match normalize_indices II shape, expected with
  | Ok a, Ok b => axes_eqb a b
  | Err e, Err f => err_eqb e f
  | _, _ => false
  end.

(* TensorGenerator *)
Inductive gop := GGet (I : list index) | GAsarray | GMatrixAt (I : list nat) (a0 a1 : nat).
Definition run_gop (A : lfull) (o : gop) : res lfull :=
  let F := full_of A in
  match o with
  | GGet II => gen_getitem (fsh F) (fe F) II
  | GAsarray => Ok (gen_asarray (fsh F) (fe F))
  | GMatrixAt II a0 a1 =>
      let sh := [nth a0 (fsh F) 0; nth a1 (fsh F) 0] in
      Ok (gen_asarray sh (gen_matrix_at (fe F) II a0 a1))
  end.
Definition check_gen (c : lfull * gop * res lfull) : bool :=
  let '(A, o, expected) := c in
  match run_gop A o, expected with
  | Ok a, Ok b => lfull_eqb a b
  | Err e, Err f => err_eqb e f
  | _, _ => false
  end.

(* CanonicalOperator *)
Inductive cop := CT | CAdd | CNeg | CSub | CMul | CKron | CSlice (limits : list (nat * nat)).
Definition canop_of (A : list (list lmat)) : canop := map (map mat_of) A.
Definition run_cop (o : cop) (A B : canop) : canop :=
  match o with
  | CT => canop_T A
  | CAdd => canop_add A B
  | CNeg => canop_neg A
  | CSub => canop_add A (canop_neg B)
  | CMul => canop_mul A B
  | CKron => canop_kron A B
  | CSlice l => canop_slice A l
  end.
(* asmatrix() as a dense matrix, rows/columns in C (ravel) order *)
Definition canop_dense (Op : canop) : list (list R) :=
  map (fun I => map (fun J => kentry Op I J) (ndindex (canop_in_shape Op))) (ndindex (canop_out_shape Op)).
(* (op, A, B, expected terms, expected asmatrix of the result) *)
Definition check_cop (c : cop * list (list lmat) * list (list lmat) * list (list lmat) * list (list R)) : bool :=
  let '(o, A, B, eterms, edense) := c in
  let C := run_cop o (canop_of A) (canop_of B) in
  leqb (leqb lmat_eqb) (map (map mat_tab) C) eterms && leqb (leqb reqb) (canop_dense C) edense.
(* A.apply(X) for a full array X *)
Definition check_capply (c : list (list lmat) * lfull * lfull) : bool :=
  let '(A, X, expected) := c in
  let Op := canop_of A in
  lfull_eqb (full_tab (mkfull (canop_out_shape Op) (canop_apply_entry Op (fe (full_of X))))) expected.

(* rank_1_update / aca3d_update on literals *)
Definition check_r1 (c : lmat * R * list R * list R * lmat) : bool :=
  let '(X, alpha, u, v, expected) := c in
  lmat_eqb (mat_tab (rank_1_update (mat_of X) alpha (fun i => nth i u rO) (fun j => nth j v rO))) expected.
Definition check_r3 (c : lfull * R * list R * lmat * lfull) : bool :=
  let '(X, alpha, u, V, expected) := c in
  lfull_eqb (full_tab (aca3d_update (full_of X) alpha (fun i => nth i u rO) (me (mat_of V)))) expected.

(* find_truncation_rank(X, tol) with tol^2 given *)
Definition check_trunc (c : lfull * R * list nat) : bool :=
  let '(X, tolsq, expected) := c in
  leqb Nat.eqb (fst (find_truncation_rank (full_of X) tolsq)) expected.

(* indices of the cases that disagree *)
Fixpoint bad {A} (chk : A -> bool) (k : nat) (cs : list A) : list nat :=
  match cs with
  | [] => []
  | c :: cs' => if chk c then bad chk (S k) cs' else k :: bad chk (S k) cs'
  end.

End Ring.
