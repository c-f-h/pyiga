(* C18 -- proofs: the greedy truncation loop, the rotate-and-contract loop of
   apply_tprod, operator slicing, pad, squeeze and __getitem__ of canonical and Tucker tensors,
   Tucker -> canonical, TensorGenerator.__getitem__. *)
From Coq Require Import List Arith Bool ZArith Lia Ring Permutation.
From Verif.lib Require Import ListFacts.
From Verif.C18 Require Import Model Proofs.
Import ListNotations.

Section RingProofs2.
Variable R : Type.
Variables (rO rI : R) (radd rmul rsub : R -> R -> R) (ropp : R -> R).
Variable Rth : ring_theory rO rI radd rmul rsub ropp (@eq R).
Add Ring Rring2 : Rth.

Local Notation "0" := rO.
Local Notation "1" := rI.
Local Infix "+" := radd.
Local Infix "*" := rmul.

Local Notation rsum := (Model.rsum R rO radd).
Local Notation sumn := (Model.sumn R rO radd).
Local Notation mat := (Model.mat R).
Local Notation full := (Model.full R).
Local Notation me := (Model.me R).
Local Notation mc := (Model.mc R).
Local Notation fe := (Model.fe R).
Local Notation fsh := (Model.fsh R).
Local Notation cterm := (Model.cterm R rI rmul).
Local Notation centry := (Model.centry R rO rI radd rmul).
Local Notation crank := (Model.crank R).
Local Notation tprod := (Model.tprod R rO radd rmul).
Local Notation tentry := (Model.tentry R rO radd rmul).
Local Notation kterm := (Model.kterm R rI rmul).
Local Notation kentry := (Model.kentry R rO rI radd rmul).
Local Notation ksum := (Proofs.ksum R rO radd).

(* lemmas of Proofs.v with the ring fixed *)
Local Notation rsum_app := (Proofs.rsum_app R rO rI radd rmul rsub ropp Rth).
Local Notation rsum_map_ext := (Proofs.rsum_map_ext R rO radd).
Local Notation rsum_map_add := (Proofs.rsum_map_add R rO rI radd rmul rsub ropp Rth).
Local Notation sumn_ext := (Proofs.sumn_ext R rO radd).
Local Notation sumn_S := (Proofs.sumn_S R rO rI radd rmul rsub ropp Rth).
Local Notation sumn_zero := (Proofs.sumn_zero R rO rI radd rmul rsub ropp Rth).
Local Notation sumn_delta := (Proofs.sumn_delta R rO rI radd rmul rsub ropp Rth).
Local Notation tprod_ext := (Proofs.tprod_ext R rO radd rmul).
Local Notation tprod_scale := (Proofs.tprod_scale R rO rI radd rmul rsub ropp Rth).
Local Notation tprod_sumn := (Proofs.tprod_sumn R rO rI radd rmul rsub ropp Rth).

Variable rltb : R -> R -> bool.
Local Notation sqnorm := (Model.sqnorm R rO radd rmul).
Local Notation slice_sq := (Model.slice_sq R rO radd rmul).
Local Notation argmin_aux := (Model.argmin_aux R rltb).
Local Notation best_axis := (Model.best_axis R rO radd rmul rltb).
Local Notation trunc_loop := (Model.trunc_loop R rO radd rmul rltb).

Lemma rsum_flat_map {A B} (F : A -> list B) (g : B -> R) l :
  rsum (map g (flat_map F l)) = rsum (map (fun x => rsum (map g (F x))) l).
Proof.
  induction l as [|x l IH]; simpl; [reflexivity|]. rewrite map_app, rsum_app, IH. reflexivity.
Qed.

(* splitting one factor of a product of ranges splits the sum *)
Lemma rsum_product_app (pre : list (list nat)) : forall l1 l2 post (g : list nat -> R),
  rsum (map g (product (pre ++ (l1 ++ l2) :: post)))
  = rsum (map g (product (pre ++ l1 :: post))) + rsum (map g (product (pre ++ l2 :: post))).
Proof.
  induction pre as [|a pre IH]; intros l1 l2 post g; simpl.
  - rewrite flat_map_app, map_app, rsum_app. reflexivity.
  - rewrite !rsum_flat_map. rewrite <- rsum_map_add. apply rsum_map_ext. intros x _.
    rewrite !map_map. apply (IH l1 l2 post (fun r => g (x :: r))).
Qed.

(* cutting the last slice off axis ax removes exactly its squared norm *)
Lemma sqnorm_dec_axis shape f ax :
  ax < length shape -> nth ax shape 0%nat <> 0%nat ->
  sqnorm shape f = sqnorm (dec_axis shape ax) f + slice_sq shape f ax.
Proof.
  intros Hax Hn. unfold Model.sqnorm, Model.slice_sq, Model.last_slice, Model.dec_axis, ndindex.
  destruct (nth ax shape 0%nat) as [|m] eqn:E; [congruence|].
  assert (Hs : map (seq 0) shape
               = map (seq 0) (firstn ax shape) ++ (seq 0 m ++ [m]) :: map (seq 0) (skipn (S ax) shape)).
  { rewrite <- (firstn_skipn ax shape) at 1.
    rewrite (skipn_cons_nth 0%nat shape ax Hax), E, map_app. cbn [map]. rewrite seq_S. reflexivity. }
  rewrite Hs. rewrite map_app. simpl. replace (m - 0)%nat with m by lia.
  apply (rsum_product_app (map (seq 0) (firstn ax shape)) (seq 0 m) [m]).
Qed.

(* np.argmin returns one of the candidates with its value *)
Lemma argmin_aux_In : forall vs best bestv k a v,
  argmin_aux best bestv k vs = (a, v) ->
  In (a, v) ((best, bestv) :: combine (seq k (length vs)) vs).
Proof.
  induction vs as [|w vs IH]; intros best bestv k a v H; simpl in *.
  - left. exact H.
  - destruct (rltb w bestv); apply IH in H.
    + right. exact H.
    + destruct H as [H|H]; [left; exact H|right; right; exact H].
Qed.

Lemma best_axis_spec shape f ax e2 :
  shape <> [] -> best_axis shape f = (ax, e2) -> ax < length shape /\ e2 = slice_sq shape f ax.
Proof.
  intros Hne H. unfold Model.best_axis in H.
  destruct shape as [|n shape]; [congruence|].
  cbn [length seq map] in H. apply argmin_aux_In in H. rewrite map_length, seq_length in H.
  destruct H as [E|H].
  - inversion E. split; [simpl; lia|reflexivity].
  - apply in_combine_map in H. destruct H as [Hin ->]. apply in_seq in Hin.
    split; [simpl; lia|reflexivity].
Qed.

Lemma existsb_zero_false (shape : list nat) ax :
  existsb (Nat.eqb 0) shape = false -> ax < length shape -> nth ax shape 0%nat <> 0%nat.
Proof.
  intros H Hax E. apply (nth_In _ 0%nat) in Hax. rewrite E in Hax.
  apply memb_In in Hax. unfold memb in Hax. congruence.
Qed.

(* the loop invariant: (squared norm still present) + (accumulated error) is constant, and the
   accumulated error of the slices cut off never tests greater than tol^2 *)
Lemma trunc_loop_inv : forall fuel shape f tolsq total shape' total',
  trunc_loop fuel shape f tolsq total = (shape', total') ->
  sqnorm shape f + total = sqnorm shape' f + total' /\
  (rltb tolsq total = false -> rltb tolsq total' = false).
Proof.
  induction fuel as [|fuel IH]; intros shape f tolsq total shape' total' H.
  - simpl in H. inversion H; subst. auto.
  - cbn [Model.trunc_loop] in H. destruct shape as [|n shape]; [inversion H; subst; auto|].
    destruct (existsb (Nat.eqb 0) (n :: shape)) eqn:Ez; [inversion H; subst; auto|].
    destruct (best_axis (n :: shape) f) as [ax e2] eqn:Eb.
    assert (Hne : n :: shape <> []) by discriminate.
    destruct (best_axis_spec _ _ _ _ Hne Eb) as [Hax ->].
    cbv zeta in H.
    destruct (rltb tolsq (total + slice_sq (n :: shape) f ax)) eqn:Et; [inversion H; subst; auto|].
    destruct (IH _ _ _ _ _ _ H) as [I1 I2]. split.
    + rewrite <- I1. rewrite (sqnorm_dec_axis (n :: shape) f ax Hax (existsb_zero_false _ _ Ez Hax)). ring.
    + intros _. apply I2. exact Et.
Qed.

(* find_truncation_rank never discards more than tol^2: the squared Frobenius norm outside the
   returned shape is exactly the accumulated error e, and [tol^2 < e] is false *)
Lemma truncation_bound (X : full) tolsq shape' e :
  rltb tolsq 0 = false ->
  Model.find_truncation_rank R rO radd rmul rltb X tolsq = (shape', e) ->
  sqnorm (fsh X) (fe X) = sqnorm shape' (fe X) + e /\ rltb tolsq e = false.
Proof.
  intros H0 H. unfold Model.find_truncation_rank in H.
  destruct (trunc_loop_inv _ _ _ _ _ _ _ H) as [I1 I2]. split; [|auto].
  rewrite <- I1. ring.
Qed.

(* the loop of apply_tprod (tensor.py:128-137) computes the multi-way product *)
Local Notation tprod_step := (Model.tprod_step R rO radd rmul).
Local Notation tprod_loop := (Model.tprod_loop R rO radd rmul).

(* invariant after the operators [post] (the last |post| ones) have been processed:
   the processed axes A sit in front, the unprocessed ones Xp behind them, then the trailing axes *)
Lemma tprod_loop_inv n (f : list nat -> R) : forall post A Xp tr,
  length A = length post -> (length Xp + length post = n)%nat ->
  fold_left (fun g ob => tprod_step n ob g) (rev post) f (A ++ Xp ++ tr)
  = tprod post (fun rest => f (Xp ++ rest)) (A ++ tr).
Proof.
  induction post as [|ob post IH]; intros A Xp tr HA Hn.
  - destruct A; [|discriminate]. reflexivity.
  - destruct A as [|a A]; [discriminate|]. simpl in HA, Hn.
    simpl rev. rewrite fold_left_app. simpl fold_left.
    set (G := fold_left (fun g ob0 => tprod_step n ob0 g) (rev post) f).
    assert (HG : forall j, G (insert_at (n - 1) j (A ++ Xp ++ tr))
                           = tprod post (fun rest => f (Xp ++ j :: rest)) (A ++ tr)).
    { intros j. unfold insert_at.
      destruct (firstn_skipn_exact (A ++ Xp) tr (n - 1)) as [F Sk].
      { rewrite app_length. lia. }
      rewrite app_assoc, F, Sk, <- app_assoc.
      replace (Xp ++ j :: tr) with ((Xp ++ [j]) ++ tr) by (rewrite <- app_assoc; reflexivity).
      unfold G. rewrite (IH A (Xp ++ [j]) tr) by (try rewrite app_length; simpl; lia).
      apply tprod_ext. intros J. rewrite <- app_assoc. reflexivity. }
    simpl. destruct ob as [B|].
    + apply sumn_ext. intros j _. f_equal. apply HG.
    + apply HG.
Qed.

Lemma tprod_loop_spec Bs f idx :
  length Bs <= length idx -> tprod_loop Bs f idx = tprod Bs f idx.
Proof.
  intros H. unfold Model.tprod_loop.
  pose proof (tprod_loop_inv (length Bs) f Bs (firstn (length Bs) idx) [] (skipn (length Bs) idx)) as P.
  cbn [app] in P. rewrite firstn_skipn in P. rewrite P.
  - apply tprod_ext. reflexivity.
  - rewrite firstn_length. lia.
  - reflexivity.
Qed.

(* CanonicalOperator.slice (tensor.py:1259-1263) *)
Lemma kterm_slice term : forall (lims : list (nat * nat)) I J,
  length lims = length term ->
  kterm (map (fun p => Model.mat_sub_block R (fst p) (fst (snd p)) (snd (snd p))) (combine term lims)) I J
  = kterm term (add_idx I (map fst lims)) (add_idx J (map fst lims)).
Proof.
  induction term as [|A term IH]; intros [|[lo hi] lims] I J HL; simpl in *; try discriminate.
  - destruct I, J; reflexivity.
  - destruct I as [|i I], J as [|j J]; simpl; try reflexivity.
    rewrite IH by lia. rewrite (Nat.add_comm lo i), (Nat.add_comm lo j). reflexivity.
Qed.

(* entry (I,J) of asmatrix(A.slice(limits)) is entry (lo+I, lo+J) of asmatrix(A) *)
Lemma canop_slice_spec Op lims I J :
  Forall (fun t => length t = length lims) Op ->
  kentry (Model.canop_slice R Op lims) I J
  = kentry Op (add_idx I (map fst lims)) (add_idx J (map fst lims)).
Proof.
  intros H. unfold Model.kentry, Model.canop_slice. rewrite map_map.
  apply rsum_map_ext. intros t Ht. rewrite Forall_forall in H.
  apply kterm_slice. symmetry. apply H. exact Ht.
Qed.

(* pad (tensor.py:246-267) *)
Local Notation pad_mat := (Model.pad_mat R rO rI).

Lemma sumn_pad n b a i (g : nat -> R) :
  sumn n (fun j => me (pad_mat n b a) i j * g j)
  = if (b <=? i)%nat && (i - b <? n)%nat then g (i - b)%nat else 0.
Proof.
  simpl. destruct (Nat.leb_spec b i); simpl.
  - destruct (Nat.ltb_spec (i - b) n).
    + rewrite (sumn_ext _ _ (fun j => if ((i - b) =? j)%nat then g j else 0)).
      * apply sumn_delta. assumption.
      * intros j _. destruct ((i - b) =? j)%nat; ring.
    + apply sumn_zero. intros j Hj. destruct (Nat.eqb_spec (i - b) j); [lia|ring].
  - apply sumn_zero. intros j _. ring.
Qed.

Definition pad_ops_of (widths : list (option (nat * nat))) (shape : list nat) : list (option mat) :=
  map (fun p => match fst p with None => None | Some (b, a) => Some (pad_mat (snd p) b a) end) (combine widths shape).
Definition pad_before (widths : list (option (nat * nat))) : list nat :=
  map (fun w => match w with None => 0%nat | Some (b, _) => b end) widths.

(* apply_tprod with the padding matrices = np.pad with zeros: entry idx is X[idx - before] inside the
   original block and 0 outside *)
Lemma pad_tprod widths : forall shape (f : list nat -> R) idx,
  length shape = length widths -> length idx = length widths ->
  (forall J, all_lt J shape = false -> f J = 0) ->
  tprod (pad_ops_of widths shape) f idx
  = if all_ge idx (pad_before widths) && all_lt (sub_idx idx (pad_before widths)) shape
    then f (sub_idx idx (pad_before widths)) else 0.
Proof.
  induction widths as [|w widths IH]; intros [|n shape] f [|i idx] HS HI Hf; simpl in HS, HI; try discriminate.
  - reflexivity.
  - assert (IHj : forall j, tprod (pad_ops_of widths shape) (fun rest => f (j :: rest)) idx
                 = if all_ge idx (pad_before widths) && all_lt (sub_idx idx (pad_before widths)) shape
                   then f (j :: sub_idx idx (pad_before widths)) else 0).
    { intros j. apply IH; [lia|lia|]. intros J HJ. apply Hf. simpl. rewrite HJ. apply andb_false_r. }
    unfold pad_ops_of, pad_before. cbn [map combine fst snd].
    fold (pad_before widths). fold (pad_ops_of widths shape).
    set (C := all_ge idx (pad_before widths) && all_lt (sub_idx idx (pad_before widths)) shape) in *.
    set (S' := sub_idx idx (pad_before widths)) in *.
    destruct w as [[b a]|]; cbn [Model.tprod all_ge all_lt sub_idx].
    + rewrite (sumn_ext _ _ (fun j => me (pad_mat n b a) i j * (if C then f (j :: S') else 0)))
        by (intros j _; rewrite IHj; reflexivity).
      rewrite sumn_pad. subst C S'.
      destruct (b <=? i)%nat, (i - b <? n)%nat, (all_ge idx (pad_before widths)),
               (all_lt (sub_idx idx (pad_before widths)) shape);
        simpl; reflexivity.
    + rewrite IHj. replace (i - 0)%nat with i by lia. subst C S'.
      destruct (i <? n)%nat eqn:E, (all_ge idx (pad_before widths)),
               (all_lt (sub_idx idx (pad_before widths)) shape); simpl; try reflexivity.
      apply Hf. simpl. rewrite E. reflexivity.
Qed.

Local Notation canon_nway_spec := (Proofs.canon_nway_spec R rO rI radd rmul rsub ropp Rth).
Local Notation tucker_nway_spec := (Proofs.tucker_nway_spec R rO rI radd rmul rsub ropp Rth).

Lemma pad_ops_full (Bs : list (option mat)) d : length Bs = d -> pad_ops R Bs d = Bs.
Proof. intros <-. unfold pad_ops. rewrite Nat.sub_diag. simpl. apply app_nil_r. Qed.

Lemma pad_ops_of_length widths shape : length shape = length widths -> length (pad_ops_of widths shape) = length widths.
Proof. intros H. unfold pad_ops_of. rewrite map_length, combine_length. lia. Qed.

(* pad of a canonical / Tucker tensor expands to the padded full array *)
Lemma pad_canon_spec widths (A : list mat) idx :
  length A = length widths -> length idx = length widths ->
  (forall J, all_lt J (Model.cshape R A) = false -> centry A J = 0) ->
  centry (Model.factors_nway R rO radd rmul (pad_ops_of widths (Model.cshape R A)) A) idx
  = if all_ge idx (pad_before widths) && all_lt (sub_idx idx (pad_before widths)) (Model.cshape R A)
    then centry A (sub_idx idx (pad_before widths)) else 0.
Proof.
  intros HA HI Hf.
  assert (HL : length (Model.cshape R A) = length widths) by (unfold Model.cshape; rewrite map_length; exact HA).
  rewrite canon_nway_spec by (rewrite ?pad_ops_of_length; lia).
  rewrite pad_ops_full by (rewrite pad_ops_of_length; lia).
  apply pad_tprod; assumption.
Qed.

Lemma pad_tucker_spec widths (Us : list mat) X idx :
  length Us = length widths -> length idx = length widths ->
  (forall J, all_lt J (Model.tshape R Us) = false -> tentry Us X J = 0) ->
  tentry (Model.factors_nway R rO radd rmul (pad_ops_of widths (Model.tshape R Us)) Us) X idx
  = if all_ge idx (pad_before widths) && all_lt (sub_idx idx (pad_before widths)) (Model.tshape R Us)
    then tentry Us X (sub_idx idx (pad_before widths)) else 0.
Proof.
  intros HA HI Hf.
  assert (HL : length (Model.tshape R Us) = length widths) by (unfold Model.tshape; rewrite map_length; exact HA).
  rewrite tucker_nway_spec by (rewrite ?pad_ops_of_length; lia).
  rewrite pad_ops_full by (rewrite pad_ops_of_length; lia).
  apply pad_tprod; assumption.
Qed.

(* squeeze of a canonical tensor (tensor.py:825-847) *)
(* positional versions: the factors kept / multiplied up, scanning the axes k, k+1, ...; the model
   addresses the same factors by position (nth over seq), which is the scan of a tabulated list *)
Fixpoint keep {A} (k : nat) (Ys : list A) (axes : list nat) : list A :=
  match Ys with
  | [] => []
  | Y :: Ys' => if memb k axes then keep (S k) Ys' axes else Y :: keep (S k) Ys' axes
  end.
Fixpoint sqpos (k : nat) (Ys : list mat) (axes : list nat) (r : nat) : R :=
  match Ys with
  | [] => 1
  | Y :: Ys' => if memb k axes then me Y 0%nat r * sqpos (S k) Ys' axes r else sqpos (S k) Ys' axes r
  end.

Lemma cterm_unsqueeze Ys : forall k axes idx r,
  length idx = length (keep k Ys axes) ->
  cterm Ys (unsqueeze_aux k (length Ys) axes idx) r = sqpos k Ys axes r * cterm (keep k Ys axes) idx r.
Proof.
  induction Ys as [|Y Ys IH]; intros k axes idx r HL; simpl in *.
  - ring.
  - destruct (memb k axes).
    + simpl. rewrite IH by exact HL. ring.
    + destruct idx as [|i idx]; [discriminate|]. simpl in *. rewrite IH by lia. ring.
Qed.

Lemma keep_map_seq {A} (g : nat -> A) axes n : forall k,
  keep k (map g (seq k n)) axes = map g (filter (fun i => negb (memb i axes)) (seq k n)).
Proof.
  induction n as [|n IH]; intros k; simpl; [reflexivity|].
  rewrite IH. destruct (memb k axes); reflexivity.
Qed.

Lemma keep_is_pick {A} (d0 : A) (Xs : list A) axes :
  keep 0 Xs axes = pick Xs (remaining (length Xs) axes) d0.
Proof. unfold pick, remaining. rewrite <- keep_map_seq, map_nth_seq. reflexivity. Qed.

Lemma keep_nil {A} (Ys : list A) : forall k, keep k Ys [] = Ys.
Proof. induction Ys as [|Y Ys IH]; intros k; simpl; [|rewrite IH]; reflexivity. Qed.

(* products over a list of axes do not depend on the order *)
Definition rprodl (g : nat -> R) (l : list nat) : R := fold_right (fun i acc => g i * acc) 1 l.

Lemma rprodl_perm g l1 l2 : Permutation l1 l2 -> rprodl g l1 = rprodl g l2.
Proof.
  induction 1; simpl; try ring.
  - rewrite IHPermutation. reflexivity.
  - rewrite IHPermutation1. exact IHPermutation2.
Qed.

Lemma sqpos_map_seq (g : nat -> mat) axes r n : forall k,
  sqpos k (map g (seq k n)) axes r
  = rprodl (fun i => me (g i) 0%nat r) (filter (fun i => memb i axes) (seq k n)).
Proof.
  induction n as [|n IH]; intros k; simpl; [reflexivity|].
  rewrite IH. destruct (memb k axes); reflexivity.
Qed.

Lemma sq_factor_sqpos Xs axes r :
  NoDup axes -> (forall a, In a axes -> a < length Xs) ->
  Model.sq_factor R rI rmul Xs axes r = sqpos 0 Xs axes r.
Proof.
  intros ND HB. rewrite <- (map_nth_seq (Model.mkmat R 0 0 (fun _ _ => 1)) Xs) at 2.
  rewrite sqpos_map_seq. apply rprodl_perm. apply NoDup_Permutation.
  - exact ND.
  - apply NoDup_filter. apply seq_NoDup.
  - intros a. rewrite filter_In, in_seq, memb_In. split.
    + intros Ha. split; [|exact Ha]. specialize (HB a Ha). lia.
    + intros [_ Ha]. exact Ha.
Qed.

Definition uniform := (Proofs.uniform R).

Lemma keep_uniform (Xs : list mat) rk : forall k axes, uniform Xs rk -> uniform (keep k Xs axes) rk.
Proof.
  induction Xs as [|X Xs IH]; intros k axes H; simpl; [constructor|].
  inversion H; subst. destruct (memb k axes); [apply IH; assumption|constructor; [reflexivity|apply IH; assumption]].
Qed.

(* squeeze(axis=axes): entry idx of the squeezed tensor is the entry of the original with 0 at the
   squeezed axes, for any duplicate-free set of axes that leaves at least one axis *)
Lemma canon_squeeze_spec Xs axes idx :
  uniform Xs (crank Xs) -> NoDup axes -> (forall a, In a axes -> a < length Xs) ->
  keep 0 Xs axes <> [] -> length idx = length (keep 0 Xs axes) ->
  centry (Model.canon_squeeze_some R rO rI rmul Xs axes) idx = centry Xs (unsqueeze (length Xs) axes idx).
Proof.
  intros HU ND HB Hne HL. unfold Model.canon_squeeze_some.
  rewrite <- (keep_is_pick (Model.mkmat R 0 0 (fun _ _ => 0)) Xs axes).
  pose proof (keep_uniform Xs (crank Xs) 0 axes HU) as HK.
  destruct (keep 0 Xs axes) as [|X rest] eqn:EK; [congruence|].
  unfold Model.centry at 1 2. simpl Model.crank at 1.
  inversion HK as [|? ? H1 H2]; subst. simpl Model.mc. rewrite H1. apply sumn_ext. intros r _.
  unfold unsqueeze. rewrite cterm_unsqueeze by (rewrite EK; exact HL).
  rewrite EK. destruct idx as [|i idx]; [discriminate|]. simpl.
  rewrite sq_factor_sqpos by assumption. ring.
Qed.

(* squeeze of a Tucker tensor (tensor.py:1011-1030) *)
Fixpoint sqopsp (k : nat) (Ys : list mat) (axes : list nat) : list (option mat) :=
  match Ys with
  | [] => []
  | Y :: Ys' => (if memb k axes then Some Y else None) :: sqopsp (S k) Ys' axes
  end.

Lemma sqopsp_map_seq (g : nat -> mat) axes n : forall k,
  sqopsp k (map g (seq k n)) axes = map (fun k => if memb k axes then Some (g k) else None) (seq k n).
Proof. induction n as [|n IH]; intros k; simpl; [|rewrite IH]; reflexivity. Qed.

Lemma tprod_unsqueeze Ys : forall k axes (f : list nat -> R) idx,
  length idx = length (keep k Ys axes) ->
  tprod (map Some Ys) f (unsqueeze_aux k (length Ys) axes idx)
  = tprod (map Some (keep k Ys axes))
          (fun J' => tprod (sqopsp k Ys axes) f (unsqueeze_aux k (length Ys) axes J')) idx.
Proof.
  induction Ys as [|Y Ys IH]; intros k axes f idx HL.
  - reflexivity.
  - cbn [length unsqueeze_aux keep sqopsp map] in *. destruct (memb k axes) eqn:Em.
    + cbn [Model.tprod].
      rewrite (sumn_ext _ _ (fun j => tprod (map Some (keep (S k) Ys axes))
                 (fun J' => me Y 0%nat j * tprod (sqopsp (S k) Ys axes) (fun rest => f (j :: rest))
                                                 (unsqueeze_aux (S k) (length Ys) axes J')) idx)).
      2:{ intros j _. rewrite IH by exact HL. rewrite tprod_scale. reflexivity. }
      rewrite <- (tprod_sumn (map Some (keep (S k) Ys axes)) (mc Y)
                   (fun j J' => me Y 0%nat j * tprod (sqopsp (S k) Ys axes) (fun rest => f (j :: rest))
                                                    (unsqueeze_aux (S k) (length Ys) axes J'))).
      apply tprod_ext. intros J. reflexivity.
    + destruct idx as [|i idx]; [discriminate|]. cbn [map Model.tprod].
      apply sumn_ext. intros j _. f_equal. simpl in HL.
      rewrite IH by lia. apply tprod_ext. intros J. reflexivity.
Qed.

Lemma tprod_shape_length (Bs : list (option mat)) : forall shape, length (tprod_shape R Bs shape) = length shape.
Proof.
  induction Bs as [|ob Bs IH]; intros [|n shape]; simpl; try reflexivity. rewrite IH. reflexivity.
Qed.

(* squeeze(axis=axes) of a Tucker tensor: entry idx of the result is the entry of the original with 0
   at the squeezed axes *)
Lemma tucker_squeeze_spec (Us : list mat) X axes idx :
  Proofs.core_ok R Us X -> length idx = length (keep 0 Us axes) ->
  let '(Us', X') := Model.tucker_squeeze_some R rO radd rmul Us X axes in
  tentry Us' X' idx = tentry Us X (unsqueeze (length Us) axes idx).
Proof.
  intros HC HL. unfold Model.tucker_squeeze_some, Model.tentry, Model.full_squeeze, Model.full_tprod.
  cbn [Model.fsh Model.fe].
  rewrite tprod_shape_length. unfold Proofs.core_ok in HC. rewrite HC, map_length.
  rewrite <- (keep_is_pick (Model.mkmat R 0 0 (fun _ _ => 0)) Us axes).
  unfold unsqueeze. rewrite tprod_unsqueeze by exact HL.
  apply tprod_ext. intros J. unfold Model.tucker_sq_ops.
  rewrite <- sqopsp_map_seq, map_nth_seq. reflexivity.
Qed.

(* __getitem__ (tensor.py:849-853, 1032-1036): row selection, then squeeze of the axes indexed by an int,
   here given by flags *)
Fixpoint unsqb (flags : list bool) (idx : list nat) : list nat :=
  match flags with
  | [] => []
  | true :: fl => 0%nat :: unsqb fl idx
  | false :: fl => match idx with [] => 0%nat :: unsqb fl [] | i :: idx' => i :: unsqb fl idx' end
  end.
Fixpoint keepb {A} (Ys : list A) (flags : list bool) : list A :=
  match Ys, flags with
  | Y :: Ys', true :: fl => keepb Ys' fl
  | Y :: Ys', false :: fl => Y :: keepb Ys' fl
  | _, _ => []
  end.

Lemma sel_bounds ax : forall k x, In x (sel_singletons k ax) -> k <= x < k + length ax.
Proof.
  induction ax as [|a ax IH]; intros k x H; simpl in *; [destruct H|].
  destruct (snd a).
  - destruct H as [<-|H]; [lia|]. apply IH in H. lia.
  - apply IH in H. lia.
Qed.

Lemma memb_sel_head a ax k : memb k (sel_singletons k (a :: ax)) = snd a.
Proof.
  simpl. destruct (snd a); simpl.
  - unfold memb; simpl. rewrite Nat.eqb_refl. reflexivity.
  - destruct (memb k (sel_singletons (S k) ax)) eqn:E; [|reflexivity].
    apply memb_In, sel_bounds in E. lia.
Qed.

Lemma memb_sel_tail a ax k j : k < j -> memb j (sel_singletons k (a :: ax)) = memb j (sel_singletons (S k) ax).
Proof.
  intros H. simpl. destruct (snd a); [|reflexivity].
  unfold memb; simpl. destruct (Nat.eqb_spec j k); [lia|reflexivity].
Qed.

(* the flags are the characteristic function of the axes *)
Lemma unsq_memb d axes : forall k idx,
  unsqueeze_aux k d axes idx = unsqb (map (fun j => memb j axes) (seq k d)) idx.
Proof.
  induction d as [|d IH]; intros k idx; simpl; [reflexivity|].
  destruct (memb k axes); [|destruct idx]; rewrite IH; reflexivity.
Qed.

Lemma keep_memb {A} (Ys : list A) axes : forall k,
  keep k Ys axes = keepb Ys (map (fun j => memb j axes) (seq k (length Ys))).
Proof.
  induction Ys as [|Y Ys IH]; intros k; simpl; [reflexivity|].
  destruct (memb k axes); rewrite IH; reflexivity.
Qed.

Lemma sel_flags ax : forall k,
  map (fun j => memb j (sel_singletons k ax)) (seq k (length ax)) = map snd ax.
Proof.
  induction ax as [|a ax IH]; intros k; [reflexivity|].
  cbn [length seq map]. rewrite memb_sel_head. f_equal. rewrite <- (IH (S k)).
  apply map_ext_in. intros j Hj. apply in_seq in Hj. apply memb_sel_tail. lia.
Qed.

Lemma unsq_flags ax idx : unsqueeze (length ax) (sel_singletons 0 ax) idx = unsqb (map snd ax) idx.
Proof. unfold unsqueeze. rewrite unsq_memb, sel_flags. reflexivity. Qed.

Lemma keep_flags {A} ax (Ys : list A) :
  length Ys = length ax -> keep 0 Ys (sel_singletons 0 ax) = keepb Ys (map snd ax).
Proof. intros HY. rewrite keep_memb, HY, sel_flags. reflexivity. Qed.

Lemma sel_NoDup ax : forall k, NoDup (sel_singletons k ax).
Proof.
  induction ax as [|a ax IH]; intros k; simpl; [constructor|].
  destruct (snd a); [|apply IH]. constructor; [|apply IH].
  intros H. apply sel_bounds in H. lia.
Qed.

Lemma sel_length ax : forall k, length (sel_singletons k ax) = length (filter (fun b => b) (map snd ax)).
Proof.
  induction ax as [|a ax IH]; intros k; simpl; [reflexivity|].
  destruct (snd a); simpl; rewrite IH; reflexivity.
Qed.

Lemma keepb_length {A} : forall (Ys : list A) flags, length Ys = length flags ->
  (length (keepb Ys flags) + length (filter (fun b => b) flags) = length Ys)%nat.
Proof.
  induction Ys as [|Y Ys IH]; intros [|[|] fl] H; simpl in *; try discriminate; try reflexivity;
    specialize (IH fl ltac:(lia)); lia.
Qed.

Lemma unsqb_all_true flags idx : filter negb flags = [] -> unsqb flags idx = repeat 0%nat (length flags).
Proof.
  revert idx. induction flags as [|[|] fl IH]; intros idx H; simpl in *; [reflexivity| |discriminate].
  f_equal. apply IH, H.
Qed.

Lemma unsqb_all_false flags idx : filter (fun b => b) flags = [] -> length idx = length flags ->
  unsqb flags idx = idx.
Proof.
  revert idx. induction flags as [|[|] fl IH]; intros [|i idx] H HL; simpl in *; try discriminate; try reflexivity.
  f_equal. apply IH; [exact H|lia].
Qed.

Lemma unsqb_length : forall flags idx, length (unsqb flags idx) = length flags.
Proof.
  induction flags as [|[|] fl IH]; intros idx; simpl; [reflexivity|rewrite IH; reflexivity|].
  destruct idx; simpl; rewrite IH; reflexivity.
Qed.

Local Notation entry := (Model.entry R rO rI radd rmul).

(* the formats squeeze is defined for, with their class invariants *)
Definition sq_ok (t : Model.tens R) : Prop :=
  match t with
  | TCanon _ Xs => uniform Xs (crank Xs)
  | TTucker _ Us X => Proofs.core_ok R Us X
  | _ => False
  end.

(* squeeze at the axes flagged in ax, for either format: entry idx' of the result (a tensor over the
   unflagged axes, the tensor itself if there is no flag, the scalar entry if all are flagged) is the
   entry of the original with 0 at the flagged axes *)
Lemma squeeze_sel_spec (t : Model.tens R) ax t' idx' :
  sq_ok t -> length (Model.shape_of R t) = length ax ->
  Model.squeeze_axes R rO rI radd rmul t (sel_singletons 0 ax) = Ok t' ->
  length idx' = length (filter negb (map snd ax)) ->
  entry t' idx' = entry t (unsqb (map snd ax) idx').
Proof.
  intros Hok Hd HG HL.
  pose proof (flags_count (map snd ax)) as Hcnt. rewrite map_length in Hcnt.
  unfold Model.squeeze_axes in HG. rewrite Hd in HG.
  destruct (negb (forallb _ (sel_singletons 0 ax))); [discriminate|].
  pose proof (sel_length ax 0) as Hsel.
  destruct (sel_singletons 0 ax) as [|s0 srest] eqn:ES.
  - (* no flag *)
    inversion HG; subst t'. simpl in Hsel.
    rewrite unsqb_all_false; [reflexivity| |rewrite map_length; lia].
    destruct (filter (fun b => b) (map snd ax)); [reflexivity|discriminate].
  - rewrite <- ES in *. clear s0 srest ES.
    destruct (Nat.eqb_spec (length (sel_singletons 0 ax)) (length ax)) as [Eall|Enot].
    + (* every axis flagged *)
      inversion HG; subst t'. unfold Model.zeros_idx.
      rewrite unsqb_all_true by (apply length_zero_iff_nil; lia). rewrite map_length. reflexivity.
    + assert (HK : forall (A : Type) (Ys : list A), length Ys = length ax ->
                     length idx' = length (keep 0 Ys (sel_singletons 0 ax))).
      { intros A Ys HY. rewrite (keep_flags ax Ys HY).
        pose proof (keepb_length Ys (map snd ax)) as P. rewrite map_length in P. specialize (P HY). lia. }
      destruct t as [a|A|Xs|Us X]; try discriminate; cbn [sq_ok Model.shape_of] in Hok, Hd.
      * unfold Model.cshape in Hd. rewrite map_length in Hd.
        inversion HG; subst t'. unfold Model.entry; simpl.
        rewrite canon_squeeze_spec.
        -- rewrite Hd, unsq_flags. reflexivity.
        -- exact Hok.
        -- apply sel_NoDup.
        -- intros a Ha. apply sel_bounds in Ha. lia.
        -- intros E. apply (f_equal (@length _)) in E. rewrite <- HK in E by exact Hd. simpl in E. lia.
        -- apply HK, Hd.
      * unfold Model.tshape in Hd. rewrite map_length in Hd.
        pose proof (tucker_squeeze_spec Us X (sel_singletons 0 ax) idx' Hok (HK _ Us Hd)) as P.
        destruct (Model.tucker_squeeze_some R rO radd rmul Us X (sel_singletons 0 ax)) as [Us' X'].
        inversion HG; subst t'. unfold Model.entry; simpl. rewrite P, Hd, unsq_flags. reflexivity.
Qed.

Local Notation rows := (fun (Xs : list mat) (rss : list (list nat)) =>
  map (fun p => Model.mat_rows R (fst p) (snd p)) (combine Xs rss)).

Lemma rows_uniform (Xs : list mat) rk : forall rss, uniform Xs rk -> uniform (rows Xs rss) rk.
Proof.
  induction Xs as [|X Xs IH]; intros [|rs rss] H; simpl; try constructor.
  - inversion H; subst. reflexivity.
  - apply IH. inversion H; assumption.
Qed.

(* row selection U_k[I_k] of every factor (first half of TuckerTensor.__getitem__, tensor.py:1034) *)
Lemma tucker_rows_spec (Us : list mat) : forall rss (f : list nat -> R) idx,
  length rss = length Us -> length idx = length Us ->
  tprod (map Some (rows Us rss)) f idx = tprod (map Some Us) f (sel_idx rss idx).
Proof.
  unfold sel_idx.
  induction Us as [|U Us IH]; intros [|rs rss] f [|i idx] HL HI; simpl in *; try discriminate; [reflexivity|].
  apply sumn_ext. intros j _. f_equal. apply IH; lia.
Qed.

Lemma rows_core_ok (Us : list mat) X rss : length rss = length Us ->
  Proofs.core_ok R Us X -> Proofs.core_ok R (rows Us rss) X.
Proof.
  unfold Proofs.core_ok. intros HL H. rewrite H. clear H. revert rss HL.
  induction Us as [|U Us IH]; intros [|rs rss] HL; simpl in *; try discriminate; [reflexivity|].
  f_equal. apply IH. lia.
Qed.

Local Notation canon_rows_spec := (Proofs.canon_rows_spec R rO rI radd rmul).
Local Notation getitem := (Model.getitem R rO rI radd rmul).

(* __getitem__ in full, for either format and EVERY index expression that is accepted: entry idx' of the
   result (idx' ranging over the axes that are not dropped) is the entry of the original tensor at the
   selected positions, with the (single) selected position at every axis indexed by an int.
   An all-int expression returns the scalar entry. *)
Lemma getitem_spec (t : Model.tens R) II ax t' idx' :
  sq_ok t ->
  normalize_indices II (Model.shape_of R t) = Ok ax ->
  getitem t II = Ok t' ->
  length idx' = length (filter negb (map snd ax)) ->
  entry t' idx' = entry t (sel_idx (sel_ranges ax) (unsqb (map snd ax) idx')).
Proof.
  intros Hok HN HG HL.
  destruct (normalize_indices_ok _ _ _ HN) as [_ [Hax _]].
  unfold Model.getitem in HG. rewrite HN in HG. cbn [bind] in HG.
  assert (Hsel : length (sel_ranges ax) = length ax) by apply map_length.
  destruct t as [a|A|Xs|Us X]; try contradiction; cbn [Model.shape_of sq_ok] in *.
  - unfold Model.cshape in Hax. rewrite map_length in Hax. rewrite Hax in Hsel.
    rewrite (squeeze_sel_spec (Model.TCanon R (rows Xs (sel_ranges ax))) ax t' idx');
      [exact (canon_rows_spec Xs (sel_ranges ax) _ Hsel)| | |exact HG|exact HL].
    + cbn [sq_ok]. replace (crank (rows Xs (sel_ranges ax))) with (crank Xs).
      * apply rows_uniform. exact Hok.
      * destruct Xs, ax; try discriminate; reflexivity.
    + cbn [Model.shape_of]. unfold Model.cshape. rewrite !map_length, combine_length. lia.
  - unfold Model.tshape in Hax. rewrite map_length in Hax. rewrite Hax in Hsel.
    rewrite (squeeze_sel_spec (Model.TTucker R (rows Us (sel_ranges ax)) X) ax t' idx');
      [|exact (rows_core_ok Us X _ Hsel Hok)| |exact HG|exact HL].
    + apply (tucker_rows_spec Us (sel_ranges ax) (fe X) _ Hsel).
      rewrite unsqb_length, map_length. exact Hax.
    + cbn [Model.shape_of]. unfold Model.tshape. rewrite !map_length, combine_length. lia.
Qed.

(* CanonicalTensor.from_tensor(TuckerTensor) (tensor.py:744-754) *)
Variable nonzero : R -> bool.
Local Notation tprod_kterm := (Proofs.tprod_kterm R rO rI radd rmul rsub ropp Rth).

Lemma ksum_ndindex dims : forall g : list nat -> R, ksum dims g = rsum (map g (ndindex dims)).
Proof.
  unfold ndindex. induction dims as [|n dims IH]; intros g; simpl.
  - ring.
  - rewrite rsum_flat_map. unfold Model.sumn. apply rsum_map_ext. intros k _.
    rewrite map_map. apply IH.
Qed.

Lemma rsum_filter_zero {A} (p : A -> bool) (h : A -> R) l :
  (forall x, p x = false -> h x = 0) -> rsum (map h (filter p l)) = rsum (map h l).
Proof.
  intros H. induction l as [|x l IH]; simpl; [reflexivity|].
  destruct (p x) eqn:E; simpl; rewrite IH; [reflexivity|]. rewrite (H x E). ring.
Qed.

Lemma sumn_nth {A} (d0 : A) (h : A -> R) l : sumn (length l) (fun t => h (nth t l d0)) = rsum (map h l).
Proof.
  induction l as [|x l IH]; simpl length; [reflexivity|].
  rewrite sumn_S. simpl. rewrite IH. reflexivity.
Qed.

Lemma product_length_elt : forall (ls : list (list nat)) J, In J (product ls) -> length J = length ls.
Proof.
  induction ls as [|l ls IH]; intros J H; simpl in H.
  - destruct H as [<-|[]]. reflexivity.
  - apply in_flat_map in H. destruct H as [x [_ H]]. apply in_map_iff in H. destruct H as [J' [<- H]].
    simpl. f_equal. apply IH. exact H.
Qed.

Lemma t2c_tail X inds t (Ys : list mat) : forall k idx,
  1 <= k -> k + length Ys <= length (nth t inds []) ->
  cterm (map (fun p => Model.t2c_factor R rmul (fst p) (snd p) X inds) (combine (seq k (length Ys)) Ys)) idx t
  = kterm Ys idx (skipn k (nth t inds [])).
Proof.
  induction Ys as [|Y Ys IH]; intros k idx Hk HL; simpl in *.
  - reflexivity.
  - destruct idx as [|i idx]; [reflexivity|].
    rewrite (skipn_cons_nth 0%nat) by lia. simpl.
    destruct (Nat.eqb_spec k 0); [lia|]. rewrite IH by lia. reflexivity.
Qed.

(* exact whenever the dropped core entries (abs(a) <= 1e-15 in the code) are exactly zero *)
Lemma tucker_to_canon_spec (Us : list mat) X idx :
  (forall a, nonzero a = false -> a = 0) ->
  Proofs.core_ok R Us X -> Us <> [] -> length idx = length Us ->
  centry (Model.tucker_to_canon R rO rmul nonzero Us X) idx = tentry Us X idx.
Proof.
  intros Hnz HC Hne HI. unfold Proofs.core_ok in HC.
  unfold Model.tentry. rewrite tprod_kterm by exact HI. rewrite ksum_ndindex, <- HC.
  rewrite <- (rsum_filter_zero (fun index => nonzero (fe X index))).
  2:{ intros J HJ. rewrite (Hnz _ HJ). ring. }
  unfold Model.tucker_to_canon. fold (Model.t2c_indices R nonzero X).
  set (inds := Model.t2c_indices R nonzero X).
  assert (Hin : forall J, In J inds -> length J = length Us).
  { intros J HJ. unfold inds, Model.t2c_indices in HJ. apply filter_In in HJ. destruct HJ as [HJ _].
    unfold ndindex in HJ. apply product_length_elt in HJ. rewrite map_length, HC, map_length in HJ. exact HJ. }
  unfold Model.t2c_indices in inds. fold inds.
  destruct Us as [|U Us]; [congruence|]. destruct idx as [|i idx]; [discriminate|].
  destruct inds as [|J0 inds'] eqn:EI.
  - unfold Model.centry. simpl. reflexivity.
  - rewrite <- EI in *. clear J0 inds' EI.
    rewrite <- (sumn_nth (@nil nat)).
    unfold Model.centry. cbn [length seq combine map Model.crank Model.t2c_factor Model.mc].
    apply sumn_ext. intros t Ht.
    assert (HJ : length (nth t inds []) = S (length Us)) by (apply Hin, nth_In; exact Ht).
    cbn [Model.cterm Model.me]. simpl Nat.eqb. cbv iota.
    rewrite (t2c_tail X inds t Us 1 idx) by lia.
    destruct (nth t inds []) as [|j J] eqn:EJ; [discriminate|]. simpl. rewrite ?EJ. simpl. ring.
Qed.

End RingProofs2.

(* TensorGenerator.__getitem__ (lowrank.py:38-45) *)
Definition prodl (l : list nat) : nat := fold_right Nat.mul 1%nat l.

Lemma product_length : forall ls : list (list nat), length (product ls) = prodl (map (@length nat) ls).
Proof.
  induction ls as [|l ls IH]; simpl; [reflexivity|].
  rewrite <- IH. generalize (product ls) as P. intros P.
  induction l as [|x l IHl]; simpl; [reflexivity|]. rewrite app_length, map_length, IHl. reflexivity.
Qed.

Lemma ravel_aux_lin : forall shape idx acc, length idx = length shape ->
  ravel_aux acc shape idx = (acc * prodl shape + ravel_aux 0 shape idx)%nat.
Proof.
  induction shape as [|n shape IH]; intros [|i idx] acc H; simpl in *; try discriminate; [lia|].
  rewrite (IH idx (acc * n + i)%nat) by lia. rewrite (IH idx i) by lia. nia.
Qed.

Lemma ravel_aux_bound : forall shape idx, length idx = length shape -> all_lt idx shape = true ->
  ravel_aux 0 shape idx < prodl shape.
Proof.
  induction shape as [|n shape IH]; intros [|i idx] H Hlt; simpl in *; try discriminate; [lia|].
  apply andb_true_iff in Hlt. destruct Hlt as [Hi Hlt]. apply Nat.ltb_lt in Hi.
  rewrite (ravel_aux_lin shape idx i) by lia. specialize (IH idx ltac:(lia) Hlt). nia.
Qed.

(* entry number ravel(shape, idx) of the cartesian product is the idx-th combination *)
Lemma nth_product : forall (ls : list (list nat)) idx,
  length idx = length ls -> all_lt idx (map (@length nat) ls) = true ->
  nth (ravel (map (@length nat) ls) idx) (product ls) [] = sel_idx ls idx.
Proof.
  unfold ravel, sel_idx.
  induction ls as [|l ls IH]; intros [|i idx] H Hlt; simpl in *; try discriminate; [reflexivity|].
  apply andb_true_iff in Hlt. destruct Hlt as [Hi Hlt]. apply Nat.ltb_lt in Hi.
  rewrite (ravel_aux_lin (map (@length nat) ls) idx i) by (rewrite map_length; lia).
  pose proof (ravel_aux_bound (map (@length nat) ls) idx ltac:(rewrite map_length; lia) Hlt) as Hb.
  rewrite (nth_flat_map_uniform (fun x => map (cons x) (product ls)) (prodl (map (@length nat) ls)) [] 0%nat)
    by (try (intros x _; rewrite map_length; apply product_length); assumption).
  rewrite (nth_indep _ [] (nth i l 0%nat :: [])) by (rewrite map_length, product_length; exact Hb).
  rewrite (map_nth (cons (nth i l 0%nat))). f_equal. apply IH; [lia|exact Hlt].
Qed.

(* dropping unit axes (np.squeeze) does not change the C-order position *)
Lemma ravel_keepb (shape : list nat) flags :
  Forall2 (fun n (b : bool) => b = true -> n = 1) shape flags ->
  forall idx acc, length idx = length (filter negb flags) ->
  ravel_aux acc (keepb shape flags) idx = ravel_aux acc shape (unsqb flags idx).
Proof.
  induction 1 as [|n b shape flags Hn _ IH]; intros idx acc HI; [reflexivity|].
  destruct b; simpl in *.
  - rewrite (Hn eq_refl). replace (acc * 1 + 0) with acc by lia. apply IH, HI.
  - destruct idx as [|i idx]; [discriminate|]. simpl. apply IH. simpl in HI. lia.
Qed.

Lemma all_lt_unsqb (shape : list nat) flags :
  Forall2 (fun n (b : bool) => b = true -> n = 1) shape flags ->
  forall idx, length idx = length (filter negb flags) ->
  all_lt idx (keepb shape flags) = true -> all_lt (unsqb flags idx) shape = true.
Proof.
  induction 1 as [|n b shape flags Hn _ IH]; intros idx HI HA; [reflexivity|].
  destruct b; simpl in *.
  - rewrite (Hn eq_refl). apply IH; assumption.
  - destruct idx as [|i idx]; [discriminate|]. simpl in *.
    apply andb_true_iff in HA. destruct HA as [Hi HA]. rewrite Hi. apply IH; [lia|exact HA].
Qed.

Lemma sel_shape_ranges ax : sel_shape ax = map (@length nat) (sel_ranges ax).
Proof. unfold sel_shape, sel_ranges. rewrite map_map. reflexivity. Qed.

(* the generator's result: shape_new without the axes indexed by an int, and the entries at the
   cartesian product of the selected positions *)
Lemma gen_getitem_ok (R : Type) (shape : list nat) (f : list nat -> R) II ax sh data :
  normalize_indices II shape = Ok ax -> Model.gen_getitem R shape f II = Ok (sh, data) ->
  sh = keepb (sel_shape ax) (map snd ax) /\ data = map f (product (sel_ranges ax)).
Proof.
  intros HN HG. unfold Model.gen_getitem in HG. rewrite HN in HG. inversion HG. split; [|reflexivity].
  assert (Hss : length (sel_shape ax) = length ax) by apply map_length.
  rewrite <- Hss, <- keep_is_pick. apply keep_flags, Hss.
Qed.

Lemma nth_map_product (R : Type) (f : list nat -> R) (ls : list (list nat)) idx d :
  length idx = length ls -> all_lt idx (map (@length nat) ls) = true ->
  nth (ravel (map (@length nat) ls) idx) (map f (product ls)) d = f (sel_idx ls idx).
Proof.
  intros HL Hlt.
  rewrite (nth_indep _ d (f [])).
  - rewrite (map_nth f). f_equal. apply nth_product; assumption.
  - rewrite map_length, product_length. apply ravel_aux_bound; [rewrite map_length|]; assumption.
Qed.
