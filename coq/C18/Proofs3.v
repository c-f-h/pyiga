(* C18 -- proofs: Wedderburn rank reduction of the cross approximation over a field. *)
From Coq Require Import List Arith Bool Lia Ring Field.
From Verif.C18 Require Import Model Proofs.
Import ListNotations.

Section FieldProofs.
Variable F : Type.
Variables (rO rI : F) (radd rmul rsub : F -> F -> F) (ropp : F -> F) (rdiv : F -> F -> F) (rinv : F -> F).
Variable Fth : field_theory rO rI radd rmul rsub ropp rdiv rinv (@eq F).
Let Rth := F_R Fth.
Add Field Ffield : Fth.
(* deciding whether an entry is zero (the code compares with 1e-15) *)
Variable feq_dec : forall x y : F, {x = y} + {x <> y}.

Local Notation "0" := rO.
Local Notation "1" := rI.
Local Infix "+" := radd.
Local Infix "*" := rmul.
Local Infix "-" := rsub.
Local Infix "/" := rdiv.
Local Notation "- x" := (ropp x).
Local Notation sumn := (Model.sumn F rO radd).
Local Notation mat := (Model.mat F).
Local Notation me := (Model.me F).
Local Notation sumn_ext := (Proofs.sumn_ext F rO radd).
Local Notation sumn_add := (Proofs.sumn_add F rO rI radd rmul rsub ropp Rth).
Local Notation sumn_mul_l := (Proofs.sumn_mul_l F rO rI radd rmul rsub ropp Rth).
Local Notation sumn_last := (Proofs.sumn_last F rO rI radd rmul rsub ropp Rth).

(* a residual as an entry function; one cross at pivot (i, j0):  R' = R - R[:,j0] R[i,:] / R[i,j0] *)
Definition wstep (Rm : nat -> nat -> F) (i j0 : nat) : nat -> nat -> F :=
  fun a b => Rm a b - Rm a j0 * Rm i b / Rm i j0.

(* Rm is a sum of r outer products u_k v_k^T *)
Definition outer_sum (r : nat) (u v : nat -> nat -> F) (Rm : nat -> nat -> F) : Prop :=
  forall a b, Rm a b = sumn r (fun k => u k a * v k b).
Definition has_rank (r : nat) (Rm : nat -> nat -> F) : Prop := exists u v, outer_sum r u v Rm.

Lemma has_rank_0 Rm : has_rank 0 Rm -> forall a b, Rm a b = 0.
Proof. intros [u [v H]]. exact H. Qed.

(* dropping the m-th of n+1 terms: a sum of n terms *)
Definition skip (m k : nat) : nat := if (k <? m)%nat then k else S k.

Lemma sumn_skip n m (g : nat -> F) : m <= n -> sumn n (fun k => g (skip m k)) = sumn (S n) g - g m.
Proof.
  intros Hm. induction n as [|n IH].
  - replace m with 0%nat by lia. unfold Model.sumn; simpl. ring.
  - rewrite (sumn_last (S n)). destruct (Nat.eq_dec m (S n)) as [->|Hne].
    + rewrite (sumn_ext _ _ g); [ring|]. intros k Hk. unfold skip.
      destruct (Nat.ltb_spec k (S n)); [reflexivity|lia].
    + rewrite sumn_last, IH by lia. unfold skip. destruct (Nat.ltb_spec n m); [lia|]. ring.
Qed.

(* Wedderburn: if R = sum_{k<r+1} u_k v_k^T, the pivot R[i,j0] is non-zero and v_m[j0] <> 0, then the
   residual after the cross is the sum of the r outer products u'_k v'_k^T, k <> m, with
     u'_k = u_k - (u_k[i] / p) R[:,j0],   v'_k = v_k - (v_k[j0] / v_m[j0]) v_m *)
Definition wu (u : nat -> nat -> F) (Rm : nat -> nat -> F) (i j0 : nat) : nat -> nat -> F :=
  fun k a => u k a - u k i / Rm i j0 * Rm a j0.
Definition wv (v : nat -> nat -> F) (j0 m : nat) : nat -> nat -> F :=
  fun k b => v k b - v k j0 / v m j0 * v m b.

Lemma wedderburn_explicit r u v Rm i j0 m :
  outer_sum (S r) u v Rm -> Rm i j0 <> 0 -> m <= r -> v m j0 <> 0 ->
  outer_sum r (fun k => wu u Rm i j0 (skip m k)) (fun k => wv v j0 m (skip m k)) (wstep Rm i j0).
Proof.
  intros HR Hp Hm Hv a b. unfold wstep.
  rewrite (sumn_skip r m (fun k => wu u Rm i j0 k a * wv v j0 m k b)) by exact Hm.
  unfold wu, wv.
  set (p := Rm i j0) in *. set (ca := Rm a j0). set (t1 := v m b / v m j0). set (t2 := ca / p).
  rewrite (sumn_ext _ _ (fun k => u k a * v k b + (- t1) * (u k a * v k j0) + (- t2) * (u k i * v k b)
                                    + (t1 * t2) * (u k i * v k j0))).
  2:{ intros k _. unfold t1, t2. field. split; assumption. }
  rewrite !sumn_add, !sumn_mul_l.
  rewrite <- (HR a b), <- (HR a j0), <- (HR i b), <- (HR i j0).
  fold p. fold ca. unfold t1, t2. field. split; assumption.
Qed.

(* a non-zero pivot needs a term with v_m[j0] <> 0 *)
Lemma pivot_term r u v Rm i j0 :
  outer_sum r u v Rm -> Rm i j0 <> 0 -> exists m, m < r /\ v m j0 <> 0.
Proof.
  intros HR Hp. rewrite (HR i j0) in Hp. clear HR.
  induction r as [|r IH].
  - exfalso. apply Hp. reflexivity.
  - destruct (feq_dec (v r j0) 0) as [E|E].
    + destruct IH as [m [Hm Hv]].
      * intros H0. apply Hp. rewrite sumn_last, H0, E. ring.
      * exists m. split; [lia|exact Hv].
    + exists r. split; [lia|exact E].
Qed.

(* one accepted cross reduces the rank by one *)
Lemma wedderburn_step r Rm i j0 :
  has_rank (S r) Rm -> Rm i j0 <> 0 -> has_rank r (wstep Rm i j0).
Proof.
  intros [u [v HR]] Hp. destruct (pivot_term _ _ _ _ _ _ HR Hp) as [m [Hm Hv]].
  exists (fun k => wu u Rm i j0 (skip m k)), (fun k => wv v j0 m (skip m k)).
  apply wedderburn_explicit; [exact HR|exact Hp|lia|exact Hv].
Qed.

(* the residuals of a sequence of crosses, and the requirement that every pivot is non-zero *)
Fixpoint resid (pivots : list (nat * nat)) (Rm : nat -> nat -> F) : nat -> nat -> F :=
  match pivots with
  | [] => Rm
  | (i, j0) :: ps => resid ps (wstep Rm i j0)
  end.
Fixpoint pivots_ok (pivots : list (nat * nat)) (Rm : nat -> nat -> F) : Prop :=
  match pivots with
  | [] => True
  | (i, j0) :: ps => Rm i j0 <> 0 /\ pivots_ok ps (wstep Rm i j0)
  end.

(* an exact rank-r matrix is reproduced after r accepted crosses *)
Lemma rank_reduction : forall pivots r Rm,
  has_rank r Rm -> length pivots = r -> pivots_ok pivots Rm ->
  forall a b, resid pivots Rm a b = 0.
Proof.
  induction pivots as [|[i j0] ps IH]; intros r Rm HR HL HP a b; simpl in *.
  - subst r. apply has_rank_0, HR.
  - destruct r as [|r]; [discriminate|]. destruct HP as [Hp HP].
    apply (IH r); [apply wedderburn_step; assumption|lia|exact HP].
Qed.

(* alpha * E_row[j0] = 1 says that the pivot is non-zero *)
Lemma pivot_nonzero (A X : mat) i j0 alpha :
  alpha * Model.aca_E_row F rsub A X i j0 = 1 -> me A i j0 - me X i j0 <> 0.
Proof.
  unfold Model.aca_E_row. intros H E.
  assert (Z : me X i j0 - me A i j0 = 0).
  { transitivity (- (me A i j0 - me X i j0)); [ring|]. rewrite E. ring. }
  rewrite Z in H. apply (F_1_neq_0 Fth). rewrite <- H. ring.
Qed.

(* the cross step of lowrank.aca (Model.aca_step) acts on the residual A - X as wstep *)
Lemma aca_step_is_wstep (A X : mat) i j0 alpha a b :
  alpha * Model.aca_E_row F rsub A X i j0 = 1 ->
  me A a b - me (Model.aca_step F radd rmul rsub A X i j0 alpha) a b
  = wstep (fun p q => me A p q - me X p q) i j0 a b.
Proof.
  intros H. pose proof (pivot_nonzero A X i j0 alpha H) as Hp.
  unfold Model.aca_step, Model.aca_E_row, Model.aca_col, wstep in *; simpl.
  assert (Ha : alpha = - (1 / (me A i j0 - me X i j0))).
  { transitivity (alpha * (me X i j0 - me A i j0) * (- (1 / (me A i j0 - me X i j0)))).
    - field. exact Hp.
    - rewrite H. ring. }
  rewrite Ha. field. exact Hp.
Qed.

Lemma has_rank_ext r (R1 R2 : nat -> nat -> F) :
  (forall a b, R1 a b = R2 a b) -> has_rank r R1 -> has_rank r R2.
Proof. intros E [u [v H]]. exists u, v. intros a b. rewrite <- E. apply H. Qed.

(* the iteration of lowrank.aca in exact arithmetic: accepted crosses (i, j0, alpha = 1/E_row[j0]) *)
Fixpoint aca_run (A X : mat) (steps : list (nat * nat * F)) : mat :=
  match steps with
  | [] => X
  | (i, j0, alpha) :: st => aca_run A (Model.aca_step F radd rmul rsub A X i j0 alpha) st
  end.
Fixpoint steps_ok (A X : mat) (steps : list (nat * nat * F)) : Prop :=
  match steps with
  | [] => True
  | (i, j0, alpha) :: st =>
      alpha * Model.aca_E_row F rsub A X i j0 = 1 /\ steps_ok A (Model.aca_step F radd rmul rsub A X i j0 alpha) st
  end.

(* if the residual A - X is a sum of r outer products, r accepted crosses (each with a non-zero pivot,
   which is what alpha * E_row[j0] = 1 says) reproduce A exactly *)
Lemma aca_exact_after_r : forall steps r (A X : mat),
  has_rank r (fun a b => me A a b - me X a b) -> length steps = r -> steps_ok A X steps ->
  forall a b, me (aca_run A X steps) a b = me A a b.
Proof.
  induction steps as [|[[i j0] alpha] st IH]; intros r A X HR HL HS a b; simpl in *.
  - subst r. transitivity (me A a b - (me A a b - me X a b)); [ring|].
    rewrite (has_rank_0 _ HR a b). ring.
  - destruct r as [|r]; [discriminate|]. destruct HS as [Ha HS].
    apply (IH r); [|lia|exact HS].
    apply (has_rank_ext r (wstep (fun p q => me A p q - me X p q) i j0)).
    + intros p q. symmetry. apply aca_step_is_wstep. exact Ha.
    + apply wedderburn_step; [exact HR|]. apply (pivot_nonzero A X i j0 alpha Ha).
Qed.

End FieldProofs.
