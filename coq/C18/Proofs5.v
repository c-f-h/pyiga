(* C18 -- proofs: the energy identity behind the error history of the greedy Tucker
   approximation: for an orthonormal family q_0..q_{m-1} (the products of the columns of the bases U_j
   that gta keeps orthonormal) the error of the orthogonal projection satisfies
   ||a - P_m a||^2 = ||a||^2 - sum_k <q_k,a>^2, and extending the family by one vector lowers the
   squared error by exactly the square <q_m,a>^2. *)
From Coq Require Import List Arith Bool Lia Ring.
From Verif.C18 Require Import Model Proofs.
Import ListNotations.

Section Energy.
Variable R : Type.
Variables (rO rI : R) (radd rmul rsub : R -> R -> R) (ropp : R -> R).
Variable Rth : ring_theory rO rI radd rmul rsub ropp (@eq R).
Add Ring Rring5 : Rth.

Local Notation "0" := rO.
Local Notation "1" := rI.
Local Infix "+" := radd.
Local Infix "*" := rmul.
Local Infix "-" := rsub.
Local Notation sumn := (Model.sumn R rO radd).
Local Notation sumn_ext := (Proofs.sumn_ext R rO radd).
Local Notation sumn_add := (Proofs.sumn_add R rO rI radd rmul rsub ropp Rth).
Local Notation sumn_mul_l := (Proofs.sumn_mul_l R rO rI radd rmul rsub ropp Rth).
Local Notation sumn_assoc := (Proofs.sumn_assoc R rO rI radd rmul rsub ropp Rth).
Local Notation sumn_zero := (Proofs.sumn_zero R rO rI radd rmul rsub ropp Rth).
Local Notation sumn_last := (Proofs.sumn_last R rO rI radd rmul rsub ropp Rth).

Variable n : nat.                                  (* number of entries of the (vectorised) tensor *)
Definition dot (x y : nat -> R) : R := sumn n (fun i => x i * y i).
Variable q : nat -> nat -> R.                      (* q k = k-th basis vector *)
Definition orthonormal (m : nat) : Prop :=
  forall k l, k < m -> l < m -> dot (q k) (q l) = if (k =? l)%nat then 1 else 0.
Definition coef (a : nat -> R) (k : nat) : R := dot (q k) a.
Definition proj (m : nat) (a : nat -> R) : nat -> R := fun i => sumn m (fun k => coef a k * q k i).
Definition resid (m : nat) (a : nat -> R) : nat -> R := fun i => a i - proj m a i.

Lemma dot_ext x x' y y' : (forall i, x i = x' i) -> (forall i, y i = y' i) -> dot x y = dot x' y'.
Proof. intros Hx Hy. apply sumn_ext. intros i _. rewrite Hx, Hy. reflexivity. Qed.

Lemma dot_sym x y : dot x y = dot y x.
Proof. apply sumn_ext. intros i _. ring. Qed.

Lemma dot_sub_l x y z : dot (fun i => x i - y i) z = dot x z - dot y z.
Proof.
  unfold dot. rewrite (sumn_ext _ _ (fun i => x i * z i + (0 - 1) * (y i * z i))) by (intros; ring).
  rewrite sumn_add, sumn_mul_l. ring.
Qed.

Lemma dot_sub_scale e qv c :
  dot (fun i => e i - c * qv i) (fun i => e i - c * qv i)
  = dot e e - (c + c) * dot e qv + c * c * dot qv qv.
Proof.
  unfold dot.
  rewrite (sumn_ext _ _ (fun i => e i * e i + ((0 - (c + c)) * (e i * qv i) + (c * c) * (qv i * qv i))))
    by (intros; ring).
  rewrite !sumn_add, !sumn_mul_l. ring.
Qed.

Lemma resid_S m a i : resid (S m) a i = resid m a i - coef a m * q m i.
Proof. unfold resid, proj. rewrite sumn_last. ring. Qed.

(* the residual is orthogonal to the next basis vector up to <a, q_m> *)
Lemma resid_dot_next m a : orthonormal (S m) -> dot (resid m a) (q m) = coef a m.
Proof.
  intros HO. unfold resid, proj. rewrite dot_sub_l.
  (* <sum_k c_k q_k, q_m> = sum_k c_k <q_k, q_m>, and every <q_k, q_m> with k < m is 0 *)
  unfold dot at 2. rewrite sumn_assoc, sumn_zero.
  - unfold coef. rewrite (dot_sym a). ring.
  - intros k Hk. change (sumn n (fun i => q k i * q m i)) with (dot (q k) (q m)).
    rewrite HO by lia. destruct (Nat.eqb_spec k m); [lia|ring].
Qed.

(* extending the orthonormal family by one vector lowers the squared error by the square <q_m,a>^2 *)
Lemma energy_step m a : orthonormal (S m) ->
  dot (resid (S m) a) (resid (S m) a) = dot (resid m a) (resid m a) - coef a m * coef a m.
Proof.
  intros HO.
  rewrite (dot_ext _ (fun i => resid m a i - coef a m * q m i) _ (fun i => resid m a i - coef a m * q m i))
    by (intros; apply resid_S).
  rewrite dot_sub_scale, resid_dot_next by exact HO.
  rewrite (HO m m) by lia. rewrite Nat.eqb_refl. ring.
Qed.

(* ||a - P_m a||^2 = ||a||^2 - sum_{k<m} <q_k,a>^2 *)
Lemma energy_identity m a : orthonormal m ->
  dot (resid m a) (resid m a) = dot a a - sumn m (fun k => coef a k * coef a k).
Proof.
  induction m as [|m IH]; intros HO.
  - assert (E : dot (resid 0 a) (resid 0 a) = dot a a).
    { apply sumn_ext. intros i _. unfold resid, proj, Model.sumn. simpl. ring. }
    rewrite E. unfold Model.sumn at 1. simpl. ring.
  - rewrite energy_step by exact HO. rewrite IH.
    + rewrite sumn_last. ring.
    + intros k l Hk Hl. apply HO; lia.
Qed.

End Energy.
