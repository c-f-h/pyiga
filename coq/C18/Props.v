(* C18 -- property theorems only; the lemmas they are assembled from are in the Proofs files.  Each is
   followed by Print Assumptions.  All ring statements hold for every commutative ring
   (R, 0, 1, +, *, -, opp) with Leibniz equality, in particular the reals; Model.centry /
   Model.tentry / Model.kentry are the entries of asarray() / asmatrix(). *)
From Coq Require Import List Arith ZArith Ring Field.
From Verif.C18 Require Import Model Proofs Proofs2 Proofs3 Proofs5.
Import ListNotations.

(* range(n)[i] for an int i (negative allowed) is an existing position. *)
Theorem int_index_in_range :
  forall (n : nat) (i : Z) (k : nat), wrap n i = Some k -> k < n.
Proof. intros n i k H. apply (wrap_spec n i k H). Qed.
Print Assumptions int_index_in_range.

(* ... namely i itself, or i + n for a negative i (Python semantics). *)
Theorem int_index_wraps :
  forall (n : nat) (i : Z) (k : nat),
    wrap n i = Some k -> Z.of_nat k = (if (i <? 0)%Z then (i + Z.of_nat n)%Z else i).
Proof. intros n i k H. apply (wrap_spec n i k H). Qed.
Print Assumptions int_index_wraps.

(* range(n)[start:stop:step]: for EVERY start/stop/step (None, negative, beyond the ends) only existing
   positions are selected. *)
Theorem slice_selects_existing_positions :
  forall (n : nat) (start stop step : option Z) (rs : list nat) (k : nat),
    slice_range n start stop step = Ok rs -> In k rs -> k < n.
Proof. exact slice_range_in_range. Qed.
Print Assumptions slice_selects_existing_positions.

(* the slice added for missing trailing axes selects everything in order. *)
Theorem slice_default_is_identity :
  forall n : nat, slice_range n None None None = Ok (seq 0 n).
Proof. exact slice_full. Qed.
Print Assumptions slice_default_is_identity.

(* _normalize_indices: on success there were at most ndim indices, the result has one entry per axis and
   every selected position exists. *)
Theorem normalize_indices_wellformed :
  forall (II : list index) (shape : list nat) (ax : list (list nat * bool)),
    normalize_indices II shape = Ok ax ->
    length II <= length shape /\
    length ax = length shape /\
    Forall2 (fun (n : nat) (a : list nat * bool) => forall k : nat, In k (fst a) -> k < n) shape ax.
Proof. exact normalize_indices_ok. Qed.
Print Assumptions normalize_indices_wellformed.

(* more indices than axes is a ValueError. *)
Theorem normalize_indices_too_many :
  forall (II : list index) (shape : list nat),
    length shape < length II -> normalize_indices II shape = Err ValueError.
Proof. exact normalize_indices_too_many. Qed.
Print Assumptions normalize_indices_too_many.

(* asarray(A + B) = asarray(A) + asarray(B) for canonical tensors of any order, shape and ranks (rank 0
   included). *)
Theorem canon_add :
  forall (R : Type) (rO rI : R) (radd rmul rsub : R -> R -> R) (ropp : R -> R),
    ring_theory rO rI radd rmul rsub ropp eq ->
    forall (A B : list (mat R)) (idx : list nat) (ra rb : nat),
    uniform R A ra ->
    uniform R B rb ->
    length A = length B ->
    A <> [] ->
    centry R rO rI radd rmul (canon_add R A B) idx =
    radd (centry R rO rI radd rmul A idx) (centry R rO rI radd rmul B idx).
Proof.
  intros R rO rI radd rmul rsub ropp Rth A B idx ra rb HA _.
  exact (canon_add_spec R rO rI radd rmul rsub ropp Rth A B idx ra HA).
Qed.
Print Assumptions canon_add.

(* asarray(-A) = -asarray(A). *)
Theorem canon_neg :
  forall (R : Type) (rO rI : R) (radd rmul rsub : R -> R -> R) (ropp : R -> R),
    ring_theory rO rI radd rmul rsub ropp eq ->
    forall (A : list (mat R)) (idx : list nat),
    length idx = length A ->
    centry R rO rI radd rmul (canon_neg R ropp A) idx = ropp (centry R rO rI radd rmul A idx).
Proof. exact canon_neg_spec. Qed.
Print Assumptions canon_neg.

(* the row-selection half of CanonicalTensor.__getitem__: entry idx of the selected tensor is entry
   (rows[k][idx[k]])_k of the original, for arbitrary position lists (slices, steps, index lists). *)
Theorem canon_getitem_rows :
  forall (R : Type) (rO rI : R) (radd rmul : R -> R -> R) (A : list (mat R)) 
      (rss : list (list nat)) (idx : list nat),
    length rss = length A ->
    centry R rO rI radd rmul
      (map (fun p : mat R * list nat => mat_rows R (fst p) (snd p)) (combine A rss)) idx =
    centry R rO rI radd rmul A (sel_idx rss idx).
Proof. exact canon_rows_spec. Qed.
Print Assumptions canon_getitem_rows.

(* asarray(apply_tprod(Bs, A)) = apply_tprod(Bs, asarray(A)) for canonical A, None placeholders and fewer
   operators than axes included. *)
Theorem canon_nway :
  forall (R : Type) (rO rI : R) (radd rmul rsub : R -> R -> R) (ropp : R -> R),
    ring_theory rO rI radd rmul rsub ropp eq ->
    forall (A : list (mat R)) (Bs : list (option (mat R))) (idx : list nat),
    length Bs <= length A ->
    length idx = length A ->
    centry R rO rI radd rmul (factors_nway R rO radd rmul Bs A) idx =
    tprod R rO radd rmul (pad_ops R Bs (length A)) (centry R rO rI radd rmul A) idx.
Proof. exact canon_nway_spec. Qed.
Print Assumptions canon_nway.

(* modek_tprod(B, k, X): contracting axis k of a full array and leaving the new axis in position k
   (Y[..i_k..] = sum_j B[i_k,j] X[..j..]) is apply_tprod with identity placeholders on the first k axes,
   for every order, mode and rectangular B. *)
Theorem modek_tprod_spec :
  forall (R : Type) (rO : R) (radd rmul : R -> R -> R)
         (B : mat R) (k : nat) (f : list nat -> R) (idx : list nat),
  k < length idx ->
  tprod R rO radd rmul (modek_ops R B k) f idx = modek_entry R rO radd rmul B k f idx.
Proof. exact modek_spec. Qed.
Print Assumptions modek_tprod_spec.

(* asarray(-T) = -asarray(T) for Tucker tensors. *)
Theorem tucker_neg :
  forall (R : Type) (rO rI : R) (radd rmul rsub : R -> R -> R) (ropp : R -> R),
    ring_theory rO rI radd rmul rsub ropp eq ->
    forall (Us : list (mat R)) (X : full R) (idx : list nat),
    tentry R rO radd rmul Us (full_neg R ropp X) idx = ropp (tentry R rO radd rmul Us X idx).
Proof. exact tucker_neg_spec. Qed.
Print Assumptions tucker_neg.

(* asarray(apply_tprod(Bs, T)) = apply_tprod(Bs, asarray(T)) for Tucker T. *)
Theorem tucker_nway :
  forall (R : Type) (rO rI : R) (radd rmul rsub : R -> R -> R) (ropp : R -> R),
    ring_theory rO rI radd rmul rsub ropp eq ->
    forall (Us : list (mat R)) (X : full R) (Bs : list (option (mat R))) (idx : list nat),
    length Bs <= length Us ->
    length idx = length Us ->
    tentry R rO radd rmul (factors_nway R rO radd rmul Bs Us) X idx =
    tprod R rO radd rmul (pad_ops R Bs (length Us)) (tentry R rO radd rmul Us X) idx.
Proof. exact tucker_nway_spec. Qed.
Print Assumptions tucker_nway.

(* join_tucker_bases: TuckerTensor(U, X1) expands to T1 ... *)
Theorem join_bases_spec_first :
  forall (R : Type) (rO rI : R) (radd rmul rsub : R -> R -> R) (ropp : R -> R),
    ring_theory rO rI radd rmul rsub ropp eq ->
    forall (U1 : list (mat R)) (X1 : full R) (U2 : list (mat R)) (X2 : full R) (idx : list nat),
    core_ok R U1 X1 ->
    length U2 = length U1 ->
    length idx = length U1 ->
    tentry R rO radd rmul (join_U R U1 U2) (join_X1 R rO X1 X2) idx = tentry R rO radd rmul U1 X1 idx.
Proof. exact join_bases_1. Qed.
Print Assumptions join_bases_spec_first.

(* ... and TuckerTensor(U, X2) expands to T2. *)
Theorem join_bases_spec_second :
  forall (R : Type) (rO rI : R) (radd rmul rsub : R -> R -> R) (ropp : R -> R),
    ring_theory rO rI radd rmul rsub ropp eq ->
    forall (U1 : list (mat R)) (X1 : full R) (U2 : list (mat R)) (X2 : full R) (idx : list nat),
    core_ok R U1 X1 ->
    core_ok R U2 X2 ->
    length U2 = length U1 ->
    length idx = length U1 ->
    tentry R rO radd rmul (join_U R U1 U2) (join_X2 R rO X1 X2) idx = tentry R rO radd rmul U2 X2 idx.
Proof. exact join_bases_2. Qed.
Print Assumptions join_bases_spec_second.

(* asarray(T1 + T2) = asarray(T1) + asarray(T2). *)
Theorem tucker_add :
  forall (R : Type) (rO rI : R) (radd rmul rsub : R -> R -> R) (ropp : R -> R),
    ring_theory rO rI radd rmul rsub ropp eq ->
    forall (U1 : list (mat R)) (X1 : full R) (U2 : list (mat R)) (X2 : full R) (idx : list nat),
    core_ok R U1 X1 ->
    core_ok R U2 X2 ->
    length U2 = length U1 ->
    length idx = length U1 ->
    tentry R rO radd rmul (join_U R U1 U2) (full_add R radd (join_X1 R rO X1 X2) (join_X2 R rO X1 X2)) idx =
    radd (tentry R rO radd rmul U1 X1 idx) (tentry R rO radd rmul U2 X2 idx).
Proof. exact tucker_add_spec. Qed.
Print Assumptions tucker_add.

(* asarray(T1 - T2) = asarray(T1) - asarray(T2). *)
Theorem tucker_sub :
  forall (R : Type) (rO rI : R) (radd rmul rsub : R -> R -> R) (ropp : R -> R),
    ring_theory rO rI radd rmul rsub ropp eq ->
    forall (U1 : list (mat R)) (X1 : full R) (U2 : list (mat R)) (X2 : full R) (idx : list nat),
    core_ok R U1 X1 ->
    core_ok R U2 X2 ->
    length U2 = length U1 ->
    length idx = length U1 ->
    tentry R rO radd rmul (join_U R U1 U2) (full_sub R rsub (join_X1 R rO X1 X2) (join_X2 R rO X1 X2)) idx =
    rsub (tentry R rO radd rmul U1 X1 idx) (tentry R rO radd rmul U2 X2 idx).
Proof. exact tucker_sub_spec. Qed.
Print Assumptions tucker_sub.

(* TuckerTensor.from_tensor(CanonicalTensor) expands to the same array (order >= 1; with the repaired
   diagonal core, fixes/C18-tucker-from-1d-canonical.patch). *)
Theorem canon_to_tucker :
  forall (R : Type) (rO rI : R) (radd rmul rsub : R -> R -> R) (ropp : R -> R),
    ring_theory rO rI radd rmul rsub ropp eq ->
    forall (Xs : list (mat R)) (idx : list nat),
    uniform R Xs (crank R Xs) ->
    Xs <> [] ->
    length idx = length Xs ->
    tentry R rO radd rmul Xs (diag_core R rO rI (length Xs) (crank R Xs)) idx =
    centry R rO rI radd rmul Xs idx.
Proof. exact canon_to_tucker_spec. Qed.
Print Assumptions canon_to_tucker.

(* asmatrix(A.T) = asmatrix(A)^T, entry-wise. *)
Theorem canop_transpose :
  forall (R : Type) (rO rI : R) (radd rmul : R -> R -> R) (Op : canop R) (I J : list nat),
    kentry R rO rI radd rmul (canop_T R Op) I J = kentry R rO rI radd rmul Op J I.
Proof. exact canop_T_spec. Qed.
Print Assumptions canop_transpose.

(* asmatrix(A + B) = asmatrix(A) + asmatrix(B). *)
Theorem canop_add :
  forall (R : Type) (rO rI : R) (radd rmul rsub : R -> R -> R) (ropp : R -> R),
    ring_theory rO rI radd rmul rsub ropp eq ->
    forall (A B : canop R) (I J : list nat),
    kentry R rO rI radd rmul (canop_add R A B) I J =
    radd (kentry R rO rI radd rmul A I J) (kentry R rO rI radd rmul B I J).
Proof. exact canop_add_spec. Qed.
Print Assumptions canop_add.

(* asmatrix(-A) = -asmatrix(A). *)
Theorem canop_neg :
  forall (R : Type) (rO rI : R) (radd rmul rsub : R -> R -> R) (ropp : R -> R),
    ring_theory rO rI radd rmul rsub ropp eq ->
    forall (A : list (list (mat R))) (I J : list nat),
    Forall (fun t : list (mat R) => t <> []) A ->
    I <> [] ->
    J <> [] -> kentry R rO rI radd rmul (canop_neg R ropp A) I J = ropp (kentry R rO rI radd rmul A I J).
Proof. exact canop_neg_spec. Qed.
Print Assumptions canop_neg.

(* asmatrix(A * B) = asmatrix(A) . asmatrix(B): entry (I,J) is the sum over all intermediate multi-indices K. *)
Theorem canop_compose :
  forall (R : Type) (rO rI : R) (radd rmul rsub : R -> R -> R) (ropp : R -> R),
    ring_theory rO rI radd rmul rsub ropp eq ->
    forall (A B : list (list (mat R))) (I J dims : list nat),
    Forall (fun t : list (mat R) => map (mc R) t = dims) A ->
    Forall (fun t : list (mat R) => length t = length dims) B ->
    length I = length dims ->
    length J = length dims ->
    kentry R rO rI radd rmul (canop_mul R rO radd rmul A B) I J =
    ksum R rO radd dims
      (fun K : list nat => rmul (kentry R rO rI radd rmul A I K) (kentry R rO rI radd rmul B K J)).
Proof. exact canop_mul_spec. Qed.
Print Assumptions canop_compose.

(* asmatrix(A.kron(B)) is the Kronecker product of asmatrix(A) and asmatrix(B). *)
Theorem canop_kron :
  forall (R : Type) (rO rI : R) (radd rmul rsub : R -> R -> R) (ropp : R -> R),
    ring_theory rO rI radd rmul rsub ropp eq ->
    forall (A : list (list (mat R))) (B : canop R) (I1 I2 J1 J2 : list nat) (d : nat),
    Forall (fun t : list (mat R) => length t = d) A ->
    length I1 = d ->
    length J1 = d ->
    kentry R rO rI radd rmul (canop_kron R A B) (I1 ++ I2) (J1 ++ J2) =
    rmul (kentry R rO rI radd rmul A I1 J1) (kentry R rO rI radd rmul B I2 J2).
Proof. exact canop_kron_spec. Qed.
Print Assumptions canop_kron.

(* A.apply(X) on a full array is asmatrix(A) applied to vec(X). *)
Theorem canop_apply :
  forall (R : Type) (rO rI : R) (radd rmul rsub : R -> R -> R) (ropp : R -> R),
    ring_theory rO rI radd rmul rsub ropp eq ->
    forall (Op : list (list (mat R))) (f : list nat -> R) (I dims : list nat),
    Forall (fun t : list (mat R) => map (mc R) t = dims) Op ->
    length I = length dims ->
    canop_apply_entry R rO radd rmul Op f I =
    ksum R rO radd dims (fun J : list nat => rmul (kentry R rO rI radd rmul Op I J) (f J)).
Proof. exact canop_apply_spec. Qed.
Print Assumptions canop_apply.

(* rank_1_update: X[i,j] += alpha u[i] v[j]. *)
Theorem rank1_update_spec :
  forall (R : Type) (rO rI : R) (radd rmul rsub : R -> R -> R) (ropp : R -> R),
    ring_theory rO rI radd rmul rsub ropp eq ->
    forall (X : mat R) (alpha : R) (u v : nat -> R) (i j : nat),
    me R (rank_1_update R radd rmul X alpha u v) i j = radd (me R X i j) (rmul alpha (rmul (u i) (v j))).
Proof. exact rank1_update_entry. Qed.
Print Assumptions rank1_update_spec.

(* after one cross step of aca() with pivot (i, j0) the residual A - X vanishes on row i ... *)
Theorem aca_step_exact_on_cross_row :
  forall (R : Type) (rO rI : R) (radd rmul rsub : R -> R -> R) (ropp : R -> R),
    ring_theory rO rI radd rmul rsub ropp eq ->
    forall (A X : mat R) (i j0 : nat) (alpha : R) (j : nat),
    rmul alpha (aca_E_row R rsub A X i j0) = rI ->
    rsub (me R A i j) (me R (aca_step R radd rmul rsub A X i j0 alpha) i j) = rO.
Proof. exact aca_step_row. Qed.
Print Assumptions aca_step_exact_on_cross_row.

(* ... and on column j0 (alpha = 1 / E_row[j0]). *)
Theorem aca_step_exact_on_cross_col :
  forall (R : Type) (rO rI : R) (radd rmul rsub : R -> R -> R) (ropp : R -> R),
    ring_theory rO rI radd rmul rsub ropp eq ->
    forall (A X : mat R) (i j0 : nat) (alpha : R) (a : nat),
    rmul alpha (aca_E_row R rsub A X i j0) = rI ->
    rsub (me R A a j0) (me R (aca_step R radd rmul rsub A X i j0 alpha) a j0) = rO.
Proof. exact aca_step_col. Qed.
Print Assumptions aca_step_exact_on_cross_col.

(* PARTIAL: exact rank 1 is reproduced exactly by one cross at any non-zero pivot. *)
Theorem aca_rank_reduction_partial :
  forall (R : Type) (rO rI : R) (radd rmul rsub : R -> R -> R) (ropp : R -> R),
    ring_theory rO rI radd rmul rsub ropp eq ->
    forall (u v : nat -> R) (n m i j0 : nat) (alpha : R) (a b : nat),
    let A := {| mr := n; mc := m; me := fun p q : nat => rmul (u p) (v q) |} in
    let X := {| mr := n; mc := m; me := fun _ _ : nat => rO |} in
    rmul alpha (aca_E_row R rsub A X i j0) = rI ->
    me R (aca_step R radd rmul rsub A X i j0 alpha) a b = me R A a b.
Proof. exact aca_rank1. Qed.
Print Assumptions aca_rank_reduction_partial.

(* find_truncation_rank (the greedy loop of tensor.py:202-216 in exact arithmetic, any axis choice rule
   rltb): the squared Frobenius norm outside the returned shape is EXACTLY the accumulated error e of the
   slices cut off, and the test "tol^2 < e" is false - it never discards more than tol^2.  (The seeded change
   C18-1 broke the accumulator.) *)
Theorem truncation_error_bound :
  forall (R : Type) (rO rI : R) (radd rmul rsub : R -> R -> R) (ropp : R -> R),
    ring_theory rO rI radd rmul rsub ropp eq ->
    forall (rltb : R -> R -> bool) (X : full R) (tolsq : R) (shape' : list nat) (e : R),
    rltb tolsq rO = false ->
    find_truncation_rank R rO radd rmul rltb X tolsq = (shape', e) ->
    sqnorm R rO radd rmul (fsh R X) (fe R X) = radd (sqnorm R rO radd rmul shape' (fe R X)) e /\
    rltb tolsq e = false.
Proof. exact truncation_bound. Qed.
Print Assumptions truncation_error_bound.

(* the loop of apply_tprod as written (for i in reversed(range(n)): contract axis n-1 with ops[i] - or roll
   it for None - and put the new axis first) computes the multi-way product, for any number of operators,
   None placeholders and trailing axes. *)
Theorem apply_tprod_loop :
  forall (R : Type) (rO : R) (radd rmul : R -> R -> R) (Bs : list (option (mat R))) 
      (f : list nat -> R) (idx : list nat),
    length Bs <= length idx -> tprod_loop R rO radd rmul Bs f idx = tprod R rO radd rmul Bs f idx.
Proof. exact tprod_loop_spec. Qed.
Print Assumptions apply_tprod_loop.

(* entry (I,J) of asmatrix(A.slice(limits)) is entry (lo+I, lo+J) of asmatrix(A). *)
Theorem canop_slice :
  forall (R : Type) (rO rI : R) (radd rmul : R -> R -> R) (Op : list (list (mat R)))
      (lims : list (nat * nat)) (I J : list nat),
    Forall (fun t : list (mat R) => length t = length lims) Op ->
    kentry R rO rI radd rmul (canop_slice R Op lims) I J =
    kentry R rO rI radd rmul Op (add_idx I (map fst lims)) (add_idx J (map fst lims)).
Proof. exact canop_slice_spec. Qed.
Print Assumptions canop_slice.

(* pad: apply_tprod with the padding matrices is np.pad with zeros (entry idx is X[idx - before] inside the
   original block, 0 outside), None = (0,0). *)
Theorem pad_spec :
  forall (R : Type) (rO rI : R) (radd rmul rsub : R -> R -> R) (ropp : R -> R),
    ring_theory rO rI radd rmul rsub ropp eq ->
    forall (widths : list (option (nat * nat))) (shape : list nat) (f : list nat -> R) (idx : list nat),
    length shape = length widths ->
    length idx = length widths ->
    (forall J : list nat, all_lt J shape = false -> f J = rO) ->
    tprod R rO radd rmul (pad_ops_of R rO rI widths shape) f idx =
    (if (all_ge idx (pad_before widths) && all_lt (sub_idx idx (pad_before widths)) shape)%bool
     then f (sub_idx idx (pad_before widths))
     else rO).
Proof. exact pad_tprod. Qed.
Print Assumptions pad_spec.

(* ... for canonical tensors *)
Theorem pad_spec_canon :
  forall (R : Type) (rO rI : R) (radd rmul rsub : R -> R -> R) (ropp : R -> R),
    ring_theory rO rI radd rmul rsub ropp eq ->
    forall (widths : list (option (nat * nat))) (A : list (mat R)) (idx : list nat),
    length A = length widths ->
    length idx = length widths ->
    (forall J : list nat, all_lt J (cshape R A) = false -> centry R rO rI radd rmul A J = rO) ->
    centry R rO rI radd rmul (factors_nway R rO radd rmul (pad_ops_of R rO rI widths (cshape R A)) A) idx =
    (if (all_ge idx (pad_before widths) && all_lt (sub_idx idx (pad_before widths)) (cshape R A))%bool
     then centry R rO rI radd rmul A (sub_idx idx (pad_before widths))
     else rO).
Proof. exact pad_canon_spec. Qed.
Print Assumptions pad_spec_canon.

(* ... and Tucker tensors. *)
Theorem pad_spec_tucker :
  forall (R : Type) (rO rI : R) (radd rmul rsub : R -> R -> R) (ropp : R -> R),
    ring_theory rO rI radd rmul rsub ropp eq ->
    forall (widths : list (option (nat * nat))) (Us : list (mat R)) (X : full R) (idx : list nat),
    length Us = length widths ->
    length idx = length widths ->
    (forall J : list nat, all_lt J (tshape R Us) = false -> tentry R rO radd rmul Us X J = rO) ->
    tentry R rO radd rmul (factors_nway R rO radd rmul (pad_ops_of R rO rI widths (tshape R Us)) Us) X idx =
    (if (all_ge idx (pad_before widths) && all_lt (sub_idx idx (pad_before widths)) (tshape R Us))%bool
     then tentry R rO radd rmul Us X (sub_idx idx (pad_before widths))
     else rO).
Proof. exact pad_tucker_spec. Qed.
Print Assumptions pad_spec_tucker.

(* CanonicalTensor.squeeze(axes): the entry of the result at idx is the entry of the original with 0 at the
   squeezed axes, for any duplicate-free axes (in any order) that leave at least one axis. *)
Theorem canon_squeeze :
  forall (R : Type) (rO rI : R) (radd rmul rsub : R -> R -> R) (ropp : R -> R),
    ring_theory rO rI radd rmul rsub ropp eq ->
    forall (Xs : list (mat R)) (axes idx : list nat),
    uniform R Xs (crank R Xs) ->
    NoDup axes ->
    (forall a : nat, In a axes -> a < length Xs) ->
    keep 0 Xs axes <> [] ->
    length idx = length (keep 0 Xs axes) ->
    centry R rO rI radd rmul (canon_squeeze_some R rO rI rmul Xs axes) idx =
    centry R rO rI radd rmul Xs (unsqueeze (length Xs) axes idx).
Proof. exact canon_squeeze_spec. Qed.
Print Assumptions canon_squeeze.

(* CanonicalTensor.__getitem__ IN FULL: for every accepted index expression (ints, negative ints, slices with
   steps, index lists, missing trailing axes) the result - a tensor over the axes not indexed by an int, or
   the scalar when all are - has exactly the selected entries of the original. *)
Theorem canon_getitem :
  forall (R : Type) (rO rI : R) (radd rmul rsub : R -> R -> R) (ropp : R -> R),
    ring_theory rO rI radd rmul rsub ropp eq ->
    forall (Xs : list (mat R)) (II : list index) (ax : list (list nat * bool)) 
      (t' : tens R) (idx' : list nat),
    uniform R Xs (crank R Xs) ->
    Xs <> [] ->
    normalize_indices II (cshape R Xs) = Ok ax ->
    getitem R rO rI radd rmul (TCanon R Xs) II = Ok t' ->
    length idx' = length (filter negb (map snd ax)) ->
    entry R rO rI radd rmul t' idx' =
    centry R rO rI radd rmul Xs (sel_idx (sel_ranges ax) (unsqb (map snd ax) idx')).
Proof.
  intros R rO rI radd rmul rsub ropp Rth Xs II ax t' idx' HU _.
  exact (getitem_spec R rO rI radd rmul rsub ropp Rth (TCanon R Xs) II ax t' idx' HU).
Qed.
Print Assumptions canon_getitem.

(* TuckerTensor.squeeze(axes): same statement for Tucker tensors (core contracted with the singleton
   factors). *)
Theorem tucker_squeeze :
  forall (R : Type) (rO rI : R) (radd rmul rsub : R -> R -> R) (ropp : R -> R),
    ring_theory rO rI radd rmul rsub ropp eq ->
    forall (Us : list (mat R)) (X : full R) (axes idx : list nat),
    core_ok R Us X ->
    length idx = length (keep 0 Us axes) ->
    let
    '(Us', X') := tucker_squeeze_some R rO radd rmul Us X axes in
     tentry R rO radd rmul Us' X' idx = tentry R rO radd rmul Us X (unsqueeze (length Us) axes idx).
Proof. exact tucker_squeeze_spec. Qed.
Print Assumptions tucker_squeeze.

(* CanonicalTensor.from_tensor(TuckerTensor) expands to the same array whenever the dropped core entries are
   exactly zero. *)
Theorem tucker_to_canon :
  forall (R : Type) (rO rI : R) (radd rmul rsub : R -> R -> R) (ropp : R -> R),
    ring_theory rO rI radd rmul rsub ropp eq ->
    forall (nonzero : R -> bool) (Us : list (mat R)) (X : full R) (idx : list nat),
    (forall a : R, nonzero a = false -> a = rO) ->
    core_ok R Us X ->
    Us <> [] ->
    length idx = length Us ->
    centry R rO rI radd rmul (tucker_to_canon R rO rmul nonzero Us X) idx = tentry R rO radd rmul Us X idx.
Proof. exact tucker_to_canon_spec. Qed.
Print Assumptions tucker_to_canon.

(* TensorGenerator.__getitem__ for index expressions without int indices (slices with steps, index
   lists, missing trailing axes): no axis is dropped, the returned array has shape shape_new and, at
   C-order position ravel(shape_new, idx), exactly the wrapped entry at the selected positions.
   With int indices: generator_getitem_spec below. *)
Theorem generator_getitem_spec_partial :
  forall (R : Type) (shape : list nat) (f : list nat -> R) (II : list index)
      (ax : list (list nat * bool)) (sh : list nat) (data : list R) (idx : list nat) 
      (d : R),
    normalize_indices II shape = Ok ax ->
    sel_singletons 0 ax = [] ->
    gen_getitem R shape f II = Ok (sh, data) ->
    length idx = length ax ->
    all_lt idx (sel_shape ax) = true ->
    sh = sel_shape ax /\ nth (ravel sh idx) data d = f (sel_idx (sel_ranges ax) idx).
Proof.
  intros R shape f II ax sh data idx d HN HS HG HL Hlt.
  destruct (gen_getitem_ok _ _ _ _ _ _ _ HN HG) as [-> ->].
  rewrite <- (keep_flags ax (sel_shape ax)), HS, keep_nil by apply map_length.
  split; [reflexivity|]. rewrite sel_shape_ranges in *. apply nth_map_product; [|exact Hlt].
  unfold sel_ranges. rewrite map_length. exact HL.
Qed.
Print Assumptions generator_getitem_spec_partial.

(* TensorGenerator.__getitem__ for EVERY accepted index expression (ints, negative ints, slices with steps,
   index lists, missing trailing axes): the result has the shape of the axes not indexed by an int and holds,
   at C-order position ravel(shape, idx), exactly the wrapped entry at the selected positions (np.squeeze of
   the unit axes does not move the C-order position: Proofs2.ravel_keepb). *)
Theorem generator_getitem_spec :
  forall (R : Type) (shape : list nat) (f : list nat -> R) (II : list index)
      (ax : list (list nat * bool)) (sh : list nat) (data : list R) (idx : list nat) 
      (d : R),
    normalize_indices II shape = Ok ax ->
    gen_getitem R shape f II = Ok (sh, data) ->
    length idx = length (filter negb (map snd ax)) ->
    all_lt idx sh = true ->
    sh = keepb (sel_shape ax) (map snd ax) /\
    nth (ravel sh idx) data d = f (sel_idx (sel_ranges ax) (unsqb (map snd ax) idx)).
Proof.
  intros R shape f II ax sh data idx d HN HG HL Hlt.
  destruct (gen_getitem_ok _ _ _ _ _ _ _ HN HG) as [-> ->]. split; [reflexivity|].
  pose proof (normalize_indices_flags _ _ _ HN) as H1.
  unfold ravel. rewrite (ravel_keepb _ _ H1 idx 0 HL).
  apply (all_lt_unsqb _ _ H1 idx HL) in Hlt.
  rewrite sel_shape_ranges in *. apply nth_map_product; [|exact Hlt].
  rewrite unsqb_length. unfold sel_ranges. rewrite !map_length. reflexivity.
Qed.
Print Assumptions generator_getitem_spec.

(* TuckerTensor.__getitem__ IN FULL (row selection of every factor + squeeze of the int-indexed axes, scalar
   for all ints), for every accepted index expression. *)
Theorem tucker_getitem :
  forall (R : Type) (rO rI : R) (radd rmul rsub : R -> R -> R) (ropp : R -> R),
    ring_theory rO rI radd rmul rsub ropp eq ->
    forall (Us : list (mat R)) (X : full R) (II : list index) (ax : list (list nat * bool)) 
      (t' : tens R) (idx' : list nat),
    core_ok R Us X ->
    Us <> [] ->
    normalize_indices II (tshape R Us) = Ok ax ->
    getitem R rO rI radd rmul (TTucker R Us X) II = Ok t' ->
    length idx' = length (filter negb (map snd ax)) ->
    entry R rO rI radd rmul t' idx' =
    tentry R rO radd rmul Us X (sel_idx (sel_ranges ax) (unsqb (map snd ax) idx')).
Proof.
  intros R rO rI radd rmul rsub ropp Rth Us X II ax t' idx' HC _.
  exact (getitem_spec R rO rI radd rmul rsub ropp Rth (TTucker R Us X) II ax t' idx' HC).
Qed.
Print Assumptions tucker_getitem.

(* Wedderburn rank reduction, explicit: over a field, if R = sum_{k<r+1} u_k v_k^T, the pivot R[i,j0] is
   non-zero and v_m[j0] <> 0, the residual after the cross R - R[:,j0] R[i,:] / R[i,j0] is the sum of the r
   outer products u'_k v'_k^T (k <> m) with u'_k = u_k - (u_k[i]/p) R[:,j0], v'_k = v_k - (v_k[j0]/v_m[j0])
   v_m. *)
Theorem wedderburn_rank_reduction_step :
  forall (F : Type) (rO rI : F) (radd rmul rsub : F -> F -> F) (ropp : F -> F) 
      (rdiv : F -> F -> F) (rinv : F -> F),
    field_theory rO rI radd rmul rsub ropp rdiv rinv eq ->
    forall (r : nat) (u v Rm : nat -> nat -> F) (i j0 m : nat),
    outer_sum F rO radd rmul (S r) u v Rm ->
    Rm i j0 <> rO ->
    m <= r ->
    v m j0 <> rO ->
    outer_sum F rO radd rmul r (fun k : nat => wu F rmul rsub rdiv u Rm i j0 (skip m k))
      (fun k : nat => wv F rmul rsub rdiv v j0 m (skip m k)) (wstep F rmul rsub rdiv Rm i j0).
Proof. exact wedderburn_explicit. Qed.
Print Assumptions wedderburn_rank_reduction_step.

(* one accepted cross at a non-zero pivot reduces the (outer-product) rank by one. *)
Theorem aca_rank_reduction_step :
  forall (F : Type) (rO rI : F) (radd rmul rsub : F -> F -> F) (ropp : F -> F) 
      (rdiv : F -> F -> F) (rinv : F -> F),
    field_theory rO rI radd rmul rsub ropp rdiv rinv eq ->
    (forall x y : F, {x = y} + {x <> y}) ->
    forall (r : nat) (Rm : nat -> nat -> F) (i j0 : nat),
    has_rank F rO radd rmul (S r) Rm ->
    Rm i j0 <> rO -> has_rank F rO radd rmul r (wstep F rmul rsub rdiv Rm i j0).
Proof. exact wedderburn_step. Qed.
Print Assumptions aca_rank_reduction_step.

(* after r crosses with non-zero pivots the residual of a sum of r outer products vanishes identically. *)
Theorem aca_rank_reduction_residual :
  forall (F : Type) (rO rI : F) (radd rmul rsub : F -> F -> F) (ropp : F -> F) 
      (rdiv : F -> F -> F) (rinv : F -> F),
    field_theory rO rI radd rmul rsub ropp rdiv rinv eq ->
    (forall x y : F, {x = y} + {x <> y}) ->
    forall (pivots : list (nat * nat)) (r : nat) (Rm : nat -> nat -> F),
    has_rank F rO radd rmul r Rm ->
    length pivots = r ->
    pivots_ok F rO rmul rsub rdiv pivots Rm ->
    forall a b : nat, Proofs3.resid F rmul rsub rdiv pivots Rm a b = rO.
Proof. exact rank_reduction. Qed.
Print Assumptions aca_rank_reduction_residual.

(* lowrank.aca in exact arithmetic (Model.aca_step iterated): if A - X is a sum of r outer products, r
   accepted crosses - alpha * E_row[j0] = 1, i.e. every pivot non-zero - reproduce A exactly. *)
Theorem aca_rank_reduction :
  forall (F : Type) (rO rI : F) (radd rmul rsub : F -> F -> F) (ropp : F -> F) 
      (rdiv : F -> F -> F) (rinv : F -> F),
    field_theory rO rI radd rmul rsub ropp rdiv rinv eq ->
    (forall x y : F, {x = y} + {x <> y}) ->
    forall (steps : list (nat * nat * F)) (r : nat) (A X : mat F),
    has_rank F rO radd rmul r (fun a b : nat => rsub (me F A a b) (me F X a b)) ->
    length steps = r ->
    steps_ok F rI radd rmul rsub A X steps ->
    forall a b : nat, me F (aca_run F radd rmul rsub A X steps) a b = me F A a b.
Proof. exact aca_exact_after_r. Qed.
Print Assumptions aca_rank_reduction.

(* energy identity behind the gta error history: extending an orthonormal family by q_m lowers the squared
   error of the orthogonal projection by exactly the square <q_m,a>^2 (hence the history is non-increasing in
   every ordered field). *)
Theorem error_history_energy_step :
  forall (R : Type) (rO rI : R) (radd rmul rsub : R -> R -> R) (ropp : R -> R),
    ring_theory rO rI radd rmul rsub ropp eq ->
    forall (n : nat) (q : nat -> nat -> R) (m : nat) (a : nat -> R),
    orthonormal R rO rI radd rmul n q (S m) ->
    dot R rO radd rmul n (resid R rO radd rmul rsub n q (S m) a) (resid R rO radd rmul rsub n q (S m) a) =
    rsub (dot R rO radd rmul n (resid R rO radd rmul rsub n q m a) (resid R rO radd rmul rsub n q m a))
      (rmul (coef R rO radd rmul n q a m) (coef R rO radd rmul n q a m)).
Proof. exact energy_step. Qed.
Print Assumptions error_history_energy_step.

(* ||a - P_m a||^2 = ||a||^2 - sum_{k<m} <q_k,a>^2 for the projection onto an orthonormal family. *)
Theorem error_history_energy_identity :
  forall (R : Type) (rO rI : R) (radd rmul rsub : R -> R -> R) (ropp : R -> R),
    ring_theory rO rI radd rmul rsub ropp eq ->
    forall (n : nat) (q : nat -> nat -> R) (m : nat) (a : nat -> R),
    orthonormal R rO rI radd rmul n q m ->
    dot R rO radd rmul n (resid R rO radd rmul rsub n q m a) (resid R rO radd rmul rsub n q m a) =
    rsub (dot R rO radd rmul n a a)
      (sumn R rO radd m (fun k : nat => rmul (coef R rO radd rmul n q a k) (coef R rO radd rmul n q a k))).
Proof. exact energy_identity. Qed.
Print Assumptions error_history_energy_identity.

(* NOT PROVED (these rest on the correspondence run only):

   error_history_monotone for grou: each als1 correction is only a stationary point of the rank-1 problem,
     not an orthogonal projection onto a fixed orthonormal family; for gta the statement is
     error_history_energy_step under the hypothesis that the bases are orthonormal (which the code
     maintains by Gram-Schmidt; the floating-point loss of orthogonality was the defect fixed by
     fixes/C18-gta-relative-span-guard.patch) - the identification of the Tucker projection with the
     projection onto the product basis q_(k1..kd) = u_1,k1 (x) ... (x) u_d,kd is not formalised.

   truncation with orthonormal factors: ||A - truncate(A)||_F^2 = discarded core mass needs the isometry
     of orthonormal mode products (QR/SVD are LAPACK's, not modelled); truncation_error_bound is the
     statement about the core.

   aca pivot SEARCH (argmax of |E_row|, random restarts, tolerance counters) is not modelled: the theorems
     are about any sequence of accepted crosses with non-zero pivots. *)
