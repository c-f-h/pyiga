(* C18 -- property theorems about TensorSum / TensorProd (tensor.py:1058-1161, model and lemmas in
   Sum.v) and about the subtraction of canonical tensors and Kronecker-rank operators.
   entry2 is the entry of asarray() of a (nested) sum / product tensor. *)
From Coq Require Import List Arith ZArith Ring Field.
From Verif.C18 Require Import Model Proofs Sum.
Import ListNotations.

(* asarray(S + T) = asarray(S) + asarray(T) for a TensorSum S and ANY tensor T (term, sum or product). *)
Theorem sum_add :
  forall (R : Type) (rO rI : R) (radd rmul rsub : R -> R -> R) (ropp : R -> R),
    ring_theory rO rI radd rmul rsub ropp eq ->
    forall (xs : list (tens2 R)) (b t : tens2 R) (idx : list nat),
    add2 R (T2Sum R xs) b = Ok t ->
    entry2 R rO rI radd rmul t idx =
    radd (entry2 R rO rI radd rmul (T2Sum R xs) idx) (entry2 R rO rI radd rmul b idx).
Proof. exact sum_add_spec. Qed.
Print Assumptions sum_add.

(* asarray(P + T) = asarray(P) + asarray(T) for a TensorProd P. *)
Theorem prod_add :
  forall (R : Type) (rO rI : R) (radd rmul rsub : R -> R -> R) (ropp : R -> R),
    ring_theory rO rI radd rmul rsub ropp eq ->
    forall (ps : list (tens2 R)) (b t : tens2 R) (idx : list nat),
    add2 R (T2Prod R ps) b = Ok t ->
    entry2 R rO rI radd rmul t idx =
    radd (entry2 R rO rI radd rmul (T2Prod R ps) idx) (entry2 R rO rI radd rmul b idx).
Proof. exact prod_add_spec. Qed.
Print Assumptions prod_add.

(* every term of a TensorSum accepted by the constructor has the shape of the sum. *)
Theorem sum_terms_have_sum_shape :
  forall (R : Type) (xs : list (tens2 R)) (t : tens2 R),
    mk_sum R xs = Ok t -> Forall (fun x : tens2 R => list_eqb (shape2 R x) (shape2 R t) = true) xs.
Proof.
  intros R xs t. unfold mk_sum. destruct xs as [|x xs]; [discriminate|].
  destruct (forallb _ xs) eqn:E; [|discriminate]. intros H; inversion H; subst t. simpl.
  constructor; [apply list_eqb_refl|].
  rewrite forallb_forall in E. apply Forall_forall. exact E.
Qed.
Print Assumptions sum_terms_have_sum_shape.

(* asarray(-T) = -asarray(T) for every term format at once: scalar, ndarray, canonical, Tucker. *)
Theorem term_neg :
  forall (R : Type) (rO rI : R) (radd rmul rsub : R -> R -> R) (ropp : R -> R),
    ring_theory rO rI radd rmul rsub ropp eq ->
    forall (b b' : tens R) (idx : list nat),
    length idx = length (shape_of R b) ->
    neg R ropp b = Ok b' -> entry R rO rI radd rmul b' idx = ropp (entry R rO rI radd rmul b idx).
Proof. exact base_neg_spec. Qed.
Print Assumptions term_neg.

(* asarray(-S) = -asarray(S) for a TensorSum of any number of scalar / ndarray / canonical / Tucker terms. *)
Theorem sum_neg :
  forall (R : Type) (rO rI : R) (radd rmul rsub : R -> R -> R) (ropp : R -> R),
    ring_theory rO rI radd rmul rsub ropp eq ->
    forall (bs : list (tens R)) (t : tens2 R) (idx : list nat),
    Forall (fun b : tens R => length idx = length (shape_of R b)) bs ->
    neg2 R ropp (T2Sum R (map (T2B R) bs)) = Ok t ->
    entry2 R rO rI radd rmul t idx = ropp (entry2 R rO rI radd rmul (T2Sum R (map (T2B R) bs)) idx).
Proof. exact sum_neg_spec. Qed.
Print Assumptions sum_neg.

(* asarray(S - T) = asarray(S) - asarray(T) for a TensorSum S (terms of any kind) and a term T. *)
Theorem sum_sub :
  forall (R : Type) (rO rI : R) (radd rmul rsub : R -> R -> R) (ropp : R -> R),
    ring_theory rO rI radd rmul rsub ropp eq ->
    forall (xs : list (tens2 R)) (b : tens R) (t : tens2 R) (idx : list nat),
    length idx = length (shape_of R b) ->
    sub2 R ropp (T2Sum R xs) (T2B R b) = Ok t ->
    entry2 R rO rI radd rmul t idx =
    rsub (entry2 R rO rI radd rmul (T2Sum R xs) idx) (entry2 R rO rI radd rmul (T2B R b) idx).
Proof. exact sum_sub_spec. Qed.
Print Assumptions sum_sub.

(* asarray(-P) = -asarray(P) for a TensorProd whose first factor is a term (only that factor is negated;
   the remaining factors are arbitrary). *)
Theorem prod_neg :
  forall (R : Type) (rO rI : R) (radd rmul rsub : R -> R -> R) (ropp : R -> R),
    ring_theory rO rI radd rmul rsub ropp eq ->
    forall (b : tens R) (ps : list (tens2 R)) (t : tens2 R) (idx : list nat),
    length (firstn (length (shape_of R b)) idx) = length (shape_of R b) ->
    neg2 R ropp (T2Prod R (T2B R b :: ps)) = Ok t ->
    entry2 R rO rI radd rmul t idx = ropp (entry2 R rO rI radd rmul (T2Prod R (T2B R b :: ps)) idx).
Proof. exact prod_neg_spec. Qed.
Print Assumptions prod_neg.

(* PARTIAL: TensorSum.__getitem__ (tensor.py:1098-1103) relative to the __getitem__ gi of its terms: if gi
   returns, at idx', the entry of the term at sel idx' (canon_getitem / tucker_getitem: sel idx' =
   sel_idx (sel_ranges ax) (unsqb (map snd ax) idx')), the sum's result - a TensorSum, or the sum of the
   scalars for an all-int expression - has the entry of the sum at sel idx'.
   NOT PROVED: the term statement for an ndarray term (_getitem: np.ix_ selection + squeeze) and the
   TensorProd case (the index expression is cut into per-factor pieces). *)
Theorem sum_getitem_partial :
  forall (R : Type) (rO rI : R) (radd rmul : R -> R -> R) (gi : tens2 R -> res (tens2 R))
      (sel : list nat -> list nat) (xs : list (tens2 R)) (t : tens2 R) (idx' : list nat),
    (forall x y : tens2 R,
     In x xs -> gi x = Ok y -> entry2 R rO rI radd rmul y idx' = entry2 R rO rI radd rmul x (sel idx')) ->
    sum_getitem R rO rI radd rmul gi xs = Ok t ->
    entry2 R rO rI radd rmul t idx' = entry2 R rO rI radd rmul (T2Sum R xs) (sel idx').
Proof. exact sum_getitem_spec. Qed.
Print Assumptions sum_getitem_partial.

(* TensorSum.nway_prod: the expansion of the result is the sum of the expansions F of the transformed
   terms (F = apply_tprod of the term's expansion by canon_nway / tucker_nway / definition). *)
Theorem sum_nway :
  forall (R : Type) (rO rI : R) (radd rmul : R -> R -> R) (Bs : list (option (mat R)))
      (xs : list (tens R)) (t : tens2 R) (idx : list nat) (F : tens R -> list nat -> R),
    (forall x y : tens R,
     In x xs -> nway R rO radd rmul Bs x = Ok y -> entry R rO rI radd rmul y idx = F x idx) ->
    sum_nway R rO radd rmul Bs xs = Ok t ->
    entry2 R rO rI radd rmul t idx = rsum R rO radd (map (fun x : tens R => F x idx) xs).
Proof. exact sum_nway_spec. Qed.
Print Assumptions sum_nway.

(* asarray(A - B) = asarray(A) - asarray(B) for canonical tensors (A - B is A + (-B), tensor.py:822). *)
Theorem canon_sub :
  forall (R : Type) (rO rI : R) (radd rmul rsub : R -> R -> R) (ropp : R -> R),
    ring_theory rO rI radd rmul rsub ropp eq ->
    forall (A B : list (mat R)) (idx : list nat) (ra rb : nat),
    uniform R A ra ->
    uniform R B rb ->
    length A = length B ->
    A <> nil ->
    length idx = length B ->
    centry R rO rI radd rmul (canon_add R A (canon_neg R ropp B)) idx =
    rsub (centry R rO rI radd rmul A idx) (centry R rO rI radd rmul B idx).
Proof.
  intros R rO rI radd rmul rsub ropp Rth A B idx ra rb HA _.
  exact (canon_sub_spec R rO rI radd rmul rsub ropp Rth A B idx ra HA).
Qed.
Print Assumptions canon_sub.

(* asmatrix(A - B) = asmatrix(A) - asmatrix(B) for Kronecker-rank operators (tensor.py:1230). *)
Theorem canop_sub :
  forall (R : Type) (rO rI : R) (radd rmul rsub : R -> R -> R) (ropp : R -> R),
    ring_theory rO rI radd rmul rsub ropp eq ->
    forall (A B : list (list (mat R))) (I J : list nat),
    Forall (fun t : list (mat R) => t <> nil) B ->
    I <> nil ->
    J <> nil ->
    kentry R rO rI radd rmul (canop_add R A (canop_neg R ropp B)) I J =
    rsub (kentry R rO rI radd rmul A I J) (kentry R rO rI radd rmul B I J).
Proof. exact canop_sub_spec. Qed.
Print Assumptions canop_sub.
