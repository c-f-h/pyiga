(* C18 -- TensorSum / TensorProd (tensor.py:1058-1161) over the tensors of Model.v, and the
   subtraction of canonical tensors and of Kronecker-rank operators (tensor.py:822-823, 1230-1231).
   Definitions and proofs; the property theorems are restated in Props3.v. *)
From Coq Require Import List Arith Bool ZArith Lia Ring.
From Verif.C18 Require Import Model Proofs.
Import ListNotations.

Section SumProd.
Variable R : Type.
Variables (rO rI : R) (radd rmul rsub : R -> R -> R) (ropp : R -> R).
Variable Rth : ring_theory rO rI radd rmul rsub ropp (@eq R).
Add Ring RringS : Rth.

Local Notation "0" := rO.
Local Notation "1" := rI.
Local Infix "+" := radd.
Local Infix "*" := rmul.
Local Infix "-" := rsub.
Local Notation "- x" := (ropp x).

Local Notation tens := (Model.tens R).
Local Notation entry := (Model.entry R rO rI radd rmul).
Local Notation centry := (Model.centry R rO rI radd rmul).
Local Notation kentry := (Model.kentry R rO rI radd rmul).
Local Notation neg := (Model.neg R ropp).
Local Notation rsum := (Model.rsum R rO radd).

(* a tensor is a term of Model.v (scalar, ndarray, canonical, Tucker), a TensorSum or a TensorProd *)
Inductive tens2 :=
| T2B (t : tens)
| T2Sum (xs : list tens2)
| T2Prod (xs : list tens2).

(* .shape: tensor.py:1063-1064 (shape of the first term), 1110-1118 (concatenation) *)
Fixpoint shape2 (t : tens2) : list nat :=
  match t with
  | T2B b => Model.shape_of R b
  | T2Sum xs => match xs with [] => [] | x :: _ => shape2 x end
  | T2Prod xs => (fix go (l : list tens2) : list nat :=
                    match l with [] => [] | x :: l' => shape2 x ++ go l' end) xs
  end.

(* asarray: tensor.py:1070-1075 (sum of the expansions), 1123-1126 (array_outer of the expansions:
   the index is cut into the pieces belonging to the factors) *)
Fixpoint entry2 (t : tens2) (idx : list nat) : R :=
  match t with
  | T2B b => entry b idx
  | T2Sum xs => (fix go (l : list tens2) : R :=
                   match l with [] => 0 | x :: l' => entry2 x idx + go l' end) xs
  | T2Prod xs => (fix go (l : list tens2) (idx : list nat) : R :=
                    match l with
                    | [] => 1
                    | x :: l' => let n := length (shape2 x) in
                                 entry2 x (firstn n idx) * go l' (skipn n idx)
                    end) xs idx
  end.

Definition mapres {A B} (f : A -> res B) : list A -> res (list B) :=
  fix go (l : list A) : res (list B) :=
    match l with
    | [] => Ok []
    | x :: l' => bind (f x) (fun y => bind (go l') (fun r => Ok (y :: r)))
    end.

(* the TensorSum constructor: tensor.py:1060-1065 *)
Definition mk_sum (xs : list tens2) : res tens2 :=
  match xs with
  | [] => Err AssertionError
  | x :: xs' => if forallb (fun y => list_eqb (shape2 y) (shape2 x)) xs' then Ok (T2Sum xs)
                else Err AssertionError
  end.

(* __neg__: tensor.py:1095-1096 (every term), 1147-1148 (the first factor) *)
Fixpoint neg2 (t : tens2) : res tens2 :=
  match t with
  | T2B b => bind (neg b) (fun b' => Ok (T2B b'))
  | T2Sum xs => bind (mapres (fun x => neg2 x) xs) mk_sum
  | T2Prod xs => match xs with
                 | [] => Err IndexError
                 | x :: xs' => bind (neg2 x) (fun y => Ok (T2Prod (y :: xs')))
                 end
  end.

(* __add__ / __sub__: tensor.py:1089-1093, 1141-1145 *)
Definition add2 (a b : tens2) : res tens2 :=
  match a with
  | T2Sum xs => mk_sum (xs ++ [b])
  | T2Prod _ => mk_sum [a; b]
  | T2B _ => Err TypeError
  end.
Definition sub2 (a b : tens2) : res tens2 := bind (neg2 b) (add2 a).

(* __getitem__ of a TensorSum, tensor.py:1098-1103: the terms are indexed one by one; all scalars are
   summed up, otherwise the results form a new TensorSum.  [gi] is the __getitem__ of the terms. *)
Definition is_scal (t : tens2) : bool := match t with T2B (TScal _ _) => true | _ => false end.
Definition sum_getitem (gi : tens2 -> res tens2) (xs : list tens2) : res tens2 :=
  bind (mapres gi xs) (fun ys =>
    if forallb is_scal ys then Ok (T2B (TScal R (rsum (map (fun y => entry2 y []) ys)))) else mk_sum ys).

(* nway_prod of a TensorSum, tensor.py:1081-1087 *)
Definition sum_nway (Bs : list (option (Model.mat R))) (xs : list tens) : res tens2 :=
  bind (mapres (fun x => bind (Model.nway R rO radd rmul Bs x) (fun y => Ok (T2B y))) xs) mk_sum.

Lemma entry2_sum xs idx : entry2 (T2Sum xs) idx = rsum (map (fun x => entry2 x idx) xs).
Proof. induction xs as [|x xs IH]; [reflexivity|]. simpl in *. rewrite IH. reflexivity. Qed.

Lemma mk_sum_ok xs t : mk_sum xs = Ok t -> t = T2Sum xs.
Proof.
  unfold mk_sum. destruct xs as [|x xs]; [discriminate|].
  destruct (forallb _ xs); [|discriminate]. intros H; inversion H; reflexivity.
Qed.

(* the sum over the results of a successful traversal, term by term *)
Lemma rsum_mapres {A B} (f : A -> res B) (g : B -> R) (h : A -> R) : forall xs ys,
  mapres f xs = Ok ys -> (forall x y, In x xs -> f x = Ok y -> g y = h x) ->
  rsum (map g ys) = rsum (map h xs).
Proof.
  induction xs as [|x xs IH]; intros ys H Hgh; simpl in H.
  - inversion H. reflexivity.
  - destruct (f x) as [y|e] eqn:Ex; simpl in H; [|discriminate].
    destruct (mapres f xs) as [r|e] eqn:Er; simpl in H; [|discriminate].
    inversion H. simpl. rewrite (Hgh x y (or_introl eq_refl) Ex), (IH r eq_refl); [reflexivity|].
    intros x0 y0 Hin. apply Hgh. right. exact Hin.
Qed.

Lemma list_eqb_refl l : list_eqb l l = true.
Proof.
  unfold list_eqb. rewrite Nat.eqb_refl. simpl.
  induction l as [|a l IH]; [reflexivity|]. simpl. rewrite Nat.eqb_refl. exact IH.
Qed.

(* asarray(S + T) = asarray(S) + asarray(T) for a TensorSum S and any tensor T *)
Lemma sum_add_spec xs b t idx :
  add2 (T2Sum xs) b = Ok t -> entry2 t idx = entry2 (T2Sum xs) idx + entry2 b idx.
Proof.
  unfold add2. intros H. apply mk_sum_ok in H. subst t.
  rewrite !entry2_sum, map_app, (Proofs.rsum_app R rO rI radd rmul rsub ropp Rth). simpl. ring.
Qed.

(* asarray(P + T) = asarray(P) + asarray(T) for a TensorProd P *)
Lemma prod_add_spec ps b t idx :
  add2 (T2Prod ps) b = Ok t -> entry2 t idx = entry2 (T2Prod ps) idx + entry2 b idx.
Proof.
  unfold add2. intros H. apply mk_sum_ok in H. subst t.
  rewrite entry2_sum. cbn [map Model.rsum fold_right]. ring.
Qed.

(* negation of a term of Model.v commutes with expansion (scalar, ndarray, canonical, Tucker) *)
Lemma base_neg_spec (b b' : tens) idx :
  length idx = length (Model.shape_of R b) ->
  neg b = Ok b' -> entry b' idx = - entry b idx.
Proof.
  intros HL H. destruct b as [a|A|Xs|Us X]; simpl in H; inversion H; subst b'; unfold Model.entry; simpl.
  - reflexivity.
  - reflexivity.
  - apply (Proofs.canon_neg_spec R rO rI radd rmul rsub ropp Rth).
    simpl in HL. unfold Model.cshape in HL. rewrite map_length in HL. exact HL.
  - apply (Proofs.tucker_neg_spec R rO rI radd rmul rsub ropp Rth).
Qed.

(* asarray(-S) = -asarray(S) for a TensorSum of scalar / ndarray / canonical / Tucker terms *)
Lemma sum_neg_spec (bs : list tens) t idx :
  Forall (fun b => length idx = length (Model.shape_of R b)) bs ->
  neg2 (T2Sum (map T2B bs)) = Ok t ->
  entry2 t idx = - entry2 (T2Sum (map T2B bs)) idx.
Proof.
  intros HL H. cbn [neg2] in H.
  destruct (mapres neg2 (map T2B bs)) as [ys|e] eqn:E; simpl in H; [|discriminate].
  apply mk_sum_ok in H. subst t. rewrite !entry2_sum.
  rewrite (rsum_mapres _ (fun y => entry2 y idx) (fun x => - entry2 x idx) _ _ E).
  - apply (Proofs.rsum_map_opp R rO rI radd rmul rsub ropp Rth).
  - intros x y Hx Hy. apply in_map_iff in Hx. destruct Hx as [b [<- Hb]].
    rewrite Forall_forall in HL. cbn [neg2] in Hy.
    destruct (neg b) as [b'|e] eqn:Eb; [|discriminate]. inversion Hy.
    exact (base_neg_spec b b' idx (HL b Hb) Eb).
Qed.

(* asarray(S - T) = asarray(S) - asarray(T) for a TensorSum S and a term T of Model.v *)
Lemma sum_sub_spec xs (b : tens) t idx :
  length idx = length (Model.shape_of R b) ->
  sub2 (T2Sum xs) (T2B b) = Ok t -> entry2 t idx = entry2 (T2Sum xs) idx - entry2 (T2B b) idx.
Proof.
  intros HL H. unfold sub2 in H. cbn [neg2] in H.
  destruct (neg b) as [b'|e] eqn:Eb; simpl in H; [|discriminate].
  change (add2 (T2Sum xs) (T2B b') = Ok t) in H.
  rewrite (sum_add_spec _ _ _ _ H). cbn [entry2]. rewrite (base_neg_spec b b' idx HL Eb). ring.
Qed.

(* -P for a TensorProd whose first factor is a term of Model.v: only that factor is negated *)
Lemma prod_neg_spec (b : tens) ps t idx :
  length (firstn (length (Model.shape_of R b)) idx) = length (Model.shape_of R b) ->
  neg2 (T2Prod (T2B b :: ps)) = Ok t -> entry2 t idx = - entry2 (T2Prod (T2B b :: ps)) idx.
Proof.
  intros HL H. cbn [neg2] in H.
  destruct (neg b) as [b'|e] eqn:Eb; simpl in H; [|discriminate].
  inversion H; subst t. cbn [entry2 shape2].
  assert (ES : Model.shape_of R b' = Model.shape_of R b).
  { destruct b as [a|A|Xs|Us X]; simpl in Eb; inversion Eb; subst b'; try reflexivity.
    simpl. destruct Xs; reflexivity. }
  rewrite ES. rewrite (base_neg_spec b b' _ HL Eb). ring.
Qed.

Lemma forallb_scal_entry ys : forallb is_scal ys = true -> forall idx, map (fun y => entry2 y idx) ys = map (fun y => entry2 y []) ys.
Proof.
  intros H idx. apply map_ext_in. intros y Hy. rewrite forallb_forall in H. specialize (H y Hy).
  destruct y as [[a|A|Xs|Us X]|xs|xs]; simpl in H; try discriminate. reflexivity.
Qed.

(* TensorSum.__getitem__: if the __getitem__ gi of every term returns the selected entries of that term
   (sel maps an index of the result to the index of the original), so does the __getitem__ of the sum;
   all-int expressions return the sum of the scalar entries *)
Lemma sum_getitem_spec (gi : tens2 -> res tens2) (sel : list nat -> list nat) xs t idx' :
  (forall x y, In x xs -> gi x = Ok y -> entry2 y idx' = entry2 x (sel idx')) ->
  sum_getitem gi xs = Ok t ->
  entry2 t idx' = entry2 (T2Sum xs) (sel idx').
Proof.
  intros Hgi H. unfold sum_getitem in H.
  destruct (mapres gi xs) as [ys|e] eqn:E; simpl in H; [|discriminate].
  assert (HS : rsum (map (fun y => entry2 y idx') ys) = entry2 (T2Sum xs) (sel idx')).
  { rewrite entry2_sum. exact (rsum_mapres gi _ (fun x => entry2 x (sel idx')) xs ys E Hgi). }
  destruct (forallb is_scal ys) eqn:Esc.
  - inversion H; subst t. cbn [entry2]. unfold Model.entry. simpl.
    rewrite <- (forallb_scal_entry ys Esc idx'). exact HS.
  - apply mk_sum_ok in H. subst t. rewrite entry2_sum. exact HS.
Qed.

(* TensorSum.nway_prod: asarray(apply_tprod(Bs, S)) = apply_tprod(Bs, asarray(S)) given that statement
   for every term (canon_nway, tucker_nway, and by definition for ndarrays) *)
Lemma sum_nway_spec Bs (xs : list tens) t idx (F : tens -> list nat -> R) :
  (forall x y, In x xs -> Model.nway R rO radd rmul Bs x = Ok y -> entry y idx = F x idx) ->
  sum_nway Bs xs = Ok t ->
  entry2 t idx = rsum (map (fun x => F x idx) xs).
Proof.
  intros HF H. unfold sum_nway in H.
  destruct (mapres _ xs) as [ys|e] eqn:E; simpl in H; [|discriminate].
  apply mk_sum_ok in H. subst t. rewrite entry2_sum.
  apply (rsum_mapres _ _ _ _ _ E). intros x y Hx Hy.
  destruct (Model.nway R rO radd rmul Bs x) as [y0|e] eqn:Ex; [|discriminate].
  inversion Hy. exact (HF x y0 Hx Ex).
Qed.

(* subtraction: CanonicalTensor.__sub__ = self + (-T2) (tensor.py:822), CanonicalOperator.__sub__ =
   self + (-other) (tensor.py:1230) *)
Lemma canon_sub_spec (A B : list (Model.mat R)) idx ra :
  Proofs.uniform R A ra -> length A = length B -> A <> [] -> length idx = length B ->
  centry (Model.canon_add R A (Model.canon_neg R ropp B)) idx = centry A idx - centry B idx.
Proof.
  intros HA HL Hne Hi.
  rewrite (Proofs.canon_add_spec R rO rI radd rmul rsub ropp Rth A _ idx ra HA).
  - rewrite (Proofs.canon_neg_spec R rO rI radd rmul rsub ropp Rth B idx Hi). ring.
  - destruct B; simpl; exact HL.
  - exact Hne.
Qed.

Lemma canop_sub_spec (A B : list (list (Model.mat R))) I J :
  Forall (fun t => t <> []) B -> I <> [] -> J <> [] ->
  kentry (Model.canop_add R A (Model.canop_neg R ropp B)) I J = kentry A I J - kentry B I J.
Proof.
  intros HB HI HJ.
  rewrite (Proofs.canop_add_spec R rO rI radd rmul rsub ropp Rth).
  rewrite (Proofs.canop_neg_spec R rO rI radd rmul rsub ropp Rth B I J HB HI HJ). ring.
Qed.

End SumProd.
