(* C19 -- non-vacuity: concrete inputs meet the hypotheses of the theorems. *)
From Coq Require Import QArith Qcanon ZArith List Arith Bool PrimFloat Lia.
From Verif.lib Require Import Bsp NpCore NpQ NpF.
From Verif.C19 Require Import Model Model2 Proofs Proofs2 Proofs5 Proofs6 Proofs8 Proofs11 FloatGridDefs FloatProofs.
Import ListNotations.
Open Scope Qc_scope.

Definition q (n : Z) (d : positive) : Qc := Q2Qc (n # d).
Definition ex_kv := make_knots 2 (q 0 1) (q 1 1) 4 2.

Example ex_make_knots : map this ex_kv = [0; 0; 0; 1 # 4; 1 # 4; 1 # 2; 1 # 2; 3 # 4; 3 # 4; 1; 1; 1]%Q.
Proof. vm_compute. reflexivity. Qed.
Example ex_hyp : q 0 1 < q 1 1.
Proof. reflexivity. Qed.
Example ex_open : open_kv ex_kv 2 = true /\ kv_valid ex_kv = true.
Proof. split; vm_compute; reflexivity. Qed.
Example ex_mesh : map this (mesh ex_kv) = [0; 1 # 4; 1 # 2; 3 # 4; 1]%Q /\ numspans ex_kv = 4%nat
                  /\ numdofs ex_kv 2 = 9%nat.
Proof. repeat split; vm_compute; reflexivity. Qed.
Example ex_k2m : knots_to_mesh ex_kv = [0; 0; 0; 1; 1; 2; 2; 3; 3; 4; 4; 4]%nat.
Proof. vm_compute. reflexivity. Qed.
Example ex_spans : mesh_span_indices ex_kv = [2; 4; 6; 8]%nat.
Proof. vm_compute. reflexivity. Qed.
Example ex_findspan : findspan ex_kv 2 (q 1 2) = 6%nat /\ findspan ex_kv 2 (q 1 1) = 8%nat.
Proof. split; vm_compute; reflexivity. Qed.
Example ex_msia : nth 4 (mesh_support_idx_all ex_kv 2) (0, 0)%nat = (1, 3)%nat.
Proof. vm_compute. reflexivity. Qed.
Example ex_greville : map this (greville ex_kv 2) = [0; 1 # 8; 1 # 4; 3 # 8; 1 # 2; 5 # 8; 3 # 4; 7 # 8; 1]%Q.
Proof. vm_compute. reflexivity. Qed.
Example ex_refine : map this (refine ex_kv [q 1 3; q 1 4]) =
  [0; 0; 0; 1 # 4; 1 # 4; 1 # 4; 1 # 3; 1 # 2; 1 # 2; 3 # 4; 3 # 4; 1; 1; 1]%Q.
Proof. vm_compute. reflexivity. Qed.
Example ex_refine_uniform : map this (mesh (refine_uniform ex_kv)) = [0; 1 # 8; 1 # 4; 3 # 8; 1 # 2; 5 # 8; 3 # 4; 7 # 8; 1]%Q.
Proof. vm_compute. reflexivity. Qed.
Example ex_eq_far : kv_eq ex_kv 2 (make_knots 2 (q 0 1) (q 1 1) 4 2) 2 = true
                    /\ kv_eq ex_kv 2 (make_knots 2 (q 0 1) (q 2 1) 4 2) 2 = false.
Proof. split; vm_compute; reflexivity. Qed.
Example ex_derivative : map this (derivative_coeffs ex_kv 2 (map (fun z => q z 1) [1; 2; 4; 8; 16; 32; 64; 128; 256]%Z))
                        = [8; 16; 32; 64; 128; 256; 512; 1024]%Q.
Proof. vm_compute. reflexivity. Qed.

(* the bounded float theorem is about a non-empty grid that contains [0,1] and [0.1,0.7] *)
Example ex_grid : In (0, 1)%Q grid_all /\ In (1 # 10, 7 # 10)%Q grid_all /\ length grid_all = 16%nat.
Proof.
  split; [|split; [|reflexivity]].
  - change (0, 1)%Q with (nth 0 grid_all (0, 0)%Q). apply nth_In. rewrite grid_all_length. lia.
  - change (1 # 10, 7 # 10)%Q with (nth 3 grid_all (0, 0)%Q). apply nth_In. rewrite grid_all_length. lia.
Qed.
Example ex_f_of_q : PrimFloat.eqb (f_of_q (1 # 10)) 0x1.999999999999ap-4%float = true
                    /\ PrimFloat.eqb (f_of_q (-37 # 10)) (-0x1.d99999999999ap+1)%float = true.
Proof. split; vm_compute; reflexivity. Qed.
Example ex_float : length (mesh_f (make_knots_f 2 0 1 49 1)) = 50%nat
                   /\ length (mesh_f (make_knots_old_f 2 0 1 49 1)) = 51%nat.
Proof. split; vm_compute; reflexivity. Qed.

(* hypotheses of greville_in_support / refine_uniform_halves are met by ex_kv *)
Example ex_grev_hyp : (1 <= 2)%nat /\ kv_valid ex_kv = true /\ (4 < numdofs ex_kv 2)%nat /\ ex_kv <> [].
Proof.
  split; [lia|]. split; [vm_compute; reflexivity|]. split; [vm_compute; lia|discriminate].
Qed.
Example ex_halves : map this (Proofs2.interleave (mesh ex_kv)) = [0; 1 # 8; 1 # 4; 3 # 8; 1 # 2; 5 # 8; 3 # 4; 7 # 8; 1]%Q.
Proof. vm_compute. reflexivity. Qed.

(* derivative_spline: ex_kv meets kv_ok; the two sides computed on a concrete input *)
Example ex_deriv_eval :
  let c := map (fun z => q z 1) [1; 2; 4; 8; 16; 32; 64; 128; 256]%Z in
  length c = numdofs ex_kv 2 /\
  spline_ev (derivative_kv ex_kv) 1 (derivative_coeffs ex_kv 2 c) (q 3 8) = spline_dev ex_kv 2 c (q 3 8) /\
  this (spline_dev ex_kv 2 c (q 3 8)) = 48%Q.
Proof. repeat split; vm_compute; reflexivity. Qed.

(* make_knots_open_kv / make_knots_basis_properties: mult = 2 <= max 2 1, u = 3/8 in [0,1] *)
Example ex_open_hyp : (2 <= Nat.max 2 1)%nat /\ q 0 1 <= q 3 8 /\ q 3 8 <= q 1 1.
Proof. split; [cbn; lia|split; discriminate]. Qed.
Example ex_basis : this (Nref ex_kv 2 3 (q 3 8)) = (1 # 2)%Q /\ single_ev ex_kv 2 3 (q 3 8) = Nref ex_kv 2 3 (q 3 8).
Proof. split; vm_compute; reflexivity. Qed.
(* greville_unisolvent_partial: an interior index exists (1 <= 4, 4 + 1 < 9) *)
Example ex_sw : (1 <= 4)%nat /\ (4 + 1 < numdofs ex_kv 2)%nat /\ kn ex_kv 4 < nth 4 (greville ex_kv 2) 0.
Proof. split; [lia|split; [vm_compute; lia|reflexivity]]. Qed.
(* greville_p0 *)
Definition ex_kv0 := make_knots 0 (q 0 1) (q 1 1) 4 1.
Example ex_p0 : kv_valid ex_kv0 = true /\ numdofs ex_kv0 0 = 4%nat /\
                map this (greville ex_kv0 0) = [1 # 8; 3 # 8; 5 # 8; 7 # 8]%Q.
Proof. repeat split; vm_compute; reflexivity. Qed.

(* N_pos_inside_support / greville_diag_pos on ex_kv: function 3 at its Greville point 3/8 *)
Example ex_diag : this (nth 3 (greville ex_kv 2) 0) = (3 # 8)%Q /\ kn ex_kv 3 < q 3 8 /\ q 3 8 < kn ex_kv (3 + 2 + 1)
                  /\ this (Nref ex_kv 2 3 (q 3 8)) = (1 # 2)%Q.
Proof. repeat split; vm_compute; reflexivity. Qed.
(* N_right_end: the last function (index 8) of ex_kv at u = 1 *)
Example ex_right_end : kn ex_kv 8 < kn ex_kv 9 /\ qeqb (kn ex_kv 9) (kn ex_kv (length ex_kv - 1)) = true /\ this (Nref ex_kv 2 8 (q 1 1)) = 1%Q.
Proof. repeat split; vm_compute; reflexivity. Qed.

(* k2m / span cells / mesh-support pairs on ex_kv = [0,0,0,1/4,1/4,1/2,1/2,3/4,3/4,1,1,1] *)
Example ex_k2m_iso : map (k2m ex_kv) (mesh_span_indices ex_kv) = seq 0 (numspans ex_kv)
                     /\ k2m ex_kv 0 = 0%nat /\ k2m ex_kv (length ex_kv - 1) = 4%nat /\ k2m ex_kv 5 = S (k2m ex_kv 4).
Proof. repeat split; vm_compute; reflexivity. Qed.
Example ex_span_cell : (2 < numspans ex_kv)%nat /\ nth 2 (mesh_span_indices ex_kv) 0%nat = 6%nat
                       /\ this (nth 2 (mesh ex_kv) 0) = (1 # 2)%Q /\ this (kn ex_kv 6) = (1 # 2)%Q.
Proof. split; [vm_compute; lia|repeat split; vm_compute; reflexivity]. Qed.
Example ex_msi_ordered : mesh_support_idx ex_kv 2 3 = (1, 2)%nat /\ kn ex_kv 3 < kn ex_kv (3 + 2 + 1)
                         /\ mesh_support_idx ex_kv 2 0 = (0, 1)%nat.
Proof. repeat split; vm_compute; reflexivity. Qed.
(* span search, array form and first-active indices *)
Example ex_findspans : findspans ex_kv 2 [q 0 1; q 3 8; q 1 2; q 1 1] = [2; 4; 6; 8]%nat
                       /\ first_active_all ex_kv 2 [q 0 1; q 3 8; q 1 2; q 1 1] = [0; 2; 4; 6]%Z
                       /\ first_active_at_z ex_kv 2 (q 3 8) = 2%Z /\ numdofs ex_kv 2 = 9%nat.
Proof. repeat split; vm_compute; reflexivity. Qed.
Example ex_unique_hyp : (S 4 < length ex_kv)%nat /\ kn ex_kv 4 <= q 3 8 /\ q 3 8 < kn ex_kv 5 /\ findspan ex_kv 2 (q 3 8) = 4%nat.
Proof. split; [vm_compute; lia|]. split; [discriminate|]. split; vm_compute; reflexivity. Qed.
Example ex_meshsize : this (meshsize_avg ex_kv) = (1 # 4)%Q /\ this (fst (support_all ex_kv)) = 0%Q /\ this (snd (support_all ex_kv)) = 1%Q.
Proof. repeat split; vm_compute; reflexivity. Qed.
(* refine_nested: the double knot 1/4 plus one inserted 1/4 gives multiplicity 3 *)
Example ex_refine_count : count_occ Qc_eq_dec (refine ex_kv [q 1 3; q 1 4]) (q 1 4) = 3%nat
                          /\ numdofs (refine ex_kv [q 1 3; q 1 4]) 2 = 11%nat.
Proof. split; vm_compute; reflexivity. Qed.

(* derivative_wellformed on ex_kv (degree 2, 9 coefficients): knots kv[1:-1], 8 coefficients, degree 1 *)
Example ex_deriv_wf : length (derivative_kv ex_kv) = 10%nat /\ numdofs (derivative_kv ex_kv) 1 = 8%nat
  /\ length (derivative_coeffs ex_kv 2 (map (fun z => q z 1) [1; 2; 4; 8; 16; 32; 64; 128; 256]%Z)) = 8%nat
  /\ kv_valid (derivative_kv ex_kv) = true.
Proof. repeat split; vm_compute; reflexivity. Qed.

(* support_cells: B-spline 3 of ex_kv has knots 3..6 = 1/4,1/4,1/2,1/2; the only non-empty span among
   3..5 is span 4, which is mesh cell 1 = lo .. hi-1 *)
Example ex_support_cells : filter (Proofs11.nonempty_span ex_kv) (seq 3 (2 + 1)) = [4]%nat
                           /\ mesh_support_idx ex_kv 2 3 = (1, 2)%nat /\ k2m ex_kv 4 = 1%nat.
Proof. repeat split; vm_compute; reflexivity. Qed.
