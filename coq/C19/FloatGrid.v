(* C19 -- bounded binary64 statement (computed): on every interval of FloatGridDefs.grid_all and
   for every n = 1..2000 the break points of the repaired make_knots pass NpF.bp_scan, hence
   NpF.bp_ok.  The thorough tier's coqchk (1500 s limit for the whole of Props.v's closure) re-evaluates
   this without the VM, roughly 15 s per interval for the one-pass form bp_scan; it is by far the dearest
   proof to re-check, and what bounds the number of intervals. *)
From Coq Require Import QArith List.
From Verif.lib Require Import NpF.
From Verif.C19 Require Import FloatGridDefs.

Lemma grid_scan_ok : grid_scan 2000 (map f_of_qq grid_all) = true.
Proof. vm_compute. reflexivity. Qed.
