(* C19 -- the intervals of the bounded binary64 theorem, as rationals (the end points used are
   the nearest doubles, NpF.f_of_q = what the decimal / rational literal denotes in Python).
   The sweep over them is FloatGrid.v, which also says what bounds their number. *)
From Coq Require Import QArith List Arith.
From Verif.lib Require Import NpF.
Import ListNotations.

Definition grid_all : list (Q * Q) :=
  [(0, 1); (-1, 1); (9 # 10, 1); (1 # 10, 7 # 10); (1 # 3, 2 # 3); (0, 3 # 10); (2, 3); (-1 # 2, 1 # 4);
   (0, 10); (1 # 1000, 1000); (100, 1001 # 10); (-37 # 10, 129 # 10); (1 # 1000000, 1 # 100000);
   (1234567 # 10, 6543219 # 10); (0, 1 # 1000000); (-1000000, 1000000)]%Q.

Lemma grid_all_length : length grid_all = 16%nat.
Proof. reflexivity. Qed.
