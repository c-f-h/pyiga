(* C19 -- binary64: the sweep of FloatGrid.v, looked up by interval and n; where the unrepaired
   (np.arange) formula goes wrong. *)
From Coq Require Import PrimFloat QArith List Arith Bool Lia.
From Verif.lib Require Import NpCore NpF.
From Verif.C19 Require Import FloatGridDefs FloatGrid.
Import ListNotations.
Open Scope float_scope.

Lemma grid_bp_ok qa qb n : In (qa, qb) grid_all -> (1 <= n <= 2000)%nat ->
  bp_ok (f_of_q qa) (f_of_q qb) n = true.
Proof.
  intros Hg Hn. apply (grid_scan_lookup _ _ grid_scan_ok); [|exact Hn].
  change (f_of_q qa, f_of_q qb) with (f_of_qq (qa, qb)). apply in_map. exact Hg.
Qed.

(* the np.arange formula with a fractional step yields one span too many on [0,1] (p = 2, mult = 1) for
   exactly these n <= 300 (computed) *)
Lemma make_knots_float_old_bad_n :
  filter (fun n => negb (length (mesh_f (make_knots_old_f 2 0 1 n 1)) =? n + 1)%nat) (seq 1 300)
  = [49; 98; 103; 107; 196; 197; 206; 214; 237; 239; 249; 253]%nat.
Proof. vm_compute. reflexivity. Qed.
