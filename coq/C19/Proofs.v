(* C19 -- proofs about the model of coq/C19/Model.v: list and Qc facts used throughout the directory;
   strictly increasing lists and the mesh; refine; the closed form of the knots built by make_knots
   (bpidx) and what follows from it; __eq__. *)
From Coq Require Import QArith Qcanon ZArith List Arith Bool Lia Lqa Permutation.
From Verif.lib Require Import Bsp NpCore NpQ QcFacts.
From Verif.C02 Require Import Proofs.
From Verif.C19 Require Import Model.
Import ListNotations.
Open Scope Qc_scope.

Lemma div_ge_iff a b q : (0 < b)%nat -> (q <= a / b <-> b * q <= a)%nat.
Proof.
  intros Hb. split; intros H.
  - destruct (Nat.le_gt_cases (b * q) a) as [L|L]; [exact L|].
    apply Nat.div_lt_upper_bound in L; lia.
  - apply Nat.div_le_lower_bound; lia.
Qed.

Lemma forallb_seq_intro (f : nat -> bool) s k :
  (forall i, (s <= i < s + k)%nat -> f i = true) -> forallb f (seq s k) = true.
Proof. intros H. apply forallb_forall. intros i Hi. apply in_seq in Hi. apply H. exact Hi. Qed.

Lemma nth_firstn_lt {A} (l : list A) m t d : (t < m)%nat -> nth t (firstn m l) d = nth t l d.
Proof.
  revert l t. induction m as [|m IH]; intros l t H; [lia|].
  destruct l as [|x l]; [destruct t; reflexivity|]. destruct t; [reflexivity|].
  cbn [firstn nth]. apply IH. lia.
Qed.

Lemma nth_skipn {A} (l : list A) i t d : nth t (skipn i l) d = nth (i + t) l d.
Proof.
  revert l. induction i as [|i IH]; intros l; [reflexivity|].
  destruct l as [|x l]; [destruct t; reflexivity|]. cbn [skipn plus nth]. apply IH.
Qed.

Lemma zip_with_length f x y : length (zip_with f x y) = Nat.min (length x) (length y).
Proof.
  revert y. induction x as [|a x IH]; intros [|b y]; cbn; try reflexivity. rewrite IH. reflexivity.
Qed.

Lemma nth_zip_with f x y i : (i < length x)%nat -> (i < length y)%nat ->
  nth i (zip_with f x y) 0 = f (nth i x 0) (nth i y 0).
Proof.
  revert y i. induction x as [|a x IH]; intros [|b y] i Hx Hy; cbn in *; try lia.
  destruct i; [reflexivity|]. apply IH; lia.
Qed.

Lemma qsum_cons a l : qsum (a :: l) = a + qsum l.
Proof. reflexivity. Qed.

Lemma qsum_nil : qsum [] = 0.
Proof. reflexivity. Qed.

Lemma qsum_app l r : qsum (l ++ r) = qsum l + qsum r.
Proof.
  induction l as [|a l IH]; [rewrite qsum_nil; cbn [app]; ring|].
  cbn [app]. rewrite !qsum_cons, IH. ring.
Qed.

Lemma div_zero (x y : Qc) : y = 0 -> x / y = 0.
Proof. intros ->. unfold Qcdiv. replace (/ 0) with 0 by reflexivity. ring. Qed.

Lemma div_pos (x y : Qc) : 0 < x -> 0 < y -> 0 < x / y.
Proof.
  intros Hx Hy. apply Qcmult_pos; [exact Hx|apply Qcinv_pos, Hy].
Qed.

Lemma pos_plus_nonneg (x y : Qc) : 0 < x -> 0 <= y -> 0 < x + y.
Proof. intros. qcq. lra. Qed.

Lemma nonneg_plus_pos (x y : Qc) : 0 <= x -> 0 < y -> 0 < x + y.
Proof. intros. qcq. lra. Qed.

Section Count.
Context {A : Type} (dec : forall x y : A, {x = y} + {x <> y}).

Lemma expand_In (l : list (A * nat)) x : In x (expand l) -> In x (map fst l).
Proof.
  induction l as [|[y j] t IH]; [intros []|].
  unfold expand. cbn [flat_map fst snd map]. fold (expand t). intros H.
  apply in_app_or in H. destruct H as [H|H].
  - left. symmetry. eapply repeat_spec. exact H.
  - right. apply IH. exact H.
Qed.

Lemma count_expand (l : list (A * nat)) x k : NoDup (map fst l) -> In (x, k) l ->
  count_occ dec (expand l) x = k.
Proof.
  induction l as [|[y j] t IH]; intros Hnd Hin; [destruct Hin|].
  cbn [map fst] in Hnd. apply NoDup_cons_iff in Hnd. destruct Hnd as [Hny Hnd].
  unfold expand. cbn [flat_map fst snd]. fold (expand t). rewrite count_occ_app.
  destruct Hin as [E|Hin].
  - injection E as -> ->. rewrite count_occ_repeat_eq by reflexivity.
    rewrite (proj1 (count_occ_not_In dec (expand t) x)); [lia|].
    intros H. apply Hny. apply expand_In. exact H.
  - assert (Hne : x <> y).
    { intros <-. apply Hny. change x with (fst (x, k)). apply in_map. exact Hin. }
    rewrite count_occ_repeat_neq by exact Hne. rewrite IH by assumption. reflexivity.
Qed.
End Count.

Lemma strict_cons a l : adjb qltb (a :: l) = match l with [] => true | b :: _ => qltb a b && adjb qltb l end.
Proof. destruct l; reflexivity. Qed.

Lemma strict_tail a l : adjb qltb (a :: l) = true -> adjb qltb l = true.
Proof. rewrite strict_cons. destruct l; [reflexivity|]. intros H. apply andb_true_iff in H. tauto. Qed.

Lemma strict_head_lt a l : adjb qltb (a :: l) = true -> forall x, In x l -> a < x.
Proof.
  revert a. induction l as [|b t IH]; intros a H x Hx; [destruct Hx|].
  rewrite strict_cons in H. apply andb_true_iff in H. destruct H as [Hab Ht].
  apply qltb_iff in Hab. destruct Hx as [<-|Hx]; [exact Hab|].
  eapply Qclt_trans; [exact Hab|]. apply IH; assumption.
Qed.

Lemma lt_irrefl_q (x : Qc) : ~ x < x.
Proof. apply Qcle_not_lt, Qcle_refl. Qed.

Lemma strict_nth_lt m : adjb qltb m = true -> forall i j, (i < j)%nat -> (j < length m)%nat ->
  nth i m 0 < nth j m 0.
Proof.
  induction m as [|a t IH]; intros H i j Hij Hj; [cbn in Hj; lia|].
  destruct j as [|j]; [lia|]. cbn [length] in Hj. destruct i as [|i].
  - cbn [nth]. apply (strict_head_lt a t H). apply nth_In. lia.
  - cbn [nth]. apply IH; [eapply strict_tail; exact H|lia|lia].
Qed.

Lemma strict_nth_idx_lt m i j : adjb qltb m = true -> (i < length m)%nat -> (j < length m)%nat ->
  nth i m 0 < nth j m 0 -> (i < j)%nat.
Proof.
  intros H Hi Hj Hlt. destruct (Nat.lt_trichotomy i j) as [L|[E|L]]; [exact L| |]; exfalso.
  - subst j. exact (lt_irrefl_q _ Hlt).
  - pose proof (strict_nth_lt m H j i L Hi) as G. apply (lt_irrefl_q (nth i m 0)).
    eapply Qclt_trans; eassumption.
Qed.

Lemma strict_NoDup l : adjb qltb l = true -> NoDup l.
Proof.
  induction l as [|a t IH]; intros H; [constructor|].
  constructor.
  - intros Hin. apply (lt_irrefl_q a). apply (strict_head_lt a t H a Hin).
  - apply IH. eapply strict_tail. exact H.
Qed.

Lemma strict_ext l1 : forall l2, adjb qltb l1 = true -> adjb qltb l2 = true ->
  (forall x, In x l1 <-> In x l2) -> l1 = l2.
Proof.
  induction l1 as [|a t IH]; intros l2 H1 H2 E.
  - destruct l2 as [|b r]; [reflexivity|]. exfalso. apply (E b). left. reflexivity.
  - destruct l2 as [|b r]; [exfalso; apply (E a); left; reflexivity|].
    assert (Hab : a = b).
    { destruct (proj1 (E a) (or_introl eq_refl)) as [Hb|Hb]; [symmetry; exact Hb|].
      destruct (proj2 (E b) (or_introl eq_refl)) as [Ha|Ha]; [exact Ha|]. exfalso.
      pose proof (strict_head_lt b r H2 a Hb). pose proof (strict_head_lt a t H1 b Ha).
      apply (lt_irrefl_q a). eapply Qclt_trans; eassumption. }
    subst b. f_equal. apply IH; [eapply strict_tail; eassumption|eapply strict_tail; eassumption|].
    intros x. split; intros Hx.
    + destruct (proj1 (E x) (or_intror Hx)) as [Hb|Hb]; [|exact Hb]. subst x. exfalso.
      apply (lt_irrefl_q a). apply (strict_head_lt a t H1 a Hx).
    + destruct (proj2 (E x) (or_intror Hx)) as [Hb|Hb]; [|exact Hb]. subst x. exfalso.
      apply (lt_irrefl_q a). apply (strict_head_lt a r H2 a Hx).
Qed.

Lemma linspace_strict a b num : a < b -> adjb qltb (linspace_q a b num) = true.
Proof.
  intros Hab. apply (adjb_of_nth _ _ 0). intros i Hi. rewrite linspace_length in Hi.
  apply qltb_iff. apply linspace_lt; [exact Hab|lia|exact Hi].
Qed.

Lemma mesh_increasing kv : adjb qltb (mesh kv) = true.
Proof. apply unique_strict. Qed.

Lemma mesh_In kv x : In x (mesh kv) <-> In x kv.
Proof. apply unique_In. Qed.

Lemma mesh_unique kv l : adjb qltb l = true -> (forall x, In x kv <-> In x l) -> mesh kv = l.
Proof.
  intros Hl H. apply strict_ext; [apply mesh_increasing|exact Hl|].
  intros x. rewrite mesh_In. apply H.
Qed.

Lemma mesh_nonempty kv : kv <> [] -> mesh kv <> [].
Proof.
  destruct kv as [|a t]; [congruence|]. intros _ E.
  apply (in_nil (a := a)). rewrite <- E. apply mesh_In. left. reflexivity.
Qed.

Lemma refine_perm_sorted kv new_knots :
  Permutation (refine kv new_knots) (kv ++ new_knots) /\ kv_valid (refine kv new_knots) = true.
Proof. unfold refine, kv_valid. split; [apply sort_perm|apply sort_sorted]. Qed.

Lemma refine_In kv new_knots x : In x (refine kv new_knots) <-> In x kv \/ In x new_knots.
Proof.
  destruct (refine_perm_sorted kv new_knots) as [P _]. rewrite <- in_app_iff.
  split; apply Permutation_in; [exact P|apply Permutation_sym; exact P].
Qed.

Definition bpidx (p n mult i : nat) : nat :=
  if (i <? p + 1)%nat then 0%nat
  else if (i <? p + 1 + mult * (n - 1))%nat then S ((i - (p + 1)) / mult)
  else n.

Lemma bpidx_lo p n mult i : (i < p + 1)%nat -> bpidx p n mult i = 0%nat.
Proof. intros H. unfold bpidx. destruct (Nat.ltb_spec i (p + 1)); [reflexivity|lia]. Qed.

Lemma bpidx_hi p n mult i : (p + 1 + mult * (n - 1) <= i)%nat -> bpidx p n mult i = n.
Proof.
  intros H. unfold bpidx. destruct (Nat.ltb_spec i (p + 1)); [nia|].
  destruct (Nat.ltb_spec i (p + 1 + mult * (n - 1))); [lia|reflexivity].
Qed.

(* bpidx counts the block boundaries p + 1 + mult t, t < n, at or below i; everything else about
   bpidx follows from this by linear arithmetic, without division *)
Lemma bpidx_ge p n mult i t : (1 <= mult)%nat ->
  (S t <= bpidx p n mult i <-> t < n /\ p + 1 + mult * t <= i)%nat.
Proof.
  intros Hm. unfold bpidx.
  destruct (Nat.ltb_spec i (p + 1)); [lia|].
  destruct (Nat.ltb_spec i (p + 1 + mult * (n - 1))).
  - rewrite <- Nat.succ_le_mono, div_ge_iff by lia. nia.
  - nia.
Qed.

Lemma bpidx_le p n mult i : (1 <= mult)%nat -> (bpidx p n mult i <= n)%nat.
Proof.
  intros Hm. destruct (bpidx p n mult i) as [|t] eqn:E; [lia|].
  assert (H : (S t <= bpidx p n mult i)%nat) by lia. apply bpidx_ge in H; lia.
Qed.

Lemma bpidx_mono p n mult i j : (1 <= mult)%nat -> (i <= j)%nat ->
  (bpidx p n mult i <= bpidx p n mult j)%nat.
Proof.
  intros Hm Hij. destruct (bpidx p n mult i) as [|t] eqn:E; [lia|].
  assert (H : (S t <= bpidx p n mult i)%nat) by lia. apply bpidx_ge in H; [|exact Hm].
  apply bpidx_ge; lia.
Qed.

(* a block boundary between i and j separates their break points *)
Lemma bpidx_lt p n mult i j t : (1 <= mult)%nat -> (t < n)%nat ->
  (i < p + 1 + mult * t)%nat -> (p + 1 + mult * t <= j)%nat ->
  (bpidx p n mult i < bpidx p n mult j)%nat.
Proof.
  intros Hm Ht Hi Hj.
  assert (A : (S t <= bpidx p n mult j)%nat) by (apply bpidx_ge; lia).
  assert (B : ~ (S t <= bpidx p n mult i)%nat) by (rewrite bpidx_ge by exact Hm; lia).
  lia.
Qed.

(* the multiplicity conjunct of open_kv, kv[i] < kv[i + max p 1] for the interior start indices:
   the boundary number t = bpidx i above i is below i + mult, and t < n as i is below the last one *)
Lemma bpidx_step p n mult i : (1 <= n)%nat -> (1 <= mult)%nat -> (mult <= Nat.max p 1)%nat ->
  (1 <= i)%nat -> (i + Nat.max p 1 < 2 * (p + 1) + mult * (n - 1) - 1)%nat ->
  (bpidx p n mult i < bpidx p n mult (i + Nat.max p 1))%nat.
Proof.
  intros Hn Hm HM Hi Hr. apply Nat.le_succ_l, bpidx_ge; [exact Hm|].
  pose proof (bpidx_le p n mult i Hm) as A. pose proof (fun t => bpidx_ge p n mult i t Hm) as B.
  revert A B. generalize (bpidx p n mult i). intros t A B.
  pose proof (B (n - 1)%nat) as Blast.
  destruct t as [|s]; [lia|]. pose proof (B s). lia.
Qed.

Lemma make_knots_layout p a b n mult :
  make_knots p a b n mult = layout a b (sl_1_m1 (linspace_q a b (n + 1))) (p + 1) mult.
Proof. reflexivity. Qed.

Lemma inner_length a b n : length (sl_1_m1 (linspace_q a b (n + 1))) = (n - 1)%nat.
Proof. rewrite sl_1_m1_length, linspace_length. lia. Qed.

Lemma make_knots_length p a b n mult :
  length (make_knots p a b n mult) = (2 * (p + 1) + mult * (n - 1))%nat.
Proof. rewrite make_knots_layout, layout_length, inner_length, (Nat.mul_comm mult). lia. Qed.

Lemma kn_make_knots p a b n mult i : (1 <= n)%nat -> (1 <= mult)%nat ->
  (i < 2 * (p + 1) + mult * (n - 1))%nat ->
  kn (make_knots p a b n mult) i = a + natq (bpidx p n mult i) * ((b - a) / natq n).
Proof.
  intros Hn Hm Hi. unfold kn. rewrite make_knots_layout.
  rewrite nth_layout by (rewrite ?inner_length, ?(Nat.mul_comm (n - 1) mult); lia).
  rewrite inner_length, (Nat.mul_comm (n - 1) mult). unfold bpidx.
  destruct (Nat.ltb_spec i (p + 1)) as [L|L].
  - rewrite natq_0. ring.
  - destruct (Nat.ltb_spec i (p + 1 + mult * (n - 1))) as [L2|L2].
    + assert (Hd : ((i - (p + 1)) / mult < n - 1)%nat) by (apply Nat.div_lt_upper_bound; lia).
      rewrite nth_sl_1_m1 by (rewrite linspace_length; lia).
      rewrite nth_linspace by lia. replace (n + 1 - 1)%nat with n by lia. reflexivity.
    + field. apply natq_neq0. lia.
Qed.

Lemma kn_make_knots_first p a b n mult i : (1 <= n)%nat -> (1 <= mult)%nat -> (i < p + 1)%nat ->
  kn (make_knots p a b n mult) i = a.
Proof.
  intros Hn Hm Hi. rewrite kn_make_knots by nia. rewrite bpidx_lo, natq_0 by exact Hi. ring.
Qed.

Lemma kn_make_knots_last p a b n mult i : (1 <= n)%nat -> (1 <= mult)%nat ->
  (p + 1 + mult * (n - 1) <= i)%nat -> (i < 2 * (p + 1) + mult * (n - 1))%nat ->
  kn (make_knots p a b n mult) i = b.
Proof.
  intros Hn Hm H1 H2. rewrite kn_make_knots, bpidx_hi by assumption. field. apply natq_neq0. lia.
Qed.

Lemma make_knots_ends p a b n mult : (1 <= n)%nat -> (1 <= mult)%nat ->
  kn (make_knots p a b n mult) 0 = a /\
  kn (make_knots p a b n mult) (length (make_knots p a b n mult) - 1) = b.
Proof.
  intros Hn Hm. rewrite make_knots_length. set (k := (mult * (n - 1))%nat).
  split; [apply kn_make_knots_first|apply kn_make_knots_last]; fold k; lia.
Qed.

Lemma bp_lt a b n i j : a < b -> (1 <= n)%nat -> (i < j)%nat ->
  a + natq i * ((b - a) / natq n) < a + natq j * ((b - a) / natq n).
Proof.
  intros Hab Hn Hij. pose proof (step_pos a b n Hab ltac:(lia)) as Hh.
  set (h := (b - a) / natq n) in *. clearbody h.
  pose proof (natq_lt i j Hij). qcq. nra.
Qed.

Lemma bp_le a b n i j : a < b -> (1 <= n)%nat -> (i <= j)%nat ->
  a + natq i * ((b - a) / natq n) <= a + natq j * ((b - a) / natq n).
Proof.
  intros Hab Hn Hij. apply Nat.lt_eq_cases in Hij. destruct Hij as [L| ->]; [|apply Qcle_refl].
  apply Qclt_le_weak, bp_lt; assumption.
Qed.

Lemma make_knots_sorted p a b n mult : a < b -> (1 <= n)%nat -> (1 <= mult)%nat ->
  sorted (make_knots p a b n mult).
Proof.
  intros Hab Hn Hm i j Hij Hj. rewrite make_knots_length in Hj.
  rewrite !kn_make_knots by lia. apply bp_le; try assumption. apply bpidx_mono; assumption.
Qed.

Lemma make_knots_kv_ok p a b n mult : a < b -> (1 <= n)%nat -> (1 <= mult)%nat ->
  kv_ok (make_knots p a b n mult) p.
Proof.
  intros Hab Hn Hm. assert (Hlen := make_knots_length p a b n mult).
  set (k := (mult * (n - 1))%nat) in *.
  constructor; rewrite ?Hlen.
  - lia.
  - apply make_knots_sorted; assumption.
  - rewrite !kn_make_knots_first by lia. reflexivity.
  - rewrite !kn_make_knots_last by (fold k; lia). reflexivity.
  - rewrite !kn_make_knots by (fold k; lia). apply bp_lt; try assumption.
    apply (bpidx_lt _ _ _ _ _ (n - 1)); fold k; lia.
Qed.

(* make_knots in run-length form: the break points linspace(a, b, n+1), each with its number of copies *)
Definition knot_runs (p : nat) (a b : Qc) (n mult : nat) : list (Qc * nat) :=
  (a, (p + 1)%nat) :: map (fun x => (x, mult)) (sl_1_m1 (linspace_q a b (n + 1))) ++ [(b, (p + 1)%nat)].

Lemma make_knots_expand p a b n mult : make_knots p a b n mult = expand (knot_runs p a b n mult).
Proof. apply layout_expand. Qed.

Lemma knot_runs_values p a b n mult : (1 <= n)%nat ->
  map fst (knot_runs p a b n mult) = linspace_q a b (n + 1).
Proof.
  intros Hn. unfold knot_runs. cbn [map fst]. rewrite map_app, map_map. cbn [map fst]. rewrite map_id.
  rewrite (ends_decompose (linspace_q a b (n + 1)) 0) at 2 by (rewrite linspace_length; lia).
  rewrite linspace_length, linspace_first, linspace_last by lia. reflexivity.
Qed.

Lemma knot_runs_In p a b n mult j : (1 <= n)%nat -> (j <= n)%nat ->
  In (nth j (linspace_q a b (n + 1)) 0, if (Nat.eqb j 0 || Nat.eqb j n)%bool then (p + 1)%nat else mult)
     (knot_runs p a b n mult).
Proof.
  intros Hn Hj. unfold knot_runs. set (L := linspace_q a b (n + 1)).
  assert (HL : length L = (n + 1)%nat) by apply linspace_length.
  destruct (Nat.eqb_spec j 0) as [->|Hj0]; cbn [orb].
  - left. unfold L. rewrite linspace_first by lia. reflexivity.
  - right. apply in_or_app. destruct (Nat.eqb_spec j n) as [->|Hjn].
    + right. left. f_equal. replace n with (n + 1 - 1)%nat at 1 by lia. symmetry. apply linspace_last. lia.
    + left. apply in_map_iff. exists (nth j L 0). split; [reflexivity|].
      replace j with (S (j - 1)) by lia. rewrite <- (nth_sl_1_m1 L (j - 1) 0) by lia.
      apply nth_In. rewrite sl_1_m1_length. lia.
Qed.

Lemma make_knots_count p a b n mult j : a < b -> (1 <= n)%nat -> (j <= n)%nat ->
  count_occ Qc_eq_dec (make_knots p a b n mult) (nth j (linspace_q a b (n + 1)) 0) =
  if (Nat.eqb j 0 || Nat.eqb j n)%bool then (p + 1)%nat else mult.
Proof.
  intros Hab Hn Hj. rewrite make_knots_expand. apply count_expand; [|apply knot_runs_In; assumption].
  rewrite knot_runs_values by exact Hn. apply strict_NoDup, linspace_strict. exact Hab.
Qed.

(* the mesh of make_knots is the list of break points: these are the values that occur *)
Lemma make_knots_mesh p a b n mult : a < b -> (1 <= n)%nat -> (1 <= mult)%nat ->
  mesh (make_knots p a b n mult) = linspace_q a b (n + 1).
Proof.
  intros Hab Hn Hm. apply mesh_unique; [apply linspace_strict; exact Hab|]. intros x. split; intros H.
  - rewrite make_knots_expand in H. apply expand_In in H. rewrite knot_runs_values in H by exact Hn. exact H.
  - destruct (In_nth _ _ 0 H) as [j [Hj <-]]. rewrite linspace_length in Hj.
    apply (count_occ_In Qc_eq_dec). rewrite make_knots_count by (assumption || lia).
    destruct (Nat.eqb j 0 || Nat.eqb j n)%bool; lia.
Qed.

(* make_knots yields an open knot vector in the boolean sense of lib/Bsp.v (open_kv), hence every
   theorem of C02 applies to every constructed knot vector *)
Lemma open_kv_make_knots p a b n mult : a < b -> (1 <= n)%nat -> (1 <= mult)%nat ->
  (mult <= Nat.max p 1)%nat -> open_kv (make_knots p a b n mult) p = true.
Proof.
  intros Hab Hn Hm HM.
  pose proof (make_knots_kv_ok p a b n mult Hab Hn Hm) as [Hlen Hs Hf Hl Hls].
  assert (HL := make_knots_length p a b n mult). rewrite HL in Hls.
  set (k := (mult * (n - 1))%nat) in *.
  unfold open_kv. rewrite HL.
  rewrite !andb_true_iff. repeat split.
  - apply Nat.leb_le. lia.
  - apply idx_sortedb. exact Hs.
  - apply forallb_seq_intro. intros i Hi. apply qeqb_iff.
    rewrite !kn_make_knots_first by lia. reflexivity.
  - apply forallb_seq_intro. intros i Hi. apply qeqb_iff.
    rewrite !kn_make_knots_last by (fold k; lia). reflexivity.
  - apply qltb_iff. rewrite !kn_make_knots by (fold k; lia). apply bp_lt; try assumption.
    apply (bpidx_lt _ _ _ _ _ 0); lia.
  - apply qltb_iff. exact Hls.
  - apply forallb_seq_intro. intros i Hi. apply qltb_iff.
    rewrite !kn_make_knots by (fold k; lia). apply bp_lt; try assumption.
    apply bpidx_step; try assumption; fold k; lia.
Qed.

Lemma qabs_sub_sym x y : qabs (x - y) = qabs (y - x).
Proof.
  unfold qabs. destruct (qleb 0 (x - y)) eqn:E1; destruct (qleb 0 (y - x)) eqn:E2;
    try apply qleb_iff in E1; try apply qleb_iff in E2;
    try apply qleb_false_iff in E1; try apply qleb_false_iff in E2; qcq; lra.
Qed.

Lemma qabs_nonneg x : 0 <= qabs x.
Proof.
  unfold qabs. destruct (qleb 0 x) eqn:E; [apply qleb_iff in E; exact E|].
  apply qleb_false_iff in E. qcq. lra.
Qed.

Lemma qabs_of_nonneg x : 0 <= x -> qabs x = x.
Proof. intros H. unfold qabs. apply qleb_iff in H. rewrite H. reflexivity. Qed.

Lemma qmax_comm x y : qmax x y = qmax y x.
Proof.
  unfold qmax. destruct (qleb x y) eqn:E1; destruct (qleb y x) eqn:E2; try reflexivity.
  - apply qleb_iff in E1, E2. apply Qcle_antisym; assumption.
  - apply qleb_false_iff in E1, E2. exfalso. revert E1. apply Qcle_not_lt. apply Qclt_le_weak. exact E2.
Qed.

Lemma qmax_ge_l x y : x <= qmax x y.
Proof.
  unfold qmax. destruct (qleb x y) eqn:E; [apply qleb_iff in E; exact E|apply Qcle_refl].
Qed.

Lemma isclose_sym_comm atol rtol x y : isclose_sym atol rtol x y = isclose_sym atol rtol y x.
Proof. unfold isclose_sym. rewrite qabs_sub_sym, qmax_comm. reflexivity. Qed.

Lemma isclose_sym_refl atol rtol x : 0 <= atol -> 0 <= rtol -> isclose_sym atol rtol x x = true.
Proof.
  intros Ha Hr. unfold isclose_sym. apply qleb_iff.
  replace (x - x) with 0 by ring. change (qabs 0) with 0.
  pose proof (Qcle_trans _ _ _ (qabs_nonneg x) (qmax_ge_l (qabs x) (qabs x))) as Hm.
  set (m := qmax (qabs x) (qabs x)) in *. clearbody m. qcq. nra.
Qed.

Lemma all2_refl r l : (forall x, r x x = true) -> all2 r l l = true.
Proof. intros H. induction l; cbn; [reflexivity|]. rewrite H, IHl. reflexivity. Qed.

Lemma all2_sym r x y : (forall a b, r a b = r b a) -> all2 r x y = all2 r y x.
Proof.
  intros H. revert y. induction x as [|a x IH]; intros [|b y]; cbn; try reflexivity.
  rewrite H, IH. reflexivity.
Qed.

(* np.allclose scales rtol by its second argument only: the third knots differ by just over
   1e-8 + 1e-8 * 1 and just under 1e-8 + 1e-8 * (1 + 2e-8), so kv_eq_old w_kv1 w_kv2 holds and
   kv_eq_old w_kv2 w_kv1 does not *)
Definition w_kv1 : list Qc := map Q2Qc [0; 0; 1; 2; 2]%Q.
Definition w_kv2 : list Qc := map Q2Qc [0; 0; 1 + (20000000100000000 # 1000000000000000000000000); 2; 2]%Q.
