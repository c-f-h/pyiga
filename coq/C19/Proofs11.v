(* C19 -- non-empty knot spans, the index set of np.where(k2m[1:] != k2m[:-1]). *)
From Coq Require Import QArith Qcanon List.
From Verif.lib Require Import Bsp NpQ.
Open Scope Qc_scope.

Definition nonempty_span (kv : list Qc) (i : nat) : bool := qltb (kn kv i) (kn kv (S i)).

Lemma nonempty_span_iff kv i : nonempty_span kv i = true <-> kn kv i < kn kv (S i).
Proof. apply qltb_iff. Qed.
