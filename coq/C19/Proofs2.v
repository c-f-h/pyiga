(* C19 -- Greville points: how many there are, their entries (degree 0: span midpoints; degree p >= 1: means of p
   consecutive knots); the interleaved mesh of uniform refinement. *)
From Coq Require Import QArith Qcanon ZArith List Arith Bool Lia Lqa.
From Verif.lib Require Import Bsp NpCore NpQ ListFacts.
From Verif.C02 Require Import Proofs.
From Verif.C19 Require Import Model Proofs.
Import ListNotations.
Open Scope Qc_scope.

Lemma clip_bounds lo hi x : lo <= hi -> lo <= np_clip lo hi x /\ np_clip lo hi x <= hi.
Proof.
  intros H. unfold np_clip, qmin, qmax.
  destruct (qleb x lo) eqn:E1.
  - destruct (qleb lo hi) eqn:E2.
    + split; [apply Qcle_refl|exact H].
    + split; [exact H|apply Qcle_refl].
  - apply qleb_false_iff in E1. destruct (qleb x hi) eqn:E2.
    + apply qleb_iff in E2. split; [apply Qclt_le_weak; exact E1|exact E2].
    + split; [exact H|apply Qcle_refl].
Qed.

Lemma clip_id lo hi x : lo <= x -> x <= hi -> np_clip lo hi x = x.
Proof.
  intros H1 H2. unfold np_clip, qmin, qmax.
  destruct (qleb x lo) eqn:E1.
  - apply qleb_iff in E1. assert (x = lo) by (apply Qcle_antisym; assumption). subst x.
    destruct (qleb lo hi) eqn:E2; [reflexivity|]. apply qleb_false_iff in E2.
    apply Qcle_antisym; [|exact H2]. apply Qclt_le_weak. exact E2.
  - destruct (qleb x hi) eqn:E2; [reflexivity|]. apply qleb_false_iff in E2.
    apply Qcle_antisym; [|exact H2]. apply Qclt_le_weak. exact E2.
Qed.

Lemma sl_range_length i j (l : list Qc) : length (sl_range i j l) = (length l - j - i)%nat.
Proof. unfold sl_range. rewrite firstn_length, skipn_length. lia. Qed.

Lemma nth_sl_range i j (l : list Qc) t d : (t < length l - j - i)%nat ->
  nth t (sl_range i j l) d = nth (i + t) l d.
Proof. intros H. unfold sl_range. rewrite nth_firstn_lt by exact H. apply nth_skipn. Qed.

Lemma convolve_length a w : length (np_convolve a w) = (length a + length w - 1)%nat.
Proof. unfold np_convolve. rewrite map_length, seq_length. reflexivity. Qed.

Lemma nth_convolve a w k : (k < length a + length w - 1)%nat -> nth k (np_convolve a w) 0 = conv_at a w k.
Proof. intros H. unfold np_convolve. rewrite nth_map_seq by exact H. reflexivity. Qed.

Lemma qsum_bounds (f : nat -> Qc) l lo hi : (forall m, In m l -> lo <= f m /\ f m <= hi) ->
  natq (length l) * lo <= qsum (map f l) /\ qsum (map f l) <= natq (length l) * hi.
Proof.
  induction l as [|a t IH]; intros H.
  - cbn [length map]. rewrite natq_0, qsum_nil. clear H. qcq. split; lra.
  - cbn [length map]. rewrite qsum_cons, natq_S.
    destruct (H a (or_introl eq_refl)) as [Ha1 Ha2].
    destruct (IH (fun m Hm => H m (or_intror Hm))) as [I1 I2].
    set (s := qsum (map f t)) in *. clearbody s. set (fa := f a) in *. clearbody fa.
    set (n := natq (length t)) in *. clearbody n. clear H IH. qcq. split; nra.
Qed.

(* the bounds of qsum_bounds are strict on a side where one term is strict *)
Lemma qsum_bounds_strict (f : nat -> Qc) l lo hi m0 :
  (forall m, In m l -> lo <= f m /\ f m <= hi) -> In m0 l ->
  (lo < f m0 -> natq (length l) * lo < qsum (map f l)) /\
  (f m0 < hi -> qsum (map f l) < natq (length l) * hi).
Proof.
  induction l as [|a t IH]; intros H Hin; [destruct Hin|].
  cbn [length map]. rewrite qsum_cons, natq_S.
  destruct (H a (or_introl eq_refl)) as [Ha1 Ha2].
  destruct (qsum_bounds f t lo hi (fun m Hm => H m (or_intror Hm))) as [T1 T2].
  set (n := natq (length t)) in *. clearbody n.
  destruct Hin as [->|Hin].
  - set (s := qsum (map f t)) in *. clearbody s. set (fa := f m0) in *. clearbody fa.
    clear H IH. qcq. split; intros Hlt; nra.
  - destruct (IH (fun m Hm => H m (or_intror Hm)) Hin) as [I1 I2].
    set (s := qsum (map f t)) in *. clearbody s. set (fa := f a) in *. clearbody fa.
    set (fm := f m0) in *. clearbody fm. clear H IH. qcq. split; intros Hlt; nra.
Qed.

Definition avg_weights (p : nat) : list Qc := map (fun x => x / natq p) (repeat 1 p).

Lemma avg_weights_length p : length (avg_weights p) = p.
Proof. unfold avg_weights. rewrite map_length, repeat_length. reflexivity. Qed.

Lemma nth_avg_weights p m : (m < p)%nat -> nth m (avg_weights p) 0 = 1 / natq p.
Proof.
  intros H. unfold avg_weights. rewrite (nth_map_lt _ _ _ _ 0) by (rewrite repeat_length; exact H).
  rewrite nth_repeat_lt by exact H. reflexivity.
Qed.

Lemma inv_p_pos p : (1 <= p)%nat -> 0 < 1 / natq p /\ natq p * (1 / natq p) = 1.
Proof.
  intros Hp. split.
  - apply div_pos; [reflexivity|apply natq_pos; lia].
  - field. apply natq_neq0. lia.
Qed.

(* the mean of p values: between any bounds of the values, strictly where one value is strict *)
Definition mean (p : nat) (x : nat -> Qc) : Qc := qsum (map (fun m => 1 / natq p * x m) (seq 0 p)).

Lemma mean_bounds p x lo hi : (1 <= p)%nat -> (forall m, (m < p)%nat -> lo <= x m /\ x m <= hi) ->
  (lo <= mean p x /\ mean p x <= hi) /\
  forall m0, (m0 < p)%nat -> (lo < x m0 -> lo < mean p x) /\ (x m0 < hi -> mean p x < hi).
Proof.
  intros Hp H. unfold mean. destruct (inv_p_pos p Hp) as [Hc Hpc]. set (c := 1 / natq p) in *.
  assert (Hf : forall m, In m (seq 0 p) -> c * lo <= c * x m /\ c * x m <= c * hi).
  { intros m Hm. apply in_seq in Hm. destruct (H m ltac:(lia)) as [A B].
    set (y := x m) in *. clearbody y. clearbody c. clear H. qcq. split; nra. }
  assert (E : forall v, natq (length (seq 0 p)) * (c * v) = v)
    by (intros v; rewrite seq_length, Qcmult_assoc, Hpc; ring).
  destruct (qsum_bounds _ _ _ _ Hf) as [B1 B2]. rewrite E in B1, B2.
  split; [split; assumption|]. intros m0 Hm0.
  destruct (qsum_bounds_strict _ _ _ _ m0 Hf ltac:(apply in_seq; lia)) as [S1 S2]. rewrite E in S1, S2.
  clear H Hf E B1 B2. set (y := x m0) in *. clearbody y. clearbody c.
  split; intros Hlt; [apply S1|apply S2]; clear S1 S2; qcq; nra.
Qed.

(* entry i of the convolution of the source is the mean of kv[i+1..i+p] *)
Lemma running_average_sum kv p i : (1 <= p)%nat -> (i + p + 1 < length kv)%nat ->
  nth i (sl_range p p (np_convolve kv (avg_weights p))) 0 = mean p (fun m => kn kv (p + i - m)).
Proof.
  intros Hp Hi.
  rewrite nth_sl_range by (rewrite convolve_length, avg_weights_length; lia).
  rewrite nth_convolve by (rewrite avg_weights_length; lia).
  unfold conv_at, mean. rewrite avg_weights_length. f_equal. apply map_ext_in. intros m Hm. apply in_seq in Hm.
  destruct (Nat.leb_spec m (p + i)) as [L|L]; [|lia].
  rewrite nth_avg_weights by lia. reflexivity.
Qed.

Lemma running_average_bounds kv p i : (1 <= p)%nat -> sorted_idx kv -> (i + p + 1 < length kv)%nat ->
  let g := nth i (sl_range p p (np_convolve kv (avg_weights p))) 0 in
  kn kv (i + 1) <= g /\ g <= kn kv (i + p).
Proof.
  intros Hp Hs Hi g. unfold g. rewrite running_average_sum by assumption.
  apply mean_bounds; [exact Hp|]. intros m Hm. split; apply Hs; lia.
Qed.

(* strict whenever the support is not degenerate on that side *)
Lemma running_average_strict kv p i : (1 <= p)%nat -> sorted_idx kv -> (i + p + 1 < length kv)%nat ->
  let g := nth i (sl_range p p (np_convolve kv (avg_weights p))) 0 in
  (kn kv i < kn kv (i + p) -> kn kv i < g) /\ (kn kv (i + 1) < kn kv (i + p + 1) -> g < kn kv (i + p + 1)).
Proof.
  intros Hp Hs Hi g. unfold g. rewrite running_average_sum by assumption.
  destruct (mean_bounds p (fun m => kn kv (p + i - m)) (kn kv i) (kn kv (i + p + 1)) Hp) as [_ S].
  { intros m Hm. split; apply Hs; lia. }
  split; intros Hlt.
  - apply (S 0%nat); [lia|]. replace (p + i - 0)%nat with (i + p)%nat by lia. exact Hlt.
  - apply (S (p - 1)%nat); [lia|]. replace (p + i - (p - 1))%nat with (i + 1)%nat by lia. exact Hlt.
Qed.

Lemma greville_length kv p : length (greville kv p) = numdofs kv p.
Proof.
  unfold greville, numdofs. destruct (Nat.eqb_spec p 0) as [->|E]; rewrite map_length.
  - unfold sl_from1, sl_to_m1. rewrite zip_with_length, length_tl, length_removelast. lia.
  - rewrite sl_range_length, convolve_length, map_length, repeat_length. lia.
Qed.

Lemma nth_greville_0 kv i : (i < numdofs kv 0)%nat ->
  nth i (greville kv 0) 0 = (kn kv (S i) + kn kv i) / two.
Proof.
  intros Hi. unfold numdofs in Hi. unfold greville. cbn [Nat.eqb]. unfold sl_from1, sl_to_m1.
  rewrite (nth_map_lt _ _ _ _ 0) by (rewrite zip_with_length, length_tl, length_removelast; lia).
  rewrite nth_zip_with by (rewrite ?length_tl, ?length_removelast; lia).
  rewrite nth_tl, nth_removelast by lia. reflexivity.
Qed.

(* for p >= 1 Greville point i is the average of kv[i+1..i+p]: the clip does nothing in exact arithmetic *)
Lemma nth_greville kv p i : (1 <= p)%nat -> sorted_idx kv -> (i < numdofs kv p)%nat ->
  nth i (greville kv p) 0 = nth i (sl_range p p (np_convolve kv (avg_weights p))) 0.
Proof.
  intros Hp Hs Hi. unfold numdofs in Hi. unfold greville.
  destruct (Nat.eqb_spec p 0) as [E|E]; [lia|]. fold (avg_weights p).
  rewrite (nth_map_lt _ _ _ _ 0) by (rewrite sl_range_length, convolve_length, avg_weights_length; lia).
  destruct (running_average_bounds kv p i Hp Hs ltac:(lia)) as [A B]. apply clip_id.
  - eapply Qcle_trans; [|exact A]. apply Hs; lia.
  - eapply Qcle_trans; [exact B|]. apply Hs; lia.
Qed.

(* hence inside the support [kv[i], kv[i+p+1]] of B-spline i and inside the domain *)
Lemma greville_in_support_l kv p i : (1 <= p)%nat -> kv_valid kv = true -> (i < numdofs kv p)%nat ->
  let g := nth i (greville kv p) 0 in
  g = nth i (sl_range p p (np_convolve kv (avg_weights p))) 0 /\
  kn kv (i + 1) <= g /\ g <= kn kv (i + p) /\
  kn kv i <= g /\ g <= kn kv (i + p + 1) /\ kn kv 0 <= g /\ g <= kn kv (length kv - 1) /\
  length (greville kv p) = numdofs kv p.
Proof.
  intros Hp Hv Hi g. apply sortedb_idx in Hv. unfold g. rewrite nth_greville by assumption.
  unfold numdofs in Hi. destruct (running_average_bounds kv p i Hp Hv ltac:(lia)) as [A B].
  repeat split; try assumption.
  - eapply Qcle_trans; [|exact A]. apply Hv; lia.
  - eapply Qcle_trans; [exact B|]. apply Hv; lia.
  - eapply Qcle_trans; [|exact A]. apply Hv; lia.
  - eapply Qcle_trans; [exact B|]. apply Hv; lia.
  - apply greville_length.
Qed.

Fixpoint interleave (m : list Qc) : list Qc :=
  match m with
  | a :: ((b :: _) as t) => a :: (b + a) / two :: interleave t
  | _ => m
  end.

Lemma interleave_cons a b t : interleave (a :: b :: t) = a :: (b + a) / two :: interleave (b :: t).
Proof. reflexivity. Qed.

Lemma midpoints_cons a b t : midpoints (a :: b :: t) = (b + a) / two :: midpoints (b :: t).
Proof. reflexivity. Qed.

Lemma interleave_In x m : In x (interleave m) <-> In x m \/ In x (midpoints m).
Proof.
  induction m as [|a t IH]; [cbn; tauto|].
  destruct t as [|b t']; [cbn; tauto|].
  rewrite interleave_cons, midpoints_cons. cbn [In]. rewrite IH. cbn [In]. tauto.
Qed.

Lemma interleave_length m : m <> [] -> length (interleave m) = (2 * length m - 1)%nat.
Proof.
  induction m as [|a t IH]; intros H; [congruence|].
  destruct t as [|b t']; [reflexivity|].
  rewrite interleave_cons. cbn [length]. rewrite IH by discriminate. cbn [length]. lia.
Qed.

Lemma mid_between a b : a < b -> a < (b + a) / two /\ (b + a) / two < b.
Proof.
  intros H. assert (E : (b + a) / two * two = b + a) by (unfold two; field; discriminate).
  set (m := (b + a) / two) in *. clearbody m. unfold two in E. split; qcq; nra.
Qed.

Lemma half_between a b : a <= b -> a <= (b + a) / two /\ (b + a) / two <= b.
Proof.
  intros H. assert (E : (b + a) / two * two = b + a) by (unfold two; field; discriminate).
  set (m := (b + a) / two) in *. clearbody m. unfold two in E. split; qcq; nra.
Qed.

Lemma interleave_strict m : adjb qltb m = true -> adjb qltb (interleave m) = true.
Proof.
  induction m as [|a t IH]; intros H; [reflexivity|].
  destruct t as [|b t']; [reflexivity|].
  rewrite strict_cons in H. apply andb_true_iff in H. destruct H as [Hab Ht].
  apply qltb_iff in Hab. destruct (mid_between a b Hab) as [M1 M2].
  rewrite interleave_cons. specialize (IH Ht).
  destruct t' as [|c t''].
  - cbn [interleave]. cbn [adjb]. rewrite !andb_true_r. apply andb_true_iff.
    split; apply qltb_iff; assumption.
  - rewrite interleave_cons in *.
    rewrite strict_cons. apply andb_true_iff. split; [apply qltb_iff; exact M1|].
    rewrite strict_cons. apply andb_true_iff. split; [apply qltb_iff; exact M2|exact IH].
Qed.

