(* C19 -- Spline.derivative: the derivative as a spline equals the pointwise derivative, and its knot
   vector kv[1:-1] is again an open knot vector, of degree p-1. *)
From Coq Require Import QArith Qcanon ZArith List Arith Bool Lia Lqa.
From Verif.lib Require Import Bsp NpCore NpQ ListFacts.
From Verif.C02 Require Import Proofs.
From Verif.C19 Require Import Model Proofs Proofs2.
Import ListNotations.
Open Scope Qc_scope.

Lemma np_diff_length c : length (np_diff c) = (length c - 1)%nat.
Proof. unfold np_diff. rewrite zip_with_length, length_tl, length_removelast. lia. Qed.

Lemma nth_np_diff c j : (S j < length c)%nat -> nth j (np_diff c) 0 = nth (S j) c 0 - nth j c 0.
Proof.
  intros H. unfold np_diff.
  rewrite nth_zip_with by (rewrite ?length_tl, ?length_removelast; lia).
  rewrite nth_tl, nth_removelast by lia. reflexivity.
Qed.

Lemma derivative_coeffs_length kv p c : length c = numdofs kv p -> (p + 2 <= length kv)%nat ->
  length (derivative_coeffs kv p c) = (length c - 1)%nat.
Proof.
  intros Hc Hl. unfold numdofs in Hc. unfold derivative_coeffs.
  rewrite zip_with_length, map_length, zip_with_length, !sl_range_length, np_diff_length. lia.
Qed.

Lemma nth_derivative_coeffs kv p c j : length c = numdofs kv p -> (S j < length c)%nat ->
  nth j (derivative_coeffs kv p c) 0 =
  natq p / (kn kv (p + 1 + j) - kn kv (1 + j)) * (nth (S j) c 0 - nth j c 0).
Proof.
  intros Hc Hj. unfold numdofs in Hc. unfold derivative_coeffs.
  assert (L1 : length (sl_range (p + 1) 1 kv) = (length kv - p - 2)%nat) by (rewrite sl_range_length; lia).
  assert (L2 : length (sl_range 1 (p + 1) kv) = (length kv - p - 2)%nat) by (rewrite sl_range_length; lia).
  rewrite nth_zip_with by (rewrite ?map_length, ?zip_with_length, ?np_diff_length, ?L1, ?L2; lia).
  rewrite nth_np_diff by exact Hj. f_equal.
  rewrite (nth_map_lt _ _ _ _ 0) by (rewrite zip_with_length, L1, L2; lia). f_equal.
  rewrite nth_zip_with by (rewrite ?L1, ?L2; lia).
  rewrite !nth_sl_range by lia. reflexivity.
Qed.

Definition gsum (f : nat -> Qc) (n : nat) : Qc := qsum (map f (seq 0 n)).

Lemma gsum_0 f : gsum f 0 = 0.
Proof. reflexivity. Qed.

Lemma gsum_S f n : gsum f (S n) = gsum f n + f n.
Proof.
  unfold gsum. rewrite seq_S, map_app, qsum_app. cbn [map plus]. rewrite qsum_cons, qsum_nil. ring.
Qed.

Lemma gsum_ext f g n : (forall i, (i < n)%nat -> f i = g i) -> gsum f n = gsum g n.
Proof.
  intros H. unfold gsum. f_equal. apply map_ext_in. intros i Hi. apply in_seq in Hi. apply H. lia.
Qed.

Lemma gsum_scal P f n : gsum (fun i => P * f i) n = P * gsum f n.
Proof. induction n as [|m IHm]; [rewrite !gsum_0; ring|]. rewrite !gsum_S, IHm. ring. Qed.

Lemma sum_by_parts (c A : nat -> Qc) n :
  gsum (fun i => c i * (A i - A (S i))) (S n) =
  c 0%nat * A 0%nat + gsum (fun j => (c (S j) - c j) * A (S j)) n - c n * A (S n).
Proof.
  induction n as [|n IH].
  - rewrite gsum_S, !gsum_0. ring.
  - rewrite gsum_S, IH, gsum_S. ring.
Qed.

Lemma ok_first_block kv p t : kv_ok kv p -> (t <= p)%nat -> kn kv t = kn kv 0.
Proof.
  intros [Hlen Hs Hf _ _] Ht. apply Qcle_antisym; [rewrite <- Hf; apply Hs; lia|apply Hs; lia].
Qed.

Lemma ok_last_block kv p t : kv_ok kv p -> (length kv - p - 1 <= t)%nat -> (t < length kv)%nat ->
  kn kv t = kn kv (length kv - 1).
Proof.
  intros [Hlen Hs _ Hl _] H1 H2. apply Qcle_antisym; [apply Hs; lia|rewrite <- Hl; apply Hs; lia].
Qed.

Lemma kn_inner kv j : (j + 2 < length kv)%nat -> kn (sl_1_m1 kv) j = kn kv (S j).
Proof. intros H. unfold kn. apply nth_sl_1_m1. exact H. Qed.

(* the B-splines of kv[1:-1] are those of kv shifted by one *)
Lemma Nref_shift kv u : kn kv (length kv - 2) = kn kv (length kv - 1) ->
  forall q i, (i + q + 3 < length kv)%nat -> Nref (sl_1_m1 kv) q i u = Nref kv q (S i) u.
Proof.
  intros Hlast. induction q as [|q IH]; intros i Hi.
  - cbn [Nref]. unfold in_span. rewrite sl_1_m1_length.
    rewrite !kn_inner by lia. replace (S (length kv - 2 - 1)) with (length kv - 2)%nat by lia.
    rewrite Hlast. reflexivity.
  - cbn [Nref]. rewrite !kn_inner by lia. rewrite !IH by lia.
    replace (S (i + S q)) with (S i + S q)%nat by lia.
    replace (S (i + S q + 1)) with (S i + S q + 1)%nat by lia.
    replace (S (i + 1)) with (S i + 1)%nat by lia. reflexivity.
Qed.

(* N_{j,q}(u) / (t_{j+q+1} - t_j): the derivative of N_{i,q+1} is (q+1) (nq_i - nq_{i+1}), and nq vanishes
   at both ends of an open knot vector, which is what summation by parts needs *)
Definition nq (kv : list Qc) (q : nat) (u : Qc) (j : nat) : Qc :=
  Nref kv q j u / (kn kv (j + S q) - kn kv j).

Lemma dNref_nq kv q i u : dNref kv 1 (S q) i u = natq (S q) * (nq kv q u i - nq kv q u (S i)).
Proof.
  cbn [dNref]. unfold nq, natq. replace (S i + S q)%nat with (i + S q + 1)%nat by lia.
  replace (S i) with (i + 1)%nat by lia. reflexivity.
Qed.

Lemma nq_ends kv q u : kv_ok kv (S q) -> nq kv q u 0 = 0 /\ nq kv q u (numdofs kv (S q)) = 0.
Proof.
  intros Hok. pose proof (ok_len _ _ Hok) as Hlen. unfold nq, numdofs. split; apply div_zero.
  - cbn [plus]. rewrite (ok_first _ _ Hok). ring.
  - replace (length kv - S q - 1 + S q)%nat with (length kv - 1)%nat by lia. rewrite (ok_last _ _ Hok). ring.
Qed.

(* the pointwise derivative sum_i c_i N'_{i,p}(u), summed by parts *)
Lemma spline_dev_by_parts kv q c u : kv_ok kv (S q) -> length c = numdofs kv (S q) ->
  spline_dev kv (S q) c u =
  natq (S q) * gsum (fun j => (nth (S j) c 0 - nth j c 0) * nq kv q u (S j)) (length c - 1).
Proof.
  intros Hok Hc. destruct (nq_ends kv q u Hok) as [A0 An]. rewrite <- Hc in An.
  pose proof (ok_len _ _ Hok) as Hlen. unfold numdofs in Hc.
  assert (Hn : length c = S (length c - 1)) by lia. rewrite Hn in An.
  unfold spline_dev. fold (gsum (fun i => nth i c 0 * dNref kv 1 (S q) i u) (length c)).
  rewrite (gsum_ext _ (fun i => natq (S q) * (nth i c 0 * (nq kv q u i - nq kv q u (S i)))))
    by (intros i _; rewrite dNref_nq; ring).
  rewrite gsum_scal. f_equal. rewrite Hn at 1. rewrite sum_by_parts, A0, An. ring.
Qed.

(* Spline.derivative(): knots kv[1:-1], degree p-1, coefficients p (c[i+1]-c[i]) / (t[i+p+1]-t[i+1]) *)
Lemma spline_ev_derivative kv q c u : kv_ok kv (S q) -> length c = numdofs kv (S q) ->
  spline_ev (derivative_kv kv) q (derivative_coeffs kv (S q) c) u =
  natq (S q) * gsum (fun j => (nth (S j) c 0 - nth j c 0) * nq kv q u (S j)) (length c - 1).
Proof.
  intros Hok Hc. pose proof (ok_len _ _ Hok) as Hlen.
  assert (Hc' : length c = (length kv - S q - 1)%nat) by exact Hc.
  unfold spline_ev. rewrite derivative_coeffs_length by (assumption || lia).
  fold (gsum (fun i => nth i (derivative_coeffs kv (S q) c) 0 * Nref (derivative_kv kv) q i u) (length c - 1)).
  rewrite <- gsum_scal. apply gsum_ext. intros j Hj.
  rewrite nth_derivative_coeffs by (assumption || lia).
  unfold derivative_kv. rewrite (Nref_shift kv u) by (lia || apply (ok_last_block kv (S q)); assumption || lia).
  unfold nq. replace (S j + S q)%nat with (S q + 1 + j)%nat by lia. replace (1 + j)%nat with (S j) by lia.
  unfold Qcdiv. ring.
Qed.

Lemma derivative_kv_ok kv q : let p := S q in kv_ok kv p -> kv_ok (derivative_kv kv) q.
Proof.
  intros p Hok. pose proof Hok as [Hlen Hs _ _ Hls]. unfold derivative_kv.
  assert (HL : length (sl_1_m1 kv) = (length kv - 2)%nat) by apply sl_1_m1_length.
  assert (Hp : p = S q) by reflexivity.
  constructor; rewrite ?HL.
  - lia.
  - intros i j Hij Hj. rewrite HL in Hj. rewrite !kn_inner by lia. apply Hs; lia.
  - rewrite !kn_inner by lia.
    rewrite (ok_first_block kv p (S q)), (ok_first_block kv p 1) by (assumption || lia). reflexivity.
  - rewrite !kn_inner by lia.
    rewrite (ok_last_block kv p (S (length kv - 2 - q - 1))), (ok_last_block kv p (S (length kv - 2 - 1)))
      by (assumption || lia). reflexivity.
  - rewrite !kn_inner by lia.
    replace (S (length kv - 2 - q - 2)) with (length kv - p - 2)%nat by lia.
    replace (S (length kv - 2 - q - 1)) with (length kv - p - 1)%nat by lia. exact Hls.
Qed.
