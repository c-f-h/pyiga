(* C19 -- Greville points: degree 0, and the Schoenberg-Whitney position of the interior points. *)
From Coq Require Import QArith Qcanon ZArith List Arith Bool Lia Lqa.
From Verif.lib Require Import Bsp NpCore NpQ.
From Verif.C02 Require Import Proofs.
From Verif.C02 Require Proofs_ref.
From Verif.C19 Require Import Model Proofs Proofs2.
Import ListNotations.
Open Scope Qc_scope.

(* Schoenberg-Whitney position of the Greville points of an open knot vector of degree p >= 1:
   the first and last are the end points of the domain, every other one lies strictly inside the
   support (kv[i], kv[i+p+1]) of its B-spline *)
Lemma greville_schoenberg_whitney kv p : (1 <= p)%nat -> open_kv kv p = true ->
  nth 0 (greville kv p) 0 = kn kv 0 /\
  nth (numdofs kv p - 1) (greville kv p) 0 = kn kv (length kv - 1) /\
  forall i, (1 <= i)%nat -> (i + 1 < numdofs kv p)%nat ->
    kn kv i < nth i (greville kv p) 0 /\ nth i (greville kv p) 0 < kn kv (i + p + 1).
Proof.
  intros Hp Hopen.
  destruct (Proofs_ref.open_kv_parts kv p Hopen) as [Hlen [Hs [Hfirst [Hlast [_ [_ Hmult]]]]]].
  assert (HM : Nat.max p 1 = p) by lia. rewrite HM in Hmult.
  (* g_i is the mean of kv[i+1..i+p]; at both ends these p knots coincide *)
  assert (G : forall i, (i < numdofs kv p)%nat ->
    nth i (greville kv p) 0 = nth i (sl_range p p (np_convolve kv (avg_weights p))) 0)
    by (intros i Hi; apply nth_greville; assumption).
  unfold numdofs in *.
  split; [|split].
  - rewrite G by lia. destruct (running_average_bounds kv p 0 Hp Hs ltac:(lia)) as [A B].
    apply Qcle_antisym.
    + eapply Qcle_trans; [exact B|]. cbn [plus]. rewrite (Hfirst p) by lia. apply Qcle_refl.
    + eapply Qcle_trans; [|exact A]. rewrite (Hfirst (0 + 1)%nat) by lia. apply Qcle_refl.
  - rewrite G by lia.
    destruct (running_average_bounds kv p (length kv - p - 1 - 1) Hp Hs ltac:(lia)) as [A B].
    apply Qcle_antisym.
    + eapply Qcle_trans; [exact B|]. apply Hs; lia.
    + eapply Qcle_trans; [|exact A].
      replace (length kv - p - 1 - 1 + 1)%nat with (length kv - 1 - p)%nat by lia.
      rewrite (Hlast p) by lia. apply Qcle_refl.
  - intros i Hi1 Hi2. rewrite G by lia.
    destruct (running_average_strict kv p i Hp Hs ltac:(lia)) as [S1 S2].
    split; [apply S1; apply Hmult; lia|].
    apply S2. replace (i + p + 1)%nat with (i + 1 + p)%nat by lia. apply Hmult; lia.
Qed.

Lemma greville_p0_l kv i : kv_valid kv = true -> (i < numdofs kv 0)%nat ->
  length (greville kv 0) = numdofs kv 0 /\
  nth i (greville kv 0) 0 = (kn kv (S i) + kn kv i) / two /\
  kn kv i <= nth i (greville kv 0) 0 /\ nth i (greville kv 0) 0 <= kn kv (i + 0 + 1) /\
  (kn kv i < kn kv (S i) -> kn kv i < nth i (greville kv 0) 0 /\ nth i (greville kv 0) 0 < kn kv (S i)).
Proof.
  intros Hv Hi. apply sortedb_idx in Hv. split; [apply greville_length|].
  rewrite nth_greville_0 by exact Hi. split; [reflexivity|]. unfold numdofs in Hi.
  assert (Hle : kn kv i <= kn kv (S i)) by (apply Hv; lia).
  destruct (half_between _ _ Hle) as [A B].
  split; [exact A|]. split; [replace (i + 0 + 1)%nat with (S i) by lia; exact B|].
  apply mid_between.
Qed.
