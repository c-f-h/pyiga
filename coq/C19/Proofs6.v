(* C19 -- B-splines are strictly positive inside their support; the diagonal of the Greville
   collocation matrix of an open knot vector is positive. *)
From Coq Require Import QArith Qcanon ZArith List Arith Bool Lia Lqa.
From Verif.lib Require Import Bsp NpCore NpQ QcFacts.
From Verif.C02 Require Import Proofs.
From Verif.C02 Require Proofs_ref Proofs_ndu Proofs_single.
From Verif.C19 Require Import Model Proofs Proofs2 Proofs5.
Import ListNotations.
Open Scope Qc_scope.

(* N_{i,p}(u) > 0 for t_i <= u < t_{i+p+1}, provided u is not the left end of the support or the
   left end has full multiplicity (t_i = t_{i+p}) *)
Lemma Nref_pos kv u : sorted kv -> forall p i, (i + p + 1 < length kv)%nat ->
  kn kv i <= u -> u < kn kv (i + p + 1) -> (kn kv i < u \/ kn kv (i + p) <= u) -> 0 < Nref kv p i u.
Proof.
  intros Hs. induction p as [|p IH]; intros i Hi H1 H2 H3.
  - cbn [Nref]. unfold in_span. replace (i + 0 + 1)%nat with (S i) in H2 by lia.
    apply qleb_iff in H1. apply qltb_iff in H2. rewrite H1, H2. cbn. reflexivity.
  - cbn [Nref].
    assert (Hn1 : 0 <= Nref kv p i u) by (apply Proofs_ref.N_nonneg_l; [exact Hs|lia]).
    assert (Hn2 : 0 <= Nref kv p (S i) u) by (apply Proofs_ref.N_nonneg_l; [exact Hs|lia]).
    destruct (Qclt_le_dec u (kn kv (i + S p))) as [A|B].
    + (* u < t_{i+p+1}: the first term is positive *)
      assert (Hlt : kn kv i < u).
      { destruct H3 as [H3|H3]; [exact H3|]. exfalso. revert A. apply Qcle_not_lt. exact H3. }
      apply pos_plus_nonneg.
      * apply Qcmult_pos.
        -- apply div_pos; apply Qcsub_pos; [exact Hlt|]. eapply Qclt_trans; eassumption.
        -- apply IH; [lia|apply Qclt_le_weak; exact Hlt| |left; exact Hlt].
           replace (i + p + 1)%nat with (i + S p)%nat by lia. exact A.
      * apply Qcmult_nonneg; [|exact Hn2].
        apply Qcdiv_nonneg; apply Qcsub_nonneg; [apply Qclt_le_weak; exact H2|]. apply Hs; lia.
    + (* t_{i+p+1} <= u: the second term is positive *)
      assert (Hle : kn kv (i + 1) <= u) by (eapply Qcle_trans; [|exact B]; apply Hs; lia).
      apply nonneg_plus_pos.
      * apply Qcmult_nonneg; [|exact Hn1].
        apply Qcdiv_nonneg; apply Qcsub_nonneg; [exact H1|]. apply Hs; lia.
      * apply Qcmult_pos.
        -- apply div_pos; apply Qcsub_pos; [exact H2|]. eapply Qcle_lt_trans; eassumption.
        -- apply IH; [lia| | |right].
           ++ replace (S i) with (i + 1)%nat by lia. exact Hle.
           ++ replace (S i + p + 1)%nat with (i + S p + 1)%nat by lia. exact H2.
           ++ replace (S i + p)%nat with (i + S p)%nat by lia. exact B.
Qed.

(* the last function at the right end point: N_{i,p}(t_last) = 1 when t_i < t_{i+1} = t_last *)
Lemma N_right_end_l kv i : sorted kv -> kn kv i < kn kv (S i) -> kn kv (S i) = kn kv (length kv - 1) ->
  forall p, (i + p + 1 < length kv)%nat -> Nref kv p i (kn kv (length kv - 1)) = 1.
Proof.
  intros Hs Hlt Hend. set (b := kn kv (length kv - 1)) in *.
  assert (Hj : forall j, (S i <= j)%nat -> (j < length kv)%nat -> kn kv j = b).
  { intros j H1 H2. apply Qcle_antisym; [apply Hs; lia|]. rewrite <- Hend. apply Hs; lia. }
  induction p as [|p IH]; intros Hi.
  - cbn [Nref]. unfold in_span. fold b. rewrite Hend.
    assert (E1 : qeqb b b = true) by apply qeqb_refl.
    assert (E2 : qltb (kn kv i) b = true) by (apply qltb_iff; rewrite <- Hend; exact Hlt).
    rewrite E1, E2. cbn [andb]. rewrite orb_true_r. reflexivity.
  - cbn [Nref]. rewrite IH by lia.
    rewrite (Hj (i + S p)%nat) by lia. rewrite (Hj (i + S p + 1)%nat) by lia.
    assert (Hne : b - kn kv i <> 0).
    { intros E. rewrite <- Hend in E. apply (Qclt_not_eq _ _ Hlt). qcq. lra. }
    replace (b - b) with 0 by ring. unfold Qcdiv at 2. rewrite Qcmult_0_l, Qcmult_0_l.
    field. exact Hne.
Qed.

(* the diagonal of the Greville collocation matrix of an open knot vector (p >= 1) is positive:
   N_{i,p}(g_i) > 0 for every i -- the Schoenberg-Whitney condition in its usual form *)
Lemma greville_diag_pos_l kv p i : (1 <= p)%nat -> open_kv kv p = true -> (i < numdofs kv p)%nat ->
  0 < Nref kv p i (nth i (greville kv p) 0).
Proof.
  intros Hp Hopen Hi.
  destruct (Proofs_ref.open_kv_parts kv p Hopen) as [Hlen [Hs [Hfirst [Hlast [Hfs [Hls Hmult]]]]]].
  destruct (greville_schoenberg_whitney kv p Hp Hopen) as [G0 [Gn Gi]].
  unfold numdofs in *.
  destruct (Nat.eq_dec i 0) as [->|Hi0].
  - rewrite G0. apply Nref_pos; [exact Hs|lia|apply Qcle_refl| |right].
    + cbn [plus]. replace (p + 1)%nat with (S p) by lia. rewrite <- (Hfirst p) by lia. exact Hfs.
    + cbn [plus]. rewrite (Hfirst p) by lia. apply Qcle_refl.
  - destruct (Nat.eq_dec i (length kv - p - 1 - 1)) as [->|Hin].
    + rewrite Gn.
      assert (E : kn kv (S (length kv - p - 1 - 1)) = kn kv (length kv - 1)).
      { replace (S (length kv - p - 1 - 1)) with (length kv - 1 - p)%nat by lia. apply Hlast. lia. }
      rewrite N_right_end_l; [reflexivity|exact Hs| |exact E|lia].
      rewrite E. replace (length kv - p - 1 - 1)%nat with (length kv - p - 2)%nat by lia.
      rewrite <- (Hlast p) by lia. replace (length kv - 1 - p)%nat with (length kv - p - 1)%nat by lia. exact Hls.
    + destruct (Gi i ltac:(lia) ltac:(lia)) as [A B].
      apply Nref_pos; [exact Hs|lia|apply Qclt_le_weak; exact A|exact B|left; exact A].
Qed.

(* C02's theorems at one point of the domain of an open knot vector, collected: partition of unity,
   non-negativity, locality, the single-function evaluator and the collocation row equal the
   Cox-de Boor reference, derivatives of every order >= 1 sum to zero *)
Lemma open_kv_basis_properties kv p u : open_kv kv p = true ->
  kn kv 0 <= u -> u <= kn kv (length kv - 1) ->
  Proofs_ref.sumf (fun i => Nref kv p i u) 0 (numdofs kv p) = 1 /\
  (forall i, (i < numdofs kv p)%nat -> 0 <= Nref kv p i u) /\
  (forall i, (i < numdofs kv p)%nat -> ~ (findspan kv p u - p <= i <= findspan kv p u)%nat -> Nref kv p i u = 0) /\
  (forall i, (i < numdofs kv p)%nat ->
     single_ev kv p i u = Nref kv p i u /\ nth i (colloc_row kv p 0 u) 0 = Nref kv p i u) /\
  (forall k, (1 <= k)%nat -> Proofs_ref.sumf (fun i => dNref kv k p i u) 0 (numdofs kv p) = 0).
Proof.
  intros Hopen H0 H1. pose proof (Proofs_ref.open_kv_ok_l kv p Hopen) as Hok.
  assert (Hlen := ok_len _ _ Hok). assert (Hs := ok_sorted _ _ Hok).
  assert (Hi : forall i, (i < numdofs kv p)%nat -> (i + p + 1 < length kv)%nat) by (unfold numdofs; intros; lia).
  split; [apply Proofs_ref.N_partition_of_unity_all_l; assumption|].
  split; [intros i Hd; apply Proofs_ref.N_nonneg_l; [exact Hs|apply Hi; exact Hd]|].
  split; [intros i Hd Hn'; apply Proofs_ref.N_local_l; auto|].
  split.
  - intros i Hd. split.
    + apply Proofs_single.single_ev_eq_spec_l; [exact Hopen|apply Hi; exact Hd].
    + apply Proofs_ndu.colloc_row_values_l; assumption.
  - intros k Hk. apply Proofs_ref.dN_sum_zero_all_l; assumption.
Qed.
