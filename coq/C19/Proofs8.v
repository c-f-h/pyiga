(* C19 -- knots_to_mesh is the order isomorphism between knot values and mesh indices:
   monotone, steps by exactly one across every non-empty span, 0 at the first knot and numspans
   at the last; hence the m-th entry of mesh_span_indices is the knot span of mesh cell m and
   mesh_support_idx is an ordered pair of mesh indices.  For every knot vector. *)
From Coq Require Import QArith Qcanon ZArith List Arith Bool Lia Lqa.
From Verif.lib Require Import Bsp NpCore NpQ ListFacts.
From Verif.C02 Require Import Proofs.
From Verif.C19 Require Import Model Proofs Proofs11.
Import ListNotations.
Open Scope Qc_scope.

Definition k2m (kv : list Qc) (i : nat) : nat := nth i (knots_to_mesh kv) 0%nat.

Lemma mesh_support_idx_k2m kv p j : mesh_support_idx kv p j = (k2m kv j, k2m kv (j + p + 1)).
Proof. reflexivity. Qed.

Lemma k2m_length kv : length (knots_to_mesh kv) = length kv.
Proof. unfold knots_to_mesh, np_unique_inverse. apply map_length. Qed.

Lemma k2m_nth kv i : (i < length kv)%nat -> k2m kv i = index_of qeqb (kn kv i) (mesh kv).
Proof.
  intros Hi. unfold k2m, knots_to_mesh, np_unique_inverse, mesh, kn.
  rewrite (nth_map_lt _ _ _ _ 0) by exact Hi. reflexivity.
Qed.

Lemma k2m_spec kv i : (i < length kv)%nat ->
  (k2m kv i < length (mesh kv))%nat /\ nth (k2m kv i) (mesh kv) 0 = kn kv i.
Proof.
  intros Hi. rewrite k2m_nth by exact Hi. apply index_of_nth.
  apply mesh_In. unfold kn. apply nth_In. exact Hi.
Qed.

Lemma k2m_eq_iff kv i j : (i < length kv)%nat -> (j < length kv)%nat ->
  (k2m kv i = k2m kv j <-> kn kv i = kn kv j).
Proof.
  intros Hi Hj. split; intros E.
  - destruct (k2m_spec kv i Hi) as [_ A]. destruct (k2m_spec kv j Hj) as [_ B].
    rewrite <- A, <- B, E. reflexivity.
  - rewrite !k2m_nth by assumption. rewrite E. reflexivity.
Qed.

Lemma k2m_lt kv i j : (i < length kv)%nat -> (j < length kv)%nat -> kn kv i < kn kv j ->
  (k2m kv i < k2m kv j)%nat.
Proof.
  intros Hi Hj Hlt. destruct (k2m_spec kv i Hi) as [A1 A2]. destruct (k2m_spec kv j Hj) as [B1 B2].
  apply (strict_nth_idx_lt (mesh kv)); [apply mesh_increasing|exact A1|exact B1|]. rewrite A2, B2. exact Hlt.
Qed.

Lemma k2m_le kv i j : kv_valid kv = true -> (i <= j)%nat -> (j < length kv)%nat ->
  (k2m kv i <= k2m kv j)%nat.
Proof.
  intros Hv Hij Hj. apply sortedb_idx in Hv.
  destruct (Qcle_lt_or_eq _ _ (Hv i j Hij Hj)) as [L|E].
  - apply Nat.lt_le_incl. apply k2m_lt; [lia|exact Hj|exact L].
  - rewrite (proj2 (k2m_eq_iff kv i j ltac:(lia) Hj) E). lia.
Qed.

Lemma k2m_lt_iff kv i j : kv_valid kv = true -> (i <= j)%nat -> (j < length kv)%nat ->
  ((k2m kv i < k2m kv j)%nat <-> kn kv i < kn kv j).
Proof.
  intros Hv Hij Hj. split; [|apply k2m_lt; [lia|exact Hj]].
  intros Hlt. apply sortedb_idx in Hv.
  destruct (Qcle_lt_or_eq _ _ (Hv i j Hij Hj)) as [L|E]; [exact L|exfalso].
  rewrite (proj2 (k2m_eq_iff kv i j ltac:(lia) Hj) E) in Hlt. lia.
Qed.

(* every mesh index is the image of a knot; with monotonicity this pins k2m down *)
Lemma k2m_onto kv m : (m < length (mesh kv))%nat -> exists t, (t < length kv)%nat /\ k2m kv t = m.
Proof.
  intros Hm. assert (Hin : In (nth m (mesh kv) 0) kv) by (apply mesh_In, nth_In; exact Hm).
  destruct (In_nth _ _ 0 Hin) as [t [Ht E]]. exists t. split; [exact Ht|].
  destruct (k2m_spec kv t Ht) as [A B]. fold (kn kv t) in E. rewrite <- B in E.
  exact (proj1 (NoDup_nth (mesh kv) 0) (strict_NoDup _ (mesh_increasing kv)) _ _ A Hm E).
Qed.

Lemma k2m_succ kv i : kv_valid kv = true -> (S i < length kv)%nat -> kn kv i < kn kv (S i) ->
  k2m kv (S i) = S (k2m kv i).
Proof.
  intros Hv Hi Hlt. pose proof (k2m_lt kv i (S i) ltac:(lia) Hi Hlt) as Hk.
  destruct (k2m_spec kv (S i) Hi) as [B _].
  destruct (k2m_onto kv (S (k2m kv i)) ltac:(lia)) as [t [Ht E]].
  destruct (Nat.le_gt_cases t i) as [L|L].
  - pose proof (k2m_le kv t i Hv L ltac:(lia)). lia.
  - pose proof (k2m_le kv (S i) t Hv L Ht). lia.
Qed.

Lemma k2m_0 kv : kv_valid kv = true -> kv <> [] -> k2m kv 0 = 0%nat.
Proof.
  intros Hv Hne. assert (H0 : (0 < length kv)%nat) by (destruct kv; [congruence|cbn; lia]).
  destruct (k2m_spec kv 0 H0) as [A _]. destruct (k2m_onto kv 0 ltac:(lia)) as [t [Ht E]].
  pose proof (k2m_le kv 0 t Hv ltac:(lia) Ht). lia.
Qed.

Lemma k2m_end kv : kv_valid kv = true -> kv <> [] -> k2m kv (length kv - 1) = numspans kv.
Proof.
  intros Hv Hne. assert (H0 : (0 < length kv)%nat) by (destruct kv; [congruence|cbn; lia]).
  destruct (k2m_spec kv (length kv - 1) ltac:(lia)) as [A _].
  destruct (k2m_onto kv (length (mesh kv) - 1) ltac:(lia)) as [t [Ht E]].
  pose proof (k2m_le kv t (length kv - 1) Hv ltac:(lia) ltac:(lia)). unfold numspans. lia.
Qed.

(* between two knot indices s <= s + d the non-empty knot spans map, in order, onto the mesh cells
   k2m[s] .. k2m[s+d]-1 *)
Lemma range_cells kv s : kv_valid kv = true -> forall d, (s + d < length kv)%nat ->
  map (k2m kv) (filter (nonempty_span kv) (seq s d)) = seq (k2m kv s) (k2m kv (s + d) - k2m kv s).
Proof.
  intros Hv. pose proof (sortedb_idx kv Hv) as Hs.
  induction d as [|d IH]; intros Hd.
  - replace (s + 0)%nat with s by lia. rewrite Nat.sub_diag. reflexivity.
  - rewrite seq_S, filter_app, map_app, IH by lia. cbn [filter].
    pose proof (k2m_le kv s (s + d) Hv ltac:(lia) ltac:(lia)) as Hm.
    replace (s + S d)%nat with (S (s + d)) by lia.
    destruct (nonempty_span kv (s + d)) eqn:E; cbn [map].
    + apply nonempty_span_iff in E. rewrite (k2m_succ kv (s + d) Hv ltac:(lia) E).
      replace (S (k2m kv (s + d)) - k2m kv s)%nat with (S (k2m kv (s + d) - k2m kv s)) by lia.
      rewrite seq_S. f_equal. f_equal. lia.
    + assert (Eq : kn kv (S (s + d)) = kn kv (s + d)).
      { apply Qcle_antisym; [apply qltb_false_iff; exact E|apply Hs; lia]. }
      rewrite (proj2 (k2m_eq_iff kv (S (s + d)) (s + d) ltac:(lia) ltac:(lia)) Eq), app_nil_r. reflexivity.
Qed.

(* np.where(k2m[1:] != k2m[:-1]) lists the non-empty knot spans *)
Lemma mesh_span_indices_nonempty kv : kv_valid kv = true ->
  mesh_span_indices kv = filter (nonempty_span kv) (seq 0 (length kv - 1)).
Proof.
  intros Hv. unfold mesh_span_indices, np_where_ne, sl_from1, sl_to_m1.
  rewrite length_tl, length_removelast, Nat.min_id, k2m_length.
  apply filter_ext_in. intros i Hi. apply in_seq in Hi. unfold nonempty_span.
  rewrite nth_tl, nth_removelast by (rewrite k2m_length; lia). fold (k2m kv (S i)) (k2m kv i).
  pose proof (k2m_le kv i (S i) Hv ltac:(lia) ltac:(lia)) as Hm.
  pose proof (k2m_lt_iff kv i (S i) Hv ltac:(lia) ltac:(lia)) as Hlt. rewrite <- qltb_iff in Hlt.
  destruct (qltb (kn kv i) (kn kv (S i))); destruct (Nat.eqb_spec (k2m kv (S i)) (k2m kv i)); cbn [negb];
    try reflexivity; exfalso.
  - apply proj2 in Hlt. specialize (Hlt eq_refl). lia.
  - assert (false = true) by (apply Hlt; lia). discriminate.
Qed.

Lemma span_indices_In kv i : kv_valid kv = true ->
  (In i (mesh_span_indices kv) <-> ((S i < length kv)%nat /\ kn kv i < kn kv (S i))).
Proof.
  intros Hv. rewrite mesh_span_indices_nonempty, filter_In, in_seq, nonempty_span_iff by exact Hv.
  split; intros [A B]; (split; [lia|exact B]).
Qed.

Lemma k2m_span_indices kv : kv_valid kv = true -> kv <> [] ->
  map (k2m kv) (mesh_span_indices kv) = seq 0 (numspans kv).
Proof.
  intros Hv Hne. assert (H0 : (0 < length kv)%nat) by (destruct kv; [congruence|cbn; lia]).
  rewrite mesh_span_indices_nonempty, (range_cells kv 0 Hv) by (assumption || lia). cbn [plus].
  rewrite k2m_0, k2m_end, Nat.sub_0_r by assumption. reflexivity.
Qed.

Lemma span_indices_nth kv m : kv_valid kv = true -> kv <> [] -> (m < numspans kv)%nat ->
  k2m kv (nth m (mesh_span_indices kv) 0%nat) = m.
Proof.
  intros Hv Hne Hm. rewrite <- (map_nth (k2m kv)), k2m_span_indices by assumption.
  rewrite (nth_indep _ _ 0%nat) by (rewrite seq_length; exact Hm). apply seq_nth. exact Hm.
Qed.

Lemma combine_seq s c n : combine (seq s n) (seq (s + c) n) = map (fun j => (j, (j + c)%nat)) (seq s n).
Proof.
  revert s. induction n as [|n IH]; intros s; [reflexivity|].
  cbn [seq combine map]. f_equal. apply (IH (S s)).
Qed.

(* the literal numpy form of the source is mesh_support_idx function by function *)
Lemma mesh_support_idx_all_map kv p :
  mesh_support_idx_all kv p = map (mesh_support_idx kv p) (seq 0 (numdofs kv p)).
Proof.
  unfold mesh_support_idx_all, np_take2, np_stack2, np_arange_nat.
  replace (numdofs kv p - 0)%nat with (numdofs kv p) by lia.
  replace (numdofs kv p + p + 1 - (p + 1))%nat with (numdofs kv p) by lia.
  rewrite (combine_seq 0 (p + 1)), map_map. apply map_ext. intros j.
  rewrite mesh_support_idx_k2m, Nat.add_assoc. reflexivity.
Qed.
