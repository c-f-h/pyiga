(* C19 -- property theorems only, each followed by Print Assumptions; the lemmas they rest on are in
   Proofs*.v / FloatProofs.v.
   Model: coq/C19/Model.v (exact, Qc), coq/lib/NpF.v (binary64), coq/lib/Bsp.v (findspan). *)
From Coq Require Import QArith Qcanon ZArith List Arith Bool Permutation Lia Lqa.
From Verif.lib Require Import Bsp NpCore NpQ NpF ListFacts.
From Verif.C02 Require Import Proofs.
From Verif.C02 Require Proofs_ref.
From Verif.C19 Require Import Model Model2 Proofs Proofs2 Proofs3 Proofs5 Proofs6 Proofs8 Proofs11 FloatProofs.
Import ListNotations.
Open Scope Qc_scope.

Theorem make_knots_numdofs : forall p a b n mult,
  numdofs (make_knots p a b n mult) p = (p + 1 + mult * (n - 1))%nat.
Proof.
  intros p a b n mult. unfold numdofs. rewrite make_knots_length. set (k := (mult * (n - 1))%nat). lia.
Qed.
Print Assumptions make_knots_numdofs.

(* closed form of every knot: the first p+1 are a, then break point 1 + (i-p-1)/mult
   (each interior break point exactly mult times), the last p+1 are b *)
Theorem make_knots_mult : forall p a b n mult i, (1 <= n)%nat -> (1 <= mult)%nat ->
  (i < 2 * (p + 1) + mult * (n - 1))%nat ->
  kn (make_knots p a b n mult) i = a + natq (bpidx p n mult i) * ((b - a) / natq n).
Proof. exact kn_make_knots. Qed.
Print Assumptions make_knots_mult.

(* the requested multiplicities, by counting: break point j = a + j(b-a)/n occurs exactly p+1 times
   in the knot vector for j = 0 and j = n, and exactly mult times for 0 < j < n *)
Theorem make_knots_multiplicity : forall p a b n mult j,
  a < b -> (1 <= n)%nat -> (1 <= mult)%nat -> (j <= n)%nat ->
  count_occ Qc_eq_dec (make_knots p a b n mult) (a + natq j * ((b - a) / natq n)) =
  if (Nat.eqb j 0 || Nat.eqb j n)%bool then (p + 1)%nat else mult.
Proof.
  intros p a b n mult j Hab Hn Hm Hj. rewrite <- (make_knots_count p a b n mult j Hab Hn Hj).
  rewrite nth_linspace by lia. replace (n + 1 - 1)%nat with n by lia. reflexivity.
Qed.
Print Assumptions make_knots_multiplicity.

(* non-decreasing, open (first/last knot p+1 times), last span non-empty: the hypotheses
   of C02's findspan theorems *)
Theorem make_knots_open : forall p a b n mult, a < b -> (1 <= n)%nat -> (1 <= mult)%nat ->
  kv_ok (make_knots p a b n mult) p.
Proof. exact make_knots_kv_ok. Qed.
Print Assumptions make_knots_open.

Theorem make_knots_spans : forall p a b n mult, a < b -> (1 <= n)%nat -> (1 <= mult)%nat ->
  numspans (make_knots p a b n mult) = n.
Proof.
  intros. unfold numspans. rewrite make_knots_mesh by assumption. rewrite linspace_length. lia.
Qed.
Print Assumptions make_knots_spans.

Theorem make_knots_equispaced : forall p a b n mult i,
  a < b -> (1 <= n)%nat -> (1 <= mult)%nat -> (i <= n)%nat ->
  nth i (mesh (make_knots p a b n mult)) 0 = a + natq i * ((b - a) / natq n) /\
  nth n (mesh (make_knots p a b n mult)) 0 = b.
Proof.
  intros p a b n mult i Hab Hn Hm Hi. rewrite make_knots_mesh by assumption. split.
  - rewrite nth_linspace by lia. replace (n + 1 - 1)%nat with n by lia. reflexivity.
  - replace n with (n + 1 - 1)%nat at 1 by lia. apply linspace_last. lia.
Qed.
Print Assumptions make_knots_equispaced.

(* C02's findspan_spec on the constructed knot vector, whose domain is [a, b] *)
Theorem make_knots_findspan : forall p a b n mult u, a < b -> (1 <= n)%nat -> (1 <= mult)%nat ->
  a <= u -> u <= b ->
  let kv := make_knots p a b n mult in
  let s := findspan kv p u in
  (p <= s)%nat /\ (s < length kv - p - 1)%nat /\ kn kv s < kn kv (S s) /\
  kn kv s <= u /\ (u < kn kv (S s) \/ (u = b /\ kn kv (S s) = b)).
Proof.
  intros p a b n mult u Hab Hn Hm Hu0 Hu1 kv s.
  pose proof (findspan_spec_l kv p u (make_knots_kv_ok p a b n mult Hab Hn Hm)) as F.
  destruct (make_knots_ends p a b n mult Hn Hm) as [E0 E1]. fold kv in E0, E1.
  rewrite E0, E1 in F. exact (F Hu0 Hu1).
Qed.
Print Assumptions make_knots_findspan.

(* the boolean well-formedness predicate of lib/Bsp.v (non-decreasing, end knots p+1 times, first and
   last span non-empty, interior multiplicity <= max p 1) holds whenever mult <= max p 1 *)
Theorem make_knots_open_kv : forall p a b n mult, a < b -> (1 <= n)%nat -> (1 <= mult)%nat ->
  (mult <= Nat.max p 1)%nat -> open_kv (make_knots p a b n mult) p = true.
Proof. exact open_kv_make_knots. Qed.
Print Assumptions make_knots_open_kv.

(* hence C02's theorems hold on EVERY constructed knot vector, at every u in [a,b]: partition of unity,
   non-negativity, locality (only functions s-p..s of the reported span are non-zero), the single-function
   evaluator and the collocation row both equal the Cox-de Boor reference, derivatives of every order
   >= 1 sum to zero *)
Theorem make_knots_basis_properties : forall p a b n mult u,
  a < b -> (1 <= n)%nat -> (1 <= mult)%nat -> (mult <= Nat.max p 1)%nat -> a <= u -> u <= b ->
  let kv := make_knots p a b n mult in
  open_kv kv p = true /\
  Proofs_ref.sumf (fun i => Nref kv p i u) 0 (numdofs kv p) = 1 /\
  (forall i, (i < numdofs kv p)%nat -> 0 <= Nref kv p i u) /\
  (forall i, (i < numdofs kv p)%nat -> ~ (findspan kv p u - p <= i <= findspan kv p u)%nat -> Nref kv p i u = 0) /\
  (forall i, (i < numdofs kv p)%nat ->
     single_ev kv p i u = Nref kv p i u /\ nth i (colloc_row kv p 0 u) 0 = Nref kv p i u) /\
  (forall k, (1 <= k)%nat -> Proofs_ref.sumf (fun i => dNref kv k p i u) 0 (numdofs kv p) = 0).
Proof.
  intros p a b n mult u Hab Hn Hm HM Hu0 Hu1 kv.
  pose proof (open_kv_make_knots p a b n mult Hab Hn Hm HM) as Hopen. fold kv in Hopen.
  destruct (make_knots_ends p a b n mult Hn Hm) as [E0 E1]. fold kv in E0, E1.
  split; [exact Hopen|]. apply open_kv_basis_properties; [exact Hopen|rewrite E0; exact Hu0|rewrite E1; exact Hu1].
Qed.
Print Assumptions make_knots_basis_properties.

(* for the 16 intervals [a,b] listed in the statement (a, b the doubles nearest to the given
   rationals: f_of_q num/den is the correctly rounded quotient of two exact doubles, i.e. what the
   decimal or rational literal denotes), every n <= 2000, EVERY degree and EVERY interior
   multiplicity: non-decreasing, the mesh is the list of n+1 strictly increasing break points,
   p+1+mult(n-1)+p+1 knots, first knot a, last knot exactly b.
   (Why the list is short: FloatGrid.v.  The correspondence run evaluates the computed check
   NpF.bp_ok on further intervals in every run.) *)
Theorem make_knots_float_bounded_2000 : forall qa qb n p mult,
  In (qa, qb)
  [(0, 1); (-1, 1); (9 # 10, 1); (1 # 10, 7 # 10); (1 # 3, 2 # 3); (0, 3 # 10); (2, 3); (-1 # 2, 1 # 4);
   (0, 10); (1 # 1000, 1000); (100, 1001 # 10); (-37 # 10, 129 # 10); (1 # 1000000, 1 # 100000);
   (1234567 # 10, 6543219 # 10); (0, 1 # 1000000); (-1000000, 1000000)]%Q ->
  (1 <= n <= 2000)%nat -> (1 <= mult)%nat ->
  let a := f_of_q qa in let b := f_of_q qb in
  let kv := make_knots_f p a b n mult in
  sorted_f kv = true /\ mesh_f kv = bp_f a b n /\ length (mesh_f kv) = (n + 1)%nat /\
  strict_f (mesh_f kv) = true /\
  length kv = (2 * (p + 1) + mult * (n - 1))%nat /\ last kv a = b /\ nth 0 kv b = a.
Proof.
  intros qa qb n p mult Hg Hn Hm. cbv zeta. apply make_knots_f_lift; [lia|exact Hm|].
  apply grid_bp_ok; [exact Hg|exact Hn].
Qed.
Print Assumptions make_knots_float_bounded_2000.

(* the np.arange formula of the unrepaired source has one span too many (p=2, [0,1], n=49) *)
Theorem make_knots_float_old_refuted :
  exists p a b n mult, (1 <= n)%nat /\ (1 <= mult)%nat /\
    length (mesh_f (make_knots_old_f p a b n mult)) <> (n + 1)%nat.
Proof.
  exists 2%nat, PrimFloat.zero, PrimFloat.one, 49%nat, 1%nat. split; [lia|split; [lia|]]. vm_compute. discriminate.
Qed.
Print Assumptions make_knots_float_old_refuted.

Theorem mesh_strict : forall kv, adjb qltb (mesh kv) = true.
Proof. exact mesh_increasing. Qed.
Print Assumptions mesh_strict.

Theorem k2m_mesh : forall kv i, (i < length kv)%nat ->
  (nth i (knots_to_mesh kv) 0 < length (mesh kv))%nat /\
  nth (nth i (knots_to_mesh kv) 0%nat) (mesh kv) 0 = kn kv i.
Proof. exact k2m_spec. Qed.
Print Assumptions k2m_mesh.

Theorem support_mesh_support : forall kv p j, (j + p + 1 < length kv)%nat ->
  let '(lo, hi) := mesh_support_idx kv p j in
  (nth lo (mesh kv) 0, nth hi (mesh kv) 0) = support kv p j.
Proof.
  intros kv p j H. rewrite mesh_support_idx_k2m. unfold support.
  destruct (k2m_spec kv j ltac:(lia)) as [_ A]. destruct (k2m_spec kv (j + p + 1) H) as [_ B].
  rewrite A, B. reflexivity.
Qed.
Print Assumptions support_mesh_support.

Theorem mesh_support_idx_all_eq : forall kv p j, (j < numdofs kv p)%nat ->
  nth j (mesh_support_idx_all kv p) (0%nat, 0%nat) = mesh_support_idx kv p j /\
  length (mesh_support_idx_all kv p) = numdofs kv p.
Proof.
  intros kv p j Hj. rewrite mesh_support_idx_all_map. split.
  - apply (nth_map_seq (mesh_support_idx kv p) 0). exact Hj.
  - rewrite map_length, seq_length. reflexivity.
Qed.
Print Assumptions mesh_support_idx_all_eq.

(* the docstring of mesh_span_indices: the indices of the non-empty spans, numspans of them *)
Theorem span_indices_spec : forall kv i, kv_valid kv = true ->
  (In i (mesh_span_indices kv) <-> ((S i < length kv)%nat /\ kn kv i < kn kv (S i))).
Proof. exact span_indices_In. Qed.
Print Assumptions span_indices_spec.

Theorem span_indices_length : forall kv, kv_valid kv = true -> kv <> [] ->
  length (mesh_span_indices kv) = numspans kv.
Proof.
  intros kv Hv Hne. rewrite <- (map_length (k2m kv)), k2m_span_indices, seq_length by assumption.
  reflexivity.
Qed.
Print Assumptions span_indices_length.

Theorem findspan_listed : forall kv p u, kv_valid kv = true -> kv_ok kv p ->
  kn kv 0 <= u -> u <= kn kv (length kv - 1) -> In (findspan kv p u) (mesh_span_indices kv).
Proof.
  intros kv p u Hv Hok H0 H1. destruct (findspan_spec_l kv p u Hok H0 H1) as [A [B [C _]]].
  apply span_indices_In; [exact Hv|]. split; [lia|exact C].
Qed.
Print Assumptions findspan_listed.

(* for p >= 1 Greville point i is the average of kv[i+1..i+p] (the clip of the source does
   nothing in exact arithmetic); it lies in [kv[i+1], kv[i+p]], hence in the support of
   B-spline i and in the domain; there are numdofs of them *)
Theorem greville_in_support : forall kv p i, (1 <= p)%nat -> kv_valid kv = true -> (i < numdofs kv p)%nat ->
  let g := nth i (greville kv p) 0 in
  g = nth i (sl_range p p (np_convolve kv (avg_weights p))) 0 /\
  kn kv (i + 1) <= g /\ g <= kn kv (i + p) /\
  kn kv i <= g /\ g <= kn kv (i + p + 1) /\ kn kv 0 <= g /\ g <= kn kv (length kv - 1) /\
  length (greville kv p) = numdofs kv p.
Proof. exact greville_in_support_l. Qed.
Print Assumptions greville_in_support.

Theorem greville_in_domain : forall kv p x, (1 <= p)%nat -> kn kv 0 <= kn kv (length kv - 1) ->
  In x (greville kv p) -> kn kv 0 <= x /\ x <= kn kv (length kv - 1).
Proof.
  intros kv p x Hp Hd Hx. unfold greville in Hx.
  destruct (Nat.eqb_spec p 0) as [E|E]; [lia|].
  apply in_map_iff in Hx. destruct Hx as [y [<- _]]. apply clip_bounds. exact Hd.
Qed.
Print Assumptions greville_in_domain.

(* Schoenberg-Whitney position of the Greville points of an open knot vector, p >= 1: the first and the
   last are the end points of the domain; every other one lies STRICTLY inside the support
   (kv[i], kv[i+p+1]) of its B-spline (the part of unisolvence C17 uses).
   NOT PROVED: that this position makes the Greville collocation matrix non-singular
   (Schoenberg-Whitney theorem / total positivity), hence the name. *)
Theorem greville_unisolvent_partial : forall kv p, (1 <= p)%nat -> open_kv kv p = true ->
  nth 0 (greville kv p) 0 = kn kv 0 /\
  nth (numdofs kv p - 1) (greville kv p) 0 = kn kv (length kv - 1) /\
  forall i, (1 <= i)%nat -> (i + 1 < numdofs kv p)%nat ->
    kn kv i < nth i (greville kv p) 0 /\ nth i (greville kv p) 0 < kn kv (i + p + 1).
Proof. exact greville_schoenberg_whitney. Qed.
Print Assumptions greville_unisolvent_partial.

(* B-splines of any non-decreasing knot vector are strictly positive inside their support: for
   t_i <= u < t_{i+p+1}, provided u > t_i or the left end has full multiplicity (t_{i+p} <= u) *)
Theorem N_pos_inside_support : forall kv u, sorted kv -> forall p i, (i + p + 1 < length kv)%nat ->
  kn kv i <= u -> u < kn kv (i + p + 1) -> (kn kv i < u \/ kn kv (i + p) <= u) -> 0 < Nref kv p i u.
Proof. exact Nref_pos. Qed.
Print Assumptions N_pos_inside_support.

(* ... and the function whose support ends with the full-multiplicity last knot is 1 there *)
Theorem N_right_end : forall kv i, sorted kv -> kn kv i < kn kv (S i) -> kn kv (S i) = kn kv (length kv - 1) ->
  forall p, (i + p + 1 < length kv)%nat -> Nref kv p i (kn kv (length kv - 1)) = 1.
Proof. exact N_right_end_l. Qed.
Print Assumptions N_right_end.

(* Schoenberg-Whitney condition in its usual form: the diagonal of the Greville collocation matrix of
   an open knot vector (p >= 1) is strictly positive, N_{i,p}(g_i) > 0 for EVERY i *)
Theorem greville_diag_pos : forall kv p i, (1 <= p)%nat -> open_kv kv p = true -> (i < numdofs kv p)%nat ->
  0 < Nref kv p i (nth i (greville kv p) 0).
Proof. exact greville_diag_pos_l. Qed.
Print Assumptions greville_diag_pos.

(* for any non-decreasing knot vector, without the open_kv hypothesis: strict whenever the support
   is not degenerate on that side *)
Theorem greville_strict_support : forall kv p i, (1 <= p)%nat -> sorted_idx kv -> (i + p + 1 < length kv)%nat ->
  let g := nth i (sl_range p p (np_convolve kv (avg_weights p))) 0 in
  (kn kv i < kn kv (i + p) -> kn kv i < g) /\ (kn kv (i + 1) < kn kv (i + p + 1) -> g < kn kv (i + p + 1)).
Proof. exact running_average_strict. Qed.
Print Assumptions greville_strict_support.

(* degree 0: numdofs cell midpoints (kv[i+1]+kv[i])/2, inside [kv[i], kv[i+1]] = the support of
   function i, strictly inside when the cell is non-empty *)
Theorem greville_p0 : forall kv i, kv_valid kv = true -> (i < numdofs kv 0)%nat ->
  length (greville kv 0) = numdofs kv 0 /\
  nth i (greville kv 0) 0 = (kn kv (S i) + kn kv i) / two /\
  kn kv i <= nth i (greville kv 0) 0 /\ nth i (greville kv 0) 0 <= kn kv (i + 0 + 1) /\
  (kn kv i < kn kv (S i) -> kn kv i < nth i (greville kv 0) 0 /\ nth i (greville kv 0) 0 < kn kv (S i)).
Proof. exact greville_p0_l. Qed.
Print Assumptions greville_p0.

Theorem refine_sorted_union : forall kv new_knots,
  Permutation (refine kv new_knots) (kv ++ new_knots) /\ kv_valid (refine kv new_knots) = true.
Proof. exact refine_perm_sorted. Qed.
Print Assumptions refine_sorted_union.

(* uniform refinement: the new mesh is the old one with the midpoint of every span inserted
   (every span is halved), so the number of spans doubles *)
Theorem refine_uniform_halves : forall kv, kv <> [] ->
  mesh (refine_uniform kv) = interleave (mesh kv) /\
  numspans (refine_uniform kv) = (2 * numspans kv)%nat.
Proof.
  intros kv Hne.
  assert (Hm : mesh (refine_uniform kv) = interleave (mesh kv)).
  { apply mesh_unique; [apply interleave_strict, mesh_increasing|]. intros x.
    unfold refine_uniform. rewrite refine_In, interleave_In, mesh_In. reflexivity. }
  split; [exact Hm|]. pose proof (mesh_nonempty kv Hne) as Hmn.
  unfold numspans. rewrite Hm, interleave_length by exact Hmn.
  destruct (mesh kv); [congruence|]. cbn [length]. lia.
Qed.
Print Assumptions refine_uniform_halves.

Theorem eq_refl : forall kv p, kv_eq kv p kv p = true.
Proof.
  intros kv p. unfold kv_eq, kv_eq_with. rewrite !Nat.eqb_refl. cbn [andb].
  apply all2_refl. intros x. apply isclose_sym_refl; discriminate.
Qed.
Print Assumptions eq_refl.

Theorem eq_sym : forall kv1 p1 kv2 p2, kv_eq kv1 p1 kv2 p2 = kv_eq kv2 p2 kv1 p1.
Proof.
  intros kv1 p1 kv2 p2.
  unfold kv_eq, kv_eq_with. rewrite (Nat.eqb_sym p1 p2), (Nat.eqb_sym (length kv1) (length kv2)).
  f_equal. apply all2_sym. apply isclose_sym_comm.
Qed.
Print Assumptions eq_sym.

(* the np.allclose form of the unrepaired source is not symmetric *)
Theorem eq_sym_old_refuted :
  exists kv1 kv2 p, kv_eq_old kv1 p kv2 p = true /\ kv_eq_old kv2 p kv1 p = false.
Proof. exists w_kv1, w_kv2, 1%nat. split; vm_compute; reflexivity. Qed.
Print Assumptions eq_sym_old_refuted.

(* for every open knot vector of degree p = q+1 >= 1, every coefficient vector and every u:
   the spline returned by derivative() (knots kv[1:-1], degree p-1, coefficients
   p (c[i+1]-c[i]) / (t[i+p+1]-t[i+1])) evaluates to the pointwise derivative
   sum_i c_i N'_{i,p}(u), N' being C02's derivative recursion dNref *)
Theorem derivative_spline : forall kv q c u, let p := S q in
  kv_ok kv p -> length c = numdofs kv p ->
  spline_ev (derivative_kv kv) q (derivative_coeffs kv p c) u = spline_dev kv p c u.
Proof.
  intros kv q c u p Hok Hc. unfold p in *.
  rewrite spline_ev_derivative, spline_dev_by_parts by assumption. reflexivity.
Qed.
Print Assumptions derivative_spline.

(* knots_to_mesh as order isomorphism from knot indices to mesh indices, k2m kv i = knots_to_mesh[i]
   (Proofs8.v): monotone; strictly increasing exactly where the knot values increase *)
Theorem k2m_monotone : forall kv i j, kv_valid kv = true -> (i <= j)%nat -> (j < length kv)%nat ->
  (k2m kv i <= k2m kv j)%nat.
Proof. exact k2m_le. Qed.
Print Assumptions k2m_monotone.

Theorem k2m_strict_iff : forall kv i j, kv_valid kv = true -> (i <= j)%nat -> (j < length kv)%nat ->
  ((k2m kv i < k2m kv j)%nat <-> kn kv i < kn kv j).
Proof. exact k2m_lt_iff. Qed.
Print Assumptions k2m_strict_iff.

(* across a non-empty span the mesh index advances by exactly one; it starts at 0 and ends at numspans *)
Theorem k2m_step : forall kv i, kv_valid kv = true -> (S i < length kv)%nat -> kn kv i < kn kv (S i) ->
  k2m kv (S i) = S (k2m kv i).
Proof. exact k2m_succ. Qed.
Print Assumptions k2m_step.

Theorem k2m_first : forall kv, kv_valid kv = true -> kv <> [] -> k2m kv 0 = 0%nat.
Proof. exact k2m_0. Qed.
Print Assumptions k2m_first.

Theorem k2m_last : forall kv, kv_valid kv = true -> kv <> [] -> k2m kv (length kv - 1) = numspans kv.
Proof. exact k2m_end. Qed.
Print Assumptions k2m_last.

(* the listed spans are, in order, the knot spans of mesh cells 0, 1, ..., numspans-1 *)
Theorem span_indices_cells : forall kv, kv_valid kv = true -> kv <> [] ->
  map (k2m kv) (mesh_span_indices kv) = seq 0 (numspans kv).
Proof. exact k2m_span_indices. Qed.
Print Assumptions span_indices_cells.

(* ... i.e. for the m-th listed span i, mesh cell m is exactly [kv[i], kv[i+1]] *)
Theorem span_cell : forall kv m, kv_valid kv = true -> kv <> [] -> (m < numspans kv)%nat ->
  let i := nth m (mesh_span_indices kv) 0%nat in
  (S i < length kv)%nat /\ k2m kv i = m /\ k2m kv (S i) = S m /\
  nth m (mesh kv) 0 = kn kv i /\ nth (S m) (mesh kv) 0 = kn kv (S i) /\ kn kv i < kn kv (S i).
Proof.
  intros kv m Hv Hne Hm i.
  assert (Hin : In i (mesh_span_indices kv)) by (apply nth_In; rewrite span_indices_length by assumption; exact Hm).
  apply (span_indices_In kv i Hv) in Hin. destruct Hin as [Hi Hlt].
  pose proof (span_indices_nth kv m Hv Hne Hm) as Hk. fold i in Hk.
  pose proof (k2m_succ kv i Hv Hi Hlt) as Hk1. rewrite Hk in Hk1.
  destruct (k2m_spec kv i ltac:(lia)) as [_ A]. destruct (k2m_spec kv (S i) Hi) as [_ B].
  rewrite Hk in A. rewrite Hk1 in B. repeat split; assumption.
Qed.
Print Assumptions span_cell.

(* mesh_support_idx j = (lo, hi) is an ordered pair of mesh indices <= numspans, strictly ordered iff
   the support of function j is not degenerate *)
Theorem mesh_support_idx_ordered : forall kv p j, kv_valid kv = true -> (j + p + 1 < length kv)%nat ->
  let '(lo, hi) := mesh_support_idx kv p j in
  (lo <= hi)%nat /\ (hi <= numspans kv)%nat /\ ((lo < hi)%nat <-> kn kv j < kn kv (j + p + 1)).
Proof.
  intros kv p j Hv Hj. rewrite mesh_support_idx_k2m.
  split; [apply k2m_le; [exact Hv|lia|exact Hj]|]. split.
  - destruct (k2m_spec kv (j + p + 1) Hj) as [A _]. unfold numspans. lia.
  - apply k2m_lt_iff; [exact Hv|lia|exact Hj].
Qed.
Print Assumptions mesh_support_idx_ordered.

(* the non-empty knot spans inside the support of B-spline j (nonempty_span kv i = kv[i] < kv[i+1]) are, in
   order, the mesh cells lo .. hi-1 of mesh_support_idx j = (lo, hi): there are hi - lo of them and they
   are exactly the entries of mesh_span_indices lying in j .. j+p *)
Theorem support_cells : forall kv p j, kv_valid kv = true -> (j + p + 1 < length kv)%nat ->
  let '(lo, hi) := mesh_support_idx kv p j in
  let spans := filter (nonempty_span kv) (seq j (p + 1)) in
  map (k2m kv) spans = seq lo (hi - lo) /\ length spans = (hi - lo)%nat /\
  (forall i, In i spans <-> (In i (mesh_span_indices kv) /\ (j <= i < j + p + 1)%nat)).
Proof.
  intros kv p j Hv Hj. rewrite mesh_support_idx_k2m.
  pose proof (range_cells kv j Hv (p + 1) ltac:(lia)) as R. rewrite Nat.add_assoc in R.
  split; [exact R|]. split.
  - rewrite <- (map_length (k2m kv)), R, seq_length. reflexivity.
  - intros i. rewrite filter_In, in_seq, (span_indices_In kv i Hv), nonempty_span_iff. split.
    + intros [Hr Hlt]. split; [split; [lia|exact Hlt]|lia].
    + intros [[_ Hlt] Hr]. split; [lia|exact Hlt].
Qed.
Print Assumptions support_cells.

(* support() = (mesh[0], mesh[numspans]) *)
Theorem support_all_mesh : forall kv, kv_valid kv = true -> kv <> [] ->
  support_all kv = (nth 0 (mesh kv) 0, nth (numspans kv) (mesh kv) 0).
Proof.
  intros kv Hv Hne. assert (H0 : (0 < length kv)%nat) by (destruct kv; [congruence|cbn; lia]).
  unfold support_all.
  destruct (k2m_spec kv 0 H0) as [_ A]. destruct (k2m_spec kv (length kv - 1) ltac:(lia)) as [_ B].
  rewrite k2m_0 in A by assumption. rewrite k2m_end in B by assumption. rewrite A, B. reflexivity.
Qed.
Print Assumptions support_all_mesh.

Theorem findspans_spec : forall kv p us, length (findspans kv p us) = length us /\
  forall i, (i < length us)%nat -> nth i (findspans kv p us) 0%nat = findspan kv p (nth i us 0).
Proof.
  intros kv p us. unfold findspans. split; [apply map_length|]. intros i Hi.
  apply (nth_map_lt (findspan kv p) _ _ _ 0). exact Hi.
Qed.
Print Assumptions findspans_spec.

(* first_active_at(u) .. first_active_at(u)+p are valid dof indices *)
Theorem first_active_range : forall kv p u, kv_ok kv p -> kn kv 0 <= u -> u <= kn kv (length kv - 1) ->
  (0 <= first_active_at_z kv p u)%Z /\
  (first_active_at_z kv p u + Z.of_nat p < Z.of_nat (numdofs kv p))%Z /\
  first_active_at_z kv p u = Z.of_nat (first_active_at kv p u).
Proof.
  intros kv p u Hok H0 H1. destruct (findspan_spec_l kv p u Hok H0 H1) as [A [B _]].
  unfold first_active_at_z, first_active, first_active_at, numdofs. lia.
Qed.
Print Assumptions first_active_range.

(* pyx_findspans(kv, p, nodes) - p, as used by collocation_info, is first_active_at entry by entry *)
Theorem first_active_all_spec : forall kv p us i, (i < length us)%nat ->
  nth i (first_active_all kv p us) 0%Z = first_active_at_z kv p (nth i us 0).
Proof.
  intros kv p us i Hi. destruct (findspans_spec kv p us) as [L N].
  unfold first_active_all, first_active_at_z, first_active.
  rewrite (nth_map_lt _ _ _ _ 0%nat) by (rewrite L; exact Hi). rewrite (N i Hi). reflexivity.
Qed.
Print Assumptions first_active_all_spec.

Theorem make_knots_findspan_unique : forall p a b n mult u t, a < b -> (1 <= n)%nat -> (1 <= mult)%nat ->
  a <= u -> u < b ->
  let kv := make_knots p a b n mult in
  (S t < length kv)%nat -> kn kv t <= u -> u < kn kv (S t) -> t = findspan kv p u.
Proof.
  intros p a b n mult u t Hab Hn Hm Hu0 Hu1 kv Ht H1 H2.
  pose proof (make_knots_kv_ok p a b n mult Hab Hn Hm) as Hok. fold kv in Hok.
  destruct (make_knots_ends p a b n mult Hn Hm) as [E0 E1]. fold kv in E0, E1.
  apply findspan_unique_l; try assumption; [rewrite E0; exact Hu0|rewrite E1; exact Hu1].
Qed.
Print Assumptions make_knots_findspan_unique.

(* support() and meshsize_avg() of a constructed vector *)
Theorem make_knots_support_meshsize : forall p a b n mult, a < b -> (1 <= n)%nat -> (1 <= mult)%nat ->
  let kv := make_knots p a b n mult in
  support_all kv = (a, b) /\ meshsize_avg kv = (b - a) / natq n.
Proof.
  intros p a b n mult Hab Hn Hm kv. destruct (make_knots_ends p a b n mult Hn Hm) as [E0 E1]. fold kv in E0, E1.
  split; [unfold support_all; rewrite E0, E1; reflexivity|].
  unfold meshsize_avg. rewrite E0, E1. unfold kv. rewrite make_knots_spans by assumption.
  f_equal. apply qabs_of_nonneg. qcq. lra.
Qed.
Print Assumptions make_knots_support_meshsize.

(* refinement is nested: multiplicities add up, the old mesh is contained in the new one, numdofs grows by
   the number of inserted knots *)
Theorem refine_nested : forall kv new_knots p,
  (forall x, count_occ Qc_eq_dec (refine kv new_knots) x =
             (count_occ Qc_eq_dec kv x + count_occ Qc_eq_dec new_knots x)%nat) /\
  incl (mesh kv) (mesh (refine kv new_knots)) /\
  ((p + 1 <= length kv)%nat -> numdofs (refine kv new_knots) p = (numdofs kv p + length new_knots)%nat).
Proof.
  intros kv new_knots p. destruct (refine_sorted_union kv new_knots) as [P _]. split; [|split].
  - intros x. rewrite (Permutation_count_occ Qc_eq_dec) in P. rewrite P. apply count_occ_app.
  - intros x Hx. apply mesh_In. apply (proj1 (mesh_In kv x)) in Hx.
    apply (Permutation_in _ (Permutation_sym P)). apply in_or_app. left. exact Hx.
  - intros Hl. unfold numdofs. rewrite (Permutation_length P), app_length. lia.
Qed.
Print Assumptions refine_nested.

(* Spline.derivative returns a well-formed spline: kv[1:-1] satisfies kv_ok at degree p-1 (so the
   theorems of C02 and derivative_spline apply to it again) and the coefficient vector has exactly its
   numdofs = numdofs - 1 entries (the assertion of Spline.__init__) *)
Theorem derivative_wellformed : forall kv q c, let p := S q in kv_ok kv p -> length c = numdofs kv p ->
  kv_ok (derivative_kv kv) q /\
  length (derivative_coeffs kv p c) = numdofs (derivative_kv kv) q /\
  numdofs (derivative_kv kv) q = (numdofs kv p - 1)%nat.
Proof.
  intros kv q c p Hok Hc. split; [apply derivative_kv_ok; exact Hok|].
  destruct Hok as [Hlen _ _ _ _].
  assert (Hp : p = S q) by reflexivity.
  rewrite derivative_coeffs_length by (try exact Hc; lia).
  unfold numdofs in *. unfold derivative_kv. rewrite sl_1_m1_length. lia.
Qed.
Print Assumptions derivative_wellformed.

(* NOT PROVED -- what remains without a theorem, clause by clause of the property text:
   "open, non-decreasing, exactly n spans, equally spaced ending at b, multiplicities, numdofs":
       all theorems over exact rationals (the make_knots_... theorems).  In binary64 only the bounded
       make_knots_float_bounded_2000 (16 listed intervals, n <= 2000, every p and mult); other
       intervals / n > 2000 / the accuracy |y_i - (a+i(b-a)/n)| <= 4 eps|b-a| + 2 eps max|a|,|b| of the
       float break points are decided by the bit-exact tie and the Fraction oracle only.
   "span lookup returns the unique non-empty span (last one at the right end)": theorems (C02
       findspan_spec/unique, make_knots_findspan(_unique), findspans_spec, first_active_range, first_active_all_spec).  That the
       compiled pyx_findspan on doubles equals the Qc model is the exact tie (floats are exact rationals).
   "mesh, support, span-index, mesh-support and Greville queries mutually consistent, Greville inside the
       domain": theorems for every knot vector (mesh_strict .. support_all_mesh, the greville_... theorems).  Without
       theorem: non-singularity of the Greville collocation matrix (Schoenberg-Whitney theorem); proved are
       its hypotheses greville_unisolvent_partial and greville_diag_pos.  The binary64 Greville points
       (np.convolve rounding, the clip that exists for it) are bounded by the tie (2(p+2) eps max|kv|).
   "refinement returns the sorted union (uniform refinement halves every span)": theorems for every knot
       vector (refine_sorted_union, refine_nested, refine_uniform_halves).  The float midpoint (x+y)/2 is
       compared within 2 eps max|kv| by the tie.
   "equality is reflexive and symmetric": theorems about the rational model of the repaired tolerance
       (eq_refl, eq_sym; np.allclose form refuted).  The binary64 evaluation of __eq__ is compared away
       from the threshold and scanned over adjacent floats for asymmetry; no theorem about the float
       comparison (it is symmetric by commutativity of IEEE |x-y| and max, which is not formalised).
   "derivative of a spline as a spline equals its pointwise derivative": theorems (derivative_spline,
       derivative_wellformed) against
       C02's dNref; that dNref is the analytic derivative of Nref away from knots is C02's business;
       scipy's splev (Spline.eval / deriv) is not modelled, only compared with itself by the oracle.
   Not modelled at all: KnotVector.copy/__str__/__repr__, numdofs(kvs) for tuples. *)
