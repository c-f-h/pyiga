(* C20 -- non-vacuity: concrete reachable states meet the hypotheses of the theorems,
   and the model does what one expects on concrete histories (tests, by vm_compute). *)
From Coq Require Import List Arith Bool.
From Verif.C20 Require Import Model Proofs Faults Local.
Import ListNotations.

(* three processes on two forms, interleaved; 0 is killed while linking, 1 while Cython writes the .c *)
Definition ex_tr : list label :=
  [Spawn 0 0; Spawn 1 0; Spawn 2 1; Step 0; Step 1; Step 2] ++
  repeat (Step 0) 19 ++ [Kill 0] ++ repeat (Step 1) 10 ++ [Kill 1] ++ repeat (Step 2) 30.

(* hypothesis of [recovery]: pid 3 is fresh after that history; its conclusion, computed *)
Example ex_fresh : procs (run New orc_ref ex_tr init) 3 = None.
Proof. vm_compute. reflexivity. Qed.
Example ex_recovers :
  outcome_of (solo New orc_ref FUEL (step New orc_ref (run New orc_ref ex_tr init) (Spawn 3 0)) 3) 3 = Some (Ok 0).
Proof. vm_compute. reflexivity. Qed.
(* the history is not trivial: 0 and 1 were killed in the middle of a write, 2 finished *)
Example ex_history :
  map (outcome_of (run New orc_ref ex_tr init)) [0; 1; 2] = [Some Killed; Some Killed; Some (Ok 1)] /\
  files (run New orc_ref ex_tr init) (Tmp 0 So) = Partial Header 0 /\
  files (run New orc_ref ex_tr init) (Tmp 1 Cfile) = Partial Half 0 /\
  files (run New orc_ref ex_tr init) (Final So 0) = Absent /\
  files (run New orc_ref ex_tr init) (Final So 1) = Complete 1.
Proof. vm_compute. auto 6. Qed.

(* hypotheses of [race_safety] / [completed_never_overwritten]: a finished process, a completed entry *)
Example ex_finished : exists q, procs (run New orc_ref ex_tr init) 2 = Some q /\ ppc q = PDone (Ok 1).
Proof. eexists. vm_compute. split; reflexivity. Qed.

(* hypothesis of [race_liveness] *)
Example ex_steps : rank PMkdir <= steps_of 2 ex_tr.
Proof. apply Nat.leb_le. reflexivity. Qed.

(* [Inv] also holds in directories that were damaged from outside in ways dlopen rejects: an empty
   and a garbage .so under final names, plus left-overs of the old protocol *)
Definition ex_damaged : state :=
  mkstate (fun y => match y with
                    | Final So 0 => Partial Empty 0
                    | Final So 1 => Partial Garbage 7
                    | Final Pyx 0 => Partial Half 0
                    | Final Cfile 0 => Partial Garbage 0
                    | _ => Absent end) (fun _ => 0) 1 (fun _ => None).
Example ex_damaged_inv : Inv orc_ref ex_damaged.
Proof.
  split; simpl; auto; try discriminate.
  intros [|[|n]]; simpl; auto.
Qed.
Example ex_damaged_recovers :
  outcome_of (solo New orc_ref FUEL (step New orc_ref ex_damaged (Spawn 0 1)) 0) 0 = Some (Ok 1).
Proof. vm_compute. reflexivity. Qed.

(* the hypothesis of the refutations holds for the measured oracle *)
Example ex_oracle : orc_ref Header = Crash.
Proof. reflexivity. Qed.

(* tests of the executable fault-history semantics used by the tie *)
Definition cold_trace := [3; 1; 2; 10; 11; 12; 13; 14; 20; 21; 22; 23; 24; 30; 31; 32; 33; 34; 40; 41; 42; 43; 44; 50; 51; 52].
Example ex_predict_new :
  predict New orc_ref 1 [EKill 0 (PWrite So W2); ERun 0; ERun 0] =
    [([3], [1; 0; 0; 0; 0], []); ([0], [1; 1; 0; 0; 0], cold_trace); ([0], [1; 1; 0; 0; 0], [3; 1])].
Proof. vm_compute. reflexivity. Qed.
Example ex_predict_old :
  predict Old orc_ref 1 [EKill 0 (PWrite So W2); ERun 0] =
    [([3], [0; 3; 1; 1; 1], []); ([2], [0; 3; 1; 1; 1], [3; 1])].
Proof. vm_compute. reflexivity. Qed.
Example ex_predict_sched :
  predict New orc_ref 1 [ESched [0; 0] [(0, PWrite So W2); (1, PReplace); (0, PReplace)]] =
    [([0; 0], [0; 1; 0; 0; 0], [])] /\
  predict Old orc_ref 1 [ESched [0; 0] [(0, PWrite So W2); (1, PReplace)]] =
    [([0; 2], [0; 1; 1; 1; 1], [])].
Proof. vm_compute. auto. Qed.
(* external damage: an empty .so is rebuilt, one cut after its first pages kills the interpreter
   (dlopen: SIGBUS) -- a state which, by final_entries_complete, no interrupted build can leave behind *)
Example ex_predict_damage :
  predict New orc_ref 1 [ERun 0; EDmg So (Some Empty); ERun 0; EDmg So (Some Header); ERun 0] =
    [([0], [0; 1; 0; 0; 0], cold_trace); ([], [0; 2; 0; 0; 0], []); ([0], [0; 1; 0; 0; 0], cold_trace);
     ([], [0; 3; 0; 0; 0], []); ([2], [0; 3; 0; 0; 0], [3; 1])].
Proof. vm_compute. reflexivity. Qed.

(* cold start: the cache directory does not exist in [init]; with the idempotent mkdir the schedule that
   breaks check-then-create (cold_start_refuted) ends well for both processes *)
Example ex_cold_start_new :
  map (outcome_of (solo New orc_ref FUEL (solo New orc_ref FUEL (run New orc_ref tr_cold_start init) 0) 1)) [0; 1]
  = [Some (Ok 0); Some (Ok 1)].
Proof. vm_compute. reflexivity. Qed.
(* and check-then-create alone (no second process) is fine: the defect needs the race *)
Example ex_cold_start_solo :
  outcome_of (solo NewCC orc_ref FUEL (step NewCC orc_ref init (Spawn 0 0)) 0) 0 = Some (Ok 0).
Proof. vm_compute. reflexivity. Qed.

(* ---- fault histories (Faults.v): a concrete history meets the hypotheses of recovery_after_faults ---- *)
(* session 1: process 0 builds form 0 completely; fault: every .so emptied; fault: clear-cache.py;
   session 2: process 1 builds form 1 and is killed in the link; fault: every .o replaced by garbage *)
Definition ex_s1 : list label := Spawn 0 0 :: repeat (Step 0) 28.
Definition ex_s2 : list label := Spawn 1 1 :: repeat (Step 1) 20 ++ [Kill 1].
Definition ex_hist : list hitem :=
  [HRun ex_s1; HFault (FDmg So (Some Empty)); HFault FClear; HRun ex_s2; HFault (FDmg Obj (Some Garbage))].
Definition ex_hist_end : state :=
  apply_fault (run New orc_ref ex_s2 (apply_fault (apply_fault (run New orc_ref ex_s1 init)
     (FDmg So (Some Empty))) FClear)) (FDmg Obj (Some Garbage)).

Lemma ex_quiescent_2 st :
  (forall p, procs st (S (S p)) = None) ->
  match procs st 0 with Some q => is_done (ppc q) | None => true end = true ->
  match procs st 1 with Some q => is_done (ppc q) | None => true end = true -> quiescent st.
Proof.
  intros H2 H0 H1 [|[|p]] q HP; [rewrite HP in H0 | rewrite HP in H1 | rewrite H2 in HP]; auto. discriminate.
Qed.

Example ex_hist_ok : hist orc_ref init ex_hist ex_hist_end.
Proof.
  unfold ex_hist, ex_hist_end.
  apply h_run. apply h_fault; [apply ex_quiescent_2; intros; reflexivity | simpl; discriminate |].
  apply h_fault; [apply ex_quiescent_2; intros; reflexivity | exact I |].
  apply h_run. apply h_fault; [apply ex_quiescent_2; intros; reflexivity | exact I |].
  apply h_nil.
Qed.
(* the history is not trivial: after it the cache holds no entry, one dead build directory with a damaged .o *)
Example ex_hist_state :
  files ex_hist_end (Final So 0) = Absent /\ files ex_hist_end (Final So 1) = Absent /\
  files ex_hist_end (Tmp 1 Obj) = Partial Garbage 1 /\ files ex_hist_end (Tmp 1 So) = Partial Header 1 /\
  outcome_of ex_hist_end 0 = Some (Ok 0) /\ outcome_of ex_hist_end 1 = Some Killed /\ procs ex_hist_end 2 = None.
Proof. vm_compute. auto 8. Qed.
(* the conclusion of recovery_after_faults, computed *)
Example ex_hist_recovers :
  outcome_of (solo New orc_ref FUEL (step New orc_ref ex_hist_end (Spawn 2 0)) 2) 2 = Some (Ok 0).
Proof. vm_compute. reflexivity. Qed.
(* hypothesis of crash_class_kills / the excluded fault: a finished entry cut to its header *)
Example ex_crash_class :
  let st := apply_fault (run New orc_ref ex_s1 init) (FDmg So (Some Header)) in
  files st (Final So 0) = Partial Header 0 /\ orc_ref Header = Crash /\ ~ safe_fault orc_ref (FDmg So (Some Header)).
Proof. vm_compute. repeat split. intros H. apply H. reflexivity. Qed.

(* ---- locality (Local.v): hypotheses of fresh_request_outcome in a directory where ANOTHER form's entry is
   cut to its header (dlopen would crash on it), the own entry is garbage, old-protocol left-overs lie around *)
Definition ex_mixed : state :=
  mkstate (fun y => match y with
                    | Final So 0 => Partial Garbage 0
                    | Final So 1 => Partial Header 1
                    | Final So 2 => Complete 2
                    | Final Pyx 0 => Partial Empty 0
                    | Final Obj 1 => Partial Half 1
                    | _ => Absent end) (fun _ => 0) 1 (fun _ => None).
Example ex_mixed_hyps :
  settled ex_mixed /\ (forall p, procs ex_mixed p = None -> forall r, files ex_mixed (Tmp p r) = Absent) /\
  ~ final_ok orc_ref 1 (files ex_mixed (Final So 1)).
Proof.
  split; [|split].
  - intros p q H. discriminate.
  - intros p _ r. reflexivity.
  - simpl. intros [H|[H _]]; discriminate.
Qed.
(* the three cases of the theorem, computed: rebuilt / dies / returned as it is *)
Example ex_mixed_outcomes :
  map (fun n => outcome_of (solo New orc_ref FUEL (step New orc_ref ex_mixed (Spawn 0 n)) 0) 0) [0; 1; 2]
  = [Some (Ok 0); Some Death; Some (Ok 2)].
Proof. vm_compute. reflexivity. Qed.
Example ex_agree : agree 0 ex_mixed (forget_others 0 ex_mixed) /\
  files (forget_others 0 ex_mixed) (Final So 1) = Absent.
Proof. split; [apply agree_forget|reflexivity]. Qed.
