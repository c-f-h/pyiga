(* C20 -- non-vacuity of Props2.v (vm_compute tests on concrete histories; orc_ref: Header => Crash). *)
From Coq Require Import List Arith.
From Verif.C20 Require Import Model Verify VProofs.
Import ListNotations.

(* the fault that kills protocol New (Props.crash_class_kills), replayed on Ver: build, cut the finished .so to its header, request again:
   Ver rebuilds (outcome code 0), the entry and its stamp are complete afterwards, no build directory is left *)
Example damaged_so_is_rebuilt :
  vpredict orc_ref 1 [VERun 0; VEDmg RSo (Some Header); VERun 0] =
  [([0], [0; 1;0;0;0;1], [3;6;2;10;11;12;13;14;20;21;22;23;24;30;31;32;33;34;40;41;42;43;44;60;61;62;63;64;50;53;51;52]);
   ([],  [0; 3;0;0;0;1], []);
   ([0], [0; 1;0;0;0;1], [3;6;2;10;11;12;13;14;20;21;22;23;24;30;31;32;33;34;40;41;42;43;44;60;61;62;63;64;50;53;51;52])].
Proof. vm_compute. reflexivity. Qed.
(* ... whereas New dies there (Model.predict, same history) *)
Example damaged_so_kills_New :
  map (fun x => fst (fst x)) (predict New orc_ref 1 [ERun 0; EDmg So (Some Header); ERun 0]) = [[0]; []; [2]].
Proof. vm_compute. reflexivity. Qed.

(* a cache hit: the second request goes mkdir, verify, import *)
Example second_request_hits :
  map snd (vpredict orc_ref 1 [VERun 0; VERun 0]) =
  [[3;6;2;10;11;12;13;14;20;21;22;23;24;30;31;32;33;34;40;41;42;43;44;60;61;62;63;64;50;53;51;52]; [3;6;1]].
Proof. vm_compute. reflexivity. Qed.

(* every class of damage of the stamp, and its deletion: rebuilt *)
Example damaged_stamp_is_rebuilt :
  map (fun k => map (fun x => fst (fst x)) (vpredict orc_ref 1 [VERun 0; VEDmg ROk k; VERun 0]))
      [None; Some Empty; Some Header; Some Half; Some AllButLast; Some Garbage] =
  repeat [[0]; []; [0]] 6.
Proof. vm_compute. reflexivity. Qed.

(* killed between the two publishing renames: new .so without stamp; the next request rebuilds *)
Example kill_between_renames :
  map (fun x => fst x) (vpredict orc_ref 1 [VEKill 0 VReplaceOk; VERun 0]) =
  [([3], [1; 1;0;0;0;0]); ([0], [1; 1;0;0;0;1])].
Proof. vm_compute. reflexivity. Qed.

(* two publishers: .so of 1, stamp of 0 (so_0 so_1 ok_1 ok_0): the pair does not verify; process 2 rebuilds and
   gets the right assembler; hypotheses of ver_completed_never_overwritten are met along the way *)
Definition tr_cross : list label :=
  [Spawn 0 0; Spawn 1 0] ++ repeat (Step 0) 28 ++ repeat (Step 1) 28 ++ [Step 0; Step 1; Step 1; Step 0].
Example stamp_mismatch_rebuilds :
  vfiles (vrun orc_ref tr_cross vinit) (VFinal RSo 0) = VComplete (0, 1) /\
  vfiles (vrun orc_ref tr_cross vinit) (VFinal ROk 0) = VComplete (0, 0) /\
  voutcome_of (vsolo orc_ref VFUEL (vstep orc_ref (vrun orc_ref tr_cross vinit) (Spawn 2 0)) 2) 2 = Some (Ok 0) /\
  vfiles (vsolo orc_ref VFUEL (vstep orc_ref (vrun orc_ref tr_cross vinit) (Spawn 2 0)) 2) (VFinal ROk 0) = VComplete (0, 2).
Proof. vm_compute. auto. Qed.

(* the invariant's hypotheses are inhabited by a directory full of damage: every entry of form 0 in a crash class *)
Example every_directory_instance :
  let st := vdamage_all (vdamage_all (vrun orc_ref (Spawn 0 0 :: repeat (Step 0) 34) vinit) RSo (Some Header)) ROk (Some Garbage) in
  vfiles st (VFinal RSo 0) = VPartial Header (0, 0) /\ orc_ref Header = Crash /\
  voutcome_of (vsolo orc_ref VFUEL (vstep orc_ref st (Spawn 1 0)) 1) 1 = Some (Ok 0).
Proof. vm_compute. auto. Qed.
