(* C20 -- fault histories over restarts: external damage of every file in every size class,
   scripts/clear-cache.py, interleaved with arbitrary concurrent runs and crashes. *)
From Coq Require Import List Arith Bool.
From Verif.C20 Require Import Model Proofs.
Import ListNotations.

(* no process is in the middle of a request (between two sessions) *)
Definition quiescent (st : state) : Prop :=
  forall p q, procs st p = Some q -> is_done (ppc q) = true.

(* scripts/clear-cache.py: shutil.rmtree(MODDIR) -- every artefact, every left-over private build
   directory and MODDIR itself are gone *)
Definition clear_cache (st : state) : state :=
  mkstate (fun _ => Absent) (fun _ => clock st) (S (clock st)) (procs st).

Inductive fault :=
| FDmg (r : role) (k : option sizeclass)   (* Model.damage_all: every file of role r, under final names and in
                                              every left-over build directory: truncated to class k / garbage /
                                              deleted (None) *)
| FClear.                                   (* clear-cache.py *)

Definition apply_fault (st : state) (f : fault) : state :=
  match f with FDmg r k => damage_all st r k | FClear => clear_cache st end.

(* the only fault excluded: a finished .so cut to a size class on which dlopen kills the interpreter *)
Definition safe_fault (orc : oracle) (f : fault) : Prop :=
  match f with FDmg So (Some k) => orc k <> Crash | _ => True end.

(* a history: sessions (arbitrary schedules of any number of processes with kills) alternating with
   faults that hit the directory while nobody is compiling *)
Inductive hitem := HRun (tr : list label) | HFault (f : fault).

Inductive hist (orc : oracle) : state -> list hitem -> state -> Prop :=
| h_nil : forall st, hist orc st [] st
| h_run : forall st tr h st', hist orc (run New orc tr st) h st' -> hist orc st (HRun tr :: h) st'
| h_fault : forall st f h st', quiescent st -> safe_fault orc f ->
            hist orc (apply_fault st f) h st' -> hist orc st (HFault f :: h) st'.

Section Faults.
Variable orc : oracle.

Definition settled (st : state) : Prop :=
  forall p q, procs st p = Some q -> ppc q = PDone Killed \/ ppc q = PDone (Ok (pform q)).

(* once the processes are settled the invariant asks nothing of the .pyx/.c/.o files under final names
   (left-overs of the in-place protocol), of the build directories of dead processes, or of MODDIR itself *)
Lemma inv_of_directory st :
  settled st ->
  (forall p, procs st p = None -> forall r, files st (Tmp p r) = Absent) ->
  (forall n, final_ok orc n (files st (Final So n))) ->
  Inv orc st.
Proof.
  intros HS HT HF. split; auto.
  - intros p q HP. destruct (HS _ _ HP) as [-> | ->]; exact I.
  - intros p q HP. unfold proc_inv. destruct (HS _ _ HP) as [-> | ->]; auto.
Qed.

Lemma quiescent_settled st : Inv orc st -> quiescent st -> settled st.
Proof.
  intros HI HQ p q HP. specialize (HQ _ _ HP). destruct (ppc q) as [| | | | |r w| | | |o] eqn:E; try discriminate.
  destruct (inv_done orc st p q o HI HP E) as [-> | ->]; auto.
Qed.

Lemma damage_absent k : damage k Absent = Absent.
Proof. destruct k; reflexivity. Qed.

(* between two sessions the processes ask nothing of the files: the invariant is a condition on the final
   entries and on the build directories nobody owns *)
Lemma fault_preserves_inv st f :
  Inv orc st -> quiescent st -> safe_fault orc f -> Inv orc (apply_fault st f).
Proof.
  intros HI HQ HS. apply inv_of_directory.
  - destruct f; exact (quiescent_settled st HI HQ).
  - intros p HP r. destruct f as [r0 k|]; simpl in *; auto.
    rewrite (inv_fresh _ _ HI p HP r). destruct (role_eqb r r0); auto using damage_absent.
  - intros n. pose proof (inv_final _ _ HI n) as HF. destruct f as [r [k|]|]; simpl; auto; destruct r; simpl; auto.
    destruct (files st (Final So n)) as [|k' c|c]; simpl in *; auto.
    subst c. destruct (orc k) eqn:EO; auto. exfalso. apply HS. reflexivity.
Qed.

Lemma inv_hist h : forall st st', Inv orc st -> hist orc st h st' -> Inv orc st'.
Proof.
  induction h as [|i h IH]; intros st st' HI HH.
  - inversion HH; subst; auto.
  - inversion HH as [|s0 tr h0 s1 HR|s0 f h0 s1 HQ HS HR]; subst.
    + apply (IH _ _ (inv_run orc tr st HI) HR).
    + apply (IH _ _ (fault_preserves_inv st f HI HQ HS) HR).
Qed.

(* process 0 has missed the cache and is about to call mkdtemp: clear-cache.py at this point makes it fail *)
Definition tr_before_mkdtemp : list label := [Spawn 0 0; Step 0; Step 0].
End Faults.
