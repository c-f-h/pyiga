(* C20 -- locality: a request for form n does not read the entry of any other form, hence the outcome of a
   fresh request is determined by the state of its own entry alone -- for EVERY combination of corrupt
   files in the directory. *)
From Coq Require Import List Arith Bool.
From Verif.C20 Require Import Model Proofs Faults.
Import ListNotations.

Definition other_so (n : form) (x : path) : Prop := exists n', n' <> n /\ x = Final So n'.

Record agree (n : form) (st st' : state) : Prop := {
  ag_files : forall x, ~ other_so n x -> files st x = files st' x;
  ag_mtime : forall x, mtime st x = mtime st' x;
  ag_clock : clock st = clock st';
  ag_procs : forall p, procs st p = procs st' p }.

Lemma not_other_tmp n p r : ~ other_so n (Tmp p r).
Proof. intros (n' & _ & H). discriminate. Qed.
Lemma not_other_dir n : ~ other_so n CacheDir.
Proof. intros (n' & _ & H). discriminate. Qed.
Lemma not_other_own n : ~ other_so n (Final So n).
Proof. intros (n' & H1 & H). inversion H. congruence. Qed.

Lemma agree_setproc n st st' p q : agree n st st' -> agree n (setproc st p q) (setproc st' p q).
Proof.
  intros [A B C D]. split; simpl; auto. intros p'. rewrite D. reflexivity.
Qed.

Lemma agree_write n st st' x v : agree n st st' -> agree n (write st x v) (write st' x v).
Proof.
  intros [A B C D]. split; simpl.
  - intros y Hy. unfold upd. destruct (path_eqb y x); auto.
  - intros y. unfold upd. rewrite C, B. reflexivity.
  - rewrite C. reflexivity.
  - auto.
Qed.

Lemma agree_clear n st st' p : agree n st st' -> agree n (clear_tmp st p) (clear_tmp st' p).
Proof.
  intros [A B C D]. split; simpl; auto.
  intros y Hy. destruct y as [r m|p' r|]; auto. destruct (Nat.eqb p' p); auto.
Qed.

Lemma stale_agree n st st' a b : agree n st st' -> ~ other_so n b -> stale st a b = stale st' a b.
Proof. intros [A B C D] Hb. unfold stale. rewrite (A b Hb), !B. reflexivity. Qed.

Section Local.
Variable orc : oracle.

Lemma agree_step_proc n st st' p q :
  agree n st st' -> pform q = n ->
  agree n (step_proc New orc st p q) (step_proc New orc st' p q).
Proof.
  intros HA Hn. destruct q as [m c g]. simpl in Hn. subst m.
  pose proof (fun r => ag_files _ _ _ HA (Tmp p r) (not_other_tmp n p r)) as HT.
  pose proof (ag_files _ _ _ HA CacheDir (not_other_dir n)) as HD.
  pose proof (ag_files _ _ _ HA (Final So n) (not_other_own n)) as HF.
  unfold step_proc; simpl.
  destruct c as [| | | | |r w| | | |o]; unfold goto; simpl.
  - apply agree_setproc, agree_write; auto.
  - rewrite HD. destruct (exists_ (files st' CacheDir)); apply agree_setproc; auto.
  - rewrite HD. destruct (exists_ (files st' CacheDir)); apply agree_setproc; auto. apply agree_write; auto.
  - rewrite HF. destruct (load orc (files st' (Final So n))); apply agree_setproc; auto.
  - rewrite HD. destruct (exists_ (files st' CacheDir)); apply agree_setproc; auto.
  - unfold stage, begin, goto; simpl.
    destruct r, w; simpl; rewrite ?HT;
      repeat match goal with
             | |- context [match files st' ?x with _ => _ end] => destruct (files st' x)
             end;
      rewrite ?(stale_agree n st st' _ _ HA (not_other_tmp n p _));
      repeat match goal with
             | |- context [if stale ?a ?b ?c then _ else _] => destruct (stale a b c)
             end;
      repeat (apply agree_setproc || apply agree_write); auto.
  - rewrite HT. apply agree_setproc. repeat apply agree_write. auto.
  - apply agree_setproc, agree_clear; auto.
  - rewrite HF. destruct (load orc (files st' (Final So n))); apply agree_setproc; auto.
  - auto.
Qed.

Lemma agree_solo n fuel : forall st st' p q,
  agree n st st' -> procs st p = Some q -> pform q = n ->
  agree n (solo New orc fuel st p) (solo New orc fuel st' p).
Proof.
  induction fuel as [|f IH]; intros st st' p q HA HP Hn; [exact HA|].
  assert (HP' : procs st' p = Some q) by (rewrite <- (ag_procs _ _ _ HA p); exact HP).
  rewrite (solo_step _ _ _ _ _ q HP), (solo_step _ _ _ _ _ q HP').
  destruct (step_keeps_proc New orc st (Step p) p q HP) as (q' & Hq' & Hf & _).
  simpl in Hq'. rewrite HP in Hq'.
  apply (IH _ _ p q'); [apply agree_step_proc; auto | exact Hq' | congruence].
Qed.

(* the directory with the entries of all other forms removed *)
Definition forget_others (n : form) (st : state) : state :=
  mkstate (fun x => match x with
                    | Final So n' => if Nat.eqb n' n then files st x else Absent
                    | _ => files st x
                    end) (mtime st) (clock st) (procs st).

Lemma agree_forget n st : agree n st (forget_others n st).
Proof.
  split; simpl; auto. intros x Hx. destruct x as [r m|p r|]; auto. destruct r; auto.
  destruct (Nat.eqb m n) eqn:E; auto. exfalso. apply Hx. exists m. split; auto. apply Nat.eqb_neq. auto.
Qed.

Lemma final_forget n st :
  load orc (files st (Final So n)) = LErr ->
  forall m, final_ok orc m (files (forget_others n st) (Final So m)).
Proof.
  intros EL m. unfold forget_others; simpl. destruct (Nat.eqb_spec m n) as [->|]; simpl; auto.
  unfold load in EL. destruct (files st (Final So n)) as [|k c|c]; simpl; auto; try discriminate.
  destruct (orc k); try discriminate. auto.
Qed.

(* a rejected or absent entry is rebuilt, whatever the entries of the other forms look like: forget them,
   recover there, and come back along [agree] *)
Lemma fresh_rebuilds st p n :
  settled st ->
  (forall p, procs st p = None -> forall r, files st (Tmp p r) = Absent) ->
  procs st p = None -> load orc (files st (Final So n)) = LErr ->
  outcome_of (solo New orc FUEL (step New orc st (Spawn p n)) p) p = Some (Ok n).
Proof.
  intros HS HT HN EL.
  assert (HR : outcome_of (solo New orc FUEL (step New orc (forget_others n st) (Spawn p n)) p) p = Some (Ok n)).
  { apply fresh_request_ok; [|exact HN]. apply inv_of_directory; [exact HS | exact HT | apply final_forget, EL]. }
  rewrite (spawn_fresh New orc (forget_others n st) p n HN) in HR. rewrite (spawn_fresh New orc st p n HN).
  assert (HP : procs (setproc st p (mkproc n (entry New) n)) p = Some (mkproc n (entry New) n)).
  { now rewrite procs_setproc, Nat.eqb_refl. }
  pose proof (agree_solo n FUEL _ _ p _ (agree_setproc n _ _ p _ (agree_forget n st)) HP eq_refl) as HA.
  revert HR. unfold outcome_of. rewrite (ag_procs _ _ _ HA p). auto.
Qed.
End Local.
