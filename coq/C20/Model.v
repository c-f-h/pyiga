(* C20 -- the on-disk compile cache protocol of pyiga/compile.py as a small-step
   transition system.  Executable definitions only (no proofs).

   Source transcribed (pyiga/compile.py of /repo commit 3a28d2c + fixes/C20-atomic-cache-publish.patch):

     compile_cython_module (compile.py:58-73)
        os.makedirs(MODDIR, exist_ok=True)              -> pc PMkdir (one atomic idempotent step; the variant
                                                           `if not isdir: makedirs` is PChkDir, PCreate: proto NewCC)
        modname = 'mod' + shake_128(src)                -> a form is identified with its name (idealised digest)
        try: importlib.import_module(modname)           -> pc PImport
        except ImportError: _compile_cython_module_nocache(src, modname)
     _compile_cython_module_nocache
        OLD (compile.py:25-55): every artefact is written IN PLACE under its final name in MODDIR
             open(modfile,'w+'); f.write(src)           -> PWrite Pyx  (truncate, then grow, then complete)
             cythonize([extension])                      -> PWrite Cfile (Cython/Build/Dependencies.py:1068-1080:
                                                            regenerate iff .c missing or older than the .pyx)
             build_extension.run()                       -> PWrite Obj, PWrite So (setuptools/_distutils/command/
                                                            build_ext.py:548: whole extension skipped iff the .so is
                                                            not older than the .c; ccompiler _need_link: link iff
                                                            the .so is missing or older than the .o)
             importlib.import_module(modname)            -> PReimport
        NEW (the patch): builddir = mkdtemp(dir=MODDIR)  -> PMkdtemp; the same four stages write below builddir,
             os.replace(builddir/so, MODDIR/so)          -> PReplace (atomic: rename(2))
             finally: shutil.rmtree(builddir)            -> PCleanup
             importlib.import_module(modname)            -> PReimport

   Idealisations (DESIGN.md section 6): the digest is injective (forms ARE names), rename(2) is atomic,
   mkdtemp names are unique (the private directory is indexed by the pid, pids are never reused),
   what dlopen does with a damaged file is an oracle parameter [orc] that the tie calibrates on the machine. *)
From Coq Require Import List Arith Bool.
Import ListNotations.

Definition form := nat.
Definition pid := nat.

(* how much of a file is there *)
Inductive sizeclass := Empty | Header | Half | AllButLast | Garbage.
Inductive fstate :=
| Absent
| Partial (k : sizeclass) (c : form)   (* class-k prefix of (or garbage instead of) the artefact of form c *)
| Complete (c : form).                 (* the finished artefact generated from the source of form c *)

Inductive role := Pyx | Cfile | Obj | So.
Inductive path :=
| Final (r : role) (n : form)          (* MODDIR/mod<digest n>.<ext>: read by every process *)
| Tmp (p : pid) (r : role)             (* <mkdtemp of process p>/mod<digest>.<ext> *)
| CacheDir.                            (* MODDIR itself: Absent, or Complete 0 = the directory exists *)

Definition role_eqb (a b : role) : bool :=
  match a, b with Pyx, Pyx | Cfile, Cfile | Obj, Obj | So, So => true | _, _ => false end.
Definition path_eqb (x y : path) : bool :=
  match x, y with
  | Final r n, Final r' n' => role_eqb r r' && Nat.eqb n n'
  | Tmp p r, Tmp p' r' => Nat.eqb p p' && role_eqb r r'
  | CacheDir, CacheDir => true
  | _, _ => false
  end.
Definition upd {A} (f : path -> A) (x : path) (v : A) : path -> A :=
  fun y => if path_eqb y x then v else f y.

(* what importing a shared object does *)
Inductive loadres := Loads | ImpErr | Crash.
Definition oracle := sizeclass -> loadres.
Inductive outcome :=
| Ok (c : form)        (* returned the assembler module generated from form c *)
| Exn                  (* a Python exception reached the caller *)
| Death                (* the interpreter died (SIGBUS/SIGSEGV in dlopen) *)
| Killed.              (* removed by a crash / SIGKILL *)

Inductive wphase := W0 | W1 | W2 | W3 | W4.
Inductive pc :=
| PMkdir                               (* os.makedirs(MODDIR, exist_ok=True): atomic, idempotent *)
| PChkDir | PCreate                    (* `if not os.path.isdir(MODDIR): os.makedirs(MODDIR)`: two steps *)
| PImport | PMkdtemp
| PWrite (r : role) (w : wphase)
| PReplace | PCleanup | PReimport
| PDone (o : outcome).

Record proc := mkproc { pform : form; ppc : pc; preg : form }.

Record state := mkstate {
  files : path -> fstate;
  mtime : path -> nat;
  clock : nat;
  procs : pid -> option proc }.

(* NewCC = New with the check-then-create pair instead of the idempotent mkdir *)
Inductive proto := Old | New | NewCC.
Definition entry (pr : proto) : pc := match pr with NewCC => PChkDir | _ => PMkdir end.

Definition init : state :=
  mkstate (fun _ => Absent) (fun _ => 0) 1 (fun _ => None).

(* where process p, building form n, writes the artefact of role r *)
Definition wpath (pr : proto) (p : pid) (n : form) (r : role) : path :=
  match pr with Old => Final r n | New => Tmp p r | NewCC => Tmp p r end.

Definition write (st : state) (x : path) (v : fstate) : state :=
  mkstate (upd (files st) x v) (upd (mtime st) x (clock st)) (S (clock st)) (procs st).

Definition setproc (st : state) (p : pid) (q : proc) : state :=
  mkstate (files st) (mtime st) (clock st) (fun p' => if Nat.eqb p' p then Some q else procs st p').

Definition goto (st : state) (p : pid) (q : proc) (c : pc) : state :=
  setproc st p (mkproc (pform q) c (preg q)).

Inductive loaded := LOk (c : form) | LErr | LCrash.
Definition load (orc : oracle) (f : fstate) : loaded :=
  match f with
  | Absent => LErr
  | Complete c => LOk c
  | Partial k c => match orc k with Loads => LOk c | ImpErr => LErr | Crash => LCrash end
  end.

Definition exists_ (f : fstate) : bool := match f with Absent => false | _ => true end.

(* distutils newer(source, target) / Cython's c_timestamp < pyx timestamp: the target has to be (re)made *)
Definition stale (st : state) (src tgt : path) : bool :=
  negb (exists_ (files st tgt)) || Nat.ltb (mtime st tgt) (mtime st src).

Definition after_so (pr : proto) : pc := match pr with Old => PReimport | New => PReplace | NewCC => PReplace end.
Definition next_stage (pr : proto) (r : role) : pc :=
  match r with Pyx => PWrite Cfile W0 | Cfile => PWrite Obj W0 | Obj => PWrite So W0 | So => after_so pr end.

Definition begin (st : state) (p : pid) (q : proc) (out : path) (r : role) (c : form) : state :=
  setproc (write st out (Partial Empty c)) p (mkproc (pform q) (PWrite r W1) c).

(* one atomic step of the build stage writing role r, phase w *)
Definition stage (pr : proto) (st : state) (p : pid) (q : proc) (r : role) (w : wphase) : state :=
  let n := pform q in
  let P := wpath pr p n in
  let out := P r in
  match w with
  | W0 =>
      match r with
      | Pyx => begin st p q out Pyx n                      (* open(modfile,'w+') truncates unconditionally *)
      | Cfile =>
          match files st (P Pyx) with
          | Complete c => if stale st (P Pyx) out then begin st p q out Cfile c
                          else goto st p q (next_stage pr Cfile)
          | _ => goto st p q (PDone Exn)                   (* Cython fails on a source that is not all there *)
          end
      | Obj =>
          match files st (P Cfile) with
          | Complete c => if stale st (P Cfile) (P So) then begin st p q out Obj c
                          else goto st p q (after_so pr)   (* build_ext: extension up-to-date, skipped *)
          | _ => goto st p q (PDone Exn)
          end
      | So =>
          match files st (P Obj) with
          | Complete c => if stale st (P Obj) out then begin st p q out So c
                          else goto st p q (after_so pr)
          | _ => goto st p q (PDone Exn)
          end
      end
  | W1 => goto (write st out (Partial Header (preg q))) p q (PWrite r W2)
  | W2 => goto (write st out (Partial Half (preg q))) p q (PWrite r W3)
  | W3 => goto (write st out (Partial AllButLast (preg q))) p q (PWrite r W4)
  | W4 => goto (write st out (Complete (preg q))) p q (next_stage pr r)
  end.

Definition clear_tmp (st : state) (p : pid) : state :=
  mkstate (fun y => match y with Tmp p' _ => if Nat.eqb p' p then Absent else files st y | _ => files st y end)
          (mtime st) (clock st) (procs st).

Definition step_proc (pr : proto) (orc : oracle) (st : state) (p : pid) (q : proc) : state :=
  let n := pform q in
  match ppc q with
  | PMkdir => goto (write st CacheDir (Complete 0)) p q PImport
  | PChkDir => if exists_ (files st CacheDir) then goto st p q PImport else goto st p q PCreate
  | PCreate => if exists_ (files st CacheDir) then goto st p q (PDone Exn)      (* FileExistsError *)
               else goto (write st CacheDir (Complete 0)) p q PImport
  | PImport =>
      match load orc (files st (Final So n)) with
      | LOk c => goto st p q (PDone (Ok c))
      | LErr => goto st p q PMkdtemp
      | LCrash => goto st p q (PDone Death)
      end
  | PMkdtemp => if exists_ (files st CacheDir) then goto st p q (PWrite Pyx W0)
                else goto st p q (PDone Exn)               (* mkdtemp(dir=MODDIR): FileNotFoundError *)
  | PWrite r w => stage pr st p q r w
  | PReplace =>                                          (* os.replace(builddir/so, MODDIR/so) *)
      goto (write (write st (Final So n) (files st (Tmp p So))) (Tmp p So) Absent) p q PCleanup
  | PCleanup => goto (clear_tmp st p) p q PReimport
  | PReimport =>
      match load orc (files st (Final So n)) with
      | LOk c => goto st p q (PDone (Ok c))
      | LErr => goto st p q (PDone Exn)
      | LCrash => goto st p q (PDone Death)
      end
  | PDone _ => st
  end.

(* schedules: any process may take a step, be started, or be killed at any time *)
Inductive label := Spawn (p : pid) (n : form) | Step (p : pid) | Kill (p : pid).

Definition is_done (c : pc) : bool := match c with PDone _ => true | _ => false end.

Definition step (pr : proto) (orc : oracle) (st : state) (l : label) : state :=
  match l with
  | Spawn p n => match procs st p with
                 | None => setproc st p (mkproc n (entry pr) n)
                 | Some _ => st                             (* pids are never reused *)
                 end
  | Step p => match procs st p with Some q => step_proc pr orc st p q | None => st end
  | Kill p => match procs st p with
              | Some q => if is_done (ppc q) then st else goto st p q (PDone Killed)
              | None => st
              end
  end.

Definition run (pr : proto) (orc : oracle) (tr : list label) (st : state) : state :=
  fold_left (step pr orc) tr st.

(* a process running alone *)
Fixpoint solo (pr : proto) (orc : oracle) (fuel : nat) (st : state) (p : pid) : state :=
  match fuel with
  | 0 => st
  | S f => solo pr orc f (step pr orc st (Step p)) p
  end.

Definition outcome_of (st : state) (p : pid) : option outcome :=
  match procs st p with
  | Some q => match ppc q with PDone o => Some o | _ => None end
  | None => None
  end.

(* every process needs at most this many steps *)
Definition rank (c : pc) : nat :=
  let ph w := match w with W0 => 5 | W1 => 4 | W2 => 3 | W3 => 2 | W4 => 1 end in
  match c with
  | PChkDir => 28 | PCreate => 27 | PMkdir => 27
  | PImport => 26 | PMkdtemp => 25
  | PWrite Pyx w => 19 + ph w
  | PWrite Cfile w => 14 + ph w
  | PWrite Obj w => 9 + ph w
  | PWrite So w => 4 + ph w
  | PReplace => 3 | PCleanup => 2 | PReimport => 1
  | PDone _ => 0
  end.
Definition FUEL := 28.

(* ------------------------------------------------------------------------- *)
(* Fault histories (what the correspondence run executes on the real code)   *)
(* ------------------------------------------------------------------------- *)

Definition pc_eqb (a b : pc) : bool :=
  match a, b with
  | PMkdir, PMkdir | PChkDir, PChkDir | PCreate, PCreate
  | PImport, PImport | PMkdtemp, PMkdtemp | PReplace, PReplace | PCleanup, PCleanup
  | PReimport, PReimport => true
  | PWrite r w, PWrite r' w' =>
      role_eqb r r' && match w, w' with W0, W0 | W1, W1 | W2, W2 | W3, W3 | W4, W4 => true | _, _ => false end
  | _, _ => false
  end.

(* advance process p alone until it is about to execute [tgt] (or is done) *)
Fixpoint until (pr : proto) (orc : oracle) (fuel : nat) (st : state) (p : pid) (tgt : pc) : state :=
  match fuel with
  | 0 => st
  | S f => match procs st p with
           | Some q => if pc_eqb (ppc q) tgt || is_done (ppc q) then st
                       else until pr orc f (step pr orc st (Step p)) p tgt
           | None => st
           end
  end.

Definition damage (k : option sizeclass) (f : fstate) : fstate :=
  match k, f with
  | None, _ => Absent                                   (* deleted *)
  | Some _, Absent => Absent                            (* nothing there to truncate *)
  | Some _, Partial k' c => Partial k' c                (* an already damaged file is left as it is *)
  | Some k, Complete c => Partial k c
  end.
Definition has_role (x : path) (r : role) : bool :=
  match x with Final r' _ => role_eqb r' r | Tmp _ r' => role_eqb r' r | CacheDir => false end.
(* external damage of every file of role r in the cache directory *)
Definition damage_all (st : state) (r : role) (k : option sizeclass) : state :=
  mkstate (fun y => if has_role y r then damage k (files st y) else files st y)
          (fun y => if has_role y r then clock st else mtime st y) (S (clock st)) (procs st).

Inductive event :=
| ERun (n : form)                                        (* a fresh process requests form n and runs to its end *)
| EKill (n : form) (tgt : pc)                            (* ... is SIGKILLed when about to execute tgt *)
| EDmg (r : role) (k : option sizeclass)
| ESched (forms : list form) (sched : list (nat * pc)).  (* processes #0.. are started together; entry (i,tgt):
                                                            #i advances alone up to tgt; then all finish in order *)

(* what the harness can see from outside *)
Definition oc_code (n : form) (o : option outcome) : nat :=
  match o with
  | Some (Ok c) => if Nat.eqb c n then 0 else 4          (* 4 = a wrong assembler *)
  | Some Exn => 1 | Some Death => 2 | Some Killed => 3 | None => 5
  end.
Definition fs_code (f : fstate) : nat :=
  match f with
  | Absent => 0 | Complete _ => 1
  | Partial Empty _ => 2 | Partial Header _ => 3 | Partial Half _ => 4 | Partial AllButLast _ => 5
  | Partial Garbage _ => 6
  end.
(* per form: final .so state, and which of .pyx/.c/.o exist under their final names *)
Definition observe_form (st : state) (n : form) : list nat :=
  [fs_code (files st (Final So n)); fs_code (files st (Final Pyx n));
   fs_code (files st (Final Cfile n)); fs_code (files st (Final Obj n))].
(* number of private build directories (of pids < np) that still hold a file *)
Definition tmp_nonempty (st : state) (p : pid) : bool :=
  exists_ (files st (Tmp p Pyx)) || exists_ (files st (Tmp p Cfile)) ||
  exists_ (files st (Tmp p Obj)) || exists_ (files st (Tmp p So)).
Definition observe_fs (st : state) (np : nat) (nforms : nat) : list nat :=
  length (filter (tmp_nonempty st) (seq 0 np)) :: flat_map (observe_form st) (seq 0 nforms).

Fixpoint spawn_all (pr : proto) (orc : oracle) (st : state) (p0 : pid) (fs : list form) : state :=
  match fs with
  | [] => st
  | n :: fs' => spawn_all pr orc (step pr orc st (Spawn p0 n)) (S p0) fs'
  end.
Fixpoint outcomes (st : state) (p0 : pid) (fs : list form) : list nat :=
  match fs with
  | [] => []
  | n :: fs' => oc_code n (outcome_of st p0) :: outcomes st (S p0) fs'
  end.

(* the program counters a process running alone goes through (what the driver's stage hooks record) *)
Definition pc_code (c : pc) : nat :=
  let ph w := match w with W0 => 0 | W1 => 1 | W2 => 2 | W3 => 3 | W4 => 4 end in
  match c with
  | PMkdir => 3 | PChkDir => 4 | PCreate => 5
  | PImport => 1 | PMkdtemp => 2
  | PWrite Pyx w => 10 + ph w | PWrite Cfile w => 20 + ph w | PWrite Obj w => 30 + ph w | PWrite So w => 40 + ph w
  | PReplace => 50 | PCleanup => 51 | PReimport => 52
  | PDone _ => 99
  end.
Fixpoint trace_solo (pr : proto) (orc : oracle) (fuel : nat) (st : state) (p : pid) : list nat :=
  match fuel with
  | 0 => []
  | S f => match procs st p with
           | Some q => if is_done (ppc q) then []
                       else pc_code (ppc q) :: trace_solo pr orc f (step pr orc st (Step p)) p
           | None => []
           end
  end.

(* returns the new state, the next unused pid, the outcome codes of this event's processes and
   (for ERun) the stages the process went through *)
Definition do_event (pr : proto) (orc : oracle) (st : state) (np : pid) (e : event)
  : state * pid * list nat * list nat :=
  match e with
  | ERun n =>
      let st0 := step pr orc st (Spawn np n) in
      let st' := solo pr orc FUEL st0 np in
      (st', S np, [oc_code n (outcome_of st' np)], trace_solo pr orc FUEL st0 np)
  | EKill n tgt =>
      let st1 := until pr orc FUEL (step pr orc st (Spawn np n)) np tgt in
      let st' := step pr orc st1 (Kill np) in
      (st', S np, [oc_code n (outcome_of st' np)], [])
  | EDmg r k => (damage_all st r k, np, [], [])
  | ESched fs sched =>
      let st1 := spawn_all pr orc st np fs in
      let st2 := fold_left (fun s (e : nat * pc) => until pr orc FUEL s (np + fst e) (snd e)) sched st1 in
      let st3 := fold_left (fun s i => solo pr orc FUEL s (np + i)) (seq 0 (length fs)) st2 in
      (st3, np + length fs, outcomes st3 np fs, [])
  end.

(* the whole history: per event the outcome codes, the directory observation afterwards, the stage trace *)
Fixpoint history (pr : proto) (orc : oracle) (nforms : nat) (st : state) (np : pid) (es : list event)
  : list (list nat * list nat * list nat) :=
  match es with
  | [] => []
  | e :: es' =>
      let '(st', np', ocs, trc) := do_event pr orc st np e in
      (ocs, observe_fs st' np' nforms, trc) :: history pr orc nforms st' np' es'
  end.

Definition predict (pr : proto) (orc : oracle) (nforms : nat) (es : list event) :=
  history pr orc nforms init 0 es.

(* the dlopen behaviour measured on the reference machine (re-measured by every run of the check) *)
Definition orc_ref : oracle := fun k =>
  match k with Empty => ImpErr | Header => Crash | Half => Loads | AllButLast => Loads | Garbage => ImpErr end.
