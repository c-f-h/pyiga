(* C20 -- lemmas about the cache protocol (see Model.v).  Section Table serves VProofs.v as well. *)
From Coq Require Import List Arith Bool.
From Verif.C20 Require Import Model.
Import ListNotations.

Lemma role_eqb_eq a b : role_eqb a b = true <-> a = b.
Proof. destruct a, b; simpl; split; congruence. Qed.

Lemma path_eqb_eq x y : path_eqb x y = true <-> x = y.
Proof.
  destruct x, y; simpl; rewrite ?andb_true_iff, ?role_eqb_eq, ?Nat.eqb_eq;
    (split; [intros [-> ->] | intros [= -> ->]]; auto) || (split; congruence).
Qed.

Lemma upd_same {A} (f : path -> A) x v : upd f x v x = v.
Proof. unfold upd. now rewrite (proj2 (path_eqb_eq x x) eq_refl). Qed.

Lemma upd_other {A} (f : path -> A) x v y : y <> x -> upd f x v y = f y.
Proof. unfold upd. intros H. destruct (path_eqb y x) eqn:E; auto. apply path_eqb_eq in E. contradiction. Qed.

(* lookups in updated file maps, at the updated path or at one that differs from it by [congruence] *)
Ltac fs := repeat (rewrite upd_same || (rewrite upd_other by congruence)).

Definition is_step_of (p : pid) (l : label) : bool :=
  match l with Step p' => Nat.eqb p' p | _ => false end.
Definition steps_of (p : pid) (tr : list label) : nat := length (filter (is_step_of p) tr).

Lemma steps_of_repeat p k : steps_of p (repeat (Step p) k) = k.
Proof. unfold steps_of. induction k; simpl; auto. rewrite Nat.eqb_refl. simpl. auto. Qed.

(* ---- tables of processes ----
   What the protocols of Model.v and of Verify.v have in common: labels act on a table of processes, each
   with a form and a rank, and every entry is kept in the sense of [follows].  Termination and "killed only
   by Kill" need no more than that. *)
Section Table.
Variables (S Q : Type) (procs : S -> pid -> option Q) (step : S -> label -> S).
Variables (form_of : Q -> form) (rank_of : Q -> nat) (killed : Q -> Prop).

(* [o] may be what label [l] makes of the entry [q] of process [p]: the same entry -- which was finished
   already if [l] is p's own step -- or one of the same form and of lower rank, killed only if [l] kills p *)
Definition follows (l : label) (p : pid) (q : Q) (o : option Q) : Prop :=
  exists q', o = Some q' /\ form_of q' = form_of q /\
    (q' = q /\ (l = Step p -> rank_of q = 0) \/
     rank_of q' < rank_of q /\ (killed q' -> l = Kill p)).

Lemma follows_same l p q : (l = Step p -> rank_of q = 0) -> follows l p q (Some q).
Proof. exists q. auto. Qed.

Lemma follows_lower l p q q' :
  form_of q' = form_of q -> rank_of q' < rank_of q -> (killed q' -> l = Kill p) -> follows l p q (Some q').
Proof. exists q'. auto. Qed.

Definition table_keeps : Prop :=
  forall st l p q, procs st p = Some q -> follows l p q (procs (step st l) p).

Hypothesis keeps : table_keeps.

(* a process that takes as many steps of its own as its rank -- whatever the others do in between -- is done *)
Lemma table_liveness : forall tr st p q,
  procs st p = Some q -> rank_of q <= steps_of p tr ->
  exists q', procs (fold_left step tr st) p = Some q' /\ form_of q' = form_of q /\ rank_of q' = 0.
Proof.
  induction tr as [|l tr IH]; simpl; intros st p q H Hc.
  - exists q. split; [exact H|]. split; [reflexivity|]. apply Nat.le_0_r, Hc.
  - destruct (keeps st l p q H) as (q' & Hq' & Hf & Hr). rewrite <- Hf.
    apply IH; [exact Hq'|]. unfold steps_of in *. simpl in Hc.
    destruct Hr as [[-> Hz]|[Hlt _]].
    + destruct (is_step_of p l) eqn:E; [|exact Hc].
      destruct l as [p0 n|p0|p0]; try discriminate E. apply Nat.eqb_eq in E. subst p0.
      rewrite Hz by reflexivity. apply Nat.le_0_l.
    + destruct (is_step_of p l); simpl in Hc.
      * apply Nat.lt_succ_r, (Nat.lt_le_trans _ _ _ Hlt Hc).
      * apply Nat.lt_le_incl, (Nat.lt_le_trans _ _ _ Hlt Hc).
Qed.

Lemma table_killed : forall tr st p q,
  procs st p = Some q -> ~ killed q -> ~ In (Kill p) tr ->
  forall q', procs (fold_left step tr st) p = Some q' -> ~ killed q'.
Proof.
  induction tr as [|l tr IH]; simpl; intros st p q HP HK HN q' H.
  - congruence.
  - destruct (keeps st l p q HP) as (q1 & Hq1 & _ & Hr).
    apply (IH _ p q1 Hq1); [|intros HH; apply HN; right; exact HH|exact H].
    destruct Hr as [[-> _]|[_ Hk]]; [exact HK|]. intros K. apply HN. left. exact (Hk K).
Qed.

(* a process left alone for as many steps as its rank is finished, and nobody has killed it *)
Lemma table_alone k st p q :
  procs st p = Some q -> rank_of q <= k -> ~ killed q ->
  exists q', procs (fold_left step (repeat (Step p) k) st) p = Some q' /\
             form_of q' = form_of q /\ rank_of q' = 0 /\ ~ killed q'.
Proof.
  intros H Hk HK. destruct (table_liveness (repeat (Step p) k) st p q H) as (q' & A & B & C).
  { now rewrite steps_of_repeat. }
  exists q'. repeat split; auto. apply (table_killed _ _ _ _ H HK) with (2 := A).
  intros HI. apply repeat_spec in HI. discriminate.
Qed.
End Table.
Arguments table_keeps {S Q}.
Arguments table_liveness {S Q}.
Arguments table_killed {S Q}.
Arguments table_alone {S Q}.

(* ---- the process table of Model.v ---- *)

Lemma procs_setproc st p q p' :
  procs (setproc st p q) p' = if Nat.eqb p' p then Some q else procs st p'.
Proof. reflexivity. Qed.

Lemma setproc_own (P : proc -> Prop) st p q :
  P q -> forall q', procs (setproc st p q) p = Some q' -> P q'.
Proof. intros H q'. rewrite procs_setproc, Nat.eqb_refl. intros [= <-]. exact H. Qed.

Lemma step_proc_done pr orc st p q : is_done (ppc q) = true -> step_proc pr orc st p q = st.
Proof. unfold step_proc. destruct (ppc q); try discriminate. reflexivity. Qed.

(* the shape of every case below: the step leaves the table to [st'] with p at pc [c]; that the rank has
   fallen is read off the table of ranks by evaluation *)
Lemma table_intro st st' p n c g c0 :
  procs st' = procs st -> Nat.ltb (rank c) (rank c0) = true -> c <> PDone Killed ->
  exists c' g', procs (setproc st' p (mkproc n c g)) = procs (setproc st p (mkproc n c' g')) /\
                rank c' < rank c0 /\ c' <> PDone Killed.
Proof. intros E L K. exists c, g. unfold setproc; simpl. rewrite E. repeat split; auto. now apply Nat.ltb_lt. Qed.

(* a step of a live process changes only its own entry of the table: the form is kept, the rank falls,
   and the new pc is not Killed (every protocol, no invariant needed) *)
Lemma step_proc_procs pr orc st p q :
  is_done (ppc q) = false ->
  exists c g, procs (step_proc pr orc st p q) = procs (setproc st p (mkproc (pform q) c g)) /\
              rank c < rank (ppc q) /\ c <> PDone Killed.
Proof.
  destruct q as [n c g]. intros D.
  destruct c as [| | | | |r w| | | |o]; try discriminate D;
    cbn [step_proc stage begin goto ppc pform preg].
  - apply table_intro; reflexivity || discriminate.
  - destruct (exists_ _); apply table_intro; reflexivity || discriminate.
  - destruct (exists_ _); apply table_intro; reflexivity || discriminate.
  - destruct (load orc _); apply table_intro; reflexivity || discriminate.
  - destruct (exists_ _); apply table_intro; reflexivity || discriminate.
  - destruct r, w; cbn [stage begin goto next_stage pform preg];
      repeat match goal with
             | |- context [match files ?s ?x with _ => _ end] => destruct (files s x)
             | |- context [if stale ?a ?b ?c then _ else _] => destruct (stale a b c)
             end;
      try match goal with |- context [after_so pr] => destruct pr end;
      apply table_intro; reflexivity || discriminate.
  - apply table_intro; reflexivity || discriminate.
  - apply table_intro; reflexivity || discriminate.
  - destruct (load orc _); apply table_intro; reflexivity || discriminate.
Qed.

Definition rk (st : state) (p : pid) : nat :=
  match procs st p with Some q => rank (ppc q) | None => 0 end.
Definition live (st : state) (p : pid) : Prop := procs st p <> None.

Lemma rank_zero_done c : rank c = 0 -> is_done c = true.
Proof. destruct c as [| | | | |r w| | | |o]; try discriminate; auto. destruct r, w; discriminate. Qed.

Lemma done_rank_zero c : is_done c = true -> rank c = 0.
Proof. destruct c; try discriminate. reflexivity. Qed.

Lemma step_keeps_proc pr orc :
  table_keeps procs (step pr orc) pform (fun q => rank (ppc q)) (fun q => ppc q = PDone Killed).
Proof.
  intros st l p q H.
  destruct l as [p0 n|p0|p0]; simpl; destruct (procs st p0) as [q0|] eqn:E;
    try (rewrite H; apply follows_same; intros [= ->]; congruence).
  - rewrite procs_setproc. destruct (Nat.eqb_spec p p0); [congruence|].
    rewrite H. apply follows_same. discriminate.
  - destruct (is_done (ppc q0)) eqn:D.
    { rewrite step_proc_done, H by assumption. apply follows_same.
      intros [= ->]. apply done_rank_zero. congruence. }
    destruct (step_proc_procs pr orc st p0 q0 D) as (c & g & -> & HR & HK).
    rewrite procs_setproc. destruct (Nat.eqb_spec p p0) as [->|N].
    + replace q0 with q in * by congruence. apply follows_lower; auto. intros K. contradiction.
    + rewrite H. apply follows_same. intros [= ->]. contradiction.
  - destruct (is_done (ppc q0)) eqn:D; [rewrite H; apply follows_same; discriminate|].
    unfold goto. rewrite procs_setproc. destruct (Nat.eqb_spec p p0) as [->|N].
    + replace q0 with q in * by congruence. apply follows_lower; auto. simpl.
      destruct (rank (ppc q)) eqn:R; [|apply Nat.lt_0_succ]. apply rank_zero_done in R. congruence.
    + rewrite H. apply follows_same. discriminate.
Qed.

Lemma solo_is_run pr orc fuel : forall st p, solo pr orc fuel st p = run pr orc (repeat (Step p) fuel) st.
Proof. induction fuel; simpl; intros; auto. Qed.

Lemma solo_step pr orc f st p q :
  procs st p = Some q -> solo pr orc (S f) st p = solo pr orc f (step_proc pr orc st p q) p.
Proof. intros H. simpl. now rewrite H. Qed.

Lemma solo_done pr orc f : forall st p o, outcome_of st p = Some o -> solo pr orc f st p = st.
Proof.
  induction f; intros st p o H; auto. unfold outcome_of in H.
  destruct (procs st p) as [q|] eqn:E; [|discriminate].
  rewrite (solo_step _ _ _ _ _ q E), step_proc_done; [eapply IHf; unfold outcome_of; rewrite E; eauto|].
  destruct (ppc q); discriminate || reflexivity.
Qed.

Lemma spawn_fresh pr orc st p n :
  procs st p = None -> step pr orc st (Spawn p n) = setproc st p (mkproc n (entry pr) n).
Proof. intros HN. unfold step. now rewrite HN. Qed.

Lemma step_cases pr orc st l :
  files (step pr orc st l) = files st \/
  exists p q, procs st p = Some q /\ step pr orc st l = step_proc pr orc st p q.
Proof.
  destruct l as [p n|p|p]; simpl; destruct (procs st p) as [q|] eqn:E; eauto.
  destruct (is_done (ppc q)); auto.
Qed.

Section NewProtocol.
Variable orc : oracle.

(* an entry under its final name that a request survives and that denotes the right form *)
Definition final_ok (n : form) (f : fstate) : Prop :=
  match f with
  | Absent => True
  | Complete c => c = n
  | Partial k c => orc k = ImpErr \/ (orc k = Loads /\ c = n)
  end.

Definition proc_inv (st : state) (p : pid) (q : proc) : Prop :=
  let n := pform q in
  let T r := files st (Tmp p r) in
  match ppc q with
  | PChkDir | PCreate => False                       (* not part of the repaired protocol *)
  | PMkdir | PImport | PMkdtemp | PWrite Pyx W0 => forall r, T r = Absent
  | PWrite Pyx _ => preg q = n /\ T Cfile = Absent /\ T Obj = Absent /\ T So = Absent
  | PWrite Cfile W0 => T Pyx = Complete n /\ T Cfile = Absent /\ T Obj = Absent /\ T So = Absent
  | PWrite Cfile _ => preg q = n /\ T Obj = Absent /\ T So = Absent
  | PWrite Obj W0 => T Cfile = Complete n /\ T Obj = Absent /\ T So = Absent
  | PWrite Obj _ => preg q = n /\ T So = Absent
  | PWrite So W0 => T Obj = Complete n /\ T So = Absent
  | PWrite So _ => preg q = n
  | PReplace => T So = Complete n
  | PCleanup | PReimport => files st (Final So n) = Complete n
  | PDone o => o = Ok n \/ o = Killed
  end.

(* the cache directory exists for every process that is past its creation *)
Definition dir_inv (st : state) (c : pc) : Prop :=
  match c with
  | PMkdir | PChkDir | PCreate | PDone _ => True
  | _ => files st CacheDir = Complete 0
  end.

Record Inv (st : state) : Prop := {
  inv_dir : forall p q, procs st p = Some q -> dir_inv st (ppc q);
  inv_final : forall n, final_ok n (files st (Final So n));
  inv_fresh : forall p, procs st p = None -> forall r, files st (Tmp p r) = Absent;
  inv_procs : forall p q, procs st p = Some q -> proc_inv st p q }.

(* what a step of the repaired protocol does to the files: nothing, a write below the private build
   directory, mkdir, the publishing rename, or the removal of the build directory *)
Lemma step_proc_effect st p q :
  let f := files st in
  let f' := files (step_proc New orc st p q) in
  f' = f \/ (exists r v, f' = upd f (Tmp p r) v) \/ f' = upd f CacheDir (Complete 0) \/
  (ppc q = PReplace /\ f' = upd (upd f (Final So (pform q)) (f (Tmp p So))) (Tmp p So) Absent) \/
  f' = files (clear_tmp st p).
Proof.
  destruct q as [n c g]. destruct c as [| | | | |r w| | | |o]; cbn [step_proc goto ppc pform preg]; auto 6.
  - destruct (exists_ _); auto.
  - destruct (exists_ _); auto.
  - destruct (load orc _); auto.
  - destruct (exists_ _); auto.
  - destruct r, w; cbn [stage begin goto wpath pform preg];
      repeat match goal with
             | |- context [match files ?s ?x with _ => _ end] => destruct (files s x)
             | |- context [if stale ?a ?b ?c then _ else _] => destruct (stale a b c)
             end; (left; reflexivity) || (right; left; eexists _, _; reflexivity).
  - destruct (load orc _); auto.
Qed.

(* hence the only shared file a step touches is the final .so of its own form, and it only ever
   installs the finished artefact there *)
Lemma step_proc_frame st p q :
  proc_inv st p q ->
  let st' := step_proc New orc st p q in
  (forall p' r, p' <> p -> files st' (Tmp p' r) = files st (Tmp p' r)) /\
  (forall n, files st' (Final So n) = files st (Final So n) \/
             (n = pform q /\ files st' (Final So n) = Complete n)) /\
  (forall r n, r <> So -> files st' (Final r n) = files st (Final r n)) /\
  (files st CacheDir = Complete 0 -> files st' CacheDir = Complete 0).
Proof.
  intros HI st'. subst st'.
  destruct (step_proc_effect st p q) as [E|[(r & v & E)|[E|[[Hc E]|E]]]]; rewrite E;
    repeat split; intros; fs; auto.
  - destruct (Nat.eq_dec n (pform q)) as [->|N]; [right|left]; fs; auto.
    unfold proc_inv in HI. rewrite Hc in HI. auto.
  - simpl. destruct (Nat.eqb_spec p' p); congruence.
Qed.

(* the invariant of a process depends only on its own private files and its final .so *)
Lemma proc_inv_frame st st' p q :
  (forall r, files st' (Tmp p r) = files st (Tmp p r)) ->
  (files st (Final So (pform q)) = Complete (pform q) -> files st' (Final So (pform q)) = Complete (pform q)) ->
  proc_inv st p q -> proc_inv st' p q.
Proof.
  intros HT HF. unfold proc_inv. destruct (ppc q) as [| | | | |r w| | | |o]; try (destruct r, w);
    rewrite ?HT; auto; intros; rewrite HT; auto.
Qed.

Lemma stale_absent st x y : files st y = Absent -> stale st x y = true.
Proof. intros H. unfold stale. rewrite H. reflexivity. Qed.

(* an entry that the invariant allows loads as its own form, or not at all *)
Lemma load_final_ok n f : final_ok n f -> load orc f = LOk n \/ load orc f = LErr.
Proof. destruct f as [|k c|c]; simpl; auto. intros [->|[-> ->]]; auto. Qed.

(* the stepping process re-establishes its own part of the invariant *)
Lemma step_proc_own st p q :
  procs st p = Some q ->
  final_ok (pform q) (files st (Final So (pform q))) ->
  proc_inv st p q ->
  dir_inv st (ppc q) ->
  forall q', procs (step_proc New orc st p q) p = Some q' ->
  proc_inv (step_proc New orc st p q) p q' /\ dir_inv (step_proc New orc st p q) (ppc q').
Proof.
  destruct q as [n c g]. unfold proc_inv at 1. simpl. intros HP HF HI HD.
  destruct c as [| | | | |r w| | | |o]; cbn [step_proc goto ppc pform preg].
  - apply setproc_own. split; [unfold proc_inv|]; simpl; intros; fs; auto.
  - contradiction.
  - contradiction.
  - destruct (load_final_ok _ _ HF) as [-> | ->]; apply setproc_own; (split; [unfold proc_inv|]); simpl; auto.
  - rewrite HD. apply setproc_own. split; [unfold proc_inv|]; simpl; auto.
  - assert (HD' : files st CacheDir = Complete 0) by (destruct r, w; exact HD). clear HD.
    remember (stage New st p _ r w) as st' eqn:E.
    destruct r, w; cbn [stage begin goto wpath pform preg] in E;
      repeat match goal with
             | H : _ /\ _ |- _ => destruct H
             end;
      repeat match goal with
             | H : files st ?x = _ |- _ => rewrite H in E
             end;
      rewrite ?stale_absent in E by assumption; subst st';
      apply setproc_own; (split; [unfold proc_inv|]); simpl; fs; auto.
  - apply setproc_own. split; [unfold proc_inv|]; simpl; fs; auto.
  - apply setproc_own. split; [unfold proc_inv|]; simpl; auto.
  - rewrite HI. apply setproc_own. split; [unfold proc_inv|]; simpl; auto.
  - intros q'. rewrite HP. intros [= <-]. split; simpl; auto.
Qed.

(* starting or killing a process: the files stay, one entry of the table changes *)
Lemma inv_setproc st p q :
  Inv st -> proc_inv st p q -> dir_inv st (ppc q) -> Inv (setproc st p q).
Proof.
  intros [I0 I1 I2 I3] HP HD. split; simpl; auto.
  - intros p' q0. destruct (Nat.eqb_spec p' p) as [->|N]; [intros [= <-]; exact HD | apply I0].
  - intros p'. destruct (Nat.eqb p' p); [discriminate | apply I2].
  - intros p' q0. destruct (Nat.eqb_spec p' p) as [->|N]; [intros [= <-]; exact HP | apply I3].
Qed.

Lemma inv_step st l : Inv st -> Inv (step New orc st l).
Proof.
  intros HI. destruct l as [p n|p|p]; simpl; destruct (procs st p) as [q|] eqn:E; auto.
  - apply inv_setproc; simpl; auto. exact (inv_fresh _ HI p E).
  - destruct (is_done (ppc q)) eqn:D; [rewrite step_proc_done; auto|].
    destruct HI as [I0 I1 I2 I3].
    destruct (step_proc_frame st p q (I3 _ _ E)) as (F1 & F2 & F3 & F4).
    destruct (step_proc_procs New orc st p q D) as (c & g & HT & _).
    pose proof (step_proc_own st p q E (I1 _) (I3 _ _ E) (I0 _ _ E)) as Hown.
    split.
    + intros p' q0. destruct (Nat.eq_dec p' p) as [->|N]; [apply Hown|].
      rewrite HT, procs_setproc, (proj2 (Nat.eqb_neq _ _) N). intros H.
      specialize (I0 _ _ H). destruct (ppc q0); simpl; auto.
    + intros n. destruct (F2 n) as [->|[_ ->]]; simpl; auto.
    + intros p'. rewrite HT, procs_setproc. destruct (Nat.eqb_spec p' p) as [->|N]; [discriminate|].
      intros H r. rewrite F1; auto.
    + intros p' q0. destruct (Nat.eq_dec p' p) as [->|N]; [apply Hown|].
      rewrite HT, procs_setproc, (proj2 (Nat.eqb_neq _ _) N). intros H.
      apply (proc_inv_frame st); auto.
      intros HC. destruct (F2 (pform q0)) as [->|[_ ->]]; auto.
  - destruct (is_done (ppc q)); auto. apply inv_setproc; simpl; auto. right. reflexivity.
Qed.

Lemma inv_run tr : forall st, Inv st -> Inv (run New orc tr st).
Proof. induction tr; simpl; intros; auto. apply IHtr. apply inv_step. auto. Qed.

(* no interleaving and no crash ever leaves an entry under a final name that is not
   either absent, survivable, or the finished artefact of exactly that form *)
Lemma final_entries_l st tr n : Inv st -> final_ok n (files (run New orc tr st) (Final So n)).
Proof. intros H. apply (inv_final _ (inv_run tr st H)). Qed.

Lemma step_final_so st l n :
  Inv st -> files (step New orc st l) (Final So n) = files st (Final So n) \/
            files (step New orc st l) (Final So n) = Complete n.
Proof.
  intros HI. destruct (step_cases New orc st l) as [->|(p & q & E & ->)]; auto.
  destruct (step_proc_frame st p q (inv_procs _ HI _ _ E)) as (_ & F2 & _).
  destruct (F2 n) as [->|[_ ->]]; auto.
Qed.

(* so whatever holds of the finished artefact of form n and of the entry of n now holds of that entry for ever *)
Lemma final_so_run (P : fstate -> Prop) n tr : forall st,
  Inv st -> P (Complete n) -> P (files st (Final So n)) -> P (files (run New orc tr st) (Final So n)).
Proof.
  induction tr as [|l tr IH]; simpl; intros st HI HC H; auto.
  apply IH; auto using inv_step. destruct (step_final_so st l n HI) as [->| ->]; auto.
Qed.

(* nothing else is written under a final name *)
Lemma step_final_other st l r n :
  Inv st -> r <> So -> files (step New orc st l) (Final r n) = files st (Final r n).
Proof.
  intros HI Hr. destruct (step_cases New orc st l) as [->|(p & q & E & ->)]; auto.
  destruct (step_proc_frame st p q (inv_procs _ HI _ _ E)) as (_ & _ & F3 & _). auto.
Qed.

(* every process that has finished and was not killed returned the assembler of its own form *)
Lemma inv_done st p q o :
  Inv st -> procs st p = Some q -> ppc q = PDone o -> o = Ok (pform q) \/ o = Killed.
Proof. intros HI HP HD. pose proof (inv_procs _ HI _ _ HP) as H. unfold proc_inv in H. now rewrite HD in H. Qed.

(* recovery: in any state the invariant allows, a fresh process requesting form n, running alone,
   ends after at most FUEL steps with the assembler of n *)
Lemma fresh_request_ok st p n :
  Inv st -> procs st p = None ->
  outcome_of (solo New orc FUEL (step New orc st (Spawn p n)) p) p = Some (Ok n).
Proof.
  intros HI HN. pose proof (inv_step st (Spawn p n) HI) as HIs. rewrite spawn_fresh in * by assumption.
  set (st1 := setproc st p (mkproc n (entry New) n)) in *.
  rewrite solo_is_run. unfold run.
  destruct (table_alone _ _ _ _ _ (step_keeps_proc New orc) FUEL st1 p (mkproc n PMkdir n)) as (q' & A & B & C & K).
  { unfold st1. now rewrite procs_setproc, Nat.eqb_refl. }
  { now apply Nat.leb_le. }
  { discriminate. }
  unfold outcome_of. rewrite A. apply rank_zero_done in C.
  destruct (ppc q') as [| | | | |r w| | | |o] eqn:E; try discriminate C.
  destruct (inv_done _ p q' o (inv_run _ st1 HIs) A E) as [->| ->]; [now rewrite B|]. contradiction.
Qed.

(* a request whose entry loads, or crashes dlopen, is decided by its import: mkdir, import, done *)
Lemma fresh_decided f st p n o :
  procs st p = None ->
  match load orc (files st (Final So n)) with LOk c => o = Ok c | LCrash => o = Death | LErr => False end ->
  outcome_of (solo New orc (S (S f)) (step New orc st (Spawn p n)) p) p = Some o.
Proof.
  intros HN HL. rewrite spawn_fresh by assumption.
  rewrite (solo_step _ _ _ _ _ (mkproc n PMkdir n)) by (now rewrite procs_setproc, Nat.eqb_refl).
  cbn [step_proc ppc pform].
  rewrite (solo_step _ _ _ _ _ (mkproc n PImport n)) by (unfold goto; now rewrite procs_setproc, Nat.eqb_refl).
  cbn [step_proc ppc pform]. simpl (files _ _). rewrite upd_other by discriminate.
  destruct (load orc (files st (Final So n))); try contradiction; subst o;
    (erewrite solo_done; unfold outcome_of, goto; rewrite procs_setproc, Nat.eqb_refl; reflexivity).
Qed.
End NewProtocol.

(* the processes a schedule kills: for a concrete schedule this list computes, which settles ~ In (Kill p) tr *)
Definition kills (tr : list label) : list pid :=
  flat_map (fun l => match l with Kill p => [p] | _ => [] end) tr.

Lemma in_kills p tr : In (Kill p) tr -> In p (kills tr).
Proof. intros H. apply in_flat_map. exists (Kill p). simpl. auto. Qed.

(* ---- schedules that refute the in-place protocol Old (compile.py:25-73 of /repo commit 3a28d2c) ---- *)

(* process 0 builds form 0 and is killed while the linker has written the first pages of the .so *)
Definition tr_killed_in_link : list label := Spawn 0 0 :: repeat (Step 0) 20 ++ [Kill 0].

(* nobody is killed: process 1 requests the form while process 0 is linking it *)
Definition tr_import_during_link : list label := Spawn 0 0 :: Spawn 1 0 :: Step 1 :: repeat (Step 0) 20 ++ [Step 1].

(* nobody is killed, no damaged file is ever loaded: process 0 truncates the .pyx that process 1
   has just written and is about to hand to Cython *)
Definition tr_pyx_truncated : list label :=
  Spawn 0 0 :: Spawn 1 0 :: Step 0 :: Step 0 :: Step 0 :: repeat (Step 1) 8 ++ [Step 0; Step 1].

(* both processes miss the cache; 0 completes the entry; 1 then links over it in place *)
Definition tr_relink : list label :=
  Spawn 0 0 :: Spawn 1 0 :: Step 1 :: Step 1 :: repeat (Step 0) 27 ++ repeat (Step 1) 16.

(* creating the cache directory by check-then-create: two processes (different forms) both see that
   MODDIR is missing; the second makedirs fails *)
Definition tr_cold_start : list label := [Spawn 0 0; Spawn 1 1; Step 0; Step 1; Step 0; Step 1].
