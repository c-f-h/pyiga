(* C20 -- property theorems only, each followed by Print Assumptions; the lemmas are in Proofs.v,
   Faults.v and Local.v.

   [Old] is compile.py:25-73 of /repo commit 3a28d2c (every artefact written in place under its final
   name); [New] is the protocol of fixes/C20-atomic-cache-publish.patch, /repo commit 4af6e13 (private
   mkdtemp build directory, os.replace of the finished .so, rebuild on ImportError).  compile.py at /repo
   HEAD is the protocol Ver of Props2.v.
   [orc] is what dlopen does with a damaged file (calibrated by the tie on every run); the theorems
   about New hold for EVERY such oracle, the refutations of Old need only that some prefix of a
   shared object kills the interpreter ([orc Header = Crash], observed: SIGBUS).
   Schedules are arbitrary lists of labels Spawn/Step/Kill: any number of processes, any forms,
   any interleaving, a crash of any process between any two atomic steps (a write is five steps:
   truncate, three growing prefixes, complete). *)
From Coq Require Import List Arith.
From Verif.C20 Require Import Model Proofs Faults Local.
Import ListNotations.

(* The invariant holds in the empty cache directory and is kept by every step. *)
Theorem invariant_initially : forall orc, Inv orc init.
Proof. intros orc. split; simpl; auto; intros; discriminate. Qed.
Print Assumptions invariant_initially.

Theorem invariant_inductive : forall orc st l, Inv orc st -> Inv orc (step New orc st l).
Proof. exact inv_step. Qed.
Print Assumptions invariant_inductive.

(* Whatever happened -- interleavings, crashes at any point, in any number -- every .so under a final
   name is absent or the finished shared object of exactly the form that its name denotes (the other
   roles are never written under final names: no_inplace_writes). *)
Theorem final_entries_complete : forall orc tr n,
  files (run New orc tr init) (Final So n) = Absent \/ files (run New orc tr init) (Final So n) = Complete n.
Proof.
  intros orc tr n. apply (final_so_run orc (fun f => f = Absent \/ f = Complete n)); auto using invariant_initially.
Qed.
Print Assumptions final_entries_complete.

(* recovery: after any such history (starting from any directory that satisfies the invariant, e.g. one
   holding an empty or garbage .so which dlopen rejects), a fresh process that requests form n and runs
   alone terminates within FUEL steps and returns the assembler of n. *)
Theorem recovery : forall orc st0 tr p n,
  Inv orc st0 ->
  procs (run New orc tr st0) p = None ->
  outcome_of (solo New orc FUEL (step New orc (run New orc tr st0) (Spawn p n)) p) p = Some (Ok n).
Proof. intros orc st0 tr p n HI. apply fresh_request_ok, inv_run, HI. Qed.
Print Assumptions recovery.

(* race safety: under every schedule, a process that has finished returned the assembler of the form
   it asked for, or was killed -- never an exception, never a dead interpreter, never a foreign module *)
Theorem race_safety : forall orc st tr p q o,
  Inv orc st -> procs (run New orc tr st) p = Some q -> ppc q = PDone o -> o = Ok (pform q) \/ o = Killed.
Proof. intros orc st tr p q o HI. apply inv_done with (orc := orc), inv_run, HI. Qed.
Print Assumptions race_safety.

(* ... and only a Kill label makes a process Killed (either protocol) *)
Theorem killed_only_by_kill : forall orc pr tr st p q,
  procs st p = Some q -> ppc q <> PDone Killed -> ~ In (Kill p) tr ->
  forall q', procs (run pr orc tr st) p = Some q' -> ppc q' <> PDone Killed.
Proof. intros orc pr. exact (table_killed _ _ _ _ _ (step_keeps_proc pr orc)). Qed.
Print Assumptions killed_only_by_kill.

(* race liveness: there is no waiting in the protocol; a process that gets to take rank(pc) <= FUEL
   steps of its own, arbitrarily interleaved with everybody else's, is finished (either protocol) *)
Theorem race_liveness : forall pr orc tr st p q,
  procs st p = Some q -> rank (ppc q) <= steps_of p tr ->
  exists q', procs (run pr orc tr st) p = Some q' /\ pform q' = pform q /\ is_done (ppc q') = true.
Proof.
  intros pr orc tr st p q H Hc.
  destruct (table_liveness _ _ _ _ _ (step_keeps_proc pr orc) tr st p q H Hc) as (q' & A & B & C).
  exists q'. auto using rank_zero_done.
Qed.
Print Assumptions race_liveness.

(* an entry once completed is never overwritten by different content *)
Theorem completed_never_overwritten : forall orc tr st n c,
  Inv orc st -> files st (Final So n) = Complete c -> files (run New orc tr st) (Final So n) = Complete c.
Proof.
  intros orc tr st n c HI H. pose proof (inv_final _ _ HI n) as HF. rewrite H in HF. simpl in HF. subst c.
  apply (final_so_run orc (fun f => f = Complete n)); auto.
Qed.
Print Assumptions completed_never_overwritten.

(* nothing but the finished .so is ever written under a final name *)
Theorem no_inplace_writes : forall orc tr st r n,
  Inv orc st -> r <> So -> files (run New orc tr st) (Final r n) = files st (Final r n).
Proof.
  intros orc tr. induction tr as [|l tr IH]; simpl; intros st r n HI Hr; auto.
  rewrite IH by auto using inv_step. apply step_final_other; auto.
Qed.
Print Assumptions no_inplace_writes.

(* idealised digest, made explicit: paths of different forms are different *)
Theorem digest_names : forall r r' n n', Final r n = Final r' n' -> r = r' /\ n = n'.
Proof. intros r r' n n' [= -> ->]. auto. Qed.
Print Assumptions digest_names.

(* ---- the in-place protocol Old: each conjunct fails, with an explicit schedule ---- *)

(* one process is killed while linking; the next request, in a fresh process, dies at its import
   (its second step, after the idempotent mkdir) *)
Theorem recovery_refuted : forall orc, orc Header = Crash ->
  (forall p, p <> 0 -> ~ In (Kill p) tr_killed_in_link) /\
  files (run Old orc tr_killed_in_link init) (Final So 0) = Partial Header 0 /\
  outcome_of (run Old orc (tr_killed_in_link ++ [Spawn 1 0; Step 1; Step 1]) init) 1 = Some Death.
Proof.
  intros orc H. split; [|split].
  - intros p Hp HI. apply in_kills in HI. destruct HI as [HI|[]]. congruence.
  - vm_compute. reflexivity.
  - vm_compute. rewrite H. reflexivity.
Qed.
Print Assumptions recovery_refuted.

(* nobody is killed; a process that requests the form while another one links it dies *)
Theorem race_safety_refuted : forall orc, orc Header = Crash ->
  (forall p, ~ In (Kill p) tr_import_during_link) /\
  outcome_of (run Old orc tr_import_during_link init) 1 = Some Death.
Proof.
  intros orc H. split.
  - intros p. exact (in_kills p tr_import_during_link).
  - vm_compute. rewrite H. reflexivity.
Qed.
Print Assumptions race_safety_refuted.

(* nobody is killed, whatever dlopen does: a process gets an exception because the other one
   truncated the .pyx it was about to compile *)
Theorem race_exception_refuted : forall orc,
  (forall p, ~ In (Kill p) tr_pyx_truncated) /\
  outcome_of (run Old orc tr_pyx_truncated init) 1 = Some Exn.
Proof.
  intros orc. split.
  - intros p. exact (in_kills p tr_pyx_truncated).
  - vm_compute. reflexivity.
Qed.
Print Assumptions race_exception_refuted.

(* a completed entry, already returned to process 0, is truncated by process 1's link step *)
Theorem completed_overwritten_refuted : forall orc,
  files (run Old orc tr_relink init) (Final So 0) = Complete 0 /\
  outcome_of (run Old orc tr_relink init) 0 = Some (Ok 0) /\
  files (run Old orc (tr_relink ++ [Step 1]) init) (Final So 0) = Partial Empty 0.
Proof. intros orc. vm_compute. auto. Qed.
Print Assumptions completed_overwritten_refuted.

(* ---- creating the cache directory on a cold start ---- *)

(* os.makedirs(MODDIR, exist_ok=True) is one atomic idempotent step of New: by race_safety no schedule
   makes it fail, and the directory exists for every process that is past it *)
Theorem cache_dir_exists : forall orc st tr p q,
  Inv orc st -> procs (run New orc tr st) p = Some q ->
  match ppc q with PMkdir | PChkDir | PCreate | PDone _ => True | _ => files (run New orc tr st) CacheDir = Complete 0 end.
Proof. intros orc st tr p q HI HP. exact (inv_dir _ _ (inv_run orc tr st HI) _ _ HP). Qed.
Print Assumptions cache_dir_exists.

(* the check-then-create pair `if not isdir(MODDIR): makedirs(MODDIR)` (proto NewCC) is two steps:
   on a cache directory that does not exist yet, two processes -- on different forms, nobody killed --
   both pass the check and the second makedirs raises *)
Theorem cold_start_refuted : forall orc,
  (forall p, ~ In (Kill p) tr_cold_start) /\
  files init CacheDir = Absent /\
  outcome_of (run NewCC orc tr_cold_start init) 1 = Some Exn.
Proof.
  intros orc. split; [|split].
  - intros p. exact (in_kills p tr_cold_start).
  - reflexivity.
  - vm_compute. reflexivity.
Qed.
Print Assumptions cold_start_refuted.

(* ---- fault histories across restarts (Faults.v): every file x every size class / deletion / garbage,
        singly and in sequence, scripts/clear-cache.py, interleaved with arbitrary concurrent sessions ---- *)

(* One fault (external damage of all files of a role to any class, or clear-cache.py) that hits the
   directory while nobody is compiling keeps the invariant -- the only fault excluded is a finished .so
   cut to a size class on which dlopen kills the interpreter ([safe_fault]). *)
Theorem fault_preserves_invariant : forall orc st f,
  Inv orc st -> quiescent st -> safe_fault orc f -> Inv orc (apply_fault st f).
Proof. exact fault_preserves_inv. Qed.
Print Assumptions fault_preserves_invariant.

(* recovery at full strength: after ANY history -- sessions of any number of processes under any schedule
   with kills at any point, alternating with any sequence of such faults -- a fresh request returns the
   right assembler within FUEL steps. *)
Theorem recovery_after_faults : forall orc h st p n,
  hist orc init h st -> procs st p = None ->
  outcome_of (solo New orc FUEL (step New orc st (Spawn p n)) p) p = Some (Ok n).
Proof. intros orc h st p n HH. apply fresh_request_ok. exact (inv_hist orc h init st (invariant_initially orc) HH). Qed.
Print Assumptions recovery_after_faults.

(* ... and throughout such a history every process that finished un-killed had the right assembler *)
Theorem race_safety_after_faults : forall orc h st p q o,
  hist orc init h st -> procs st p = Some q -> ppc q = PDone o -> o = Ok (pform q) \/ o = Killed.
Proof. intros orc h st p q o HH. apply inv_done with (orc := orc). exact (inv_hist orc h init st (invariant_initially orc) HH). Qed.
Print Assumptions race_safety_after_faults.

(* recovery from EVERY directory, not only reachable ones: arbitrary content of every .pyx/.c/.o under a
   final name (e.g. left-overs of the unrepaired protocol), arbitrary content of the build directories of
   dead processes, MODDIR present or not; final .so entries absent, right, or damaged in a class dlopen
   rejects (or loads, being a prefix of the right one). *)
Theorem recovery_every_directory : forall orc st p n,
  settled st ->
  (forall p, procs st p = None -> forall r, files st (Tmp p r) = Absent) ->
  (forall n, final_ok orc n (files st (Final So n))) ->
  procs st p = None ->
  outcome_of (solo New orc FUEL (step New orc st (Spawn p n)) p) p = Some (Ok n).
Proof. intros orc st p n HS HT HF. apply fresh_request_ok, inv_of_directory; assumption. Qed.
Print Assumptions recovery_every_directory.

(* sharpness of the exclusion (this is the finding impl:interpreter-death:dmg-so-Header, repaired by protocol
   Ver): in ANY state, if the entry of form n is a prefix in a class on which dlopen crashes, the next request
   for n dies. *)
Theorem crash_class_kills : forall orc st p n k c,
  procs st p = None -> files st (Final So n) = Partial k c -> orc k = Crash ->
  outcome_of (solo New orc FUEL (step New orc st (Spawn p n)) p) p = Some Death.
Proof. intros orc st p n k c HN HF HC. apply fresh_decided; auto. rewrite HF. simpl. now rewrite HC. Qed.
Print Assumptions crash_class_kills.

(* sharpness of [quiescent]: clear-cache.py while a process is compiling makes that process fail *)
Theorem clear_during_build_refuted : forall orc,
  ~ quiescent (run New orc tr_before_mkdtemp init) /\
  outcome_of (step New orc (clear_cache (run New orc tr_before_mkdtemp init)) (Step 0)) 0 = Some Exn.
Proof.
  intros orc. split.
  - intros HQ. discriminate (HQ 0 (mkproc 0 PMkdtemp 0) eq_refl).
  - vm_compute. reflexivity.
Qed.
Print Assumptions clear_during_build_refuted.

(* ---- locality (Local.v) ---- *)

(* A request for form n does not read the entry of any other form: two directories that differ only in
   the final .so entries of OTHER forms lead the process through the same states, step by step.  (That
   it does not write them either is Proofs.step_proc_frame.) *)
Theorem request_is_local : forall orc n fuel st st' p q,
  agree n st st' -> procs st p = Some q -> pform q = n ->
  agree n (solo New orc fuel st p) (solo New orc fuel st' p).
Proof. exact agree_solo. Qed.
Print Assumptions request_is_local.

(* recovery, complete case analysis for EVERY combination of corrupt files: whatever the directory holds
   (any .pyx/.c/.o, any left-over build directories of dead processes, any entries of other forms -- even
   ones on which dlopen would crash --, MODDIR present or not), the outcome of a fresh request for n is decided
   by its own entry alone: a loadable entry is returned, an absent or rejected one is rebuilt into the right
   assembler, and only a prefix in a crash class kills the interpreter. *)
Theorem fresh_request_outcome : forall orc st p n,
  settled st ->
  (forall p, procs st p = None -> forall r, files st (Tmp p r) = Absent) ->
  procs st p = None ->
  outcome_of (solo New orc FUEL (step New orc st (Spawn p n)) p) p =
  Some (match load orc (files st (Final So n)) with
        | LOk c => Ok c | LErr => Ok n | LCrash => Death end).
Proof.
  intros orc st p n HS HT HN. destruct (load orc (files st (Final So n))) as [c| |] eqn:EL.
  - apply fresh_decided; auto. now rewrite EL.
  - apply fresh_rebuilds; auto.
  - apply fresh_decided; auto. now rewrite EL.
Qed.
Print Assumptions fresh_request_outcome.

(* NOT PROVED (clause by clause; what is left to the correspondence run of harness/props/c20.py):
   - "compilation interrupted at any point ... partial, truncated or corrupt generated source, C file, object
     file or shared object": PROVED for the model (recovery, recovery_after_faults, fresh_request_outcome,
     final_entries_complete).  Not proved: that the real stages write their outputs monotonically (a crash
     inside a stage leaves a PREFIX, one of five size classes) -- Cython, gcc and ld are not modelled; the tie
     emulates these states by truncating finished outputs.
   - "the next request in a fresh process succeeds and returns a CORRECT assembler": the model's [Complete n]
     means "the artefact generated from the source of form n"; that this artefact assembles the matrix of the
     form is C01's subject and is only tested here (matrix compared with the ahead-of-time assemblers).
   - "never crashes the interpreter": proved relative to the oracle [orc]; what dlopen does with a damaged file
     (orc) is measured on every run, not proved.  crash_class_kills shows the one excluded fault really kills
     (finding impl:interpreter-death:dmg-so-Header; Props2.v: no fault is excluded for protocol Ver).
   - "any number of processes ... concurrently": PROVED for the model (race_safety, race_liveness,
     cache_dir_exists) under the assumptions that rename(2) is atomic, mkdtemp names are unique (Tmp is indexed
     by pid) and a Python-level step between two file-system calls is atomic.  These are not proved.
   - "an entry once completed is never overwritten by different content": PROVED at the granularity of the
     model (completed_never_overwritten: content = the form the .so was generated from).  Byte identity of two
     builds of the same source is not claimed (and false: build paths differ in the debug info).
   - digest injectivity (SHAKE-128, 64 bit) is an idealisation (digest_names is true by construction).
   - the in-process dictionary of compile_vform (compile.py:192-204) and compile_vforms are not modelled
     here (C13 models the cache key). *)
