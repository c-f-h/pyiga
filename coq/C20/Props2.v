(* C20 -- property theorems for the protocol "Ver" of fixes/C20-verify-so-before-import.patch (Verify.v):
   New + a stamp file mod<digest>.ok (name, size, SHA-256 of the .so) published atomically AFTER the .so;
   a cached .so is handed to dlopen only if the stamp is all there and describes exactly the bytes on disk,
   otherwise the entry counts as absent and is rebuilt.  The lemmas are in VProofs.v.  All of them hold for
   EVERY dlopen oracle [orc] and -- unlike Props.fault_preserves_invariant / recovery_after_faults, which
   assume [safe_fault] -- for EVERY external fault: any file (.so, stamp, private left-overs, ...) x any size
   class / garbage / deletion, uniformly or one file at a time, and clear-cache.py.  That protocol New needs
   the assumption is Props.crash_class_kills. *)
From Coq Require Import List Arith.
From Verif.C20 Require Import Model Proofs Verify VProofs.
Import ListNotations.

Theorem ver_invariant_initially : VInv vinit.
Proof. split; simpl; intros; discriminate. Qed.
Print Assumptions ver_invariant_initially.

Theorem ver_invariant_inductive : forall orc st l, VInv st -> VInv (vstep orc st l).
Proof. exact vinv_step. Qed.
Print Assumptions ver_invariant_inductive.

(* no external damage of any cache file, in any class, breaks the invariant: nothing is excluded *)
Theorem ver_fault_preserves_invariant : forall st f, VInv st -> vquiescent st -> VInv (vapply_fault st f).
Proof. exact vfault_preserves_inv. Qed.
Print Assumptions ver_fault_preserves_invariant.

(* never an interpreter death (nor an exception): after ANY history of sessions (any number of processes, any
   schedule, kills anywhere) alternating with ANY external faults, no process has ended in Death or Exn *)
Theorem ver_no_interpreter_death : forall orc h st p,
  vhist orc vinit h st -> voutcome_of st p <> Some Death /\ voutcome_of st p <> Some Exn.
Proof. intros orc h st p HH. apply vinv_outcome. exact (vinv_hist orc h vinit st ver_invariant_initially HH). Qed.
Print Assumptions ver_no_interpreter_death.

(* recovery: after any such history a fresh request returns the right assembler within VFUEL steps *)
Theorem ver_recovery_after_faults : forall orc h st p n,
  vhist orc vinit h st -> vprocs st p = None ->
  voutcome_of (vsolo orc VFUEL (vstep orc st (Spawn p n)) p) p = Some (Ok n).
Proof. intros orc h st p n HH. apply vfresh_request_ok. exact (vinv_hist orc h vinit st ver_invariant_initially HH). Qed.
Print Assumptions ver_recovery_after_faults.

(* recovery from EVERY directory: arbitrary states of every file -- every .so, every stamp, every left-over --
   provided only that a .so which IS a finished artefact is the one its name denotes *)
Theorem ver_recovery_every_directory : forall orc st p n,
  vsettled st -> (forall n c, vfiles st (VFinal RSo n) = VComplete c -> fst c = n) ->
  vprocs st p = None ->
  voutcome_of (vsolo orc VFUEL (vstep orc st (Spawn p n)) p) p = Some (Ok n).
Proof. intros orc st p n HS HF. apply vfresh_request_ok, vinv_of_directory; assumption. Qed.
Print Assumptions ver_recovery_every_directory.

(* race safety (with faults between sessions): a finished process has the assembler of its form or was killed *)
Theorem ver_race_safety : forall orc st tr p q o,
  VInv st -> vprocs (vrun orc tr st) p = Some q -> vppc q = VDone o -> o = Ok (vform q) \/ o = Killed.
Proof. intros orc st tr p q o HI. apply vinv_done, vinv_run, HI. Qed.
Print Assumptions ver_race_safety.

Theorem ver_race_safety_after_faults : forall orc h st p q o,
  vhist orc vinit h st -> vprocs st p = Some q -> vppc q = VDone o -> o = Ok (vform q) \/ o = Killed.
Proof. intros orc h st p q o HH. apply vinv_done. exact (vinv_hist orc h vinit st ver_invariant_initially HH). Qed.
Print Assumptions ver_race_safety_after_faults.

Theorem ver_race_liveness : forall orc tr st p q,
  vprocs st p = Some q -> vrank (vppc q) <= steps_of p tr ->
  exists q', vprocs (vrun orc tr st) p = Some q' /\ vform q' = vform q /\ vis_done (vppc q') = true.
Proof.
  intros orc tr st p q H Hc.
  destruct (table_liveness _ _ _ _ _ (vstep_keeps_proc orc) tr st p q H Hc) as (q' & A & B & C).
  exists q'. auto using vrank_zero_done.
Qed.
Print Assumptions ver_race_liveness.

Theorem ver_killed_only_by_kill : forall orc tr st p q,
  vprocs st p = Some q -> vppc q <> VDone Killed -> ~ In (Kill p) tr ->
  forall q', vprocs (vrun orc tr st) p = Some q' -> vppc q' <> VDone Killed.
Proof. intros orc. exact (table_killed _ _ _ _ _ (vstep_keeps_proc orc)). Qed.
Print Assumptions ver_killed_only_by_kill.

(* an entry once completed is never overwritten by different content.  "Completed" = the .so under the final name
   is a finished artefact; content = the form it was generated from (bytes of two builds differ, as in Props.v).
   Under every schedule it remains a finished artefact of the same form (possibly of another builder b: a racing
   publisher replaces it atomically by ITS finished build of the same source).  What can lapse transiently is only
   the VERIFICATION (stamp of builder a next to the .so of builder b): requests then rebuild instead of importing
   -- see Examples2.stamp_mismatch_rebuilds -- they never load anything else. *)
Theorem ver_completed_never_overwritten : forall orc tr st n c,
  VInv st -> vfiles st (VFinal RSo n) = VComplete c ->
  exists b, vfiles (vrun orc tr st) (VFinal RSo n) = VComplete (fst c, b).
Proof.
  intros orc tr st n c HI H. rewrite (vinv_named _ HI _ _ H).
  apply (vfinal_so_run orc (fun f => exists b, f = VComplete (n, b))); eauto.
  rewrite H. exists (snd c). rewrite <- (vinv_named _ HI _ _ H). now destruct c.
Qed.
Print Assumptions ver_completed_never_overwritten.

(* nothing but the finished .so and its stamp is ever written under a final name *)
Theorem ver_no_inplace_writes : forall orc tr st r n,
  VInv st -> r <> RSo -> r <> ROk -> vfiles (vrun orc tr st) (VFinal r n) = vfiles st (VFinal r n).
Proof.
  intros orc tr. induction tr as [|l tr IH]; simpl; intros st r n HI Hr Hr'; auto.
  rewrite IH by auto using vinv_step. apply vstep_final_other; auto.
Qed.
Print Assumptions ver_no_inplace_writes.

(* the repair is not "always rebuild": an intact entry (stamp describes the .so) is imported in three steps
   (mkdir, verify, import) and no file is written *)
Theorem ver_cache_hit : forall orc st p n c,
  vprocs st p = None ->
  vfiles st (VFinal ROk n) = VComplete c -> vfiles st (VFinal RSo n) = VComplete c ->
  let st' := vsolo orc VFUEL (vstep orc st (Spawn p n)) p in
  voutcome_of st' p = Some (Ok (fst c)) /\ (forall x, x <> VCacheDir -> vfiles st' x = vfiles st x).
Proof. intros orc. apply vcache_hit. Qed.
Print Assumptions ver_cache_hit.

(* verification accepts exactly: stamp complete, .so complete, same bytes *)
Theorem ver_intact_spec : forall ok so, intact ok so = true <-> exists c, ok = VComplete c /\ so = VComplete c.
Proof. exact intact_spec. Qed.
Print Assumptions ver_intact_spec.

(* NOT PROVED (what is left to the correspondence run):
   - that SHA-256 + size identify the bytes (a damaged .so never verifies): idealisation of [intact];
   - that the stamp parser rejects every truncated stamp (the format ends every line with a newline; tested by
     the tie: dmg-ok-{Empty,Header,Half,AllButLast,Garbage,deleted});
   - damage that hits BETWEEN verify and import of a running request (faults act on quiescent states), and
     everything listed under NOT PROVED in Props.v (monotone writes, rename(2), mkdtemp, digest, correctness
     of the assembler itself). *)
