(* The boolean comparisons of Bsp.v decide the order and equality of Qc. *)
From Coq Require Import QArith Qcanon Bool.
From Verif.lib Require Import Bsp.
Local Open Scope Qc_scope.

Lemma qleb_iff a b : qleb a b = true <-> a <= b.
Proof. unfold qleb. rewrite Qle_bool_iff. reflexivity. Qed.

Lemma qltb_iff a b : qltb a b = true <-> a < b.
Proof.
  unfold qltb. rewrite negb_true_iff. split.
  - intros H. apply Qcnot_le_lt. intros L. apply qleb_iff in L. unfold qleb in L. congruence.
  - intros H. destruct (Qle_bool b a) eqn:E; [|reflexivity].
    apply Qle_bool_iff in E. exfalso. apply (Qclt_not_le _ _ H). exact E.
Qed.

Lemma qeqb_iff a b : qeqb a b = true <-> a = b.
Proof.
  unfold qeqb. rewrite Qeq_bool_iff. split; [apply Qc_is_canon|intros ->; reflexivity].
Qed.

Lemma qeqb_false_iff a b : qeqb a b = false <-> a <> b.
Proof. rewrite <- qeqb_iff. destruct (qeqb a b); split; congruence. Qed.
