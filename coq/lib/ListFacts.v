(* Facts about the standard library's lists (nth, seq, flat_map, combine, Forall2, NoDup) that
   several directories need and Coq 8.16's List does not have. *)
From Coq Require Import List Arith Lia.
Import ListNotations.

(* map_nth without the constraint on the default *)
Lemma nth_map_lt {A B} (f : A -> B) l i d d' : i < length l -> nth i (map f l) d = f (nth i l d').
Proof. intros H. rewrite (nth_indep _ d (f d')) by (rewrite map_length; exact H). apply map_nth. Qed.

Lemma nth_map_seq {A} (f : nat -> A) a n i d : i < n -> nth i (map f (seq a n)) d = f (a + i).
Proof.
  intros H. rewrite (nth_map_lt _ _ _ _ 0) by (rewrite seq_length; exact H).
  rewrite seq_nth by exact H. reflexivity.
Qed.

Lemma map_nth_seq {A} (d : A) l : map (fun i => nth i l d) (seq 0 (length l)) = l.
Proof.
  induction l as [|x l IH]; simpl; [reflexivity|]. f_equal.
  rewrite <- seq_shift, map_map. exact IH.
Qed.

Lemma seq_add_map n a : seq a n = map (fun i => a + i) (seq 0 n).
Proof.
  revert a. induction n as [|n IH]; intros a; [reflexivity|]. simpl. rewrite Nat.add_0_r. f_equal.
  rewrite (IH (S a)), <- seq_shift, map_map. apply map_ext. intros i. lia.
Qed.

Lemma nth_repeat_lt {A} (x d : A) n i : i < n -> nth i (repeat x n) d = x.
Proof.
  revert i. induction n as [|n IH]; intros i H; [lia|].
  destruct i; simpl; [reflexivity|]. apply IH. lia.
Qed.

Lemma last_nth_len {A} (l : list A) d : last l d = nth (length l - 1) l d.
Proof.
  induction l as [|x l IH]; simpl; [reflexivity|].
  destruct l as [|y l]; [reflexivity|]. rewrite IH. simpl. rewrite Nat.sub_0_r. reflexivity.
Qed.

Lemma skipn_cons_nth {A} (d : A) l n : n < length l -> skipn n l = nth n l d :: skipn (S n) l.
Proof.
  revert n. induction l as [|x l IH]; intros n H; simpl in H; [lia|].
  destruct n; [reflexivity|]. simpl. apply IH. lia.
Qed.

Lemma nth_error_skipn_add {A} k (l : list A) m : nth_error (skipn k l) m = nth_error l (k + m).
Proof. revert l. induction k; intros [|a l]; simpl; auto. destruct m; reflexivity. Qed.

Lemma Forall2_length {A B} (R : A -> B -> Prop) l1 l2 : Forall2 R l1 l2 -> length l1 = length l2.
Proof. induction 1; simpl; congruence. Qed.

Lemma flat_map_ext_in {A B} (f g : A -> list B) l :
  (forall a, In a l -> f a = g a) -> flat_map f l = flat_map g l.
Proof. intros H. rewrite !flat_map_concat_map. f_equal. apply map_ext_in. exact H. Qed.

Lemma map_flat_map {A B C} (f : B -> C) (g : A -> list B) l :
  map f (flat_map g l) = flat_map (fun x => map f (g x)) l.
Proof. induction l as [|a l IH]; simpl; [reflexivity | rewrite map_app, IH; reflexivity]. Qed.

Lemma flat_map_map {A B C} (f : B -> list C) (g : A -> B) l :
  flat_map f (map g l) = flat_map (fun x => f (g x)) l.
Proof. induction l as [|a l IH]; simpl; [reflexivity | rewrite IH; reflexivity]. Qed.

(* equally long rows laid out one after another: element j of row i *)
Lemma nth_flat_map_uniform {A B} (f : A -> list B) n (d : B) (dx : A) l i j :
  (forall x, In x l -> length (f x) = n) -> i < length l -> j < n ->
  nth (i * n + j) (flat_map f l) d = nth j (f (nth i l dx)) d.
Proof.
  revert i. induction l as [|x l IH]; intros i Hlen Hi Hj; simpl in Hi; [lia|].
  simpl flat_map. destruct i as [|i].
  - simpl. apply app_nth1. rewrite Hlen by (left; reflexivity). exact Hj.
  - rewrite app_nth2; rewrite (Hlen x (or_introl eq_refl)); [|simpl; lia].
    replace (S i * n + j - n) with (i * n + j) by (simpl; lia).
    simpl nth. apply IH; [intros y Hy; apply Hlen; right; exact Hy|lia|exact Hj].
Qed.

Lemma map_fst_combine {A B} (l1 : list A) (l2 : list B) :
  length l1 = length l2 -> map fst (combine l1 l2) = l1.
Proof.
  revert l2. induction l1 as [|a l1 IH]; intros [|b l2] H; simpl in *; try reflexivity; try discriminate.
  f_equal. apply IH. lia.
Qed.

Lemma combine_app_eq {A B} (a b : list A) (c d : list B) :
  length a = length c -> combine (a ++ b) (c ++ d) = combine a c ++ combine b d.
Proof.
  revert c. induction a as [|x a IH]; intros [|y c] H; simpl in H; try discriminate; [reflexivity|].
  simpl. f_equal. apply IH. lia.
Qed.

Lemma combine_map_map {X A B} (f : X -> A) (g : X -> B) l :
  combine (map f l) (map g l) = map (fun x => (f x, g x)) l.
Proof. induction l as [|x l IH]; [reflexivity|]. simpl. f_equal. exact IH. Qed.

Lemma NoDup_app_intro {A} (a b : list A) :
  NoDup a -> NoDup b -> (forall x, In x a -> ~ In x b) -> NoDup (a ++ b).
Proof.
  induction a as [|y a IH]; intros Ha Hb Hd; simpl; [exact Hb|].
  inversion Ha; subst. constructor.
  - intro Hin. apply in_app_or in Hin. destruct Hin; [contradiction|]. apply (Hd y); [left; reflexivity|assumption].
  - apply IH; auto. intros x Hx. apply Hd. right. exact Hx.
Qed.

Lemma NoDup_map_inj_on {A B} (f : A -> B) l :
  (forall x y, In x l -> In y l -> f x = f y -> x = y) -> NoDup l -> NoDup (map f l).
Proof.
  induction l as [|a l IH]; intros Hinj ND; simpl; constructor; inversion ND; subst.
  - intros H. apply in_map_iff in H. destruct H as (y & E & Hy).
    assert (y = a) by (apply Hinj; auto; [right|left]; auto). subst. contradiction.
  - apply IH; auto. intros; apply Hinj; auto; right; auto.
Qed.

(* one mixed-radix digit: c is the last digit of a * m + c in radix m *)
Lemma divmod_lin a m c : c < m -> (a * m + c) / m = a /\ (a * m + c) mod m = c.
Proof.
  intros H. split; symmetry; [apply (Nat.div_unique _ m a c)|apply (Nat.mod_unique _ m a c)]; lia.
Qed.
