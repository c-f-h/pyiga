(* Type-generic list combinators that model the shape-only part of the numpy
   vocabulary used by pyiga/bspline.py (np.repeat, np.concatenate, basic slices,
   the de-duplication step of np.unique on sorted input), shared by the exact
   (lib/NpQ.v) and the binary64 (lib/NpF.v) models, with their structural lemmas. *)
From Coq Require Import List Arith Bool Lia.
From Verif.lib Require Import ListFacts.
Import ListNotations.

Section Generic.
Context {A : Type}.

(* np.repeat(x, k) for a scalar x is List.repeat x k;
   np.repeat(arr, k) repeats every element k times *)
Definition np_repeat_each (l : list A) (k : nat) : list A := flat_map (fun x => repeat x k) l.

(* arr[1:] and arr[1:-1] *)
Definition sl_from1 (l : list A) : list A := tl l.
Definition sl_1_m1 (l : list A) : list A := removelast (tl l).
(* arr[:-1] *)
Definition sl_to_m1 (l : list A) : list A := removelast l.

(* np.concatenate((x, y, z)) *)
Definition np_concat3 (x y z : list A) : list A := x ++ y ++ z.

(* the de-duplication of np.unique.  np.unique keeps the first element of a run of equal
   neighbours, this the last: the same list wherever elements that eqb equates are identical *)
Fixpoint dedup_adj (eqb : A -> A -> bool) (l : list A) : list A :=
  match l with
  | [] => []
  | x :: t => match t with
              | [] => [x]
              | y :: _ => if eqb x y then dedup_adj eqb t else x :: dedup_adj eqb t
              end
  end.

(* first index of x in l (length l when absent) *)
Fixpoint index_of (eqb : A -> A -> bool) (x : A) (l : list A) : nat :=
  match l with
  | [] => 0
  | y :: t => if eqb x y then 0 else S (index_of eqb x t)
  end.

(* all adjacent pairs satisfy r *)
Fixpoint adjb (r : A -> A -> bool) (l : list A) : bool :=
  match l with
  | a :: ((b :: _) as t) => r a b && adjb r t
  | _ => true
  end.

(* a run-length description (x_i, k_i) expanded to x_i repeated k_i times *)
Definition expand (l : list (A * nat)) : list A := flat_map (fun xk => repeat (fst xk) (snd xk)) l.

(* the open-knot-vector layout  [a]*q ++ each(inner, m) ++ [b]*q *)
Definition layout (a b : A) (inner : list A) (q m : nat) : list A :=
  np_concat3 (repeat a q) (np_repeat_each inner m) (repeat b q).

Lemma repeat_each_length l k : length (np_repeat_each l k) = length l * k.
Proof.
  unfold np_repeat_each. induction l as [|x t IH]; cbn; [reflexivity|].
  rewrite app_length, repeat_length, IH. reflexivity.
Qed.

Lemma nth_repeat_each l k i d : 0 < k -> i < length l * k ->
  nth i (np_repeat_each l k) d = nth (i / k) l d.
Proof.
  intros Hk. unfold np_repeat_each. revert i.
  induction l as [|x t IH]; intros i H; cbn in *; [lia|].
  destruct (Nat.lt_ge_cases i k) as [L|L].
  - rewrite app_nth1 by (rewrite repeat_length; exact L).
    rewrite Nat.div_small by exact L. apply nth_repeat_lt. exact L.
  - rewrite app_nth2 by (rewrite repeat_length; exact L).
    rewrite repeat_length.
    assert (E : i / k = S ((i - k) / k)).
    { replace i with ((i - k) + 1 * k) at 1 by lia. rewrite Nat.div_add by lia. lia. }
    rewrite E. cbn. apply IH. lia.
Qed.

Lemma forallb_repeat (P : A -> bool) x k : P x = true -> forallb P (repeat x k) = true.
Proof. intros H. induction k; cbn; [reflexivity|]. rewrite H, IHk. reflexivity. Qed.

Lemma length_tl (l : list A) : length (tl l) = length l - 1.
Proof. destruct l; cbn; lia. Qed.

Lemma length_removelast (l : list A) : length (removelast l) = length l - 1.
Proof.
  induction l as [|x t IH]; [reflexivity|].
  destruct t as [|y t']; [reflexivity|].
  change (removelast (x :: y :: t')) with (x :: removelast (y :: t')).
  cbn [length] in *. lia.
Qed.

Lemma nth_tl (l : list A) i d : nth i (tl l) d = nth (S i) l d.
Proof. destruct l; [destruct i; reflexivity|reflexivity]. Qed.

Lemma nth_removelast (l : list A) i d : i < length l - 1 -> nth i (removelast l) d = nth i l d.
Proof.
  revert i. induction l as [|x t IH]; intros i H; [reflexivity|].
  destruct t as [|y t']; [cbn in H; lia|].
  change (removelast (x :: y :: t')) with (x :: removelast (y :: t')).
  destruct i; [reflexivity|]. cbn [nth]. apply IH. cbn [length] in *. lia.
Qed.

Lemma sl_1_m1_length l : length (sl_1_m1 l) = length l - 2.
Proof. unfold sl_1_m1. rewrite length_removelast, length_tl. lia. Qed.

Lemma nth_sl_1_m1 l i d : i + 2 < length l -> nth i (sl_1_m1 l) d = nth (S i) l d.
Proof.
  intros H. unfold sl_1_m1. rewrite nth_removelast by (rewrite length_tl; lia). apply nth_tl.
Qed.

Lemma ends_decompose (l : list A) d : 2 <= length l ->
  l = nth 0 l d :: sl_1_m1 l ++ [nth (length l - 1) l d].
Proof.
  destruct l as [|x t]; cbn [length]; [lia|]. intros H.
  assert (Ht : t <> []) by (destruct t; [cbn in H; lia|discriminate]).
  unfold sl_1_m1. cbn [tl]. change (nth 0 (x :: t) d) with x. f_equal.
  replace (nth (S (length t) - 1) (x :: t) d) with (last t d).
  - apply app_removelast_last, Ht.
  - rewrite last_nth_len. replace (S (length t) - 1) with (S (length t - 1)) by lia. reflexivity.
Qed.

Lemma adjb_cons (r : A -> A -> bool) a b t : adjb r (a :: b :: t) = r a b && adjb r (b :: t).
Proof. reflexivity. Qed.

Lemma adjb_of_nth (r : A -> A -> bool) (l : list A) d :
  (forall i, S i < length l -> r (nth i l d) (nth (S i) l d) = true) -> adjb r l = true.
Proof.
  induction l as [|a t IH]; intros H; [reflexivity|].
  destruct t as [|b t']; [reflexivity|].
  rewrite adjb_cons. apply andb_true_iff. split.
  - apply (H 0). cbn. lia.
  - apply IH. intros i Hi. apply (H (S i)). cbn in *. lia.
Qed.

Lemma nth_of_adjb (r : A -> A -> bool) (l : list A) d :
  adjb r l = true -> forall i, S i < length l -> r (nth i l d) (nth (S i) l d) = true.
Proof.
  induction l as [|a t IH]; intros H i Hi; [cbn in Hi; lia|].
  destruct t as [|b t']; [cbn in Hi; lia|].
  rewrite adjb_cons in H. apply andb_true_iff in H. destruct H as [H1 H2].
  destruct i; [exact H1|]. apply (IH H2 i). cbn in *. lia.
Qed.

Lemma layout_length a b inner q m : length (layout a b inner q m) = 2 * q + length inner * m.
Proof.
  unfold layout, np_concat3. rewrite !app_length, !repeat_length, repeat_each_length. lia.
Qed.

Lemma nth_layout a b inner q m i d : 0 < m -> i < 2 * q + length inner * m ->
  nth i (layout a b inner q m) d =
    if i <? q then a
    else if i <? q + length inner * m then nth ((i - q) / m) inner d
    else b.
Proof.
  intros Hm Hi. unfold layout, np_concat3.
  destruct (Nat.ltb_spec i q) as [L|L].
  - rewrite app_nth1 by (rewrite repeat_length; exact L). apply nth_repeat_lt. exact L.
  - rewrite app_nth2 by (rewrite repeat_length; exact L). rewrite repeat_length.
    destruct (Nat.ltb_spec i (q + length inner * m)) as [L2|L2].
    + rewrite app_nth1 by (rewrite repeat_each_length; lia).
      apply nth_repeat_each; [exact Hm|lia].
    + rewrite app_nth2 by (rewrite repeat_each_length; lia). rewrite repeat_each_length.
      apply nth_repeat_lt. lia.
Qed.

Lemma layout_first a b inner q m d : 0 < q -> nth 0 (layout a b inner q m) d = a.
Proof. destruct q; [lia|reflexivity]. Qed.

Lemma layout_last a b inner q m d : 0 < q -> last (layout a b inner q m) d = b.
Proof.
  destruct q as [|q]; [lia|]. intros _. unfold layout, np_concat3.
  cbn [repeat]. rewrite (repeat_cons q b), !app_assoc. apply last_last.
Qed.

Lemma expand_cons x k t : expand ((x, k) :: t) = repeat x k ++ expand t.
Proof. reflexivity. Qed.

Lemma expand_hd x k t : 0 < k -> expand ((x, k) :: t) = x :: repeat x (k - 1) ++ expand t.
Proof. destruct k; [lia|]. intros _. rewrite expand_cons. cbn. rewrite Nat.sub_0_r. reflexivity. Qed.

Section Dedup.
Variable eqb : A -> A -> bool.

Lemma dedup_repeat_app x k l : 0 < k -> eqb x x = true ->
  dedup_adj eqb (repeat x k ++ l) = dedup_adj eqb (x :: l).
Proof.
  intros Hk Hx. induction k as [|k IH]; [lia|].
  destruct k as [|k]; [reflexivity|].
  change (repeat x (S (S k)) ++ l) with (x :: (x :: repeat x k ++ l)).
  cbn [dedup_adj]. rewrite Hx. apply IH. lia.
Qed.

Lemma dedup_cons_neq x y t : eqb x y = false ->
  dedup_adj eqb (x :: y :: t) = x :: dedup_adj eqb (y :: t).
Proof. intros H. cbn [dedup_adj]. rewrite H. reflexivity. Qed.

Lemma dedup_cons_eq x y t : eqb x y = true ->
  dedup_adj eqb (x :: y :: t) = dedup_adj eqb (y :: t).
Proof. intros H. cbn [dedup_adj]. rewrite H. reflexivity. Qed.

(* for PrimFloat.eqb the first conjunct says that no value is a NaN *)
Lemma dedup_expand l :
  forallb (fun xk => eqb (fst xk) (fst xk) && (0 <? snd xk)) l = true ->
  adjb (fun x y => negb (eqb x y)) (map fst l) = true ->
  dedup_adj eqb (expand l) = map fst l.
Proof.
  induction l as [|[x k] t IH]; intros Hr Ha; [reflexivity|].
  cbn [forallb fst snd] in Hr. rewrite !andb_true_iff, Nat.ltb_lt in Hr. destruct Hr as [[Hx Hk] Hr].
  rewrite expand_cons, dedup_repeat_app by assumption.
  destruct t as [|[y j] t']; [reflexivity|].
  cbn [map fst] in Ha. rewrite adjb_cons, andb_true_iff, negb_true_iff in Ha. destruct Ha as [Hxy Ha].
  specialize (IH Hr Ha).
  cbn [forallb fst snd] in Hr. rewrite !andb_true_iff, Nat.ltb_lt in Hr. destruct Hr as [[_ Hj] _].
  rewrite expand_hd by exact Hj. rewrite dedup_cons_neq by exact Hxy.
  rewrite <- expand_hd by exact Hj. rewrite IH. reflexivity.
Qed.

End Dedup.

Lemma adjb_repeat_app (le : A -> A -> bool) x k r :
  le x x = true -> match r with [] => True | y :: _ => le x y = true end -> adjb le r = true ->
  adjb le (repeat x k ++ r) = true.
Proof.
  intros Hx Hh Hr. induction k as [|k IH]; [exact Hr|].
  cbn [repeat app]. destruct (repeat x k ++ r) as [|z t] eqn:E; [reflexivity|].
  rewrite adjb_cons, IH, andb_true_r.
  destruct k; cbn [repeat app] in E.
  - subst r. exact Hh.
  - injection E as <- _. exact Hx.
Qed.

Lemma adjb_expand (le : A -> A -> bool) l :
  forallb (fun xk => le (fst xk) (fst xk) && (0 <? snd xk)) l = true -> adjb le (map fst l) = true ->
  adjb le (expand l) = true.
Proof.
  induction l as [|[x k] t IH]; intros Hr Ha; [reflexivity|].
  cbn [forallb fst snd] in Hr. rewrite !andb_true_iff in Hr. destruct Hr as [[Hx _] Hr].
  rewrite expand_cons.
  destruct t as [|[y j] t']; [apply adjb_repeat_app; [exact Hx|exact I|reflexivity]|].
  cbn [map fst] in Ha. rewrite adjb_cons, andb_true_iff in Ha. destruct Ha as [Hxy Ha].
  apply adjb_repeat_app; [exact Hx| |exact (IH Hr Ha)].
  cbn [forallb fst snd] in Hr. rewrite !andb_true_iff, Nat.ltb_lt in Hr. destruct Hr as [[_ Hj] _].
  rewrite expand_hd by exact Hj. exact Hxy.
Qed.

Lemma layout_expand a b inner q m :
  layout a b inner q m = expand ((a, q) :: map (fun x => (x, m)) inner ++ [(b, q)]).
Proof.
  unfold layout, np_concat3, expand. cbn [flat_map fst snd]. f_equal.
  rewrite flat_map_app. cbn [flat_map fst snd]. rewrite app_nil_r. f_equal.
  unfold np_repeat_each. induction inner as [|x t IH]; [reflexivity|].
  cbn [map flat_map fst snd]. rewrite IH. reflexivity.
Qed.

End Generic.
