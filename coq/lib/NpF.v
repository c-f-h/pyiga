(* Binary64 (PrimFloat) reading of np.arange and np.linspace as numpy 2.x computes
   them, and of the open-knot-vector layout built from them.  Bit-exact against
   numpy on every run of the C19 correspondence (harness/props/c19.py).

   np.arange(a, b, s)   [numpy/_core/src/multiarray/ctors.c: PyArray_ArangeObj/_calc_length,
                          arraytypes.c.src: DOUBLE_fill]
       len = ceil((b - a) / s)          evaluated in binary64
       buffer[0] = a ; buffer[1] = a + s ; delta = buffer[1] - buffer[0]
       buffer[i] = a + i*delta          for i >= 2
   np.linspace(a, b, num)  [numpy/_core/function_base.py]
       div = num - 1 ; delta = b - a ; step = delta / div
       y[i] = i*step + a   (when step == 0:  (i/div)*delta + a)
       y[-1] = b           (when num > 1)                                   *)
From Coq Require Import PrimFloat Uint63 ZArith QArith List Arith Bool Lia.
From Verif.lib Require Import ListFacts NpCore.
Import ListNotations.
Open Scope float_scope.

Definition nat_f (n : nat) : float := PrimFloat.of_uint63 (Uint63.of_Z (Z.of_nat n)).

(* ceil(x) for 0 <= x < 2^51: (x + 2^52) - 2^52 is x rounded to the nearest integer
   (for -2^51 < x < 0 the sum lies below 2^52 and is rounded to a multiple of 1/2) *)
Definition two52 : float := 0x1p52.
Definition ceil_f (x : float) : float :=
  let r := (x + two52) - two52 in if r <? x then r + 1 else r.

Fixpoint arange_fill (fuel : nat) (i len start delta : float) : list float :=
  match fuel with
  | O => []
  | S f => if i <? len then (start + i * delta) :: arange_fill f (i + 1) len start delta else []
  end.

(* fuel bounds the number of elements (the callers pass n + 3 for a step (b-a)/n) *)
Definition arange_f (fuel : nat) (a b s : float) : list float :=
  let len := ceil_f ((b - a) / s) in
  let delta := (a + s) - a in
  if len <=? 0 then []
  else a :: (if len <=? 1 then [] else (a + s) :: arange_fill fuel 2 len a delta).

Fixpoint lin_fill (k : nat) (fi div delta step a : float) : list float :=
  match k with
  | O => []
  | S k' => ((if step =? 0 then (fi / div) * delta else fi * step) + a)
            :: lin_fill k' (fi + 1) div delta step a
  end.

Definition linspace_f (a b : float) (num : nat) : list float :=
  match num with
  | O => []
  | S O => [0 * (b - a) + a]
  | S m => let div := nat_f m in
           let delta := b - a in
           lin_fill m 0 div delta (delta / div) a ++ [b]
  end.

(* pyiga/bspline.py make_knots, repaired form (fixes/C19-make-knots-linspace.patch):
     np.concatenate((np.repeat(a, p+1), np.repeat(np.linspace(a, b, n+1)[1:-1], mult), np.repeat(b, p+1))) *)
Definition make_knots_f (p : nat) (a b : float) (n mult : nat) : list float :=
  layout a b (sl_1_m1 (linspace_f a b (n + 1))) (p + 1) mult.

(* the formula of the unrepaired source (bspline.py:209-212 at /repo 3a28d2c..efa2f39):
     np.repeat(np.arange(a, b, (b-a) / n)[1:], mult)                                     *)
Definition make_knots_old_f (p : nat) (a b : float) (n mult : nat) : list float :=
  layout a b (sl_from1 (arange_f (n + 3) a b ((b - a) / nat_f n))) (p + 1) mult.

(* KnotVector.mesh = np.unique(kv): on a non-decreasing array (which the constructor
   asserts, bspline.py:66) the sort is the identity and only the de-duplication acts *)
Definition mesh_f (kv : list float) : list float := dedup_adj PrimFloat.eqb kv.
Definition sorted_f (kv : list float) : bool := adjb PrimFloat.leb kv.
Definition strict_f (l : list float) : bool := adjb PrimFloat.ltb l.

(* the break points of the repaired constructor *)
Definition bp_f (a b : float) (n : nat) : list float := a :: sl_1_m1 (linspace_f a b (n + 1)) ++ [b].

(* everything about the break points that is decided by computation *)
Definition bp_ok (a b : float) (n : nat) : bool :=
  let L := bp_f a b n in
  (length L =? n + 1)%nat
  && strict_f L
  && adjb PrimFloat.leb L
  && adjb (fun x y => negb (PrimFloat.eqb x y)) L
  && forallb (fun x => PrimFloat.eqb x x && PrimFloat.leb x x) L.

Definition grid_check (nmax : nat) (g : list (float * float)) : bool :=
  forallb (fun ab => forallb (fun n => bp_ok (fst ab) (snd ab) n) (seq 1 nmax)) g.

(* bp_ok builds the list of break points and walks it five times.  coqchk re-evaluates the sweep
   behind make_knots_float_bounded_2000 without the VM, where every list cell, every walk and every
   unfolded andb is paid for, so the sweep runs bp_scan instead: it generates the break points as
   linspace_f does and puts each adjacent pair through all the tests of bp_ok as it appears.
   The tests are nested ifs, not andb, for the same reason. *)

Definition and_pair_ok (x y : float) (rest : bool) : bool :=
  if x <? y then if x <=? y then if x =? y then false else
  if y =? y then if y <=? y then rest else false else false else false else false.

Fixpoint chain_ok (x : float) (l : list float) : bool :=
  match l with
  | [] => true
  | y :: t => and_pair_ok x y (chain_ok y t)
  end.

(* chain_ok prev (map f [fi; fi+1; ...; fi+k-1] ++ [b]) without the list *)
Definition lin_scan (f : float -> float) (b : float) : nat -> float -> float -> bool :=
  fix go (k : nat) (fi prev : float) : bool :=
    match k with
    | O => and_pair_ok prev b true
    | S k' => let x := f fi in and_pair_ok prev x (go k' (fi + 1) x)
    end.

Definition bp_scan (a b : float) (n : nat) : bool :=
  match n with
  | O => false
  | S m =>
    let div := nat_f n in let delta := b - a in let step := delta / div in
    if a =? a then if a <=? a then
      if step =? 0 then lin_scan (fun i => i / div * delta + a) b m 1 a
      else lin_scan (fun i => i * step + a) b m 1 a
    else false else false
  end.

Definition grid_scan (nmax : nat) (g : list (float * float)) : bool :=
  forallb (fun ab => forallb (bp_scan (fst ab) (snd ab)) (seq 1 nmax)) g.

(* the double nearest to a rational with |numerator|, denominator < 2^53: both are exact doubles
   and IEEE division is correctly rounded -- this is the value of the decimal / rational literal *)
Definition f_of_z (z : Z) : float :=
  match z with
  | Z0 => 0
  | Zpos _ => PrimFloat.of_uint63 (Uint63.of_Z z)
  | Zneg q => - PrimFloat.of_uint63 (Uint63.of_Z (Zpos q))
  end.
Definition f_of_q (q : Q) : float := f_of_z (Qnum q) / f_of_z (Zpos (Qden q)).
Definition f_of_qq (ab : Q * Q) : float * float := (f_of_q (fst ab), f_of_q (snd ab)).
(* all (x, y) with x before y in the list *)
Fixpoint pairs_of (l : list Q) : list (Q * Q) :=
  match l with
  | [] => []
  | x :: t => map (fun y => (x, y)) t ++ pairs_of t
  end.

Definition bp_old_f (a b : float) (n : nat) : list float :=
  a :: sl_from1 (arange_f (n + 3) a b ((b - a) / nat_f n)) ++ [b].

Lemma make_knots_f_expand p a b n mult :
  make_knots_f p a b n mult =
  expand (combine (bp_f a b n) (p + 1 :: repeat mult (length (sl_1_m1 (linspace_f a b (n + 1)))) ++ [p + 1])%nat).
Proof.
  unfold make_knots_f, bp_f. rewrite layout_expand. f_equal.
  cbn [combine]. f_equal.
  induction (sl_1_m1 (linspace_f a b (n + 1))) as [|x t IH]; [reflexivity|].
  cbn [map app length repeat combine]. f_equal. exact IH.
Qed.

Lemma forallb_combine {X} (P : X -> bool) (Q : nat -> bool) (l : list X) (r : list nat) :
  forallb P l = true -> forallb Q r = true ->
  forallb (fun xk => P (fst xk) && Q (snd xk)) (combine l r) = true.
Proof.
  revert r. induction l as [|x t IH]; intros [|y r] Hl Hr; cbn in *; try reflexivity.
  apply andb_true_iff in Hl. apply andb_true_iff in Hr. destruct Hl as [-> Hl], Hr as [-> Hr].
  cbn. apply IH; assumption.
Qed.

Lemma counts_pos p mult k : (1 <= mult)%nat ->
  forallb (fun j => 0 <? j)%nat (p + 1 :: repeat mult k ++ [p + 1])%nat = true.
Proof.
  intros Hm. cbn [forallb]. apply andb_true_iff. split; [apply Nat.ltb_lt; lia|].
  rewrite forallb_app. apply andb_true_iff. split.
  - apply forallb_repeat. apply Nat.ltb_lt. lia.
  - cbn [forallb]. rewrite andb_true_r. apply Nat.ltb_lt. lia.
Qed.

Lemma forallb_and {X} (P Q : X -> bool) l :
  forallb (fun x => P x && Q x) l = true -> forallb P l = true /\ forallb Q l = true.
Proof.
  induction l as [|x t IH]; cbn; [tauto|]. intros H.
  apply andb_true_iff in H. destruct H as [H1 H2]. apply andb_true_iff in H1.
  destruct (IH H2) as [A B]. destruct H1 as [-> ->]. rewrite A, B. tauto.
Qed.

(* for every degree and every interior multiplicity: if the break points pass the
   computed check, the knot vector is non-decreasing, its mesh is the list of break
   points (so numspans = n), and it has 2(p+1) + mult (n-1) entries *)
Lemma make_knots_f_lift p a b n mult : (1 <= n)%nat -> (1 <= mult)%nat -> bp_ok a b n = true ->
  let kv := make_knots_f p a b n mult in
  sorted_f kv = true /\ mesh_f kv = bp_f a b n /\ length (mesh_f kv) = (n + 1)%nat /\
  strict_f (mesh_f kv) = true /\
  length kv = (2 * (p + 1) + mult * (n - 1))%nat /\ last kv a = b /\ nth 0 kv b = a.
Proof.
  intros Hn Hm Hok. unfold bp_ok in Hok. cbv zeta in Hok. rewrite !andb_true_iff in Hok.
  destruct Hok as ((((Hlen & Hlt) & Hle) & Hne) & Hrefl).
  apply Nat.eqb_eq in Hlen. destruct (forallb_and _ _ _ Hrefl) as [Heqx Hlex].
  set (inner := sl_1_m1 (linspace_f a b (n + 1))).
  set (ks := (p + 1 :: repeat mult (length inner) ++ [p + 1])%nat).
  assert (Hks : length (bp_f a b n) = length ks).
  { unfold bp_f, ks. fold inner. cbn [length]. rewrite !app_length, repeat_length. reflexivity. }
  assert (Hinner : length inner = (n - 1)%nat).
  { rewrite Hlen in Hks. unfold ks in Hks. cbn [length] in Hks.
    rewrite app_length, repeat_length in Hks. cbn [length] in Hks. lia. }
  assert (Hpos : forallb (fun j => 0 <? j)%nat ks = true) by (apply counts_pos, Hm).
  assert (Hmesh : mesh_f (make_knots_f p a b n mult) = bp_f a b n).
  { rewrite make_knots_f_expand. fold inner ks. unfold mesh_f.
    rewrite dedup_expand; rewrite ?map_fst_combine by exact Hks; [reflexivity| |exact Hne].
    apply (forallb_combine (fun x => PrimFloat.eqb x x) (fun j => (0 <? j)%nat)); assumption. }
  assert (Hsorted : sorted_f (make_knots_f p a b n mult) = true).
  { rewrite make_knots_f_expand. fold inner ks.
    apply adjb_expand; rewrite ?map_fst_combine by exact Hks; [|exact Hle].
    apply (forallb_combine (fun x => PrimFloat.leb x x) (fun j => (0 <? j)%nat)); assumption. }
  cbv zeta. rewrite Hmesh. unfold make_knots_f in *.
  rewrite layout_length, layout_last, layout_first by lia. fold inner.
  rewrite Hinner, (Nat.mul_comm (n - 1)). auto 8.
Qed.

Lemma and_pair_ok_true x y r : and_pair_ok x y r = true ->
  (x <? y) = true /\ (x <=? y) = true /\ (x =? y) = false /\ (y =? y) = true /\ (y <=? y) = true /\ r = true.
Proof.
  unfold and_pair_ok.
  destruct (x <? y), (x <=? y), (x =? y), (y =? y), (y <=? y); try discriminate. intros ->. auto 7.
Qed.

Lemma chain_ok_sound l : forall x, (x =? x) = true -> (x <=? x) = true -> chain_ok x l = true ->
  strict_f (x :: l) = true /\ adjb PrimFloat.leb (x :: l) = true /\
  adjb (fun x y => negb (x =? y)) (x :: l) = true /\
  forallb (fun x => (x =? x) && (x <=? x)) (x :: l) = true.
Proof.
  induction l as [|y t IH]; intros x Ee El H.
  - cbn. rewrite Ee, El. auto.
  - cbn [chain_ok] in H. apply and_pair_ok_true in H. destruct H as (Hlt & Hle & Hne & Ee' & El' & H).
    destruct (IH y Ee' El' H) as (S1 & S2 & S3 & S4).
    unfold strict_f in *. cbn [adjb forallb] in *. rewrite Hlt, Hle, Hne, Ee, El. auto.
Qed.

Lemma lin_scan_chain f b div delta step a :
  (forall i, f i = (if step =? 0 then i / div * delta else i * step) + a) ->
  forall k fi prev, lin_scan f b k fi prev = chain_ok prev (lin_fill k fi div delta step a ++ [b]).
Proof.
  intros Hf. induction k as [|k IH]; intros fi prev; [reflexivity|].
  cbn [lin_scan lin_fill app chain_ok]. rewrite <- Hf. f_equal. apply IH.
Qed.

Lemma lin_fill_length k : forall fi div delta step a, length (lin_fill k fi div delta step a) = k.
Proof. induction k; intros; cbn; [reflexivity|f_equal; auto]. Qed.

Lemma bp_f_S a b m :
  bp_f a b (S m) = a :: lin_fill m 1 (nat_f (S m)) (b - a) ((b - a) / nat_f (S m)) a ++ [b].
Proof.
  unfold bp_f, linspace_f. rewrite Nat.add_1_r. cbn [lin_fill app]. unfold sl_1_m1. cbn [tl].
  rewrite removelast_last. reflexivity.
Qed.

Lemma bp_scan_ok a b n : bp_scan a b n = true -> bp_ok a b n = true.
Proof.
  destruct n as [|m]; [discriminate|]. unfold bp_scan, bp_ok. rewrite bp_f_S.
  set (div := nat_f (S m)). set (delta := b - a). set (step := delta / div).
  destruct (a =? a) eqn:Ee; [|discriminate]. destruct (a <=? a) eqn:El; [|discriminate]. intros H.
  assert (C : chain_ok a (lin_fill m 1 div delta step a ++ [b]) = true).
  { destruct (step =? 0) eqn:E0; rewrite (lin_scan_chain _ b div delta step a) in H;
      try exact H; intros i; rewrite E0; reflexivity. }
  destruct (chain_ok_sound _ a Ee El C) as (S1 & S2 & S3 & S4).
  cbv zeta. rewrite S1, S2, S3, S4. cbn [length]. rewrite app_length, lin_fill_length. cbn [length].
  rewrite !andb_true_r. apply Nat.eqb_eq. lia.
Qed.

Lemma grid_scan_lookup nmax g : grid_scan nmax g = true ->
  forall a b n, In (a, b) g -> (1 <= n <= nmax)%nat -> bp_ok a b n = true.
Proof.
  intros G a b n Hg Hn. unfold grid_scan in G. rewrite forallb_forall in G.
  specialize (G _ Hg). rewrite forallb_forall in G. apply bp_scan_ok, (G n), in_seq. lia.
Qed.
