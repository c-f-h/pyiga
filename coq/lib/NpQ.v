(* Exact (Qc) reading of the numpy vocabulary used by pyiga/bspline.py:62-213 and
   pyiga/spline.py:21-26 -- np.linspace, np.arange, np.sort, np.unique(return_inverse),
   np.convolve (mode 'full'), np.clip, np.diff -- with their lemmas.
   (The binary64 reading of arange/linspace is lib/NpF.v.) *)
From Coq Require Import QArith Qcanon Qround ZArith List Arith Bool Lia Lqa Permutation.
From Verif.lib Require Import Bsp NpCore ListFacts QcFacts.
From Verif.lib Require Export BspFacts.
Import ListNotations.
Open Scope Qc_scope.

(* Qc to Q, so that lra/nra apply: qcq turns a goal and its hypotheses over Qc into
   statements over Q about the underlying fractions *)

Lemma this_plus (x y : Qc) : (this (x + y) == this x + this y)%Q.
Proof. unfold Qcplus, Q2Qc; cbn [this]. apply Qred_correct. Qed.
Lemma this_mult (x y : Qc) : (this (x * y) == this x * this y)%Q.
Proof. unfold Qcmult, Q2Qc; cbn [this]. apply Qred_correct. Qed.
Lemma this_opp (x : Qc) : (this (- x) == - this x)%Q.
Proof. unfold Qcopp, Q2Qc; cbn [this]. apply Qred_correct. Qed.
Lemma this_minus (x y : Qc) : (this (x - y) == this x - this y)%Q.
Proof. unfold Qcminus. rewrite this_plus, this_opp. reflexivity. Qed.
Lemma this_Q2Qc q : (this (Q2Qc q) == q)%Q.
Proof. unfold Q2Qc; cbn [this]. apply Qred_correct. Qed.
Lemma Qc_eq_iff (x y : Qc) : x = y <-> (this x == this y)%Q.
Proof. split; [intros ->; reflexivity|apply Qc_is_canon]. Qed.

Ltac qcq :=
  repeat match goal with
  | H : @eq Qc _ _ |- _ => apply Qc_eq_iff in H
  | H : ~ @eq Qc _ _ |- _ => rewrite Qc_eq_iff in H
  end;
  try apply Qc_eq_iff;
  unfold Qcle, Qclt in *;
  repeat (rewrite ?this_plus, ?this_minus, ?this_mult, ?this_opp, ?this_Q2Qc in * ).

Definition natq (n : nat) : Qc := Zq (Z.of_nat n).

Lemma this_natq n : (this (natq n) == inject_Z (Z.of_nat n))%Q.
Proof. unfold natq, Zq. apply this_Q2Qc. Qed.

Lemma natq_S n : natq (S n) = natq n + 1.
Proof.
  qcq. rewrite !this_natq. rewrite Nat2Z.inj_succ. unfold Z.succ. rewrite inject_Z_plus.
  reflexivity.
Qed.

Lemma natq_0 : natq 0 = 0.
Proof. apply Qc_is_canon. reflexivity. Qed.

Lemma natq_le i j : (i <= j)%nat -> natq i <= natq j.
Proof.
  intros H. unfold Qcle. rewrite !this_natq. rewrite <- Zle_Qle. lia.
Qed.

Lemma natq_lt i j : (i < j)%nat -> natq i < natq j.
Proof.
  intros H. unfold Qclt. rewrite !this_natq. rewrite <- Zlt_Qlt. lia.
Qed.

Lemma natq_pos n : (0 < n)%nat -> 0 < natq n.
Proof. intros H. rewrite <- natq_0. apply natq_lt. exact H. Qed.

Lemma natq_neq0 n : (0 < n)%nat -> natq n <> 0.
Proof. intros H E. apply natq_pos in H. rewrite E in H. revert H. apply Qcle_not_lt, Qcle_refl. Qed.

(* np.linspace(a, b, num)  [numpy/_core/function_base.py: step = (b-a)/(num-1);
   y = arange(0,num)*step + a; y[-1] = b when num > 1] *)

Definition linspace_q (a b : Qc) (num : nat) : list Qc :=
  let step := (b - a) / natq (num - 1) in
  let y := map (fun i => natq i * step + a) (seq 0 num) in
  if (1 <? num)%nat then removelast y ++ [b] else y.

(* np.arange(a, b, s): ceil((b-a)/s) elements a + i*s  [multiarray/ctors.c PyArray_Arange;
   the fill uses delta = (a+s)-a, which is s in exact arithmetic] *)
Definition arange_q (a b s : Qc) : list Qc :=
  let len := Z.to_nat (Qceiling ((b - a) / s)) in
  map (fun i => a + natq i * s) (seq 0 len).

Lemma linspace_length a b num : length (linspace_q a b num) = num.
Proof.
  unfold linspace_q. destruct (Nat.ltb_spec 1 num) as [L|L].
  - rewrite app_length, length_removelast, map_length, seq_length. cbn. lia.
  - rewrite map_length, seq_length. reflexivity.
Qed.

Lemma nth_linspace a b num i : (1 < num)%nat -> (i < num)%nat ->
  nth i (linspace_q a b num) 0 = a + natq i * ((b - a) / natq (num - 1)).
Proof.
  intros Hn Hi. unfold linspace_q. destruct (Nat.ltb_spec 1 num) as [L|L]; [|lia].
  set (step := (b - a) / natq (num - 1)).
  set (y := map (fun i => natq i * step + a) (seq 0 num)).
  assert (Hy : length y = num) by (unfold y; rewrite map_length, seq_length; reflexivity).
  destruct (Nat.eq_dec i (num - 1)) as [E|E].
  - rewrite app_nth2 by (rewrite length_removelast, Hy; lia).
    rewrite length_removelast, Hy. replace (i - (num - 1))%nat with 0%nat by lia. cbn [nth].
    subst i. unfold step. field. apply natq_neq0. lia.
  - rewrite app_nth1 by (rewrite length_removelast, Hy; lia).
    rewrite nth_removelast by (rewrite Hy; lia).
    unfold y. rewrite nth_map_seq by exact Hi. cbn [plus]. ring.
Qed.

Lemma linspace_first a b num : (1 < num)%nat -> nth 0 (linspace_q a b num) 0 = a.
Proof. intros H. rewrite nth_linspace by lia. rewrite natq_0. ring. Qed.

Lemma linspace_last a b num : (1 < num)%nat -> nth (num - 1) (linspace_q a b num) 0 = b.
Proof. intros H. rewrite nth_linspace by lia. field. apply natq_neq0. lia. Qed.

Lemma step_pos a b n : a < b -> (0 < n)%nat -> 0 < (b - a) / natq n.
Proof.
  intros Hab Hn. apply Qcmult_pos; [apply Qcsub_pos, Hab|apply Qcinv_pos, natq_pos, Hn].
Qed.

Lemma linspace_lt a b num i j : a < b -> (i < j)%nat -> (j < num)%nat ->
  nth i (linspace_q a b num) 0 < nth j (linspace_q a b num) 0.
Proof.
  intros Hab Hij Hj. rewrite !nth_linspace by lia.
  pose proof (step_pos a b (num - 1) Hab ltac:(lia)) as Hh.
  set (h := (b - a) / natq (num - 1)) in *. clearbody h.
  pose proof (natq_lt i j Hij) as Hq.
  qcq. nra.
Qed.

Lemma qeqb_refl a : qeqb a a = true.
Proof. apply qeqb_iff. reflexivity. Qed.
Lemma qleb_total a b : qleb a b = false -> qleb b a = true.
Proof.
  intros H. apply qleb_iff. destruct (Qclt_le_dec a b) as [L|L]; [|exact L].
  apply Qclt_le_weak in L. apply qleb_iff in L. congruence.
Qed.

Definition sorted_idx (kv : list Qc) : Prop :=
  forall i j, (i <= j)%nat -> (j < length kv)%nat -> kn kv i <= kn kv j.

Lemma sortedb_cons a l : sortedb (a :: l) = match l with [] => true | b :: _ => qleb a b && sortedb l end.
Proof. destruct l; reflexivity. Qed.

Lemma sortedb_tail a l : sortedb (a :: l) = true -> sortedb l = true.
Proof. rewrite sortedb_cons. destruct l; [reflexivity|]. intros H. apply andb_true_iff in H. tauto. Qed.

Lemma sortedb_head_le a l : sortedb (a :: l) = true -> forall x, In x l -> a <= x.
Proof.
  revert a. induction l as [|b t IH]; intros a H x Hx; [destruct Hx|].
  rewrite sortedb_cons in H. apply andb_true_iff in H. destruct H as [Hab Ht].
  apply qleb_iff in Hab. destruct Hx as [<-|Hx]; [exact Hab|].
  eapply Qcle_trans; [exact Hab|]. apply IH; assumption.
Qed.

Lemma sortedb_idx l : sortedb l = true -> sorted_idx l.
Proof.
  induction l as [|a t IH]; intros H i j Hij Hj; [cbn in Hj; lia|].
  unfold kn in *. destruct i, j; cbn [nth]; try lia.
  - apply Qcle_refl.
  - apply (sortedb_head_le a t H). apply nth_In. cbn in Hj. lia.
  - apply IH; [eapply sortedb_tail; exact H|lia|cbn in Hj; lia].
Qed.

Lemma idx_sortedb l : sorted_idx l -> sortedb l = true.
Proof.
  induction l as [|a t IH]; intros H; [reflexivity|].
  rewrite sortedb_cons. destruct t as [|b t']; [reflexivity|].
  apply andb_true_iff. split.
  - apply qleb_iff. apply (H 0%nat 1%nat); cbn; lia.
  - apply IH. intros i j Hij Hj. apply (H (S i) (S j)); cbn in *; lia.
Qed.

(* np.sort (any stable or unstable sort: the result is determined by the multiset) *)

Fixpoint insert_q (x : Qc) (l : list Qc) : list Qc :=
  match l with
  | [] => [x]
  | y :: t => if qleb x y then x :: l else y :: insert_q x t
  end.
Definition np_sort (l : list Qc) : list Qc := fold_right insert_q [] l.

Lemma insert_perm x l : Permutation (insert_q x l) (x :: l).
Proof.
  induction l as [|y t IH]; cbn; [reflexivity|].
  destruct (qleb x y); [reflexivity|].
  rewrite IH. apply perm_swap.
Qed.

Lemma sort_perm l : Permutation (np_sort l) l.
Proof.
  induction l as [|x t IH]; cbn; [reflexivity|].
  rewrite insert_perm. constructor. exact IH.
Qed.

Lemma insert_sorted x l : sortedb l = true -> sortedb (insert_q x l) = true.
Proof.
  induction l as [|y t IH]; intros H; [reflexivity|].
  cbn [insert_q]. destruct (qleb x y) eqn:E.
  - rewrite sortedb_cons. rewrite E, H. reflexivity.
  - apply qleb_total in E. specialize (IH (sortedb_tail _ _ H)).
    rewrite sortedb_cons. destruct (insert_q x t) as [|z r] eqn:Ez; [reflexivity|].
    rewrite IH, andb_true_r.
    destruct t as [|w t']; cbn [insert_q] in Ez.
    + injection Ez as <- <-. exact E.
    + destruct (qleb x w); injection Ez as <- <-; [exact E|].
      rewrite sortedb_cons in H. apply andb_true_iff in H. tauto.
Qed.

Lemma sort_sorted l : sortedb (np_sort l) = true.
Proof. induction l as [|x t IH]; [reflexivity|]. cbn. apply insert_sorted. exact IH. Qed.

Lemma sort_id l : sortedb l = true -> np_sort l = l.
Proof.
  induction l as [|x t IH]; intros H; [reflexivity|].
  change (np_sort (x :: t)) with (insert_q x (np_sort t)).
  rewrite IH by (eapply sortedb_tail; exact H).
  destruct t as [|y t']; [reflexivity|].
  rewrite sortedb_cons in H. apply andb_true_iff in H. destruct H as [H _].
  cbn [insert_q]. rewrite H. reflexivity.
Qed.

(* np.unique(x, return_inverse=True): sorted distinct values, and for every
   entry of x its index in them *)

Definition np_unique (l : list Qc) : list Qc := dedup_adj qeqb (np_sort l).
Definition np_unique_inverse (l : list Qc) : list nat :=
  let m := np_unique l in map (fun x => index_of qeqb x m) l.

Lemma dedup_In x l : In x (dedup_adj qeqb l) <-> In x l.
Proof.
  induction l as [|a t IH]; [reflexivity|].
  destruct t as [|b t']; [reflexivity|].
  destruct (qeqb a b) eqn:E.
  - rewrite dedup_cons_eq by exact E. apply qeqb_iff in E. subst b. rewrite IH. cbn. tauto.
  - rewrite dedup_cons_neq by exact E. cbn [In]. rewrite IH. reflexivity.
Qed.

Lemma unique_In x l : In x (np_unique l) <-> In x l.
Proof.
  unfold np_unique. rewrite dedup_In. split; apply Permutation_in;
    [apply sort_perm|symmetry; apply sort_perm].
Qed.

Lemma dedup_hd a t : exists r, dedup_adj qeqb (a :: t) = a :: r.
Proof.
  revert a. induction t as [|b t' IH]; intros a; [eexists; reflexivity|].
  destruct (qeqb a b) eqn:E; [|rewrite dedup_cons_neq by exact E; eexists; reflexivity].
  rewrite dedup_cons_eq by exact E. apply qeqb_iff in E. subst b. apply IH.
Qed.

Lemma dedup_strict l : sortedb l = true -> adjb qltb (dedup_adj qeqb l) = true.
Proof.
  induction l as [|a t IH]; intros H; [reflexivity|].
  destruct t as [|b t']; [reflexivity|].
  pose proof (sortedb_tail _ _ H) as Ht. specialize (IH Ht).
  rewrite sortedb_cons in H. apply andb_true_iff in H. destruct H as [Hab _].
  destruct (qeqb a b) eqn:E; [rewrite dedup_cons_eq by exact E; exact IH|].
  rewrite dedup_cons_neq by exact E.
  destruct (dedup_hd b t') as [r Hr]. rewrite Hr in *.
  rewrite adjb_cons, IH, andb_true_r. apply qltb_iff.
  apply qleb_iff in Hab. apply qeqb_false_iff in E.
  destruct (Qcle_lt_or_eq _ _ Hab); [assumption|contradiction].
Qed.

Lemma unique_strict l : adjb qltb (np_unique l) = true.
Proof. apply dedup_strict, sort_sorted. Qed.

Lemma index_of_nth x l : In x l -> (index_of qeqb x l < length l)%nat /\ nth (index_of qeqb x l) l 0 = x.
Proof.
  induction l as [|y t IH]; intros H; [destruct H|].
  cbn [index_of]. destruct (qeqb x y) eqn:E.
  - apply qeqb_iff in E. subst y. cbn. split; [lia|reflexivity].
  - destruct H as [->|H]; [rewrite qeqb_refl in E; discriminate|].
    destruct (IH H) as [A B]. cbn. split; [lia|exact B].
Qed.

(* number of places where adjacent entries differ *)
Fixpoint njumps (l : list Qc) : nat :=
  match l with
  | a :: ((b :: _) as t) => (if qeqb a b then 0 else 1) + njumps t
  | _ => 0
  end.

Lemma njumps_cons a b t : njumps (a :: b :: t) = ((if qeqb a b then 0 else 1) + njumps (b :: t))%nat.
Proof. reflexivity. Qed.

Lemma dedup_length l : l <> [] -> length (dedup_adj qeqb l) = S (njumps l).
Proof.
  induction l as [|a t IH]; intros H; [congruence|].
  destruct t as [|b t']; [reflexivity|].
  rewrite njumps_cons. destruct (qeqb a b) eqn:E.
  - rewrite dedup_cons_eq by exact E. rewrite IH by discriminate. reflexivity.
  - rewrite dedup_cons_neq by exact E. cbn [length]. rewrite IH by discriminate. reflexivity.
Qed.

Lemma filter_seq_S (f : nat -> bool) s n :
  filter f (seq (S s) n) = map S (filter (fun i => f (S i)) (seq s n)).
Proof.
  revert s. induction n as [|n IH]; intros s; [reflexivity|].
  cbn [seq filter]. rewrite IH. destruct (f (S s)); reflexivity.
Qed.

Lemma njumps_filter l :
  length (filter (fun i => negb (qeqb (kn l i) (kn l (S i)))) (seq 0 (length l - 1))) = njumps l.
Proof.
  induction l as [|a t IH]; [reflexivity|].
  destruct t as [|b t']; [reflexivity|].
  replace (length (a :: b :: t') - 1)%nat with (S (length (b :: t') - 1)) by (cbn; lia).
  cbn [seq filter]. rewrite filter_seq_S, njumps_cons, <- IH.
  change (kn (a :: b :: t') 0) with a. change (kn (a :: b :: t') 1) with b.
  destruct (qeqb a b); cbn [negb length]; rewrite ?map_length; reflexivity.
Qed.

(* np.convolve(a, w) (mode 'full'), np.clip, np.diff, element-wise helpers *)

Definition qsum (l : list Qc) : Qc := fold_right Qcplus 0 l.

Definition conv_at (a w : list Qc) (k : nat) : Qc :=
  qsum (map (fun m => if (m <=? k)%nat then nth m w 0 * nth (k - m) a 0 else 0) (seq 0 (length w))).
Definition np_convolve (a w : list Qc) : list Qc :=
  map (conv_at a w) (seq 0 (length a + length w - 1)).

Definition qmax (x y : Qc) : Qc := if qleb x y then y else x.
Definition qmin (x y : Qc) : Qc := if qleb x y then x else y.
(* np.clip(x, lo, hi) = minimum(maximum(x, lo), hi) *)
Definition np_clip (lo hi x : Qc) : Qc := qmin (qmax x lo) hi.

Fixpoint zip_with (f : Qc -> Qc -> Qc) (x y : list Qc) : list Qc :=
  match x, y with
  | a :: x', b :: y' => f a b :: zip_with f x' y'
  | _, _ => []
  end.
(* np.diff(c) = c[1:] - c[:-1] *)
Definition np_diff (c : list Qc) : list Qc := zip_with Qcminus (tl c) (removelast c).
(* arr[i:-j] *)
Definition sl_range (i j : nat) (l : list Qc) : list Qc := firstn (length l - j - i) (skipn i l).

Definition qabs (x : Qc) : Qc := if qleb 0 x then x else - x.

(* np.arange(lo, hi) for Python ints *)
Definition np_arange_nat (lo hi : nat) : list nat := seq lo (hi - lo).
(* np.stack((x, y), axis=1): rows (x[i], y[i]) *)
Definition np_stack2 (x y : list nat) : list (nat * nat) := combine x y.
(* arr[idx] for an N x 2 integer index array *)
Definition np_take2 (arr : list nat) (idx : list (nat * nat)) : list (nat * nat) :=
  map (fun se => (nth (fst se) arr 0%nat, nth (snd se) arr 0%nat)) idx.
(* np.where(x != y)[0] for equally long 1-D integer arrays *)
Definition np_where_ne (x y : list nat) : list nat :=
  filter (fun i => negb (Nat.eqb (nth i x 0%nat) (nth i y 0%nat))) (seq 0 (Nat.min (length x) (length y))).
