(* Signs of sums, products, differences and quotients in Qc. *)
From Coq Require Import QArith Qcanon.
Local Open Scope Qc_scope.

Lemma Qcplus_nonneg (a b : Qc) : 0 <= a -> 0 <= b -> 0 <= a + b.
Proof. intros. replace 0 with (0 + 0) by ring. apply Qcplus_le_compat; assumption. Qed.

Lemma Qcmult_nonneg (a b : Qc) : 0 <= a -> 0 <= b -> 0 <= a * b.
Proof. intros Ha Hb. replace 0 with (0 * b) by ring. apply Qcmult_le_compat_r; assumption. Qed.

Lemma Qcmult_pos (a b : Qc) : 0 < a -> 0 < b -> 0 < a * b.
Proof. intros Ha Hb. replace 0 with (0 * b) by ring. apply Qcmult_lt_compat_r; assumption. Qed.

Lemma Qcsq_nonneg (a : Qc) : 0 <= a * a.
Proof.
  destruct (Qclt_le_dec a 0) as [L|L]; [|apply Qcmult_nonneg; exact L].
  replace (a * a) with (- a * - a) by ring.
  assert (0 <= - a) by (apply Qclt_le_weak, Qcopp_le_compat in L; exact L).
  apply Qcmult_nonneg; assumption.
Qed.

Lemma Qcsub_nonneg (a b : Qc) : b <= a -> 0 <= a - b.
Proof. apply Qcle_minus_iff. Qed.

Lemma Qcsub_pos (a b : Qc) : b < a -> 0 < a - b.
Proof. apply Qclt_minus_iff. Qed.

Lemma Qcinv_pos (a : Qc) : 0 < a -> 0 < / a.
Proof. intros H. unfold Qclt in *. cbn. rewrite Qred_correct. apply Qinv_lt_0_compat. exact H. Qed.

(* / 0 = 0 *)
Lemma Qcinv_nonneg (a : Qc) : 0 <= a -> 0 <= / a.
Proof.
  intros H. destruct (Qcle_lt_or_eq _ _ H) as [L| <-]; [|apply Qcle_refl].
  apply Qclt_le_weak, Qcinv_pos, L.
Qed.

Lemma Qcdiv_nonneg (a b : Qc) : 0 <= a -> 0 <= b -> 0 <= a / b.
Proof. intros Ha Hb. apply Qcmult_nonneg; [exact Ha|apply Qcinv_nonneg, Hb]. Qed.
